(** The option monad of the evaluators ([obind], [omap_list], folds of [obind]) and [orel], the
    relation "both fail or both succeed with related results" (with its converse [conv]); evaluation
    of [expr] without unfolding its fixpoints: the n-ary nodes and [ECall] evaluate their children with
    [omap_list] and then combine the values; evaluation is extensional in the children and in the
    environment and is either integer or boolean, never both; comparisons through the difference
    ([cmp_z_diff]); names that are not intrinsics; [expr_eqb] decides equality. *)
From Coq Require Import ZArith List Bool String Lia.
From LV Require Import Base.Expr Base.ListFacts.
Import ListNotations.
Open Scope Z_scope.

Lemma obind_ret {A} (o : option A) : obind o (fun x => Some x) = o.
Proof. now destruct o. Qed.

(** two computations that may fail are related: both fail, or both succeed with related results *)
Definition orel {A B} (R : A -> B -> Prop) (o1 : option A) (o2 : option B) : Prop :=
  match o1, o2 with
  | Some a, Some b => R a b
  | None, None => True
  | _, _ => False
  end.

Lemma orel_bind {A B A' B'} (R : A -> B -> Prop) (R' : A' -> B' -> Prop) o1 o2 f1 f2 :
  orel R o1 o2 -> (forall a b, R a b -> orel R' (f1 a) (f2 b)) -> orel R' (obind o1 f1) (obind o2 f2).
Proof. destruct o1, o2; cbn; intros H K; try contradiction; auto. Qed.

Lemma orel_impl {A B} (R R' : A -> B -> Prop) o1 o2 : orel R o1 o2 -> (forall a b, R a b -> R' a b) -> orel R' o1 o2.
Proof. destruct o1, o2; cbn; auto. Qed.

Lemma orel_eq {A} (o o' : option A) : orel eq o o' <-> o = o'.
Proof. destruct o, o'; cbn; split; intros H; first [congruence|contradiction|exact I]. Qed.

Definition conv {A B} (P : A -> B -> Prop) : B -> A -> Prop := fun b a => P a b.

Lemma orel_conv {A B} (P : A -> B -> Prop) a b : orel P a b -> orel (conv P) b a.
Proof. destruct a, b; exact (fun H => H). Qed.

Lemma omap_list_ext {A B} (f g : A -> option B) l : Forall (fun x => f x = g x) l -> omap_list f l = omap_list g l.
Proof. induction 1 as [|x r H _ IH]; cbn; [reflexivity|]. now rewrite H, IH. Qed.

Lemma omap_list_map {A B C} (f : B -> option C) (h : A -> B) l : omap_list f (map h l) = omap_list (fun x => f (h x)) l.
Proof. induction l as [|x l IH]; cbn; [reflexivity|]. now rewrite IH. Qed.

Lemma omap_list_ext_map {A A' B} (f : A -> option B) (g : A' -> option B) (h : A -> A') l :
  Forall (fun x => f x = g (h x)) l -> omap_list f l = omap_list g (map h l).
Proof. intros H. rewrite omap_list_map. now apply omap_list_ext. Qed.

Lemma omap_list_some {A B} (f : A -> option B) l vs :
  omap_list f l = Some vs <-> Forall2 (fun x v => f x = Some v) l vs.
Proof.
  revert vs. induction l as [|x r IH]; intros vs; cbn.
  - split; [intros [= <-]; constructor|now inversion 1].
  - split.
    + destruct (f x) as [y|] eqn:Ex; cbn; [|discriminate].
      destruct (omap_list f r) as [ys|]; cbn; [|discriminate].
      intros [= <-]. constructor; [exact Ex|now apply IH].
    + inversion 1 as [|? v ? vs' Hv Hr]; subst. apply IH in Hr. now rewrite Hv, Hr.
Qed.

Lemma omap_list_length {A B} (f : A -> option B) l vs : omap_list f l = Some vs -> List.length vs = List.length l.
Proof. intros H. apply omap_list_some in H. symmetry. exact (Forall2_length _ _ _ H). Qed.

Lemma omap_list_app {A B} (f : A -> option B) l1 l2 :
  omap_list f (l1 ++ l2) = obind (omap_list f l1) (fun a => obind (omap_list f l2) (fun b => Some (a ++ b))).
Proof.
  induction l1 as [|x l1 IH]; cbn; [now destruct (omap_list f l2)|].
  destruct (f x); cbn; [|reflexivity]. rewrite IH.
  destruct (omap_list f l1); cbn; [|reflexivity]. now destruct (omap_list f l2).
Qed.

(** the folds of [evalZ]/[evalB]/[evalQ] on n-ary nodes, under a change of evaluator and children *)
Lemma fold_obind_ext {A A' B} (f : A -> option B) (g : A' -> option B) (h : A -> A') (op : B -> B -> B) z l :
  Forall (fun c => f c = g (h c)) l ->
  fold_right (fun c acc => obind (f c) (fun v => obind acc (fun a => Some (op v a)))) z l =
  fold_right (fun c acc => obind (g c) (fun v => obind acc (fun a => Some (op v a)))) z (map h l).
Proof. induction 1 as [|c l H _ IH]; cbn; [reflexivity|]. now rewrite H, IH. Qed.

Lemma fold_obind_same {A B} (f g : A -> option B) (op : B -> B -> B) z l :
  Forall (fun c => f c = g c) l ->
  fold_right (fun c acc => obind (f c) (fun v => obind acc (fun a => Some (op v a)))) z l =
  fold_right (fun c acc => obind (g c) (fun v => obind acc (fun a => Some (op v a)))) z l.
Proof. intros H. rewrite (fold_obind_ext f g (fun c => c) op z l H). now rewrite map_id. Qed.

Lemma omap_list_map_ext {A A' B} (f : A' -> option B) (g : A -> option B) (h : A -> A') l :
  Forall (fun c => f (h c) = g c) l -> omap_list f (map h l) = omap_list g l.
Proof. intros H. rewrite omap_list_map. now apply omap_list_ext. Qed.

Lemma fold_obind_map_ext {A A' B} (f : A' -> option B) (g : A -> option B) (h : A -> A') (op : B -> B -> B) z l :
  Forall (fun c => f (h c) = g c) l ->
  fold_right (fun c acc => obind (f c) (fun v => obind acc (fun a => Some (op v a)))) z (map h l) =
  fold_right (fun c acc => obind (g c) (fun v => obind acc (fun a => Some (op v a)))) z l.
Proof. intros H. symmetry. apply fold_obind_ext. eapply Forall_impl; [|exact H]. intros c Hc. symmetry. exact Hc. Qed.

(** success is kept when every child that succeeds does so with the same value after the change *)
Lemma omap_list_mono {A A' B} (f : A' -> option B) (g : A -> option B) (h : A -> A') l :
  Forall (fun c => forall v, g c = Some v -> f (h c) = Some v) l ->
  forall vs, omap_list g l = Some vs -> omap_list f (map h l) = Some vs.
Proof.
  induction 1 as [|c l Hc _ IH]; intros vs H; cbn [map omap_list] in *; [exact H|].
  destruct (g c) as [vc|]; [|discriminate]. rewrite (Hc vc eq_refl). cbn [obind] in *.
  destruct (omap_list g l) as [a|]; [|discriminate]. rewrite (IH a eq_refl). exact H.
Qed.

Lemma fold_obind_mono {A A' B} (f : A' -> option B) (g : A -> option B) (h : A -> A') (op : B -> B -> B) z l :
  Forall (fun c => forall v, g c = Some v -> f (h c) = Some v) l -> forall r,
  fold_right (fun c acc => obind (g c) (fun v => obind acc (fun a => Some (op v a)))) z l = Some r ->
  fold_right (fun c acc => obind (f c) (fun v => obind acc (fun a => Some (op v a)))) z (map h l) = Some r.
Proof.
  induction 1 as [|c l Hc _ IH]; intros r H; cbn [map fold_right] in *; [exact H|].
  destruct (g c) as [vc|]; [|discriminate]. rewrite (Hc vc eq_refl). cbn [obind] in *.
  destruct (fold_right _ z l) as [a|]; [|discriminate]. rewrite (IH a eq_refl). exact H.
Qed.

Lemma omap_list_total {A B} (f : A -> option B) (p : A -> bool) l :
  Forall (fun c => p c = true -> exists v, f c = Some v) l -> forallb p l = true -> exists vs, omap_list f l = Some vs.
Proof.
  induction 1 as [|c r Hc _ IH]; cbn; [eexists; reflexivity|].
  intros T. apply andb_true_iff in T. destruct T as [T1 T2].
  destruct (Hc T1) as [v Ev]. destruct (IH T2) as [vs Evs]. rewrite Ev, Evs. cbn. eexists; reflexivity.
Qed.

(** the same fold: evaluate all children first, then combine *)
Lemma fold_obind_omap {A B} (f : A -> option B) (op : B -> B -> B) z l :
  fold_right (fun c acc => obind (f c) (fun v => obind acc (fun a => Some (op v a)))) (Some z) l =
  obind (omap_list f l) (fun vs => Some (fold_right op z vs)).
Proof.
  induction l as [|c l IH]; cbn; [reflexivity|]. rewrite IH.
  destruct (f c); cbn; [|reflexivity]. now destruct (omap_list f l).
Qed.

Lemma evalZ_call rho f args :
  evalZ rho (ECall f args) =
  obind (omap_list (evalZ rho) args) (fun vs => match intrinsic f vs with Some r => r | None => ev_fun rho f vs end).
Proof.
  cbn [evalZ]. f_equal. induction args as [|a l IH]; [reflexivity|]. cbn [omap_list]. now rewrite <- IH.
Qed.

Lemma evalZ_sum_cons rho p c cs :
  evalZ rho (ESum p (c :: cs)) = obind (evalZ rho c) (fun v => obind (evalZ rho (ESum p cs)) (fun a => Some (v + a))).
Proof. reflexivity. Qed.

Lemma evalZ_prod_cons rho p c cs :
  evalZ rho (EProd p (c :: cs)) = obind (evalZ rho c) (fun v => obind (evalZ rho (EProd p cs)) (fun a => Some (v * a))).
Proof. reflexivity. Qed.

Lemma evalZ_sum rho p cs :
  evalZ rho (ESum p cs) = obind (omap_list (evalZ rho) cs) (fun vs => Some (fold_right Z.add 0 vs)).
Proof. exact (fold_obind_omap (evalZ rho) Z.add 0 cs). Qed.

Lemma evalZ_prod rho p cs :
  evalZ rho (EProd p cs) = obind (omap_list (evalZ rho) cs) (fun vs => Some (fold_right Z.mul 1 vs)).
Proof. exact (fold_obind_omap (evalZ rho) Z.mul 1 cs). Qed.

Lemma evalB_and_cons rho c cs :
  evalB rho (EAnd (c :: cs)) = obind (evalB rho c) (fun v => obind (evalB rho (EAnd cs)) (fun a => Some (v && a))).
Proof. reflexivity. Qed.

Lemma evalB_or_cons rho c cs :
  evalB rho (EOr (c :: cs)) = obind (evalB rho c) (fun v => obind (evalB rho (EOr cs)) (fun a => Some (v || a))).
Proof. reflexivity. Qed.

Lemma evalB_and rho cs :
  evalB rho (EAnd cs) = obind (omap_list (evalB rho) cs) (fun vs => Some (fold_right andb true vs)).
Proof. exact (fold_obind_omap (evalB rho) andb true cs). Qed.

Lemma evalB_or rho cs :
  evalB rho (EOr cs) = obind (omap_list (evalB rho) cs) (fun vs => Some (fold_right orb false vs)).
Proof. exact (fold_obind_omap (evalB rho) orb false cs). Qed.

(** a comparison only looks at the sign of the difference *)
Lemma cmp_z_diff op a b : cmp_z op a b = cmp_z op (a - b) 0.
Proof.
  destruct op; cbn [cmp_z].
  - destruct (Z.eqb_spec a b), (Z.eqb_spec (a - b) 0); (reflexivity || lia).
  - destruct (Z.eqb_spec a b), (Z.eqb_spec (a - b) 0); (reflexivity || lia).
  - destruct (Z.ltb_spec a b), (Z.ltb_spec (a - b) 0); (reflexivity || lia).
  - destruct (Z.leb_spec a b), (Z.leb_spec (a - b) 0); (reflexivity || lia).
  - destruct (Z.ltb_spec b a), (Z.ltb_spec 0 (a - b)); (reflexivity || lia).
  - destruct (Z.leb_spec b a), (Z.leb_spec 0 (a - b)); (reflexivity || lia).
Qed.

Lemma is_py_m1_val rho c : is_py_m1 c = true -> evalZ rho c = Some (-1).
Proof. destruct c; cbn; try discriminate. intros E. apply Z.eqb_eq in E. now subst. Qed.

(** [intrinsic] knows five names; a function or array of any other name is looked up in the environment *)
Lemma intrinsic_none f vs :
  String.eqb f "mod" || String.eqb f "modulo" || String.eqb f "abs" || String.eqb f "min" || String.eqb f "max" = false ->
  intrinsic f vs = None.
Proof.
  intros H. apply orb_false_elim in H. destruct H as [H E5]. apply orb_false_elim in H. destruct H as [H E4].
  apply orb_false_elim in H. destruct H as [H E3]. apply orb_false_elim in H. destruct H as [E1 E2].
  unfold intrinsic. now rewrite E1, E2, E3, E4, E5.
Qed.

Lemma intrinsic_some f vs :
  String.eqb f "mod" || String.eqb f "modulo" || String.eqb f "abs" || String.eqb f "min" || String.eqb f "max" = true ->
  exists r, intrinsic f vs = Some r.
Proof.
  unfold intrinsic. intros H.
  destruct (String.eqb f "mod"); [destruct vs as [|a [|b [|]]]; eauto|].
  destruct (String.eqb f "modulo"); [destruct vs as [|a [|b [|]]]; eauto|].
  destruct (String.eqb f "abs"); [destruct vs as [|a [|]]; eauto|].
  destruct (String.eqb f "min"); [destruct vs; eauto|].
  destruct (String.eqb f "max"); [destruct vs; eauto|discriminate H].
Qed.

Lemma intrinsic_not_In f vs : ~ In f ["mod"; "modulo"; "abs"; "min"; "max"]%string -> intrinsic f vs = None.
Proof.
  intros H. apply intrinsic_none. apply existsb_eqb_false in H. cbn [existsb] in H.
  rewrite orb_false_r in H. now rewrite <- !orb_assoc.
Qed.

(** an expression has an integer or a logical value, never both *)
Lemma evalZ_some_evalB_none rho e v : evalZ rho e = Some v -> evalB rho e = None.
Proof. destruct e; cbn; try discriminate; reflexivity. Qed.

Lemma evalB_some_evalZ_none rho e b : evalB rho e = Some b -> evalZ rho e = None.
Proof. destruct e; cbn; try discriminate; reflexivity. Qed.

Lemma evalZ_ext rho rho' :
  (forall x, ev_var rho x = ev_var rho' x) -> (forall f vs, ev_fun rho f vs = ev_fun rho' f vs) ->
  forall e, evalZ rho e = evalZ rho' e.
Proof.
  intros Hv Hf. induction e as [| | | |p cs IH|p cs IH|p n d IHn IHd|p b x IHb IHx| | | | |f args IH] using expr_ind';
    try reflexivity.
  - cbn. now rewrite Hv.
  - cbn [evalZ]. rewrite (fold_obind_ext _ (evalZ rho') (fun c => c) _ _ cs IH). now rewrite map_id.
  - cbn [evalZ]. rewrite (fold_obind_ext _ (evalZ rho') (fun c => c) _ _ cs IH). now rewrite map_id.
  - cbn [evalZ]. now rewrite IHn, IHd.
  - cbn [evalZ]. now rewrite IHb, IHx.
  - rewrite !evalZ_call, (omap_list_ext _ _ args IH).
    destruct (omap_list (evalZ rho') args); cbn; [|reflexivity]. now rewrite Hf.
Qed.

Lemma evalB_ext rho rho' :
  (forall x, ev_var rho x = ev_var rho' x) -> (forall f vs, ev_fun rho f vs = ev_fun rho' f vs) ->
  forall e, evalB rho e = evalB rho' e.
Proof.
  intros Hv Hf. pose proof (evalZ_ext rho rho' Hv Hf) as HZ.
  induction e as [| | | | | | | |op l r _ _|cs IH|cs IH|e IH|] using expr_ind'; try reflexivity.
  - cbn [evalB]. now rewrite !HZ.
  - cbn [evalB]. rewrite (fold_obind_ext _ (evalB rho') (fun c => c) _ _ cs IH). now rewrite map_id.
  - cbn [evalB]. rewrite (fold_obind_ext _ (evalB rho') (fun c => c) _ _ cs IH). now rewrite map_id.
  - cbn [evalB]. now rewrite IH.
Qed.

(** the list comparison inside [expr_eqb] is [list_eqb expr_eqb], by conversion *)
Lemma expr_eqb_eq : forall a b, expr_eqb a b = true -> a = b.
Proof.
  induction a as [v|v|x|b|p cs IH|p cs IH|p n d IHn IHd|p n d IHn IHd|op l r IHl IHr|cs IH|cs IH|e IH|f cs IH]
    using expr_ind'; intros [] E; try discriminate E.
  - apply Z.eqb_eq in E. now subst.
  - apply Z.eqb_eq in E. now subst.
  - apply String.eqb_eq in E. now subst.
  - apply Bool.eqb_prop in E. now subst.
  - change (Bool.eqb p paren && list_eqb expr_eqb cs cs0 = true) in E.
    apply andb_prop in E. destruct E as [A B]. apply Bool.eqb_prop in A. apply (list_eqb_eq _ _ IH) in B. now subst.
  - change (Bool.eqb p paren && list_eqb expr_eqb cs cs0 = true) in E.
    apply andb_prop in E. destruct E as [A B]. apply Bool.eqb_prop in A. apply (list_eqb_eq _ _ IH) in B. now subst.
  - cbn in E. apply andb_prop in E. destruct E as [E C]. apply andb_prop in E. destruct E as [A B].
    apply Bool.eqb_prop in A. apply IHn in B. apply IHd in C. now subst.
  - cbn in E. apply andb_prop in E. destruct E as [E C]. apply andb_prop in E. destruct E as [A B].
    apply Bool.eqb_prop in A. apply IHn in B. apply IHd in C. now subst.
  - cbn in E. apply andb_prop in E. destruct E as [E C]. apply andb_prop in E. destruct E as [A B].
    apply IHl in B. apply IHr in C. subst. now destruct op, op0.
  - change (list_eqb expr_eqb cs cs0 = true) in E. apply (list_eqb_eq _ _ IH) in E. now subst.
  - change (list_eqb expr_eqb cs cs0 = true) in E. apply (list_eqb_eq _ _ IH) in E. now subst.
  - cbn in E. apply IH in E. now subst.
  - change (String.eqb f f0 && list_eqb expr_eqb cs args = true) in E.
    apply andb_prop in E. destruct E as [A B]. apply String.eqb_eq in A. apply (list_eqb_eq _ _ IH) in B. now subst.
Qed.

Lemma expr_eqb_refl : forall e, expr_eqb e e = true.
Proof.
  induction e as [v|v|x|b|p cs IH|p cs IH|p n d IHn IHd|p n d IHn IHd|op l r IHl IHr|cs IH|cs IH|e IH|f cs IH]
    using expr_ind'; cbn [expr_eqb].
  - apply Z.eqb_refl.
  - apply Z.eqb_refl.
  - apply String.eqb_refl.
  - apply Bool.eqb_reflx.
  - change (Bool.eqb p p && list_eqb expr_eqb cs cs = true). now rewrite Bool.eqb_reflx, (list_eqb_refl _ _ IH).
  - change (Bool.eqb p p && list_eqb expr_eqb cs cs = true). now rewrite Bool.eqb_reflx, (list_eqb_refl _ _ IH).
  - now rewrite Bool.eqb_reflx, IHn, IHd.
  - now rewrite Bool.eqb_reflx, IHn, IHd.
  - rewrite IHl, IHr. now destruct op.
  - exact (list_eqb_refl _ _ IH).
  - exact (list_eqb_refl _ _ IH).
  - exact IH.
  - change (String.eqb f f && list_eqb expr_eqb cs cs = true). now rewrite String.eqb_refl, (list_eqb_refl _ _ IH).
Qed.

Lemma expr_eqb_iff a b : expr_eqb a b = true <-> a = b.
Proof. split; [apply expr_eqb_eq|intros <-; apply expr_eqb_refl]. Qed.
