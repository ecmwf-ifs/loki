(** List and option facts that Coq 8.16's [List] lacks: [forallb]/[existsb]/[Forall] bridges, [filter]
    and [flat_map] algebra, [Forall2], [nth_error] with [combine]/[skipn], invariants of [fold_left],
    [NoDup] through [map]/[app]/[filter], membership tests over strings ([existsb (String.eqb x)],
    [nodupb]), and a generic [list_eqb].  The models' own [nodupb] is convertible with the one here;
    [list_eqb f] is convertible with the monomorphic list equalities ([list_z_eqb], [list_expr_eqb],
    [stmts_eqb]) but not with a model's [list_eqb] that takes [f] as an argument of its fixpoint. *)
From Coq Require Import String List Bool Arith.
Import ListNotations.

Lemma forallb_Forall {A} (p : A -> bool) l : forallb p l = true <-> Forall (fun x => p x = true) l.
Proof. rewrite forallb_forall, Forall_forall. reflexivity. Qed.

Lemma Forall_impl_forallb {A} (p : A -> bool) (Q : A -> Prop) l :
  Forall (fun x => p x = true -> Q x) l -> forallb p l = true -> Forall Q l.
Proof.
  rewrite forallb_Forall. intros H Hp. rewrite Forall_forall in *. intros x Hx. exact (H x Hx (Hp x Hx)).
Qed.

Lemma Forall_mp {A} (P Q : A -> Prop) l : Forall (fun x => P x -> Q x) l -> Forall P l -> Forall Q l.
Proof. induction 1; inversion 1; constructor; auto. Qed.

Lemma Forall_all {A} (P : A -> Prop) : (forall x, P x) -> forall l, Forall P l.
Proof. intros H l. apply Forall_forall. intros x _. apply H. Qed.

Lemma forallb_ext_Forall {A} (f g : A -> bool) l : Forall (fun x => f x = g x) l -> forallb f l = forallb g l.
Proof. induction 1 as [|x l H _ IH]; cbn; [reflexivity|]. now rewrite H, IH. Qed.

Lemma forallb_ext {A} (f g : A -> bool) l : (forall x, f x = g x) -> forallb f l = forallb g l.
Proof. intros H. apply forallb_ext_Forall, Forall_all, H. Qed.

Lemma existsb_ext {A} (f g : A -> bool) l : (forall x, f x = g x) -> existsb f l = existsb g l.
Proof. intros H. induction l as [|x l IH]; cbn; [reflexivity|]. now rewrite H, IH. Qed.

Lemma existsb_map {A B} (p : B -> bool) (f : A -> B) l : existsb p (map f l) = existsb (fun x => p (f x)) l.
Proof. induction l as [|x l IH]; cbn; [reflexivity|]. now rewrite IH. Qed.

Lemma forallb_firstn {A} (f : A -> bool) l k : forallb f l = true -> forallb f (firstn k l) = true.
Proof.
  revert k. induction l as [|x r IH]; intros [|k]; cbn; auto.
  rewrite !andb_true_iff. intros [H1 H2]. auto.
Qed.

Lemma forallb_map {A B} (p : B -> bool) (f : A -> B) l : forallb p (map f l) = forallb (fun x => p (f x)) l.
Proof. induction l as [|x l IH]; cbn; [reflexivity|]. now rewrite IH. Qed.

Lemma forallb_flat_map {A B} (p : B -> bool) (g : A -> list B) l :
  forallb p (flat_map g l) = forallb (fun a => forallb p (g a)) l.
Proof. induction l as [|a l IH]; cbn; [reflexivity|]. now rewrite forallb_app, IH. Qed.

Lemma forallb_nth {A} (p : A -> bool) l k x : forallb p l = true -> nth_error l k = Some x -> p x = true.
Proof. intros H E. rewrite forallb_forall in H. exact (H x (nth_error_In l k E)). Qed.

Lemma filter_all {A} (p : A -> bool) l : (forall x, In x l -> p x = true) -> filter p l = l.
Proof.
  induction l as [|x r IH]; intros H; cbn; [reflexivity|].
  rewrite (H x (or_introl eq_refl)), IH; [reflexivity|]. intros y Hy. apply H. now right.
Qed.

Lemma forallb_map_impl {A B} (p : A -> bool) (q : B -> bool) (f : A -> B) l :
  Forall (fun x => p x = true -> q (f x) = true) l -> forallb p l = true -> forallb q (map f l) = true.
Proof. intros H Hp. rewrite forallb_map. apply forallb_Forall, (Forall_impl_forallb _ _ _ H Hp). Qed.

Lemma filter_flat_map {A B} (p : B -> bool) (f : A -> list B) l :
  filter p (flat_map f l) = flat_map (fun x => filter p (f x)) l.
Proof. induction l as [|a l IH]; cbn; [reflexivity|]. now rewrite filter_app, IH. Qed.

Lemma filter_map_comm {A B} (g : A -> B) (q : B -> bool) (q' : A -> bool) l :
  (forall x, q (g x) = q' x) -> filter q (map g l) = map g (filter q' l).
Proof. intros H. induction l as [|x l IH]; cbn; [reflexivity|]. rewrite H. destruct (q' x); cbn; now rewrite IH. Qed.

Lemma fold_right_max_le l n : fold_right Nat.max 0 l <= n <-> Forall (fun k => k <= n) l.
Proof.
  induction l as [|k l IH]; cbn [fold_right]; [split; [constructor|intros _; apply Nat.le_0_l]|].
  now rewrite Nat.max_lub_iff, IH, Forall_cons_iff.
Qed.

Lemma map_id_Forall {A} (f : A -> A) l : Forall (fun x => f x = x) l -> map f l = l.
Proof. induction 1 as [|x l Hx _ IH]; cbn; [reflexivity|]. now rewrite Hx, IH. Qed.

Lemma flat_map_map {A B C} (f : B -> list C) (g : A -> B) l : flat_map f (map g l) = flat_map (fun x => f (g x)) l.
Proof. induction l as [|x l IH]; cbn; [reflexivity|]. now rewrite IH. Qed.

Lemma map_flat_map {A B C} (f : B -> C) (g : A -> list B) l : map f (flat_map g l) = flat_map (fun x => map f (g x)) l.
Proof. induction l as [|x l IH]; cbn; [reflexivity|]. now rewrite map_app, IH. Qed.

Lemma flat_map_flat_map {A B C} (f : B -> list C) (g : A -> list B) l :
  flat_map f (flat_map g l) = flat_map (fun x => flat_map f (g x)) l.
Proof. induction l as [|x l IH]; cbn; [reflexivity|]. now rewrite flat_map_app, IH. Qed.

Lemma concat_flat_map {A B} (f : A -> list (list B)) l : concat (flat_map f l) = flat_map (fun x => concat (f x)) l.
Proof. induction l as [|x l IH]; cbn; [reflexivity|]. now rewrite concat_app, IH. Qed.

Lemma flat_map_ext_Forall {A B} (f g : A -> list B) l : Forall (fun x => f x = g x) l -> flat_map f l = flat_map g l.
Proof. induction 1 as [|x l Hx _ IH]; cbn; [reflexivity|]. now rewrite Hx, IH. Qed.

Lemma flat_map_id {A} (f : A -> list A) l : (forall x, In x l -> f x = [x]) -> flat_map f l = l.
Proof.
  induction l as [|x l IH]; intros H; cbn; [reflexivity|].
  rewrite (H x (or_introl eq_refl)), IH; [reflexivity|]. intros y Hy. apply H. now right.
Qed.

Lemma flat_map_nil {A B} (f : A -> list B) l : Forall (fun x => f x = []) l -> flat_map f l = [].
Proof. induction 1 as [|a l Ha _ IH]; cbn; [reflexivity|]. now rewrite Ha, IH. Qed.

Lemma in_flat_map_app {A B} (f g : A -> list B) l y :
  In y (flat_map (fun a => f a ++ g a) l) <-> In y (flat_map f l) \/ In y (flat_map g l).
Proof.
  rewrite !in_flat_map. split.
  - intros [a [Ha Hy]]. apply in_app_or in Hy. destruct Hy; [left|right]; eauto.
  - intros [[a [Ha Hy]]|[a [Ha Hy]]]; exists a; (split; [exact Ha|apply in_or_app; auto]).
Qed.

Lemma in_flat_map_const {A B} (c : list B) (l : list A) y : In y (flat_map (fun _ => c) l) <-> l <> [] /\ In y c.
Proof.
  induction l as [|a l IH]; cbn [flat_map]; [cbn; tauto|]. rewrite in_app_iff, IH.
  split; [intros [H|[_ H]]|intros [_ H]; now left]; (split; [discriminate|exact H]).
Qed.

Lemma in_flat_map_snoc {A B} (f : A -> list B) l v x : In x (flat_map f (l ++ [v])) -> In x (flat_map f l) \/ In x (f v).
Proof. rewrite flat_map_app. cbn [flat_map]. rewrite app_nil_r. apply in_app_or. Qed.

Lemma firstn_len_app {A} (u v : list A) : firstn (length u) (u ++ v) = u.
Proof. rewrite firstn_app, Nat.sub_diag, firstn_all. cbn. apply app_nil_r. Qed.

Lemma skipn_len_app {A} (u v : list A) : skipn (length u) (u ++ v) = v.
Proof. rewrite skipn_app, Nat.sub_diag, skipn_all. reflexivity. Qed.

Lemma last_cons {A} (l : list A) : forall a d, last (a :: l) d = last l a.
Proof.
  induction l as [|b l IH]; intros a d; [reflexivity|].
  change (last (a :: b :: l) d) with (last (b :: l) d). now rewrite !IH.
Qed.

Lemma Forall2_length {A B} (R : A -> B -> Prop) l l' : Forall2 R l l' -> length l = length l'.
Proof. induction 1; cbn; congruence. Qed.

Lemma Forall2_impl {A B} (P Q : A -> B -> Prop) l l' : (forall a b, P a b -> Q a b) -> Forall2 P l l' -> Forall2 Q l l'.
Proof. intros H. induction 1; constructor; auto. Qed.

Lemma Forall2_flat_map2 {A B C D} (R : A -> B -> Prop) (S : C -> D -> Prop) f g l l' :
  (forall a b, R a b -> Forall2 S (f a) (g b)) -> Forall2 R l l' -> Forall2 S (flat_map f l) (flat_map g l').
Proof. intros H. induction 1; cbn; [constructor|]. apply Forall2_app; auto. Qed.

Lemma Forall2_flat_map {A B C} (R : B -> C -> Prop) (f : A -> list B) (g : A -> list C) l :
  Forall (fun x => Forall2 R (f x) (g x)) l -> Forall2 R (flat_map f l) (flat_map g l).
Proof. induction 1; cbn; [constructor|]. now apply Forall2_app. Qed.

Lemma Forall2_maps {A B C} (R : B -> C -> Prop) (f : A -> B) (g : A -> C) l :
  Forall (fun x => R (f x) (g x)) l -> Forall2 R (map f l) (map g l).
Proof. induction 1; cbn; constructor; auto. Qed.

Lemma Forall2_maps2 {A A' B B'} (R : A -> A' -> Prop) (S : B -> B' -> Prop) (f : A -> B) (g : A' -> B') l l' :
  Forall (fun x => forall y, R x y -> S (f x) (g y)) l -> Forall2 R l l' -> Forall2 S (map f l) (map g l').
Proof. intros HF H2. induction H2; inversion HF; subst; cbn; constructor; auto. Qed.

Lemma Forall2_forallb {A B} (R : A -> B -> Prop) (p : A -> bool) (q : B -> bool) l l' :
  Forall2 R l l' -> Forall (fun x => forall y, R x y -> p x = true -> q y = true) l ->
  forallb p l = true -> forallb q l' = true.
Proof.
  intros H2 HF. induction H2 as [|a a' r r' Ha Hr IH]; [reflexivity|]. inversion HF; subst.
  cbn [forallb]. rewrite !andb_true_iff. intros [W1 W2]. eauto.
Qed.

Lemma Forall2_exists {A B} (R : A -> B -> Prop) (ok : A -> bool) l :
  Forall (fun x => ok x = true -> exists y, R x y) l -> forallb ok l = true -> exists l', Forall2 R l l'.
Proof.
  induction 1 as [|x r Hx _ IH]; intros E; [exists []; constructor|].
  cbn in E. apply andb_true_iff in E. destruct E as [E1 E2].
  destruct (Hx E1) as [y Hy]. destruct (IH E2) as [r' Hr]. exists (y :: r'). now constructor.
Qed.

Lemma nth_combine {A B} : forall (a : list A) (b : list B) k x y,
  nth_error a k = Some x -> nth_error b k = Some y -> nth_error (combine a b) k = Some (x, y).
Proof.
  induction a as [|a0 a IH]; intros [|b0 b] [|k] x y; cbn; try discriminate; [|apply IH].
  now intros [= ->] [= ->].
Qed.

Lemma In_combine_nth {A B} : forall (a : list A) (b : list B) x y,
  In (x, y) (combine a b) -> exists k, nth_error a k = Some x /\ nth_error b k = Some y.
Proof.
  induction a as [|a0 a IH]; intros [|b0 b] x y; cbn; try contradiction.
  intros [[= -> ->]|H]; [now exists 0|]. apply IH in H. destruct H as [k H]. now exists (S k).
Qed.

Lemma forallb_combine_nth {A B} (f : A * B -> bool) a b k x y :
  forallb f (combine a b) = true -> nth_error a k = Some x -> nth_error b k = Some y -> f (x, y) = true.
Proof. intros H Ea Eb. exact (forallb_nth f _ k _ H (nth_combine a b k x y Ea Eb)). Qed.

Lemma nth_error_len {A B} (a : list A) (b : list B) k x :
  length a = length b -> nth_error a k = Some x -> exists y, nth_error b k = Some y.
Proof.
  intros L E. assert (k < length b) as Hk by (rewrite <- L; apply nth_error_Some; congruence).
  apply nth_error_Some in Hk. destruct (nth_error b k); [eauto|congruence].
Qed.

Lemma nth_error_skipn {A} (l : list A) : forall n k, nth_error (skipn n l) k = nth_error l (n + k).
Proof. induction l as [|x r IH]; intros [|n] k; cbn; try reflexivity; [now destruct k|apply IH]. Qed.

Lemma nth_error_lt {A} (l : list A) i x : nth_error l i = Some x -> i < length l.
Proof. intros E. apply nth_error_Some. congruence. Qed.

Lemma option_map_some {A B} (f : A -> B) o y : option_map f o = Some y -> exists x, o = Some x /\ y = f x.
Proof. destruct o as [x|]; cbn; intros E; [injection E as <-; eauto|discriminate]. Qed.

(** [exists a, o = Some a /\ Q a] over a closed [o]: the match is evaluated once and leaves [Q a],
    where [eexists; split] would evaluate [o] under an existential variable *)
Lemma some_witness {A} (o : option A) (Q : A -> Prop) :
  match o with Some a => Q a | None => False end -> exists a, o = Some a /\ Q a.
Proof. destruct o as [a|]; [intros H; exists a; auto|contradiction]. Qed.

Lemma some_witness2 {A B} (o : option A) (f : A -> option B) (Q : A -> B -> Prop) :
  match o with Some a => match f a with Some b => Q a b | None => False end | None => False end ->
  exists a b, o = Some a /\ f a = Some b /\ Q a b.
Proof. intros H. apply some_witness in H as (a & Ea & H). apply some_witness in H as (b & Eb & H). eauto. Qed.

Lemma fold_left_inv {A B} (P : A -> Prop) (F : A -> B -> A) :
  (forall a b, P a -> P (F a b)) -> forall l a, P a -> P (fold_left F l a).
Proof. intros HF. induction l as [|b r IH]; cbn; auto. Qed.

Lemma fold_left_covers {A B} (P : A -> Prop) (F : A -> B -> A) x :
  (forall a b, P a -> P (F a b)) -> (forall a, P (F a x)) -> forall l a, In x l -> P (fold_left F l a).
Proof.
  intros Hm Hx. induction l as [|y r IH]; intros a Hl; [destruct Hl|].
  destruct Hl as [<-|Hl]; cbn; [apply fold_left_inv; auto|now apply IH].
Qed.

Lemma fold_left_fix {A B} (F : A -> B -> A) a : forall l, (forall x, In x l -> F a x = a) -> fold_left F l a = a.
Proof.
  induction l as [|y r IH]; intros H; cbn; [reflexivity|].
  rewrite (H y (or_introl eq_refl)). apply IH. intros x Hx. apply H. now right.
Qed.

Lemma NoDup_app_inv {A} (a b : list A) : NoDup (a ++ b) -> NoDup a /\ NoDup b /\ forall x, In x a -> ~ In x b.
Proof.
  induction a as [|y a IH]; cbn; intros H; [repeat split; [constructor|exact H|contradiction]|].
  apply NoDup_cons_iff in H. destruct H as [Hy H]. destruct (IH H) as [Ha [Hb Hd]].
  rewrite in_app_iff in Hy. repeat split; [constructor; tauto|exact Hb|].
  intros x [<-|Hx]; [tauto|now apply Hd].
Qed.

Lemma NoDup_map_inj {A B} (f : A -> B) l x y : NoDup (map f l) -> In x l -> In y l -> f x = f y -> x = y.
Proof.
  induction l as [|a l IH]; cbn; [contradiction|]. intros H Hx Hy E.
  apply NoDup_cons_iff in H. destruct H as [Ha H].
  destruct Hx as [<-|Hx], Hy as [<-|Hy]; [reflexivity| | |now apply IH].
  - exfalso. apply Ha. rewrite E. now apply in_map.
  - exfalso. apply Ha. rewrite <- E. now apply in_map.
Qed.

Lemma NoDup_map_filter {A B} (f : A -> B) (p : A -> bool) l : NoDup (map f l) -> NoDup (map f (filter p l)).
Proof.
  induction l as [|a l IH]; cbn; intros H; [constructor|].
  apply NoDup_cons_iff in H. destruct H as [Ha H]. destruct (p a); cbn; [|now apply IH].
  constructor; [|now apply IH]. intros Hin. apply Ha.
  apply in_map_iff in Hin. destruct Hin as [z [Ez Hz]]. apply filter_In in Hz. rewrite <- Ez. apply in_map, Hz.
Qed.

(** Most models test membership in a list of names by [existsb (String.eqb x) l], and inclusion,
    disjointness and absence of duplicates through it; stated over that term the facts apply to
    the models' [mem], [subset], [disjointb] and [nodupb] by conversion. *)

Lemma existsb_eqb_In x l : existsb (String.eqb x) l = true <-> In x l.
Proof.
  rewrite existsb_exists. split.
  - intros [y [Hy E]]. apply String.eqb_eq in E. now subst.
  - intros H. exists x. split; [exact H|apply String.eqb_refl].
Qed.

Lemma existsb_eqb_false x l : existsb (String.eqb x) l = false <-> ~ In x l.
Proof. rewrite <- existsb_eqb_In. destruct (existsb (String.eqb x) l); split; congruence. Qed.

Lemma disjoint_existsb_eqb a b :
  forallb (fun x => negb (existsb (String.eqb x) b)) a = true <-> forall x, In x a -> ~ In x b.
Proof.
  rewrite forallb_forall. split; intros H x Hx.
  - apply existsb_eqb_false, negb_true_iff, H, Hx.
  - apply negb_true_iff, existsb_eqb_false, H, Hx.
Qed.

Fixpoint nodupb (l : list string) : bool :=
  match l with [] => true | x :: r => negb (existsb (String.eqb x) r) && nodupb r end.

Lemma nodupb_NoDup l : nodupb l = true <-> NoDup l.
Proof.
  induction l as [|x r IH]; cbn [nodupb]; [split; [constructor|reflexivity]|].
  now rewrite andb_true_iff, negb_true_iff, existsb_eqb_false, IH, NoDup_cons_iff.
Qed.

(** [f] is a section variable, not an argument of the fixpoint: that makes [list_eqb f] convertible
    with the two-argument fixpoints [list_z_eqb], [list_expr_eqb], [stmts_eqb] and with the list
    comparisons nested inside [expr_eqb] and [stmt_eqb]. *)
Section ListEqb.
  Context {A : Type} (f : A -> A -> bool).

  Fixpoint list_eqb (a b : list A) : bool :=
    match a, b with
    | [], [] => true
    | x :: r, y :: q => f x y && list_eqb r q
    | _, _ => false
    end.

  (** [Forall], not [forall]: the children of a nested inductive only come with an induction hypothesis *)
  Lemma list_eqb_eq l :
    Forall (fun x => forall y, f x y = true -> x = y) l -> forall m, list_eqb l m = true -> l = m.
  Proof.
    induction 1 as [|x r Hx _ IH]; intros [|y q] H; try discriminate H; [reflexivity|].
    cbn in H. apply andb_prop in H. destruct H as [H1 H2]. f_equal; [exact (Hx y H1)|exact (IH q H2)].
  Qed.

  Lemma list_eqb_refl l : Forall (fun x => f x x = true) l -> list_eqb l l = true.
  Proof. induction 1 as [|x r Hx _ IH]; cbn; [reflexivity|]. now rewrite Hx, IH. Qed.

  Lemma list_eqb_iff : (forall x y, f x y = true <-> x = y) -> forall l m, list_eqb l m = true <-> l = m.
  Proof.
    intros H l m. split.
    - apply list_eqb_eq. apply Forall_forall. intros x _ y. apply H.
    - intros <-. apply list_eqb_refl. apply Forall_forall. intros x _. now apply H.
  Qed.
End ListEqb.
