(** Forward simulation between two MiniF programs, statement by statement.

    [sim_at P Q f ss ss']: a run of [ss] under the table [psA] with fuel [f], started in a store [P]-related
    to [s'], is matched by a run of [ss'] under [psB] from [s'], and the final stores are [Q]-related.
    One lemma per statement form reduces a statement to its sub-bodies at the same fuel, so a simulation
    proof is an induction on the fuel whose cases only say why expressions evaluate alike and why updates
    keep the relation.  [conv P] ([Base.ExprFacts]) is the relation for the converse direction.

    Second part, [lock_at P Q f ss ss']: both programs are run with the same fuel [f] and both fail or both end in
    [Q]-related stores.  [sim_at] goes forward only and lets the second program take any fuel (it may have more or
    fewer statements); [lock_at] is for programs of the same shape and gives both directions at once. *)
From Coq Require Import ZArith List Bool String.
From LV Require Import Base.Expr Base.MiniF Base.ExprFacts Base.MiniFFacts.
Import ListNotations.
Open Scope Z_scope.

Section Lockstep.
  Variables psA psB : procs.
  Implicit Types P M Q : store -> store -> Prop.

  Definition sim_at P Q (f : nat) (ss ss' : list stmt) : Prop :=
    forall s s' s1, P s s' -> exec psA f ss s = Some s1 -> exists s1', runs psB ss' s' s1' /\ Q s1 s1'.

  (** one statement of side A against the statements that stand for it on side B (none, if it was removed) *)
  Definition sim1_at P Q (f : nat) (st : stmt) (ss' : list stmt) : Prop :=
    forall s s' s1, P s s' -> exec1 psA f st s = Some s1 -> exists s1', runs psB ss' s' s1' /\ Q s1 s1'.

  Lemma sim_at_0 P Q ss ss' : sim_at P Q 0 ss ss'.
  Proof. intros s s' s1 _ E. discriminate. Qed.

  Lemma sim_nil P f : sim_at P P f [] [].
  Proof. intros s s' s1 H E. apply exec_nil in E. subst. exists s'. split; [apply runs_nil|exact H]. Qed.

  Lemma sim_cons P M Q f st l' rest rest' :
    sim1_at P M f st l' -> sim_at M Q f rest rest' -> sim_at P Q (S f) (st :: rest) (l' ++ rest').
  Proof.
    intros H1 H2 s s' s1 HP E. rewrite exec_unfold in E. apply obind_some in E. destruct E as [s2 [E1 E2]].
    destruct (H1 _ _ _ HP E1) as [s2' [R1 HM]]. destruct (H2 _ _ _ HM E2) as [s1' [R2 HQ]].
    exists s1'. split; [eapply runs_app; eassumption|exact HQ].
  Qed.

  (** statements that only side B has: they must run, and keep the stores related *)
  Lemma sim_stutter P M Q f ss l' rest' :
    (forall s s', P s s' -> exists s2', runs psB l' s' s2' /\ M s s2') ->
    sim_at M Q f ss rest' -> sim_at P Q f ss (l' ++ rest').
  Proof.
    intros H1 H2 s s' s1 HP E. destruct (H1 _ _ HP) as [s2' [R1 HM]].
    destruct (H2 _ _ _ HM E) as [s1' [R2 HQ]]. exists s1'. split; [eapply runs_app; eassumption|exact HQ].
  Qed.

  (** statements that only side A has, in front *)
  Lemma sim_prefix P M Q f pre ss ss' :
    (forall s s' s1, P s s' -> exec psA f pre s = Some s1 -> M s1 s') ->
    sim_at M Q f ss ss' -> sim_at P Q f (pre ++ ss) ss'.
  Proof.
    intros H1 H2 s s' s1 HP E. apply exec_app_some in E. destruct E as [s2 [Ea Eb]].
    exact (H2 _ _ _ (H1 _ _ _ HP Ea) Eb).
  Qed.

  Lemma sim1_skip P f l : sim1_at P P f (SSkip l) [SSkip l].
  Proof.
    intros s s' s1 HP E. injection E as <-. exists s'. split; [apply runs_single, runs1_skip|exact HP].
  Qed.

  Lemma sim1_assign P Q f x e e' :
    (forall s s', P s s' -> evalZ (env_st s) e = evalZ (env_st s') e') ->
    (forall s s' v, P s s' -> Q (set_sv x v s) (set_sv x v s')) ->
    sim1_at P Q f (SAssign x e) [SAssign x e'].
  Proof.
    intros He Hq s s' s1 HP E. cbn in E. apply obind_some in E. destruct E as [v [Ev E]]. injection E as <-.
    exists (set_sv x v s'). split; [|now apply Hq]. apply runs_single, runs1_assign. now rewrite <- (He _ _ HP).
  Qed.

  Lemma sim1_store P Q f a idx idx' e e' :
    (forall s s', P s s' -> eval_idx s idx = eval_idx s' idx') ->
    (forall s s', P s s' -> evalZ (env_st s) e = evalZ (env_st s') e') ->
    (forall s s' i v, P s s' -> Q (set_av a i v s) (set_av a i v s')) ->
    sim1_at P Q f (SStore a idx e) [SStore a idx' e'].
  Proof.
    intros Hi He Hq s s' s1 HP E. cbn in E. apply obind_some in E. destruct E as [i [Ei E]].
    apply obind_some in E. destruct E as [v [Ev E]]. injection E as <-.
    exists (set_av a i v s'). split; [|now apply Hq].
    apply runs_single, runs1_store; [now rewrite <- (Hi _ _ HP)|now rewrite <- (He _ _ HP)].
  Qed.

  Lemma sim1_if P Q f c c' tb tb' eb eb' :
    (forall s s', P s s' -> evalB (env_st s) c = evalB (env_st s') c') ->
    sim_at P Q f tb tb' -> sim_at P Q f eb eb' -> sim1_at P Q f (SIf c tb eb) [SIf c' tb' eb'].
  Proof.
    intros Hc Ht He s s' s1 HP E. cbn in E. apply obind_some in E. destruct E as [b [Eb E]].
    rewrite (Hc _ _ HP) in Eb.
    assert (H : exists s1', runs psB (if b then tb' else eb') s' s1' /\ Q s1 s1')
      by (destruct b; [eapply Ht|eapply He]; eassumption).
    destruct H as [s1' [Hr HQ]]. exists s1'. split; [|exact HQ].
    apply runs_single. now apply (runs1_if psB _ _ _ _ _ b Eb).
  Qed.

  (** the third hypothesis is the loop itself at the same fuel: the caller's induction on the fuel discharges it *)
  Lemma sim1_while P f c c' body body' :
    (forall s s', P s s' -> evalB (env_st s) c = evalB (env_st s') c') ->
    sim_at P P f body body' -> sim_at P P f [SWhile c body] [SWhile c' body'] ->
    sim1_at P P f (SWhile c body) [SWhile c' body'].
  Proof.
    intros Hc Hb Hw s s' s1 HP E. cbn in E. apply obind_some in E. destruct E as [b [Eb E]].
    rewrite (Hc _ _ HP) in Eb. destruct b.
    - apply obind_some in E. destruct E as [t [E1 E2]].
      destruct (Hb _ _ _ HP E1) as [t' [R1 HP1]]. destruct (Hw _ _ _ HP1 E2) as [s1' [R2 HP2]].
      exists s1'. split; [|exact HP2]. apply runs_single. eapply runs1_while_true; eassumption.
    - injection E as <-. exists s'. split; [|exact HP]. apply runs_single. now apply runs1_while_false.
  Qed.

  Lemma sim1_do P f v lo lo' hi hi' stp stp' body body' :
    (forall s s', P s s' -> evalZ (env_st s) lo = evalZ (env_st s') lo') ->
    (forall s s', P s s' -> evalZ (env_st s) hi = evalZ (env_st s') hi') ->
    (forall s s', P s s' -> match stp with None => Some 1 | Some e => evalZ (env_st s) e end =
                            match stp' with None => Some 1 | Some e => evalZ (env_st s') e end) ->
    (forall s s' i, P s s' -> P (set_sv v i s) (set_sv v i s')) ->
    sim_at P P f body body' ->
    sim1_at P P f (SDo v lo hi stp body) [SDo v lo' hi' stp' body'].
  Proof.
    intros Hlo Hhi Hst Hv Hb s s' s1 HP E. cbn in E.
    apply obind_some in E. destruct E as [a [Ea E]]. apply obind_some in E. destruct E as [b [Eb E]].
    apply obind_some in E. destruct E as [d [Ed E]]. destruct (d =? 0) eqn:Ez; [discriminate|].
    assert (Hloop : forall n i t t' t2, P t t' -> do_loop (exec psA f body) v d n i t = Some t2 ->
              exists t2', loop_runs psB body' v d n i t' t2' /\ P t2 t2').
    { induction n as [|n IHn]; intros i t t' t2 Ht El; cbn in El.
      - injection El as <-. exists (set_sv v i t'). split; [constructor|now apply Hv].
      - apply obind_some in El. destruct El as [t1 [El1 El2]].
        destruct (Hb _ _ _ (Hv _ _ i Ht) El1) as [t1' [Hr1 HP1]].
        destruct (IHn _ _ _ _ HP1 El2) as [t2' [Hr2 HP2]].
        exists t2'. split; [econstructor; eassumption|exact HP2]. }
    destruct (Hloop _ _ _ _ _ HP E) as [s1' [Hl HP1]]. exists s1'. split; [|exact HP1].
    apply runs_single, runs1_do. exists a, b, d.
    rewrite <- (Hlo _ _ HP), <- (Hhi _ _ HP), <- (Hst _ _ HP).
    repeat split; try assumption. now apply Z.eqb_neq.
  Qed.

  (** a call: the dummies are bound to [Pc]-related callee stores, the bodies take these to [Qc]-related
      ones, and copying back re-establishes the callers' relation *)
  Lemma sim1_call P Q Pc Qc f g g' args args' p p' :
    find_proc psA g = Some p -> find_proc psB g' = Some p' ->
    (forall s s', P s s' -> orel Pc (copy_in s (p_params p) args empty_store)
                                     (copy_in s' (p_params p') args' empty_store)) ->
    sim_at Pc Qc f (p_body p) (p_body p') ->
    (forall s s' c c', P s s' -> Qc c c' ->
       Q (copy_out c (p_params p) args s) (copy_out c' (p_params p') args' s')) ->
    sim1_at P Q f (SCall g args) [SCall g' args'].
  Proof.
    intros Eg Eg' Hin Hbody Hout s s' s1 HP E. cbn in E. rewrite Eg in E. cbn in E.
    apply obind_some in E. destruct E as [c0 [Ec0 E]]. apply obind_some in E. destruct E as [c1 [Ec1 E]].
    injection E as <-. specialize (Hin _ _ HP). rewrite Ec0 in Hin.
    destruct (copy_in s' (p_params p') args' empty_store) as [c0'|] eqn:Ec0'; [|contradiction].
    destruct (Hbody _ _ _ Hin Ec1) as [c1' [Rb HQc]].
    exists (copy_out c1' (p_params p') args' s'). split; [|now apply Hout].
    apply runs_single. eapply runs1_call; eassumption.
  Qed.
End Lockstep.

Section Lock.
  Variables psA psB : procs.
  Implicit Types P Q M J : store -> store -> Prop.

  Definition lock_at P Q (f : nat) (ss ss' : list stmt) : Prop :=
    forall s s', P s s' -> orel Q (exec psA f ss s) (exec psB f ss' s').
  Definition lock1_at P Q (f : nat) (st st' : stmt) : Prop :=
    forall s s', P s s' -> orel Q (exec1 psA f st s) (exec1 psB f st' s').

  Lemma lock_at_0 P Q ss ss' : lock_at P Q 0 ss ss'.
  Proof. intros s s' _. exact I. Qed.

  (** with fuel 0 both runs fail, also on the empty program: that case is [lock_at_0] *)
  Lemma lock_nil P f : lock_at P P (S f) [] [].
  Proof. intros s s' H. exact H. Qed.

  Lemma lock_cons P M Q f st st' rest rest' :
    lock1_at P M f st st' -> lock_at M Q f rest rest' -> lock_at P Q (S f) (st :: rest) (st' :: rest').
  Proof. intros H1 H2 s s' HP. rewrite !exec_unfold. apply (orel_bind M Q); [apply H1, HP|exact H2]. Qed.

  Lemma lock1_skip P f l l' : lock1_at P P f (SSkip l) (SSkip l').
  Proof. intros s s' H. exact H. Qed.

  Lemma lock1_assign P Q f x x' e e' :
    (forall s s', P s s' -> evalZ (env_st s) e = evalZ (env_st s') e') ->
    (forall s s' v, P s s' -> Q (set_sv x v s) (set_sv x' v s')) ->
    lock1_at P Q f (SAssign x e) (SAssign x' e').
  Proof.
    intros He Hq s s' HP. cbn [exec1]. rewrite <- (He s s' HP).
    destruct (evalZ (env_st s) e) as [v|]; [exact (Hq s s' v HP)|exact I].
  Qed.

  (** [phi] maps the subscript values of the first program to those of the second *)
  Lemma lock1_store (phi : list Z -> list Z) P Q f a a' idx idx' e e' :
    (forall s s', P s s' -> option_map phi (eval_idx s idx) = eval_idx s' idx') ->
    (forall s s', P s s' -> evalZ (env_st s) e = evalZ (env_st s') e') ->
    (forall s s' i v, P s s' -> Q (set_av a i v s) (set_av a' (phi i) v s')) ->
    lock1_at P Q f (SStore a idx e) (SStore a' idx' e').
  Proof.
    intros Hi He Hq s s' HP. cbn [exec1]. rewrite <- (Hi s s' HP), <- (He s s' HP).
    destruct (eval_idx s idx) as [i|]; cbn [option_map obind]; [|exact I].
    destruct (evalZ (env_st s) e) as [v|]; [exact (Hq s s' i v HP)|exact I].
  Qed.

  (** [lock1_store] for subscripts that keep their values ([phi] the identity) *)
  Lemma lock1_store_id P Q f a a' idx idx' e e' :
    (forall s s', P s s' -> eval_idx s idx = eval_idx s' idx') ->
    (forall s s', P s s' -> evalZ (env_st s) e = evalZ (env_st s') e') ->
    (forall s s' i v, P s s' -> Q (set_av a i v s) (set_av a' i v s')) ->
    lock1_at P Q f (SStore a idx e) (SStore a' idx' e').
  Proof.
    intros Hi. apply (lock1_store (fun i => i)). intros s s' HP. rewrite <- (Hi s s' HP). now destruct (eval_idx s idx).
  Qed.

  (** the body runs between stores in which the DO variable has been set ([J]) *)
  Lemma lock1_do P J f v v' lo lo' hi hi' stp stp' b b' :
    (forall s s', P s s' -> evalZ (env_st s) lo = evalZ (env_st s') lo') ->
    (forall s s', P s s' -> evalZ (env_st s) hi = evalZ (env_st s') hi') ->
    (forall s s', P s s' -> match stp with None => Some 1 | Some e => evalZ (env_st s) e end =
                            match stp' with None => Some 1 | Some e => evalZ (env_st s') e end) ->
    (forall s s' i, P s s' -> J (set_sv v i s) (set_sv v' i s')) ->
    lock_at J P f b b' ->
    lock1_at P J f (SDo v lo hi stp b) (SDo v' lo' hi' stp' b').
  Proof.
    intros Hlo Hhi Hst Hv Hb s s' HP. cbn [exec1]. rewrite <- (Hlo s s' HP), <- (Hhi s s' HP), <- (Hst s s' HP).
    destruct (evalZ (env_st s) lo); cbn [obind]; [|exact I]. destruct (evalZ (env_st s) hi); cbn [obind]; [|exact I].
    destruct (match stp with None => Some 1 | Some e => evalZ (env_st s) e end) as [d|]; cbn [obind]; [|exact I].
    destruct (d =? 0); [exact I|]. apply (do_loop_orel P J); [intros i t t'; apply Hv|exact Hb|exact HP].
  Qed.

  (** the third hypothesis is the loop itself at the same fuel: the caller's induction on the fuel discharges it *)
  Lemma lock1_while P f c c' b b' :
    (forall s s', P s s' -> evalB (env_st s) c = evalB (env_st s') c') ->
    lock_at P P f b b' -> lock_at P P f [SWhile c b] [SWhile c' b'] ->
    lock1_at P P f (SWhile c b) (SWhile c' b').
  Proof.
    intros Hc Hb Hw s s' HP. cbn [exec1]. rewrite <- (Hc s s' HP).
    destruct (evalB (env_st s) c) as [[|]|]; cbn [obind]; [|exact HP|exact I].
    apply (orel_bind P P); [apply Hb, HP|exact Hw].
  Qed.

  Lemma lock1_if P Q f c c' tb tb' eb eb' :
    (forall s s', P s s' -> evalB (env_st s) c = evalB (env_st s') c') ->
    lock_at P Q f tb tb' -> lock_at P Q f eb eb' -> lock1_at P Q f (SIf c tb eb) (SIf c' tb' eb').
  Proof.
    intros Hc Ht He s s' HP. cbn [exec1]. rewrite <- (Hc s s' HP).
    destruct (evalB (env_st s) c) as [[|]|]; cbn [obind]; [apply Ht, HP|apply He, HP|exact I].
  Qed.

  (** unlike [sim1_call], both sides call one and the same procedure (the tables agree on the name, found or not): the
      hypotheses are stated for every procedure [p] it may be *)
  Lemma lock1_call Pc Qc P Q f g g' args args' :
    find_proc psB g' = find_proc psA g ->
    (forall p s s', P s s' ->
       orel Pc (copy_in s (p_params p) args empty_store) (copy_in s' (p_params p) args' empty_store)) ->
    (forall p, find_proc psA g = Some p -> lock_at Pc Qc f (p_body p) (p_body p)) ->
    (forall p s s' c c', P s s' -> Qc c c' -> Q (copy_out c (p_params p) args s) (copy_out c' (p_params p) args' s')) ->
    lock1_at P Q f (SCall g args) (SCall g' args').
  Proof.
    intros Eg Hin Hbody Hout s s' HP. cbn [exec1]. rewrite Eg.
    destruct (find_proc psA g) as [p|]; cbn [obind]; [|exact I].
    apply (orel_bind Pc Q); [apply Hin, HP|]. intros c c' Hc.
    apply (orel_bind Qc Q); [apply (Hbody p eq_refl), Hc|]. intros d d' Hd. exact (Hout p s s' d d' HP Hd).
  Qed.
End Lock.
