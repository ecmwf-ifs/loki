(** Facts about the MiniF interpreter: reading a store after an update, fuel monotonicity, argument
    passing (copy-in, copy-out), determinism and sequencing of [runs], each statement form as a
    relation between stores with the fuel hidden (WHILE by induction over its iterations, DO as
    [loop_runs] over the trip count), congruences of program equivalence, and soundness of the
    structural equality tests. *)
From Coq Require Import ZArith List Bool String Lia.
From LV Require Import Base.Expr Base.MiniF Base.ListFacts Base.ExprFacts.
Import ListNotations.
Open Scope Z_scope.

Lemma obind_some {A B} (o : option A) (f : A -> option B) b :
  obind o f = Some b -> exists a, o = Some a /\ f a = Some b.
Proof. destruct o as [a|]; cbn; [eauto|discriminate]. Qed.

(** a successful [obind] stays successful when both of its parts do: every monotonicity proof below
    is this step, once per [obind] of the interpreter *)
Lemma obind_mono {A B} (o o' : option A) (f g : A -> option B) b :
  (forall a, o = Some a -> o' = Some a) -> (forall a, f a = Some b -> g a = Some b) ->
  obind o f = Some b -> obind o' g = Some b.
Proof. intros Ho Hf. destruct o as [a|]; [|discriminate]. rewrite (Ho a eq_refl). apply Hf. Qed.

Lemma list_z_eqb_eq a b : list_z_eqb a b = true <-> a = b.
Proof. exact (list_eqb_iff Z.eqb Z.eqb_eq a b). Qed.

Lemma list_z_eqb_refl l : list_z_eqb l l = true.
Proof. now apply list_z_eqb_eq. Qed.

(** reading a store after one update *)
Lemma sv_set_same x v s : sv (set_sv x v s) x = v.
Proof. cbn. now rewrite String.eqb_refl. Qed.

Lemma sv_set_other x y v s : y <> x -> sv (set_sv x v s) y = sv s y.
Proof. intros N. cbn. apply String.eqb_neq in N. now rewrite N. Qed.

Lemma av_set_same a i v s : av (set_av a i v s) a i = v.
Proof. cbn. now rewrite String.eqb_refl, (proj2 (list_z_eqb_eq i i) eq_refl). Qed.

Lemma av_set_other a i v s b j : b <> a \/ j <> i -> av (set_av a i v s) b j = av s b j.
Proof.
  intros N. cbn. destruct (String.eqb_spec b a) as [->|_]; [|reflexivity].
  destruct (list_z_eqb j i) eqn:E; [|reflexivity]. apply list_z_eqb_eq in E. tauto.
Qed.

Lemma av_set_arr_same a f s j : av (set_arr a f s) a j = f j.
Proof. cbn. now rewrite String.eqb_refl. Qed.

Lemma av_set_arr_other a f s b j : b <> a -> av (set_arr a f s) b j = av s b j.
Proof. intros N. cbn. apply String.eqb_neq in N. now rewrite N. Qed.

Lemma do_loop_mono (run1 run2 : store -> option store) v d n :
  (forall s s', run1 s = Some s' -> run2 s = Some s') ->
  forall i s r, do_loop run1 v d n i s = Some r -> do_loop run2 v d n i s = Some r.
Proof.
  intros H. induction n as [|n IH]; intros i s r; cbn [do_loop]; [auto|].
  apply obind_mono; [intros s2; apply H|intros s2; apply IH].
Qed.

Lemma do_loop_ext (r1 r2 : store -> option store) v d n :
  (forall s, r1 s = r2 s) -> forall i s, do_loop r1 v d n i s = do_loop r2 v d n i s.
Proof.
  intros H. induction n as [|n IH]; intros i s; cbn [do_loop]; [reflexivity|].
  rewrite H. destruct (r2 (set_sv v i s)); cbn [obind]; [apply IH|reflexivity].
Qed.

(** two DO loops in lock step, the DO variables possibly named differently: [I] relates the stores
    between iterations, [J] those at the start of a body, once the DO variable is set *)
Lemma do_loop_orel (I J : store -> store -> Prop) (run1 run2 : store -> option store) v w d :
  (forall i s t, I s t -> J (set_sv v i s) (set_sv w i t)) ->
  (forall s t, J s t -> orel I (run1 s) (run2 t)) ->
  forall n i s t, I s t -> orel J (do_loop run1 v d n i s) (do_loop run2 w d n i t).
Proof.
  intros Hset Hrun. induction n as [|n IH]; intros i s t H; cbn [do_loop]; [exact (Hset i s t H)|].
  apply (orel_bind I J); [apply Hrun, Hset, H|intros s1 t1 H1; now apply IH].
Qed.

Lemma exec_nil ps f s s' : exec ps f [] s = Some s' -> s' = s.
Proof. destruct f; cbn; [discriminate|congruence]. Qed.

Lemma exec_nil_S ps f s : exec ps (S f) [] s = Some s.
Proof. reflexivity. Qed.

Lemma exec1_mono ps f :
  (forall ss s s', exec ps f ss s = Some s' -> exec ps (S f) ss s = Some s') ->
  forall st s s', exec1 ps f st s = Some s' -> exec1 ps (S f) st s = Some s'.
Proof.
  intros IH st s s'.
  destruct st as [x e|a idx e|v lo hi stp body|c body|c tb eb|g args|l]; cbn [exec1]; try exact (fun E => E).
  - apply obind_mono; [auto|intros a]. apply obind_mono; [auto|intros b]. apply obind_mono; [auto|intros d].
    destruct (d =? 0); [discriminate|]. apply do_loop_mono. apply IH.
  - apply obind_mono; [auto|intros [|]; [|auto]].
    apply obind_mono; [intros s1; apply IH|intros s1; apply IH].
  - apply obind_mono; [auto|intros b; apply IH].
  - apply obind_mono; [auto|intros p]. apply obind_mono; [auto|intros s0].
    apply obind_mono; [intros s1; apply IH|auto].
Qed.

Lemma exec_fuel_S ps f : forall ss s s', exec ps f ss s = Some s' -> exec ps (S f) ss s = Some s'.
Proof.
  induction f as [|f IH]; intros ss s s'; [discriminate|].
  destruct ss as [|st rest]; [exact (fun E => E)|].
  rewrite !exec_unfold. apply obind_mono; [intros s1; apply exec1_mono, IH|intros s1; apply IH].
Qed.

Lemma exec_fuel_mono ps f f' ss s s' :
  exec ps f ss s = Some s' -> (f <= f')%nat -> exec ps f' ss s = Some s'.
Proof.
  intros E Hle. induction Hle as [|m Hle IH]; [exact E|]. now apply exec_fuel_S.
Qed.

Lemma exec1_fuel_mono ps f f' st s s' :
  exec1 ps f st s = Some s' -> (f <= f')%nat -> exec1 ps f' st s = Some s'.
Proof.
  intros E Hle. induction Hle as [|m Hle IH]; [exact E|].
  apply exec1_mono; [|exact IH]. intros; now apply exec_fuel_S.
Qed.

Lemma exec_app_some ps f : forall a b s s',
  exec ps f (a ++ b) s = Some s' -> exists s1, exec ps f a s = Some s1 /\ exec ps f b s1 = Some s'.
Proof.
  induction f as [|f IH]; intros a b s s' E; [discriminate|].
  destruct a as [|st a]; cbn [app] in E; [exists s; split; [reflexivity|exact E]|].
  rewrite exec_unfold in E. apply obind_some in E. destruct E as [s2 [E1 E2]].
  apply IH in E2. destruct E2 as [s1 [Ea Eb]]. exists s1. split; [|now apply exec_fuel_S].
  rewrite exec_unfold, E1. exact Ea.
Qed.

Lemma find_proc_In ps g p : find_proc ps g = Some p -> In (g, p) ps.
Proof.
  induction ps as [|[h q] r IH]; cbn; [discriminate|].
  destruct (String.eqb h g) eqn:E; [|now right; apply IH].
  apply String.eqb_eq in E. intros [= ->]. left. now subst.
Qed.

Lemma copy_in_app s : forall params args q b c, List.length args = List.length params ->
  copy_in s (params ++ q) (args ++ b) c = obind (copy_in s params args c) (fun c' => copy_in s q b c').
Proof.
  induction params as [|[d fl] ps IH]; intros [|e r] q b c Hl; try discriminate Hl; [reflexivity|].
  injection Hl as Hl. destruct fl.
  - destruct e; cbn; try reflexivity. now apply IH.
  - cbn. destruct (evalZ (env_st s) e); [|reflexivity]. now apply IH.
Qed.

Lemma copy_out_app c : forall params args q b t, List.length args = List.length params ->
  copy_out c (params ++ q) (args ++ b) t = copy_out c q b (copy_out c params args t).
Proof.
  induction params as [|[d fl] ps IH]; intros [|e r] q b t Hl; try discriminate Hl; [reflexivity|].
  injection Hl as Hl. destruct fl, e; cbn; now apply IH.
Qed.

(** copy-in touches only the dummies *)
Lemma copy_in_other : forall params args caller c s0 d,
  copy_in caller params args c = Some s0 -> ~ In d (map fst params) ->
  sv s0 d = sv c d /\ (forall i, av s0 d i = av c d i).
Proof.
  induction params as [|[d0 b] ps IH]; intros args caller c s0 d E Hn.
  - destruct args; [|discriminate]. injection E as <-. auto.
  - cbn [map fst In] in Hn.
    assert (String.eqb d d0 = false) as Hne by (apply String.eqb_neq; intros ->; apply Hn; now left).
    destruct b, args as [|a r]; cbn [copy_in] in E; try discriminate.
    + destruct a; try discriminate.
      destruct (IH _ _ _ _ d E) as [A B]; [tauto|]. split; [exact A|].
      intros i. rewrite B. cbn. now rewrite Hne.
    + destruct (evalZ (env_st caller) a) as [v|]; [|discriminate].
      destruct (IH _ _ _ _ d E) as [A B]; [tauto|]. split; [|exact B].
      rewrite A. cbn. now rewrite Hne.
Qed.

(** termination-insensitive big-step relations *)
Definition runs (ps : procs) (ss : list stmt) (s s' : store) : Prop := exists f, exec ps f ss s = Some s'.
Definition runs1 (ps : procs) (st : stmt) (s s' : store) : Prop := exists f, exec1 ps f st s = Some s'.

Lemma runs_det ps ss s s1 s2 : runs ps ss s s1 -> runs ps ss s s2 -> s1 = s2.
Proof.
  intros [f1 E1] [f2 E2].
  pose proof (exec_fuel_mono ps f1 (Nat.max f1 f2) ss s s1 E1 (Nat.le_max_l _ _)) as A.
  pose proof (exec_fuel_mono ps f2 (Nat.max f1 f2) ss s s2 E2 (Nat.le_max_r _ _)) as B.
  congruence.
Qed.

Lemma runs1_det ps st s s1 s2 : runs1 ps st s s1 -> runs1 ps st s s2 -> s1 = s2.
Proof.
  intros [f1 E1] [f2 E2].
  pose proof (exec1_fuel_mono ps f1 (Nat.max f1 f2) st s s1 E1 (Nat.le_max_l _ _)) as A.
  pose proof (exec1_fuel_mono ps f2 (Nat.max f1 f2) st s s2 E2 (Nat.le_max_r _ _)) as B.
  congruence.
Qed.

Lemma runs_nil ps s : runs ps [] s s.
Proof. now exists 1%nat. Qed.

Lemma runs_nil_inv ps s s' : runs ps [] s s' -> s' = s.
Proof. intros [f E]. now apply exec_nil in E. Qed.

Lemma runs_cons ps st rest s s1 s' :
  runs1 ps st s s1 -> runs ps rest s1 s' -> runs ps (st :: rest) s s'.
Proof.
  intros [f1 E1] [f2 E2]. exists (S (Nat.max f1 f2)).
  rewrite exec_unfold.
  rewrite (exec1_fuel_mono ps f1 _ st s s1 E1 (Nat.le_max_l _ _)). cbn [obind].
  apply (exec_fuel_mono ps f2); [exact E2|apply Nat.le_max_r].
Qed.

Lemma runs_cons_inv ps st rest s s' :
  runs ps (st :: rest) s s' -> exists s1, runs1 ps st s s1 /\ runs ps rest s1 s'.
Proof.
  intros [f E]. destruct f as [|f]; [discriminate|].
  rewrite exec_unfold in E. apply obind_some in E. destruct E as [s1 [E1 E2]].
  exists s1. split; [now exists f|now exists f].
Qed.

Lemma runs_app ps a b s s1 s' : runs ps a s s1 -> runs ps b s1 s' -> runs ps (a ++ b) s s'.
Proof.
  revert s. induction a as [|st a IH]; intros s Ha Hb; cbn.
  - apply runs_nil_inv in Ha. now subst.
  - apply runs_cons_inv in Ha. destruct Ha as [s2 [H1 H2]].
    eapply runs_cons; [exact H1|]. now apply IH.
Qed.

Lemma runs_app_inv ps a b s s' : runs ps (a ++ b) s s' -> exists s1, runs ps a s s1 /\ runs ps b s1 s'.
Proof.
  revert s. induction a as [|st a IH]; intros s H; cbn in H.
  - exists s. split; [apply runs_nil|exact H].
  - apply runs_cons_inv in H. destruct H as [s2 [H1 H2]].
    apply IH in H2. destruct H2 as [s1 [Ha Hb]].
    exists s1. split; [eapply runs_cons; eassumption|exact Hb].
Qed.

Lemma runs_single ps st s s' : runs ps [st] s s' <-> runs1 ps st s s'.
Proof.
  split.
  - intros H. apply runs_cons_inv in H. destruct H as [s1 [H1 H2]]. apply runs_nil_inv in H2. now subst.
  - intros H. eapply runs_cons; [exact H|apply runs_nil].
Qed.

Lemma runs1_skip ps l s : runs1 ps (SSkip l) s s.
Proof. exists 0%nat. reflexivity. Qed.

Lemma runs1_skip_inv ps l s s' : runs1 ps (SSkip l) s s' -> s' = s.
Proof. intros [f E]. cbn in E. congruence. Qed.

Lemma runs1_assign ps x e s v : evalZ (env_st s) e = Some v -> runs1 ps (SAssign x e) s (set_sv x v s).
Proof. intros E. exists 0%nat. cbn. now rewrite E. Qed.

Lemma runs1_assign_inv ps x e s s' :
  runs1 ps (SAssign x e) s s' -> exists v, evalZ (env_st s) e = Some v /\ s' = set_sv x v s.
Proof.
  intros [f E]. cbn in E. apply obind_some in E. destruct E as [v [Ev E]]. exists v. split; [exact Ev|congruence].
Qed.

Lemma runs1_store ps a idx e s i v :
  eval_idx s idx = Some i -> evalZ (env_st s) e = Some v -> runs1 ps (SStore a idx e) s (set_av a i v s).
Proof. intros E1 E2. exists 0%nat. cbn. rewrite E1. cbn. now rewrite E2. Qed.

Lemma runs1_store_inv ps a idx e s s' :
  runs1 ps (SStore a idx e) s s' ->
  exists i v, eval_idx s idx = Some i /\ evalZ (env_st s) e = Some v /\ s' = set_av a i v s.
Proof.
  intros [f E]. cbn [exec1] in E.
  apply obind_some in E. destruct E as [i [Ei E]]. apply obind_some in E. destruct E as [v [Ev E]].
  exists i, v. repeat split; [exact Ei|exact Ev|congruence].
Qed.

Lemma runs1_if ps c tb eb s s' b :
  evalB (env_st s) c = Some b -> (runs1 ps (SIf c tb eb) s s' <-> runs ps (if b then tb else eb) s s').
Proof.
  intros Ec. split.
  - intros [f E]. cbn in E. rewrite Ec in E. cbn in E. now exists f.
  - intros [f E]. exists f. cbn. rewrite Ec. exact E.
Qed.

Lemma runs1_call ps g args p s c0 c1 :
  find_proc ps g = Some p -> copy_in s (p_params p) args empty_store = Some c0 ->
  runs ps (p_body p) c0 c1 -> runs1 ps (SCall g args) s (copy_out c1 (p_params p) args s).
Proof. intros E1 E2 [f E3]. exists f. cbn. rewrite E1. cbn. rewrite E2. cbn. now rewrite E3. Qed.

Lemma runs1_call_inv ps g args s s' :
  runs1 ps (SCall g args) s s' ->
  exists p c0 c1, find_proc ps g = Some p /\ copy_in s (p_params p) args empty_store = Some c0 /\
                  runs ps (p_body p) c0 c1 /\ s' = copy_out c1 (p_params p) args s.
Proof.
  intros [f E]. cbn [exec1] in E.
  apply obind_some in E. destruct E as [p [Ep E]]. apply obind_some in E. destruct E as [c0 [E0 E]].
  apply obind_some in E. destruct E as [c1 [E1 E]].
  exists p, c0, c1. repeat split; [exact Ep|exact E0|now exists f|congruence].
Qed.

Lemma runs1_while_false ps c body s : evalB (env_st s) c = Some false -> runs1 ps (SWhile c body) s s.
Proof. intros E. exists 0%nat. cbn. now rewrite E. Qed.

Lemma runs1_while_true ps c body s s1 s2 :
  evalB (env_st s) c = Some true -> runs ps body s s1 -> runs ps [SWhile c body] s1 s2 ->
  runs1 ps (SWhile c body) s s2.
Proof.
  intros E [f1 E1] [f2 E2]. exists (Nat.max f1 f2). cbn [exec1]. rewrite E. cbn [obind].
  rewrite (exec_fuel_mono ps f1 _ _ _ _ E1 (Nat.le_max_l _ _)). cbn [obind].
  apply (exec_fuel_mono ps f2); [exact E2|apply Nat.le_max_r].
Qed.

(** induction over the iterations of a WHILE loop: the fuel of the interpreter is hidden *)
Lemma runs1_while_ind ps c body (P : store -> store -> Prop) :
  (forall s, evalB (env_st s) c = Some false -> P s s) ->
  (forall s s1 s2, evalB (env_st s) c = Some true -> runs ps body s s1 ->
                   runs1 ps (SWhile c body) s1 s2 -> P s1 s2 -> P s s2) ->
  forall s s', runs1 ps (SWhile c body) s s' -> P s s'.
Proof.
  intros H0 HS s s' [f E]. revert s s' E.
  induction f as [|f IH]; intros s s' E; cbn [exec1] in E;
    apply obind_some in E; destruct E as [b [Ec E]]; destruct b.
  - apply obind_some in E. destruct E as [s1 [_ E]]. discriminate.
  - injection E as <-. now apply H0.
  - apply obind_some in E. destruct E as [s1 [E1 E2]].
    rewrite exec_unfold in E2. apply obind_some in E2. destruct E2 as [s2 [E2 E3]].
    apply exec_nil in E3. subst s2.
    apply (HS s s1 s' Ec); [now exists (S f)|now exists f|now apply IH].
  - injection E as <-. now apply H0.
Qed.

Lemma runs1_while_inv ps c body s s' :
  runs1 ps (SWhile c body) s s' ->
  (evalB (env_st s) c = Some false /\ s' = s) \/
  (evalB (env_st s) c = Some true /\ exists s1, runs ps body s s1 /\ runs1 ps (SWhile c body) s1 s').
Proof. revert s s'. apply runs1_while_ind; [now left|]. intros s s1 s2 Ec Hb Hw _. right. eauto. Qed.

(** the DO loop as a relation, convenient for induction over the trip count *)
Inductive loop_runs (ps : procs) (body : list stmt) (v : string) (d : Z) : nat -> Z -> store -> store -> Prop :=
| LR0 i s : loop_runs ps body v d 0 i s (set_sv v i s)
| LRS n i s s1 s' : runs ps body (set_sv v i s) s1 -> loop_runs ps body v d n (i + d) s1 s' ->
                    loop_runs ps body v d (S n) i s s'.

Lemma do_loop_loop_runs ps f body v d n : forall i s s',
  do_loop (exec ps f body) v d n i s = Some s' -> loop_runs ps body v d n i s s'.
Proof.
  induction n as [|n IH]; intros i s s' E; cbn in E.
  - inversion E. constructor.
  - apply obind_some in E. destruct E as [s1 [E1 E2]].
    econstructor; [exists f; exact E1|apply IH; exact E2].
Qed.

Lemma loop_runs_do_loop ps body v d n : forall i s s',
  loop_runs ps body v d n i s s' -> exists f, do_loop (exec ps f body) v d n i s = Some s'.
Proof.
  induction 1 as [i s|n i s s1 s' [f1 E1] _ [f2 E2]]; [now exists 0%nat|].
  exists (Nat.max f1 f2). cbn [do_loop].
  rewrite (exec_fuel_mono ps f1 _ _ _ _ E1 (Nat.le_max_l _ _)). cbn [obind].
  eapply do_loop_mono; [|exact E2]. intros s0 s2 E. exact (exec_fuel_mono ps f2 _ _ _ _ E (Nat.le_max_r _ _)).
Qed.

Lemma runs1_do ps v lo hi stp body s s' :
  runs1 ps (SDo v lo hi stp body) s s' <->
  exists a b d, evalZ (env_st s) lo = Some a /\ evalZ (env_st s) hi = Some b /\
                (match stp with None => Some 1 | Some e => evalZ (env_st s) e end) = Some d /\
                d <> 0 /\ loop_runs ps body v d (Z.to_nat (trip_count a b d)) a s s'.
Proof.
  split.
  - intros [f E]. cbn in E.
    apply obind_some in E. destruct E as [a [Ea E]].
    apply obind_some in E. destruct E as [b [Eb E]].
    apply obind_some in E. destruct E as [d [Ed E]].
    destruct (d =? 0) eqn:Ez; [discriminate|].
    exists a, b, d. repeat split; try assumption; [apply Z.eqb_neq; exact Ez|].
    eapply do_loop_loop_runs; exact E.
  - intros [a [b [d [Ea [Eb [Ed [Hd H]]]]]]].
    apply loop_runs_do_loop in H. destruct H as [f E].
    exists f. cbn. rewrite Ea, Eb. cbn [obind]. rewrite Ed. cbn [obind].
    apply Z.eqb_neq in Hd. rewrite Hd. exact E.
Qed.

Lemma loop_runs_mono ps b b' v d :
  (forall s s', runs ps b s s' -> runs ps b' s s') ->
  forall n i s s', loop_runs ps b v d n i s s' -> loop_runs ps b' v d n i s s'.
Proof. intros H. induction 1 as [|n i s s1 s' R _ IH]; [constructor|]. econstructor; [apply H; exact R|exact IH]. Qed.

Lemma runs1_do_mono ps v lo hi stp b b' :
  (forall s s', runs ps b s s' -> runs ps b' s s') ->
  forall s s', runs1 ps (SDo v lo hi stp b) s s' -> runs1 ps (SDo v lo hi stp b') s s'.
Proof.
  intros H s s'. rewrite !runs1_do. intros [a [bb [d [Ea [Eb [Ed [Nd L]]]]]]].
  exists a, bb, d. repeat split; try assumption. exact (loop_runs_mono ps b b' v d H _ _ _ _ L).
Qed.

Lemma runs1_while_mono ps c b b' :
  (forall s s', runs ps b s s' -> runs ps b' s s') ->
  forall s s', runs1 ps (SWhile c b) s s' -> runs1 ps (SWhile c b') s s'.
Proof.
  intros H. apply runs1_while_ind; [apply runs1_while_false|].
  intros s s1 s2 Ec Hb _ Hw. apply (runs1_while_true ps c b' s s1 s2 Ec (H _ _ Hb)). now apply runs_single.
Qed.

(** program equivalence: same final store whenever either terminates without error *)
Definition equiv (ps : procs) (p q : list stmt) : Prop :=
  forall s s', runs ps p s s' <-> runs ps q s s'.

Lemma equiv_refl ps p : equiv ps p p. Proof. intros s s'; tauto. Qed.
Lemma equiv_sym ps p q : equiv ps p q -> equiv ps q p. Proof. intros H s s'; symmetry; apply H. Qed.
Lemma equiv_trans ps p q r : equiv ps p q -> equiv ps q r -> equiv ps p r.
Proof. intros H1 H2 s s'. rewrite (H1 s s'). apply H2. Qed.

Lemma equiv_app ps p p' q q' : equiv ps p p' -> equiv ps q q' -> equiv ps (p ++ q) (p' ++ q').
Proof.
  intros Hp Hq s s'. split; intros H; apply runs_app_inv in H; destruct H as [s1 [A B]].
  - eapply runs_app; [apply Hp; exact A|apply Hq; exact B].
  - eapply runs_app; [apply Hp; exact A|apply Hq; exact B].
Qed.

Lemma equiv_single ps st st' : (forall s s', runs1 ps st s s' <-> runs1 ps st' s s') -> equiv ps [st] [st'].
Proof. intros H s s'. rewrite !runs_single. apply H. Qed.

Lemma equiv_cons ps st p q : equiv ps p q -> equiv ps (st :: p) (st :: q).
Proof. intros H. apply (equiv_app ps [st] [st] p q (equiv_refl ps [st]) H). Qed.

Lemma equiv_if ps c c' t t' e e' :
  (forall s, evalB (env_st s) c' = evalB (env_st s) c) -> equiv ps t' t -> equiv ps e' e ->
  equiv ps [SIf c' t' e'] [SIf c t e].
Proof.
  intros Hc Ht He. apply equiv_single. intros s s'.
  destruct (evalB (env_st s) c) as [b|] eqn:Ec.
  - rewrite (runs1_if ps c' t' e' s s' b) by (now rewrite Hc).
    rewrite (runs1_if ps c t e s s' b) by exact Ec.
    destruct b; [apply Ht|apply He].
  - split; intros [f X]; cbn [exec1] in X; rewrite ?Hc, Ec in X; discriminate.
Qed.

Lemma equiv_if_true ps c t e : (forall s, evalB (env_st s) c = Some true) -> equiv ps [SIf c t e] t.
Proof. intros Hc s s'. rewrite runs_single. exact (runs1_if ps c t e s s' true (Hc s)). Qed.

Lemma equiv_if_false ps c t e : (forall s, evalB (env_st s) c = Some false) -> equiv ps [SIf c t e] e.
Proof. intros Hc s s'. rewrite runs_single. exact (runs1_if ps c t e s s' false (Hc s)). Qed.

Lemma equiv_do ps v lo hi stp b b' : equiv ps b b' -> equiv ps [SDo v lo hi stp b] [SDo v lo hi stp b'].
Proof. intros H. apply equiv_single. intros s s'. split; apply runs1_do_mono; intros s0 s1; apply H. Qed.

Lemma equiv_while ps c b b' : equiv ps b b' -> equiv ps [SWhile c b] [SWhile c b'].
Proof. intros H. apply equiv_single. intros s s'. split; apply runs1_while_mono; intros s0 s1; apply H. Qed.

Lemma list_expr_eqb_eq cs ds : list_expr_eqb cs ds = true -> cs = ds.
Proof. exact (proj1 (list_eqb_iff expr_eqb expr_eqb_iff cs ds)). Qed.

Lemma list_expr_eqb_refl cs : list_expr_eqb cs cs = true.
Proof. exact (proj2 (list_eqb_iff expr_eqb expr_eqb_iff cs cs) eq_refl). Qed.

Lemma oexpr_eqb_eq a b : oexpr_eqb a b = true -> a = b.
Proof. destruct a, b; cbn; intros E; try discriminate E; [f_equal; now apply expr_eqb_eq|reflexivity]. Qed.

(** the list comparison inside [stmt_eqb] is [stmts_eqb], by conversion *)
Lemma stmt_eqb_eq : forall a b, stmt_eqb a b = true -> a = b.
Proof.
  induction a as [x e|x i e|v lo hi st b IH|c b IH|c t e IHt IHe|f x|l] using stmt_ind';
    intros [] E; try discriminate E.
  - cbn in E. apply andb_prop in E. destruct E as [A B].
    apply String.eqb_eq in A. apply expr_eqb_eq in B. now subst.
  - cbn in E. apply andb_prop in E. destruct E as [E C]. apply andb_prop in E. destruct E as [A B].
    apply String.eqb_eq in A. apply list_expr_eqb_eq in B. apply expr_eqb_eq in C. now subst.
  - change (String.eqb v v0 && expr_eqb lo lo0 && expr_eqb hi hi0 && oexpr_eqb st st0 && stmts_eqb b body = true) in E.
    apply andb_prop in E. destruct E as [E E5]. apply andb_prop in E. destruct E as [E E4].
    apply andb_prop in E. destruct E as [E E3]. apply andb_prop in E. destruct E as [E1 E2].
    apply String.eqb_eq in E1. apply expr_eqb_eq in E2. apply expr_eqb_eq in E3. apply oexpr_eqb_eq in E4.
    apply (list_eqb_eq stmt_eqb b IH) in E5. now subst.
  - change (expr_eqb c c0 && stmts_eqb b body = true) in E.
    apply andb_prop in E. destruct E as [E1 E2]. apply expr_eqb_eq in E1. apply (list_eqb_eq stmt_eqb b IH) in E2. now subst.
  - change (expr_eqb c c0 && stmts_eqb t tb && stmts_eqb e eb = true) in E.
    apply andb_prop in E. destruct E as [E E3]. apply andb_prop in E. destruct E as [E1 E2].
    apply expr_eqb_eq in E1. apply (list_eqb_eq stmt_eqb t IHt) in E2. apply (list_eqb_eq stmt_eqb e IHe) in E3. now subst.
  - cbn in E. apply andb_prop in E. destruct E as [A B].
    apply String.eqb_eq in A. apply list_expr_eqb_eq in B. now subst.
  - cbn in E. apply String.eqb_eq in E. now subst.
Qed.

Lemma stmts_eqb_eq p q : stmts_eqb p q = true -> p = q.
Proof. apply (list_eqb_eq stmt_eqb). apply Forall_forall. intros x _. apply stmt_eqb_eq. Qed.
