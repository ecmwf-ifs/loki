(** Shared string helpers: ASCII case folding as Python's str.lower()/str.upper() on ASCII text,
    the "cut at first '('" used by SymbolTable.format_lookup_name, blank stripping, equality up to
    case ([same_fold]), and the monoid laws of [String.append]. *)
From Coq Require Import String Ascii Bool List Arith Lia.
Import ListNotations.
Open Scope string_scope.

Definition is_upper (c : ascii) : bool :=
  let n := nat_of_ascii c in ((65 <=? n) && (n <=? 90))%nat.

Definition lower_ascii (c : ascii) : ascii :=
  if is_upper c then ascii_of_nat (nat_of_ascii c + 32) else c.

Fixpoint lower (s : string) : string :=
  match s with
  | EmptyString => EmptyString
  | String c r => String (lower_ascii c) (lower r)
  end.

Definition is_lower_c (c : ascii) : bool :=
  let n := nat_of_ascii c in ((97 <=? n) && (n <=? 122))%nat.
Definition upper_ascii (c : ascii) : ascii :=
  if is_lower_c c then ascii_of_nat (nat_of_ascii c - 32) else c.
Fixpoint upper (s : string) : string :=
  match s with
  | EmptyString => EmptyString
  | String c r => String (upper_ascii c) (upper r)
  end.

(** s.partition('(')[0] *)
Fixpoint cut_paren (s : string) : string :=
  match s with
  | EmptyString => EmptyString
  | String c r => if Ascii.eqb c "("%char then EmptyString else String c (cut_paren r)
  end.

(** remove blanks: str.replace(' ', '') *)
Fixpoint strip_blanks (s : string) : string :=
  match s with
  | EmptyString => EmptyString
  | String c r => if Ascii.eqb c " "%char then strip_blanks r else String c (strip_blanks r)
  end.

(** The facts about single characters follow from the codes: upper-case letters are 65..90, and
    adding 32 lands in 97..122, the lower-case letters. *)
Lemma is_upper_spec c : is_upper c = true <-> 65 <= nat_of_ascii c <= 90.
Proof. unfold is_upper. now rewrite andb_true_iff, !Nat.leb_le. Qed.

Lemma is_lower_c_spec c : is_lower_c c = true <-> 97 <= nat_of_ascii c <= 122.
Proof. unfold is_lower_c. now rewrite andb_true_iff, !Nat.leb_le. Qed.

Lemma nat_lower_ascii c : is_upper c = true -> nat_of_ascii (lower_ascii c) = nat_of_ascii c + 32.
Proof. intros U. unfold lower_ascii. rewrite U. apply nat_ascii_embedding. apply is_upper_spec in U. lia. Qed.

Lemma lower_ascii_fix c : is_upper c = false -> lower_ascii c = c.
Proof. unfold lower_ascii. now intros ->. Qed.

Lemma lower_ascii_not_upper c : is_upper (lower_ascii c) = false.
Proof.
  destruct (is_upper c) eqn:U; [|now rewrite (lower_ascii_fix c U)].
  apply not_true_is_false. rewrite is_upper_spec, (nat_lower_ascii c U). apply is_upper_spec in U. lia.
Qed.

Lemma lower_ascii_idem c : lower_ascii (lower_ascii c) = lower_ascii c.
Proof. apply lower_ascii_fix, lower_ascii_not_upper. Qed.

Lemma lower_idem s : lower (lower s) = lower s.
Proof. induction s as [|c r IH]; cbn; [reflexivity|]. now rewrite lower_ascii_idem, IH. Qed.

Lemma lower_upper_ascii c : lower_ascii (upper_ascii c) = lower_ascii c.
Proof.
  unfold upper_ascii. destruct (is_lower_c c) eqn:L; [|reflexivity]. apply is_lower_c_spec in L.
  assert (N : nat_of_ascii (ascii_of_nat (nat_of_ascii c - 32)) = nat_of_ascii c - 32)
    by (apply nat_ascii_embedding; lia).
  rewrite (lower_ascii_fix c) by (apply not_true_is_false; rewrite is_upper_spec; lia).
  unfold lower_ascii.
  replace (is_upper (ascii_of_nat (nat_of_ascii c - 32))) with true by (symmetry; apply is_upper_spec; lia).
  rewrite N. replace (nat_of_ascii c - 32 + 32) with (nat_of_ascii c) by lia. apply ascii_nat_embedding.
Qed.

Lemma lower_upper s : lower (upper s) = lower s.
Proof. induction s as [|c r IH]; cbn; [reflexivity|]. now rewrite lower_upper_ascii, IH. Qed.

Lemma lower_app a b : lower (a ++ b) = lower a ++ lower b.
Proof. induction a as [|c r IH]; cbn; [reflexivity|]. now rewrite IH. Qed.

(** a character that is no letter is neither produced nor lost by folding *)
Lemma lower_ascii_eqb c d :
  is_upper d = false -> is_lower_c d = false -> Ascii.eqb (lower_ascii c) d = Ascii.eqb c d.
Proof.
  intros Hu Hl. destruct (is_upper c) eqn:U; [|now rewrite (lower_ascii_fix c U)].
  pose proof (nat_lower_ascii c U) as N. apply is_upper_spec in U.
  transitivity false; [|symmetry]; apply Ascii.eqb_neq; intros E; subst d.
  - apply not_true_iff_false in Hl. apply Hl, is_lower_c_spec. lia.
  - apply not_true_iff_false in Hu. apply Hu, is_upper_spec. lia.
Qed.

Lemma lower_ascii_paren c : Ascii.eqb (lower_ascii c) "("%char = Ascii.eqb c "("%char.
Proof. now apply lower_ascii_eqb. Qed.

Lemma cut_paren_lower s : cut_paren (lower s) = lower (cut_paren s).
Proof.
  induction s as [|c r IH]; cbn; [reflexivity|].
  rewrite lower_ascii_paren. destruct (Ascii.eqb c "("); cbn; [reflexivity|now rewrite IH].
Qed.

Lemma cut_paren_idem s : cut_paren (cut_paren s) = cut_paren s.
Proof.
  induction s as [|c r IH]; cbn; [reflexivity|].
  destruct (Ascii.eqb c "(") eqn:E; cbn; [reflexivity|]. now rewrite E, IH.
Qed.

(** two spellings that differ only in letter case *)
Definition same_fold (a b : string) : Prop := lower a = lower b.

Lemma same_fold_refl a : same_fold a a. Proof. reflexivity. Qed.
Lemma same_fold_sym a b : same_fold a b -> same_fold b a. Proof. unfold same_fold; congruence. Qed.
Lemma same_fold_lower a : same_fold (lower a) a. Proof. unfold same_fold. apply lower_idem. Qed.
Lemma same_fold_upper a : same_fold (upper a) a. Proof. unfold same_fold. apply lower_upper. Qed.

Lemma append_assoc (a b c : string) : (a ++ b) ++ c = a ++ (b ++ c).
Proof. induction a as [|x a IH]; cbn; [reflexivity|now rewrite IH]. Qed.
Lemma append_nil_r (a : string) : a ++ "" = a.
Proof. induction a as [|x a IH]; cbn; [reflexivity|now rewrite IH]. Qed.
Lemma length_append (a b : string) : String.length (a ++ b) = String.length a + String.length b.
Proof. induction a as [|x a IH]; cbn; [reflexivity|now rewrite IH]. Qed.
