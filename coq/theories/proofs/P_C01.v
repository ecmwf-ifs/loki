(** C01 — line level: the reference reader inverts the statement printer (unbounded nesting):
    [roundtrip_stmt] with its two invariants [A], [B], and [roundtrip_lines]; [norm] keeps [wf] and sizes, fixes
    normal forms and is idempotent; from these the round trip of [print_stmts] and its injectivity.
    The file defines [is_term], [stops], [A], [B], [else_part] (with [shape_ok], [else_pre], [else_post]). *)
From Coq Require Import ZArith List Bool String Lia.
From LV Require Import Base.Expr Base.ListFacts Base.MiniF models.M_C06 models.M_C01.
Import ListNotations.
Open Scope Z_scope.

Section fstmt_ind'.
  Variable P : fstmt -> Prop.
  Hypothesis HS : forall m, P (FSimple m).
  Hypothesis HD : forall v lo hi st b, Forall P b -> P (FDo v lo hi st b).
  Hypothesis HW : forall c b, Forall P b -> P (FWhile c b).
  Hypothesis HI : forall c t e fl, Forall P t -> Forall P e -> P (FIf c t e fl).
  Hypothesis HL : forall c m, P (FIfInline c m).
  Hypothesis HC : forall s, P (FComment s).
  Fixpoint fstmt_ind' (s : fstmt) : P s :=
    let fix go (l : list fstmt) : Forall P l :=
      match l with [] => Forall_nil P | x :: r => Forall_cons x (fstmt_ind' x) (go r) end in
    match s with
    | FSimple m => HS m
    | FDo v lo hi st b => HD v lo hi st b (go b)
    | FWhile c b => HW c b (go b)
    | FIf c t e fl => HI c t e fl (go t) (go e)
    | FIfInline c m => HL c m
    | FComment s => HC s
    end.
End fstmt_ind'.

Definition is_term (l : line) : bool :=
  match l with LEndDo | LElse | LElseIf _ | LEndIf => true | _ => false end.
Definition stops (rest : list line) : Prop :=
  match rest with [] => True | l :: _ => is_term l = true end.

Lemma ssize_pos s : (1 <= ssize s)%nat.
Proof. destruct s; cbn; lia. Qed.

Lemma lsize_cons s r : lsize (s :: r) = (ssize s + lsize r)%nat.
Proof. reflexivity. Qed.

Lemma lines_of_cons s r : lines_of (s :: r) = lines1 false s ++ lines_of r.
Proof. reflexivity. Qed.

(** reading one statement, then continuing with the same fuel *)
Definition A (s : fstmt) : Prop := forall f tail, (ssize s <= f)%nat ->
  read_block (S f) (lines1 false s ++ tail) =
  match read_block f tail with Some (ss, r') => Some (s :: ss, r') | None => None end.

(** reading a conditional printed as an ELSE IF continuation *)
Definition B (s : fstmt) : Prop :=
  match s with
  | FIf _ _ _ _ => forall f tail, (ssize s <= f)%nat -> read_else (S f) (lines1 true s ++ tail) = Some ([s], true, tail)
  | _ => True
  end.

Lemma read_block_stop f rest : stops rest -> read_block (S f) rest = Some ([], rest).
Proof.
  destruct rest as [|l r]; [reflexivity|]. cbn [stops]. intros H.
  destruct l; cbn in H; try discriminate; reflexivity.
Qed.

Lemma read_list p : Forall A p -> forall f rest, stops rest -> (lsize p < f)%nat ->
  read_block f (lines_of p ++ rest) = Some (p, rest).
Proof.
  induction 1 as [|s r Hs Hr IH]; intros f rest Hst Hf.
  - destruct f as [|f]; [cbn in Hf; lia|]. cbn [lines_of flat_map app]. now apply read_block_stop.
  - rewrite lsize_cons in Hf. destruct f as [|f]; [lia|].
    rewrite lines_of_cons, <- app_assoc. rewrite (Hs f); [|lia].
    pose proof (ssize_pos s). rewrite IH; [reflexivity|exact Hst|lia].
Qed.

Lemma read_body b : Forall A b -> forall f tail, (lsize b < f)%nat ->
  read_block f ((flat_map (lines1 false) b ++ [LEndDo]) ++ tail) = Some (b, LEndDo :: tail).
Proof. intros Hb f tail Hf. rewrite <- app_assoc. exact (read_list b Hb f (LEndDo :: tail) eq_refl Hf). Qed.

(* the tail of [lines1] on a conditional, under a name: [lines1_if] below holds by [reflexivity] *)
Definition else_part (e : list fstmt) (fl : bool) : list line :=
  if fl then
    match e with
    | [s2] => match s2 with FIf _ _ _ _ => lines1 true s2 | _ => [LErr] end
    | _ => [LErr]
    end
  else (match e with [] => [] | _ => LElse :: flat_map (lines1 false) e end) ++ [LEndIf].

Lemma lines1_if ei c t e fl :
  lines1 ei (FIf c t e fl) = (if ei then LElseIf c else LIf c) :: lines_of t ++ else_part e fl.
Proof. reflexivity. Qed.

Lemma ssize_if c t e fl : ssize (FIf c t e fl) = S (S (lsize t + lsize e)).
Proof. reflexivity. Qed.

(** the last conjunct of [wf] on a conditional *)
Definition shape_ok (e : list fstmt) (fl : bool) : bool :=
  if fl then match e with [FIf _ _ _ _] => true | _ => false end else true.

(** on a well-shaped conditional the else part is the else-branch printed in mode [fl], between fixed lines *)
Definition else_pre (e : list fstmt) (fl : bool) : list line :=
  if fl then [] else match e with [] => [] | _ => [LElse] end.
Definition else_post (fl : bool) : list line := if fl then [] else [LEndIf].

Lemma else_part_shape e fl :
  else_part e fl = if shape_ok e fl then else_pre e fl ++ flat_map (lines1 fl) e ++ else_post fl else [LErr].
Proof.
  destruct fl; [|destruct e; reflexivity].
  destruct e as [|[] []]; try reflexivity. cbn [shape_ok else_pre else_post flat_map app]. now rewrite !app_nil_r.
Qed.

Lemma stops_else_part e fl tail : stops (else_part e fl ++ tail) \/ else_part e fl = [LErr].
Proof.
  unfold else_part. destruct fl.
  - destruct e as [|s2 r]; auto. destruct r; auto. destruct s2; auto. left. reflexivity.
  - left. destruct e; reflexivity.
Qed.

Lemma stops_else_ok e fl tail : shape_ok e fl = true -> stops (else_part e fl ++ tail).
Proof.
  intro Hsh. destruct (stops_else_part e fl tail) as [H|H]; [exact H|].
  destruct fl; [|destruct e; discriminate]. destruct e as [|[] []]; discriminate.
Qed.

Lemma read_else_part e fl : Forall A e -> Forall B e -> shape_ok e fl = true ->
  forall f tail, (lsize e + 2 <= f)%nat -> read_else f (else_part e fl ++ tail) = Some (e, fl, tail).
Proof.
  intros HA HB Hsh f tail Hf. unfold else_part. destruct fl.
  - cbn in Hsh. destruct e as [|s2 r]; try discriminate. destruct s2; try discriminate. destruct r; try discriminate.
    inversion HB as [|? ? Hb _]; subst. cbn [B] in Hb.
    destruct f as [|f]; [lia|]. apply Hb. unfold lsize in Hf. cbn [fold_right] in Hf. lia.
  - destruct e as [|s r].
    + destruct f as [|f]; [lia|]. reflexivity.
    + destruct f as [|f]; [lia|].
      change ((LElse :: flat_map (lines1 false) (s :: r)) ++ [LEndIf]) with (LElse :: lines_of (s :: r) ++ [LEndIf]).
      cbn [app read_else]. rewrite <- app_assoc. cbn [app].
      rewrite (read_list (s :: r) HA f (LEndIf :: tail)); [reflexivity|reflexivity|lia].
Qed.

Lemma roundtrip_stmt : forall s, wf s = true -> A s /\ B s.
Proof.
  induction s as [m|v lo hi st b IHb|c b IHb|c t e fl IHt IHe|c m|x] using fstmt_ind'; intros W; cbn [wf] in W;
    try (split; [intros f tail _; reflexivity | exact I]).
  - destruct (Forall_and_inv _ _ (Forall_impl_forallb _ _ _ IHb W)) as [Hb _].
    split; [|exact I]. intros f tail Hf. cbn [ssize] in Hf. fold (lsize b) in Hf.
    cbn [lines1 app read_block]. now rewrite (read_body b Hb f tail) by lia.
  - destruct (Forall_and_inv _ _ (Forall_impl_forallb _ _ _ IHb W)) as [Hb _].
    split; [|exact I]. intros f tail Hf. cbn [ssize] in Hf. fold (lsize b) in Hf.
    cbn [lines1 app read_block]. now rewrite (read_body b Hb f tail) by lia.
  - (* IF and ELSE IF: the then-branch stops at what [else_part] starts with; [read_else] does the rest *)
    rewrite !andb_true_iff in W. destruct W as [[Wt We] Wsh].
    destruct (Forall_and_inv _ _ (Forall_impl_forallb _ _ _ IHt Wt)) as [Ht _].
    destruct (Forall_and_inv _ _ (Forall_impl_forallb _ _ _ IHe We)) as [HeA HeB].
    split; intros f tail Hf; rewrite ssize_if in Hf; rewrite lines1_if; cbn [app read_block read_else]; rewrite <- app_assoc.
    all: rewrite (read_list t Ht f _ (stops_else_ok e fl tail Wsh)) by lia.
    all: rewrite (read_else_part e fl HeA HeB Wsh f tail) by lia; reflexivity.
Qed.

Theorem roundtrip_lines : forall p, wf_list p = true ->
  forall fuel, (lsize p < fuel)%nat -> read_lines fuel (lines_of p) = Some p.
Proof.
  intros p W fuel Hf. unfold read_lines. rewrite <- (app_nil_r (lines_of p)).
  rewrite (read_list p); [reflexivity | | exact I | exact Hf].
  apply (Forall_impl_forallb wf); [|exact W]. apply Forall_forall. intros s _. apply roundtrip_stmt.
Qed.

Lemma norm_is_if s : match norm s with FIf _ _ _ _ => match s with FIf _ _ _ _ => True | _ => False end | _ => True end.
Proof. destruct s; cbn; exact I. Qed.

Lemma wf_norm : forall s, wf s = true -> wf (norm s) = true.
Proof.
  induction s as [m|v lo hi st b IHb|c b IHb|c t e fl IHt IHe|c m|x] using fstmt_ind'; intros W; try exact W;
    cbn [norm wf] in *.
  - exact (forallb_map_impl _ _ _ _ IHb W).
  - exact (forallb_map_impl _ _ _ _ IHb W).
  - rewrite !andb_true_iff in *. destruct W as [[Wt We] Wsh].
    split; [split; [exact (forallb_map_impl _ _ _ _ IHt Wt) | exact (forallb_map_impl _ _ _ _ IHe We)]|].
    destruct fl; [|reflexivity]. destruct e as [|[] []]; try discriminate. reflexivity.
Qed.

Lemma wf_norm_list p : wf_list p = true -> wf_list (norm_list p) = true.
Proof. apply forallb_map_impl, Forall_forall. intros s _. apply wf_norm. Qed.

Lemma lsize_map f l : Forall (fun a => ssize (f a) = ssize a) l -> lsize (map f l) = lsize l.
Proof. unfold lsize. induction 1 as [|a r Ha _ IH]; [reflexivity|]. cbn [map fold_right]. now rewrite Ha, IH. Qed.

Lemma ssize_norm : forall s, ssize (norm s) = ssize s.
Proof.
  induction s as [m|v lo hi st b IHb|c b IHb|c t e fl IHt IHe|c m|x] using fstmt_ind'; try reflexivity; cbn [norm].
  - cbn [ssize]. fold (lsize (map norm b)) (lsize b). now rewrite lsize_map.
  - cbn [ssize]. fold (lsize (map norm b)) (lsize b). now rewrite lsize_map.
  - rewrite !ssize_if. now rewrite !lsize_map.
Qed.

Lemma lsize_norm p : lsize (norm_list p) = lsize p.
Proof. apply lsize_map, Forall_forall. intros s _. apply ssize_norm. Qed.

Lemma norm_step_nf st : nf_step st = true -> norm_step st = st.
Proof. destruct st as [e|]; cbn; [|reflexivity]. destruct (unit_step e); [discriminate|reflexivity]. Qed.

Lemma norm_nf : forall s, nf s = true -> norm s = s.
Proof.
  induction s as [m|v lo hi st b IHb|c b IHb|c t e fl IHt IHe|c m|x] using fstmt_ind'; intros N; try reflexivity;
    cbn [nf] in N; cbn [norm].
  - apply andb_true_iff in N. destruct N as [N1 N2].
    now rewrite (norm_step_nf st N1), (map_id_Forall _ _ (Forall_impl_forallb _ _ _ IHb N2)).
  - now rewrite (map_id_Forall _ _ (Forall_impl_forallb _ _ _ IHb N)).
  - apply andb_true_iff in N. destruct N as [N1 N2].
    now rewrite (map_id_Forall _ _ (Forall_impl_forallb _ _ _ IHt N1)), (map_id_Forall _ _ (Forall_impl_forallb _ _ _ IHe N2)).
Qed.

Lemma norm_step_is_nf st : nf_step (norm_step st) = true.
Proof. destruct st as [e|]; cbn; [|reflexivity]. destruct (unit_step e) eqn:E; cbn; [reflexivity|now rewrite E]. Qed.

Lemma nf_norm : forall s, nf (norm s) = true.
Proof.
  induction s as [m|v lo hi st b IHb|c b IHb|c t e fl IHt IHe|c m|x] using fstmt_ind'; try reflexivity;
    cbn [norm nf]; rewrite ?norm_step_is_nf, !forallb_map; rewrite ?andb_true_iff; repeat split; now apply forallb_Forall.
Qed.

Lemma nf_norm_list p : nf_list (norm_list p) = true.
Proof. unfold nf_list, norm_list. rewrite forallb_map. apply forallb_Forall, Forall_forall. intros s _. apply nf_norm. Qed.

Lemma norm_list_nf p : nf_list p = true -> norm_list p = p.
Proof.
  intros N. apply map_id_Forall, (Forall_impl_forallb nf); [|exact N]. apply Forall_forall. intros s _. apply norm_nf.
Qed.

Lemma norm_idem_list p : norm_list (norm_list p) = norm_list p.
Proof. apply norm_list_nf, nf_norm_list. Qed.

Theorem roundtrip_stmts_norm : forall p, wf_list p = true ->
  read_lines (fuel_for p) (print_stmts p) = Some (norm_list p).
Proof.
  intros p W. unfold print_stmts, fuel_for.
  apply roundtrip_lines; [now apply wf_norm_list|]. rewrite lsize_norm. lia.
Qed.

Theorem roundtrip_stmts : forall p, wf_list p = true -> nf_list p = true ->
  read_lines (fuel_for p) (print_stmts p) = Some p.
Proof. intros p W N. rewrite roundtrip_stmts_norm by exact W. now rewrite norm_list_nf. Qed.

(** different programs of the class print differently, up to unit steps: read both texts with a common fuel *)
Theorem print_injective_norm : forall p q, wf_list p = true -> wf_list q = true ->
  print_stmts p = print_stmts q -> norm_list p = norm_list q.
Proof.
  intros p q Wp Wq E. unfold print_stmts in E.
  pose proof (roundtrip_lines (norm_list p) (wf_norm_list p Wp) (S (lsize p + lsize q))) as Ap.
  pose proof (roundtrip_lines (norm_list q) (wf_norm_list q Wq) (S (lsize p + lsize q))) as Aq.
  rewrite lsize_norm in Ap, Aq. rewrite E in Ap. rewrite Aq in Ap by lia. specialize (Ap ltac:(lia)). congruence.
Qed.

Corollary print_injective : forall p q, wf_list p = true -> wf_list q = true -> nf_list p = true -> nf_list q = true ->
  print_stmts p = print_stmts q -> p = q.
Proof.
  intros p q Wp Wq Np Nq E. rewrite <- (norm_list_nf p Np), <- (norm_list_nf q Nq). now apply print_injective_norm.
Qed.

(** a worked example: an ELSE IF chain around a loop whose unit step is not printed; the lines read back to [norm_list p] *)
Example ex_chain :
  let p := [FIf (ECmp Clt (EVar "a") (EInt 1)) [FSimple (MAssign "b" (EInt 1))]
              [FIf (ECmp Clt (EVar "a") (EInt 2)) [FComment "! c"]
                 [FDo "i" (EInt 1) (EVar "n") (Some (EInt 1)) [FIfInline (ELog true) (MCall "f" [EVar "b"])]] false] true] in
  wf_list p = true /\ nf_list p = false /\
  print_stmts p = [LIf (ECmp Clt (EVar "a") (EInt 1)); LSimple (MAssign "b" (EInt 1));
                   LElseIf (ECmp Clt (EVar "a") (EInt 2)); LComment "! c"; LElse;
                   LDo "i" (EInt 1) (EVar "n") None; LIfInline (ELog true) (MCall "f" [EVar "b"]); LEndDo; LEndIf] /\
  read_lines (fuel_for p) (print_stmts p) = Some (norm_list p).
Proof. vm_compute. repeat split. Qed.
