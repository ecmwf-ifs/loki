(** C01 — semantic level: statements whose expression slots are pointwise value-equal run identically;
    the frontend's tree for a parse tree has the parse tree's value; parentheses / unit steps do not matter;
    composition with C06's theorem. *)
From Coq Require Import ZArith List Bool String Lia.
From LV Require Import Base.Expr Base.ListFacts Base.ExprFacts Base.MiniF Base.MiniFFacts models.M_C06 proofs.P_C06_base
                       proofs.P_C06 models.M_C01 proofs.P_C01.
Import ListNotations.
Open Scope Z_scope.

Definition zeq (e e' : expr) : Prop := forall rho, evalZ rho e = evalZ rho e'.
Definition beq (e e' : expr) : Prop := forall rho, evalB rho e = evalB rho e'.
Definition areq (e e' : expr) : Prop := is_var e = is_var e' /\ zeq e e'.
Definition stepval (rho : env) (st : option expr) : option Z :=
  match st with None => Some 1 | Some e => evalZ rho e end.
Definition ozeq (a b : option expr) : Prop := forall rho, stepval rho a = stepval rho b.

Inductive srel : stmt -> stmt -> Prop :=
| R_assign x e e' : zeq e e' -> srel (SAssign x e) (SAssign x e')
| R_store a i j e e' : Forall2 zeq i j -> zeq e e' -> srel (SStore a i e) (SStore a j e')
| R_do v lo lo' hi hi' st st' b b' : zeq lo lo' -> zeq hi hi' -> ozeq st st' -> Forall2 srel b b' ->
    srel (SDo v lo hi st b) (SDo v lo' hi' st' b')
| R_while c c' b b' : beq c c' -> Forall2 srel b b' -> srel (SWhile c b) (SWhile c' b')
| R_if c c' t t' e e' : beq c c' -> Forall2 srel t t' -> Forall2 srel e e' -> srel (SIf c t e) (SIf c' t' e')
| R_call f a a' : Forall2 areq a a' -> srel (SCall f a) (SCall f a')
| R_skip l l' : srel (SSkip l) (SSkip l').

Lemma eval_idx_ext s i j : Forall2 zeq i j -> eval_idx s i = eval_idx s j.
Proof.
  unfold eval_idx. induction 1 as [|x y r q H _ IH]; [reflexivity|]. cbn [omap_list]. now rewrite (H (env_st s)), IH.
Qed.

Lemma is_var_some e a : is_var e = Some a -> e = EVar a.
Proof. destruct e; cbn; try discriminate. congruence. Qed.

Lemma areq_cases e e' : areq e e' ->
  (exists x, e = EVar x /\ e' = EVar x) \/ (is_var e = None /\ is_var e' = None /\ zeq e e').
Proof.
  intros [Hv Hz]. destruct (is_var e) as [x|] eqn:E.
  - left. exists x. split; apply is_var_some; congruence.
  - right. repeat split; [congruence | exact Hz].
Qed.

Lemma copy_in_nonvar caller d fl ps e r callee : is_var e = None ->
  copy_in caller ((d, fl) :: ps) (e :: r) callee =
  if fl then None else obind (evalZ (env_st caller) e) (fun v => copy_in caller ps r (set_sv d v callee)).
Proof. destruct e, fl; try discriminate; reflexivity. Qed.

Lemma copy_out_nonvar callee d fl ps e r caller : is_var e = None ->
  copy_out callee ((d, fl) :: ps) (e :: r) caller = copy_out callee ps r caller.
Proof. destruct e, fl; try discriminate; reflexivity. Qed.

Lemma copy_in_ext caller a a' : Forall2 areq a a' ->
  forall params callee, copy_in caller params a callee = copy_in caller params a' callee.
Proof.
  induction 1 as [|e e' r q Hee _ IH]; intros params callee; [reflexivity|].
  destruct params as [|[d fl] ps]; [reflexivity|].
  destruct (areq_cases _ _ Hee) as [(x & -> & ->) | (E & E' & Hz)].
  - destruct fl; cbn [copy_in evalZ]; apply IH.
  - rewrite !copy_in_nonvar, (Hz (env_st caller)) by assumption. destruct fl; [reflexivity|].
    destruct (evalZ (env_st caller) e'); cbn [obind]; [apply IH | reflexivity].
Qed.

Lemma copy_out_ext callee a a' : Forall2 areq a a' ->
  forall params caller, copy_out callee params a caller = copy_out callee params a' caller.
Proof.
  induction 1 as [|e e' r q Hee _ IH]; intros params caller; [reflexivity|].
  destruct params as [|[d fl] ps]; [reflexivity|].
  destruct (areq_cases _ _ Hee) as [(x & -> & ->) | (E & E' & _)].
  - destruct fl; cbn [copy_out]; apply IH.
  - rewrite !copy_out_nonvar by assumption. apply IH.
Qed.

(** statements whose expressions are pointwise value-equal run identically (induction over the fuel) *)
Lemma exec_expr_ext ps : forall fuel p q s, Forall2 srel p q -> exec ps fuel p s = exec ps fuel q s.
Proof.
  induction fuel as [|f IH]; intros p q s H; [reflexivity|].
  destruct H as [|x y p' q' Hxy Hrest]; [reflexivity|].
  rewrite !exec_unfold.
  assert (E1 : exec1 ps f x s = exec1 ps f y s).
  { inversion Hxy as [x0 e e' He | a i j e e' Hi He | v lo lo' hi hi' st st' b b' Hlo Hhi Hst Hb
                     | c c' b b' Hc Hb | c c' t t' e e' Hc Ht He | g a a' Ha | l l']; subst; cbn [exec1].
    - now rewrite (He (env_st s)).
    - rewrite (eval_idx_ext s i j Hi). now rewrite (He (env_st s)).
    - rewrite (Hlo (env_st s)), (Hhi (env_st s)).
      change (match st with Some e => evalZ (env_st s) e | None => Some 1 end) with (stepval (env_st s) st).
      change (match st' with Some e => evalZ (env_st s) e | None => Some 1 end) with (stepval (env_st s) st').
      rewrite (Hst (env_st s)).
      destruct (evalZ (env_st s) lo') as [a0|]; cbn [obind]; [|reflexivity].
      destruct (evalZ (env_st s) hi') as [b0|]; cbn [obind]; [|reflexivity].
      destruct (stepval (env_st s) st') as [d0|]; cbn [obind]; [|reflexivity].
      destruct (d0 =? 0); [reflexivity|].
      apply do_loop_ext. intros s0. now apply IH.
    - rewrite (Hc (env_st s)). destruct (evalB (env_st s) c') as [[]|]; cbn [obind]; try reflexivity.
      rewrite (IH b b' s Hb). destruct (exec ps f b' s) as [s1|]; cbn [obind]; [|reflexivity].
      apply IH. constructor; [|constructor]. now constructor.
    - rewrite (Hc (env_st s)). destruct (evalB (env_st s) c') as [[]|]; cbn [obind]; try reflexivity; now apply IH.
    - destruct (find_proc ps g) as [pr|]; cbn [obind]; [|reflexivity].
      rewrite (copy_in_ext s a a' Ha (p_params pr) empty_store).
      destruct (copy_in s (p_params pr) a' empty_store) as [s0|]; cbn [obind]; [|reflexivity].
      destruct (exec ps f (p_body pr) s0) as [s1|]; cbn [obind]; [|reflexivity].
      now rewrite (copy_out_ext s1 a a' Ha).
    - reflexivity. }
  rewrite E1. destruct (exec1 ps f y s) as [s1|]; cbn [obind]; [now apply IH|reflexivity].
Qed.

Lemma equiv_of_srel ps p q : Forall2 srel p q -> equiv ps p q.
Proof.
  intros H s s'. split; intros [f E]; exists f.
  - now rewrite <- (exec_expr_ext ps f p q s H).
  - now rewrite (exec_expr_ext ps f p q s H).
Qed.

Section fx_ind'.
  Variable P : fx -> Prop.
  Hypothesis HInt : forall n, P (FInt n).
  Hypothesis HVar : forall x, P (FVar x).
  Hypothesis HLog : forall b, P (FLog b).
  Hypothesis HNeg : forall a, P a -> P (FNeg a).
  Hypothesis HNot : forall a, P a -> P (FNot a).
  Hypothesis HBin : forall op a b, P a -> P b -> P (FBin op a b).
  Hypothesis HCmp : forall op a b, P a -> P b -> P (FCmp op a b).
  Hypothesis HCall : forall f args, Forall P args -> P (FCall f args).
  Fixpoint fx_ind' (t : fx) : P t :=
    let fix go (l : list fx) : Forall P l :=
      match l with [] => Forall_nil P | x :: r => Forall_cons x (fx_ind' x) (go r) end in
    match t with
    | FInt n => HInt n | FVar x => HVar x | FLog b => HLog b
    | FNeg a => HNeg a (fx_ind' a) | FNot a => HNot a (fx_ind' a)
    | FBin op a b => HBin op a b (fx_ind' a) (fx_ind' b)
    | FCmp op a b => HCmp op a b (fx_ind' a) (fx_ind' b)
    | FCall f args => HCall f args (go args)
    end.
End fx_ind'.

Lemma evalZ_fx rho : forall t, evalZ rho (fx_to_expr t) = evalF rho t.
Proof.
  induction t as [n|x|b|a IH|a IH|op a b IHa IHb|op a b IHa IHb|f args IH] using fx_ind'; try reflexivity.
  - cbn [fx_to_expr]. rewrite evalZ_prod_fold. cbn [fold_right evalZ]. rewrite IH, omul_1_r, omul_m1_l. reflexivity.
  - destruct op; cbn [fx_to_expr].
    + rewrite evalZ_sum_fold. cbn [fold_right]. now rewrite IHa, IHb, oadd_0_r.
    + rewrite evalZ_sum_fold. cbn [fold_right]. rewrite oadd_0_r, evalZ_prod_fold. cbn [fold_right evalZ].
      now rewrite IHa, IHb, omul_1_r, omul_m1_l, oadd_neg.
    + rewrite evalZ_prod_fold. cbn [fold_right]. now rewrite IHa, IHb, omul_1_r.
    + cbn [evalZ evalF]. now rewrite IHa, IHb.
    + cbn [evalZ evalF]. now rewrite IHa, IHb.
    + reflexivity.
    + reflexivity.
  - cbn [fx_to_expr evalZ evalF].
    match goal with |- obind ?a _ = obind ?b _ => assert (E : a = b) end.
    { induction IH as [|x r Hx _ IHr]; [reflexivity|]. cbn [map]. now rewrite Hx, IHr. }
    now rewrite E.
Qed.

Lemma evalB_fx rho : forall t, evalB rho (fx_to_expr t) = evalFB rho t.
Proof.
  induction t as [n|x|b|a IH|a IH|op a b IHa IHb|op a b IHa IHb|f args IH] using fx_ind'; try reflexivity.
  - cbn [fx_to_expr evalB evalFB]. now rewrite IH.
  - destruct op; cbn [fx_to_expr]; try reflexivity.
    + rewrite evalB_and_fold. cbn [fold_right]. now rewrite IHa, IHb, oand_true_r.
    + rewrite evalB_or_fold. cbn [fold_right]. now rewrite IHa, IHb, oor_false_r.
  - cbn [fx_to_expr evalB evalFB]. now rewrite !evalZ_fx.
Qed.

Lemma fx_to_expr_var t b : fx_to_expr t = EVar b -> t = FVar b.
Proof. destruct t as [| | | | |op ? ?| |]; try destruct op; cbn; try discriminate. congruence. Qed.

(** a token list that derives a bare variable consists of that variable, parentheses and unary plus:
    the only rules whose tree can be [FVar] are the variable itself, the level inclusions, [G_paren] and [G_pos] *)
Lemma G_var_toks l ts t : G l ts t -> forall b, t = FVar b -> only_var_toks ts = true.
Proof.
  induction 1; intros b0 Hb;
    try discriminate                (* the tree is not a variable *);
    try (now eapply IHG; eauto)     (* level inclusions *);
    try reflexivity                 (* the variable itself *).
  (* left: [G_paren] and [G_pos], which add parentheses resp. a plus around the inner text *)
  all: unfold only_var_toks in *; cbn [forallb]; rewrite ?forallb_app; cbn [forallb]; rewrite (IHG _ Hb); reflexivity.
Qed.

(** re-reading one expression slot: C06's theorem, and the frontend's tree has the value of the parse tree *)
Definition slot_z (e e' : expr) : Prop := slot_rr e e' /\ zeq e e'.
Definition slot_b (e e' : expr) : Prop := slot_rr e e' /\ beq e e'.
Definition slot_a (e e' : expr) : Prop := slot_rr e e' /\ areq e e'.

Lemma reread_arith e : arith_safe e = true -> exists e', slot_z e e'.
Proof.
  intros H. destruct (print_denotes_arith e H) as (t & HG & Hv).
  exists (fx_to_expr t). split; [now exists t|]. intros rho. now rewrite evalZ_fx, Hv.
Qed.

Lemma reread_logic e : logic_safe e = true -> exists e', slot_b e e'.
Proof.
  intros H. destruct (print_denotes_logic e H) as (t & HG & Hv).
  exists (fx_to_expr t). split; [now exists t|]. intros rho. now rewrite evalB_fx, Hv.
Qed.

Lemma reread_arg e : arg_ok e = true -> exists e', slot_a e e'.
Proof.
  unfold arg_ok. intros H. apply andb_true_iff in H. destruct H as [Ha Hv].
  destruct (is_evar e) eqn:Ev.
  - destruct e; try discriminate. exists (EVar x). split; [|split; [reflexivity|intros rho; reflexivity]].
    exists (FVar x). split; [|reflexivity]. apply G_to_expr with LPrim. constructor.
  - cbn [orb] in Hv. destruct (reread_arith e Ha) as (e' & [t [HG ->]] & Hz).
    exists (fx_to_expr t). split; [now exists t|]. split; [|exact Hz].
    assert (E : is_var e = None) by (destruct e; try reflexivity; discriminate). rewrite E.
    destruct (is_var (fx_to_expr t)) as [b|] eqn:E'; [|reflexivity].
    apply is_var_some in E'. apply fx_to_expr_var in E'.
    rewrite (G_var_toks _ _ _ HG b E') in Hv. discriminate.
Qed.

Section frel.
  Variables Rz Rb Ra : expr -> expr -> Prop.
  Definition mrel (m m' : simple) : Prop :=
    match m, m' with
    | MAssign x e, MAssign y e' => x = y /\ Rz e e'
    | MStore a i e, MStore b j e' => a = b /\ Forall2 Rz i j /\ Rz e e'
    | MCall f a, MCall g b => f = g /\ Forall2 Ra a b
    | _, _ => False
    end.
  Inductive frel : fstmt -> fstmt -> Prop :=
  | FR_simple m m' : mrel m m' -> frel (FSimple m) (FSimple m')
  | FR_do v lo lo' hi hi' st st' b b' : Rz lo lo' -> Rz hi hi' -> orel Rz st st' -> Forall2 frel b b' ->
      frel (FDo v lo hi st b) (FDo v lo' hi' st' b')
  | FR_while c c' b b' : Rb c c' -> Forall2 frel b b' -> frel (FWhile c b) (FWhile c' b')
  | FR_if c c' t t' e e' fl : Rb c c' -> Forall2 frel t t' -> Forall2 frel e e' -> frel (FIf c t e fl) (FIf c' t' e' fl)
  | FR_inline c c' m m' : Rb c c' -> mrel m m' -> frel (FIfInline c m) (FIfInline c' m')
  | FR_comment s : frel (FComment s) (FComment s).
End frel.

Lemma mrel_exists m : simple_safe m = true -> exists m', mrel slot_z slot_a m m'.
Proof.
  destruct m as [x e|a i e|f a]; cbn [simple_safe]; intros H.
  - destruct (reread_arith e H) as [e' He]. exists (MAssign x e'). cbn. auto.
  - apply andb_true_iff in H. destruct H as [Hi He].
    destruct (Forall2_exists slot_z arith_safe i (Forall_all _ reread_arith i) Hi) as [i' Hi'].
    destruct (reread_arith e He) as [e' He']. exists (MStore a i' e'). cbn. auto.
  - destruct (Forall2_exists slot_a arg_ok a (Forall_all _ reread_arg a) H) as [a' Ha']. exists (MCall f a'). cbn. auto.
Qed.

Lemma step_exists st : step_plain st = true -> exists st', orel slot_z st st'.
Proof.
  destruct st as [e|]; cbn [step_plain]; intros H; [|exists None; exact I].
  apply andb_true_iff in H. destruct H as [H _]. destruct (reread_arith e H) as [e' He]. exists (Some e'). exact He.
Qed.

Lemma frel_exists : forall s, safe s = true -> exists s', frel slot_z slot_b slot_a s s'.
Proof.
  induction s as [m|v lo hi st b IHb|c b IHb|c t e fl IHt IHe|c m|x] using fstmt_ind'; cbn [safe]; intros H.
  - destruct (mrel_exists m H) as [m' Hm]. exists (FSimple m'). now constructor.
  - apply andb_prop in H as [[[Hlo Hhi]%andb_prop Hst]%andb_prop Hb].
    destruct (reread_arith lo Hlo) as [lo' ?]. destruct (reread_arith hi Hhi) as [hi' ?].
    destruct (step_exists st Hst) as [st' ?]. destruct (Forall2_exists _ _ b IHb Hb) as [b' ?].
    exists (FDo v lo' hi' st' b'). now constructor.
  - apply andb_prop in H as [Hc Hb].
    destruct (reread_logic c Hc) as [c' ?]. destruct (Forall2_exists _ _ b IHb Hb) as [b' ?].
    exists (FWhile c' b'). now constructor.
  - apply andb_prop in H as [[Hc Ht]%andb_prop He].
    destruct (reread_logic c Hc) as [c' ?]. destruct (Forall2_exists _ _ t IHt Ht) as [t' ?].
    destruct (Forall2_exists _ _ e IHe He) as [e' ?].
    exists (FIf c' t' e' fl). now constructor.
  - apply andb_prop in H as [Hc Hm].
    destruct (reread_logic c Hc) as [c' ?]. destruct (mrel_exists m Hm) as [m' ?].
    exists (FIfInline c' m'). now constructor.
  - exists (FComment x). constructor.
Qed.

(** what is proved about [frel] needs the slot relations only through what they imply *)
Section frel_facts.
  Variables Rz Rb Ra : expr -> expr -> Prop.

  Lemma frel_shape e e' fl : Forall2 (frel Rz Rb Ra) e e' ->
    shape_ok e' fl = shape_ok e fl /\ else_pre e' fl = else_pre e fl.
  Proof.
    intro H. destruct fl; [|destruct H; split; reflexivity]. split; [|reflexivity].
    destruct H as [|a a' r r' Ha Hr]; [reflexivity|]. destruct Hr; destruct Ha; reflexivity.
  Qed.

  Lemma frel_wf : forall s s', frel Rz Rb Ra s s' -> wf s = true -> wf s' = true.
  Proof.
    induction s as [m|v lo hi st b IHb|c b IHb|c t e fl IHt IHe|c m|x] using fstmt_ind'; intros s' H W; inversion H; subst;
      try reflexivity; cbn [wf] in *.
    - eapply Forall2_forallb; eassumption.
    - eapply Forall2_forallb; eassumption.
    - rewrite !andb_true_iff in *. destruct W as [[Wt We] Wsh].
      split; [split; eapply Forall2_forallb; eassumption|].
      change (shape_ok e' fl = true). now rewrite (proj1 (frel_shape e e' fl ltac:(eassumption))).
  Qed.

  Lemma frel_wf_list p q : Forall2 (frel Rz Rb Ra) p q -> wf_list p = true -> wf_list q = true.
  Proof. intros H. apply (Forall2_forallb _ wf wf p q H), Forall_all, frel_wf. Qed.

  Hypothesis Hz : forall e e', Rz e e' -> slot_rr e e'.
  Hypothesis Hb : forall e e', Rb e e' -> slot_rr e e'.
  Hypothesis Ha : forall e e', Ra e e' -> slot_rr e e'.

  Lemma mrel_simple_rr m m' : mrel Rz Ra m m' -> simple_rr m m'.
  Proof.
    destruct m, m'; cbn; try tauto.
    - intros [-> H]. auto.
    - intros [-> [Hi He]]. eauto using Forall2_impl.
    - intros [-> H]. eauto using Forall2_impl.
  Qed.

  Lemma lines_rr ei l l' :
    Forall (fun s => forall s', frel Rz Rb Ra s s' -> forall ei, Forall2 line_rr (lines1 ei s) (lines1 ei s')) l ->
    Forall2 (frel Rz Rb Ra) l l' -> Forall2 line_rr (flat_map (lines1 ei) l) (flat_map (lines1 ei) l').
  Proof.
    intros HF H2. induction H2 as [|a a' r r' Ha' Hr IH]; [constructor|].
    inversion HF; subst. cbn [flat_map]. apply Forall2_app; auto.
  Qed.

  Lemma frel_lines : forall s s', frel Rz Rb Ra s s' -> forall ei, Forall2 line_rr (lines1 ei s) (lines1 ei s').
  Proof.
    induction s as [m|v lo hi st b IHb|c b IHb|c t e fl IHt IHe|c m|x] using fstmt_ind'; intros s' H ei; inversion H; subst.
    - cbn [lines1]. constructor; [|constructor]. cbn. now apply mrel_simple_rr.
    - cbn [lines1]. constructor.
      + cbn. repeat split; auto. destruct st, st'; cbn in *; auto.
      + apply Forall2_app; [now apply lines_rr|]. repeat constructor.
    - cbn [lines1]. constructor; [cbn; auto|].
      apply Forall2_app; [now apply lines_rr|]. repeat constructor.
    - rewrite !lines1_if, !else_part_shape. constructor; [destruct ei; cbn; auto|].
      apply Forall2_app; [now apply lines_rr|].
      destruct (frel_shape e e' fl ltac:(eassumption)) as [-> ->]. destruct (shape_ok e fl); [|repeat constructor].
      apply Forall2_app; [unfold else_pre; destruct fl, e; repeat constructor|].
      apply Forall2_app; [now apply lines_rr | destruct fl; repeat constructor].
    - cbn [lines1]. constructor; [|constructor]. cbn. split; [auto|now apply mrel_simple_rr].
    - cbn [lines1]. constructor; [reflexivity|constructor].
  Qed.

  Lemma frel_lines_list p q : Forall2 (frel Rz Rb Ra) p q -> Forall2 line_rr (lines_of p) (lines_of q).
  Proof. apply lines_rr, Forall_all, frel_lines. Qed.
End frel_facts.

Section frel_srel.
  Variables Rz Rb Ra : expr -> expr -> Prop.
  Hypothesis Hz : forall e e', Rz e e' -> zeq e e'.
  Hypothesis Hb : forall e e', Rb e e' -> beq e e'.
  Hypothesis Ha : forall e e', Ra e e' -> areq e e'.

  Lemma mrel_srel m m' : mrel Rz Ra m m' -> srel (erase_simple m) (erase_simple m').
  Proof.
    destruct m, m'; cbn; try tauto.
    - intros [<- H]. constructor; auto.
    - intros [<- [H1 H2]]. constructor; eauto using Forall2_impl.
    - intros [<- H]. constructor; eauto using Forall2_impl.
  Qed.

  Lemma frel_srel : forall s s', frel Rz Rb Ra s s' -> srel (erase s) (erase s').
  Proof.
    induction s as [m|v lo hi st b IHb|c b IHb|c t e fl IHt IHe|c m|x] using fstmt_ind'; intros s' H; inversion H; subst; cbn [erase].
    - now apply mrel_srel.
    - constructor; eauto using Forall2_maps2.
      intro rho. destruct st, st'; cbn in *; try tauto. now apply Hz.
    - constructor; eauto using Forall2_maps2.
    - constructor; eauto using Forall2_maps2.
    - constructor; auto. constructor; [now apply mrel_srel|constructor].
    - constructor.
  Qed.

  Lemma frel_srel_list p q : Forall2 (frel Rz Rb Ra) p q -> Forall2 srel (erase_list p) (erase_list q).
  Proof. intro H. apply (Forall2_maps2 (frel Rz Rb Ra) srel erase erase p q); [apply Forall_all, frel_srel | exact H]. Qed.
End frel_srel.

(** a general way to get [srel]: apply a value-preserving map to every expression *)
Section map_sem.
  Variable f : expr -> expr.
  Hypothesis fz : forall e, zeq e (f e).
  Hypothesis fb : forall e, beq e (f e).
  Hypothesis fv : forall e, is_var (f e) = is_var e.

  Lemma map_zeq l : Forall2 zeq l (map f l).
  Proof. induction l; constructor; auto. Qed.
  Lemma map_areq l : Forall2 areq l (map f l).
  Proof. induction l; constructor; auto. split; [symmetry; apply fv|apply fz]. Qed.

  Lemma map_simple_srel m : srel (erase_simple m) (erase_simple (map_simple f m)).
  Proof. destruct m; cbn; constructor; auto using map_zeq, map_areq. Qed.

  Lemma map_exprs_srel : forall s, srel (erase s) (erase (map_exprs f s)).
  Proof.
    induction s as [m|v lo hi st b IHb|c b IHb|c t e fl IHt IHe|c m|x] using fstmt_ind'; cbn [map_exprs erase];
      rewrite ?map_map.
    - apply map_simple_srel.
    - constructor; auto using Forall2_maps. intros rho. destruct st; cbn; [apply fz|reflexivity].
    - constructor; auto using Forall2_maps.
    - constructor; auto using Forall2_maps.
    - constructor; auto. constructor; [apply map_simple_srel|constructor].
    - constructor.
  Qed.

  Lemma map_exprs_srel_list p : Forall2 srel (erase_list p) (erase_list (map (map_exprs f) p)).
  Proof. unfold erase_list. rewrite map_map. apply Forall2_maps, Forall_all, map_exprs_srel. Qed.
End map_sem.

Lemma strip_parens_sem rho : forall e, evalZ rho e = evalZ rho (strip_parens e) /\ evalB rho e = evalB rho (strip_parens e).
Proof.
  induction e as [v|v|x|b|p cs IH|p cs IH|p n d IHn IHd|p b x IHb IHx|op l r IHl IHr|cs IH|cs IH|a IH|f args IH] using expr_ind';
    cbn [strip_parens]; try (split; reflexivity).
  - split; [|reflexivity]. apply (fold_obind_ext (evalZ rho) (evalZ rho) strip_parens), (Forall_impl _ (fun a H => proj1 H) IH).
  - split; [|reflexivity]. apply (fold_obind_ext (evalZ rho) (evalZ rho) strip_parens), (Forall_impl _ (fun a H => proj1 H) IH).
  - split; [|reflexivity]. cbn [evalZ]. destruct IHn as [<- _], IHd as [<- _]. reflexivity.
  - split; [|reflexivity]. cbn [evalZ]. destruct IHb as [<- _], IHx as [<- _]. reflexivity.
  - split; [reflexivity|]. cbn [evalB]. destruct IHl as [<- _], IHr as [<- _]. reflexivity.
  - split; [reflexivity|]. apply (fold_obind_ext (evalB rho) (evalB rho) strip_parens), (Forall_impl _ (fun a H => proj2 H) IH).
  - split; [reflexivity|]. apply (fold_obind_ext (evalB rho) (evalB rho) strip_parens), (Forall_impl _ (fun a H => proj2 H) IH).
  - split; [reflexivity|]. cbn [evalB]. destruct IH as [_ <-]. reflexivity.
  - split; [|reflexivity]. rewrite !evalZ_call. f_equal. apply omap_list_ext_map, (Forall_impl _ (fun a H => proj1 H) IH).
Qed.

Lemma strip_parens_var e : is_var (strip_parens e) = is_var e.
Proof. destruct e; reflexivity. Qed.

(** explicit parentheses (Parenthesised* classes) do not change the behaviour *)
Theorem paren_sem ps p : equiv ps (erase_list p) (erase_list (map (map_exprs strip_parens) p)).
Proof.
  apply equiv_of_srel. apply map_exprs_srel_list.
  - intros e rho. apply strip_parens_sem.
  - intros e rho. apply strip_parens_sem.
  - apply strip_parens_var.
Qed.

(** dropping a unit step does not change the behaviour *)
Lemma norm_step_ozeq st : step_plain st = true -> ozeq st (norm_step st).
Proof.
  destruct st as [e|]; cbn [step_plain norm_step]; intros H rho; [|reflexivity].
  apply andb_true_iff in H. destruct H as [_ H]. destruct (unit_step e); [|reflexivity].
  cbn [negb orb] in H. destruct e as [v|v| | | | | | | | | | |]; try discriminate.
  - destruct v as [|[]|]; try discriminate. reflexivity.
  - destruct v as [|[]|]; try discriminate. reflexivity.
Qed.

Lemma zeq_refl e : zeq e e. Proof. intros rho. reflexivity. Qed.
Lemma beq_refl e : beq e e. Proof. intros rho. reflexivity. Qed.
Lemma Forall2_diag {A} (R : A -> A -> Prop) : (forall x, R x x) -> forall l, Forall2 R l l.
Proof. intros H l. induction l; constructor; auto. Qed.

Lemma srel_refl_simple m : srel (erase_simple m) (erase_simple m).
Proof.
  destruct m; cbn; constructor; auto using zeq_refl.
  - apply Forall2_diag, zeq_refl.
  - apply Forall2_diag. intros e. split; [reflexivity|apply zeq_refl].
Qed.

Lemma norm_srel : forall s, safe s = true -> srel (erase s) (erase (norm s)).
Proof.
  assert (L : forall l, Forall (fun s => safe s = true -> srel (erase s) (erase (norm s))) l -> forallb safe l = true ->
              Forall2 srel (map erase l) (map erase (map norm l))).
  { intros l H Hs. rewrite map_map. apply Forall2_maps, (Forall_impl_forallb _ _ _ H Hs). }
  induction s as [m|v lo hi st b IHb|c b IHb|c t e fl IHt IHe|c m|x] using fstmt_ind'; cbn [safe norm erase]; intros H.
  - apply srel_refl_simple.
  - apply andb_prop in H as [[_ Hst]%andb_prop Hb]. constructor; auto using zeq_refl. now apply norm_step_ozeq.
  - apply andb_prop in H as [_ Hb]. constructor; auto using beq_refl.
  - apply andb_prop in H as [[_ Ht]%andb_prop He]. constructor; auto using beq_refl.
  - constructor; auto using beq_refl. constructor; [apply srel_refl_simple|constructor].
  - constructor.
Qed.

Theorem norm_sem ps p : safe_list p = true -> equiv ps (erase_list p) (erase_list (norm_list p)).
Proof.
  intros H. apply equiv_of_srel. unfold erase_list, norm_list. rewrite map_map.
  apply Forall2_maps, (Forall_impl_forallb safe); [apply Forall_all, norm_srel | exact H].
Qed.

Lemma safe_norm : forall s, safe s = true -> safe (norm s) = true.
Proof.
  induction s as [m|v lo hi st b IHb|c b IHb|c t e fl IHt IHe|c m|x] using fstmt_ind'; cbn [safe norm]; intros H; auto.
  - apply andb_prop in H as [[Hlh Hst]%andb_prop Hb].
    rewrite Hlh, (forallb_map_impl _ _ _ _ IHb Hb), andb_true_r. cbn [andb].
    destruct st as [e|]; [|reflexivity]. cbn [norm_step]. destruct (unit_step e) eqn:E; [reflexivity|].
    cbn [step_plain] in *. rewrite E in *. exact Hst.
  - apply andb_prop in H as [Hc Hb]. now rewrite Hc, (forallb_map_impl _ _ _ _ IHb Hb).
  - apply andb_prop in H as [[Hc Ht]%andb_prop He].
    now rewrite Hc, (forallb_map_impl _ _ _ _ IHt Ht), (forallb_map_impl _ _ _ _ IHe He).
Qed.

Lemma safe_norm_list p : safe_list p = true -> safe_list (norm_list p) = true.
Proof. apply forallb_map_impl, Forall_all, safe_norm. Qed.

(** Composition: printing, re-reading every expression slot through the grammar, reading the lines back *)
Theorem regen_preserves ps p : wf_list p = true -> safe_list p = true ->
  exists ls' q,
    Forall2 line_rr (print_stmts p) ls' /\
    (forall fuel, (lsize q < fuel)%nat -> read_lines fuel ls' = Some q) /\
    equiv ps (erase_list p) (erase_list q).
Proof.
  intros W S.
  pose proof (wf_norm_list p W) as W1. pose proof (safe_norm_list p S) as S1.
  destruct (Forall2_exists _ safe _ (Forall_all _ frel_exists _) S1) as [q Hq].
  exists (lines_of q), q. split; [|split].
  - unfold print_stmts. apply (frel_lines_list slot_z slot_b slot_a); [intros e e' [H _]; exact H .. | exact Hq].
  - intros fuel Hf. apply roundtrip_lines; [|exact Hf]. eapply frel_wf_list; eassumption.
  - eapply equiv_trans; [apply norm_sem; exact S|].
    apply equiv_of_srel, (frel_srel_list slot_z slot_b slot_a); [intros e e' [_ H]; exact H .. | exact Hq].
Qed.

(** the class is inhabited by a non-trivial program *)
Definition ex_prog : list fstmt :=
  [FDo "i" (EInt 1) (EVar "n") (Some (EInt 1))
     [FIf (ECmp Clt (ECall "x" [EVar "i"]) (EProd false [EPy (-1); EVar "a"]))
        [FSimple (MStore "x" [EVar "i"] (ESum false [EVar "a"; EProd false [EPy (-1); ESum true [EVar "b"; EInt 2]]]))]
        [FIf (ECmp Ceq (EVar "a") (EInt 0)) [FSimple (MCall "f" [EVar "a"; ESum false [EVar "b"; EInt 1]])] [FComment "! else"] false]
        true];
   FWhile (ECmp Clt (EVar "a") (EInt 3)) [FIfInline (ELog true) (MAssign "a" (ESum false [EVar "a"; EInt 1]))]].

Example ex_prog_in_class : wf_list ex_prog = true /\ safe_list ex_prog = true /\ nf_list ex_prog = false.
Proof. vm_compute. repeat split. Qed.

(** outside the class: an actual argument [(x)] (ParenthesisedAdd with one child) is re-read as the variable [x] *)
Example paren_arg_outside : arg_ok (ESum true [EVar "x"]) = false /\
  reread_expr (ESum true [EVar "x"]) = Some (EVar "x").
Proof. vm_compute. split; reflexivity. Qed.
