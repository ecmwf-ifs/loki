(** C02 — the round trip as a fixpoint: statement level from C01's reader, expression slots through any reader [r]
    whose per-slot behaviour is known (text preserved / tree preserved).
    The file defines [line_all] (all slots of a printed line), [reads] (a slot the reader accepts) and the example
    members [ex_fe], [ex_fe_logic], [ex_prog_fe] of the classes. *)
From Coq Require Import ZArith List Bool String Lia.
From LV Require Import Base.Expr Base.ListFacts Base.ExprFacts Base.MiniF models.M_C06 models.M_C01 models.M_C02 proofs.P_C06_base proofs.P_C01.
Import ListNotations.
Open Scope Z_scope.

Lemma fix_with_spec r e : fix_with r e = true ->
  r e = Some (total r e) /\ print_f (total r e) PREC_NONE = print_f e PREC_NONE.
Proof.
  unfold fix_with, total. destruct (r e) as [e'|]; [|discriminate]. intros E. split; [reflexivity|now apply toks_eqb_eq].
Qed.

Lemma id_with_spec r e : id_with r e = true -> r e = Some e /\ total r e = e.
Proof.
  unfold id_with, total. destruct (r e) as [e'|]; [|discriminate]. intros E. apply expr_eqb_eq in E. now subst.
Qed.

Lemma id_with_fix r e : id_with r e = true -> fix_with r e = true.
Proof.
  intros H. destruct (id_with_spec r e H) as [E _]. unfold fix_with. rewrite E. apply toks_eqb_refl.
Qed.

Definition line_all (ok : expr -> bool) (l : line) : bool :=
  match l with
  | LSimple m => simple_all ok m
  | LDo _ lo hi st => ok lo && ok hi && ostep_all ok st
  | LWhile c | LIf c | LElseIf c => ok c
  | LIfInline c m => ok c && simple_all ok m
  | _ => true
  end.

(** Four inductions over statements below ([lines_all], [lines1_map], [size_le_lines], [norm_map]) meet nested statement
    lists.  Each has its list step proved first, from the induction hypothesis on the elements ([lines_all_list_step],
    [lines1_map_list_step], [size_le_lines_list_step], [norm_map_list_step]; the first three for the list printed in any
    mode [ei]); applied to the finished lemma the step gives the program-level form ([lines_all_list], [lines_of_map],
    [lsize_le_lines], [norm_map_list]). *)
Lemma lines_all_list_step (ok : expr -> bool) ei l :
  Forall (fun s => slots_all ok s = true -> forall ei, forallb (line_all ok) (lines1 ei s) = true) l ->
  forallb (slots_all ok) l = true -> forallb (line_all ok) (flat_map (lines1 ei) l) = true.
Proof.
  intros H Hs. rewrite forallb_flat_map. apply forallb_Forall.
  eapply Forall_impl; [|exact (Forall_impl_forallb _ _ _ H Hs)]. intros s Hq. apply Hq.
Qed.

Lemma lines_all (ok : expr -> bool) : forall s, slots_all ok s = true -> forall ei, forallb (line_all ok) (lines1 ei s) = true.
Proof.
  induction s as [m|v lo hi st b IHb|c b IHb|c t e fl IHt IHe|c m|x] using fstmt_ind'; cbn [slots_all]; intros H ei.
  - cbn. now rewrite H.
  - apply andb_prop in H as [H Hb]. cbn [lines1 forallb line_all].
    rewrite H, forallb_app, (lines_all_list_step ok false b IHb Hb). reflexivity.
  - apply andb_prop in H as [H Hb]. cbn [lines1 forallb line_all].
    rewrite H, forallb_app, (lines_all_list_step ok false b IHb Hb). reflexivity.
  - apply andb_prop in H as [[Hc Ht]%andb_prop He]. rewrite lines1_if, else_part_shape. unfold lines_of. cbn [forallb].
    replace (line_all ok (if ei then LElseIf c else LIf c)) with (ok c) by now destruct ei.
    rewrite Hc, forallb_app, (lines_all_list_step ok false t IHt Ht). cbn [andb].
    destruct (shape_ok e fl); [|reflexivity]. rewrite !forallb_app, (lines_all_list_step ok fl e IHe He). now destruct fl, e.
  - apply andb_prop in H as [Hc Hm]. cbn. now rewrite Hc, Hm.
  - reflexivity.
Qed.

Lemma lines_all_list ok p : slots_all_list ok p = true -> forallb (line_all ok) (lines_of p) = true.
Proof. apply lines_all_list_step, Forall_forall. intros s _. apply lines_all. Qed.

Definition reads (r : expr -> option expr) (e : expr) : bool := match r e with Some _ => true | None => false end.

Lemma reads_total r e : reads r e = true -> r e = Some (total r e).
Proof. unfold reads, total. destruct (r e); [reflexivity|discriminate]. Qed.

Lemma omap_total (r : expr -> option expr) l :
  forallb (reads r) l = true -> omap r l = Some (map (total r) l).
Proof.
  induction l as [|x q IH]; intros E; [reflexivity|]. cbn in E. apply andb_prop in E as [E1 E2].
  cbn [omap map]. now rewrite (reads_total r x E1), (IH E2).
Qed.

Lemma rr_simple_total r m : simple_all (reads r) m = true -> rr_simple r m = Some (map_simple (total r) m).
Proof.
  destruct m as [x e|a i e|f a]; cbn [simple_all rr_simple map_simple]; intros H.
  - now rewrite (reads_total r e H).
  - apply andb_prop in H as [Hi He]. now rewrite (omap_total r i Hi), (reads_total r e He).
  - now rewrite (omap_total r a H).
Qed.

Lemma rr_line_total r l : line_all (reads r) l = true -> rr_line r l = Some (map_line (total r) l).
Proof.
  destruct l; cbn [line_all rr_line map_line]; intros H; try reflexivity.
  - now rewrite (rr_simple_total r m H).
  - apply andb_prop in H as [[Hlo Hhi]%andb_prop Hst].
    rewrite (reads_total r lo Hlo), (reads_total r hi Hhi). destruct st as [e|]; cbn in *; [|reflexivity].
    now rewrite (reads_total r e Hst).
  - now rewrite (reads_total r c H).
  - now rewrite (reads_total r c H).
  - now rewrite (reads_total r c H).
  - apply andb_prop in H as [Hc Hm]. now rewrite (reads_total r c Hc), (rr_simple_total r m Hm).
Qed.

Lemma omap_lines r ls : forallb (line_all (reads r)) ls = true -> omap (rr_line r) ls = Some (map (map_line (total r)) ls).
Proof.
  induction ls as [|l q IH]; intros E; [reflexivity|]. cbn in E. apply andb_prop in E as [E1 E2].
  cbn [omap map]. now rewrite (rr_line_total r l E1), (IH E2).
Qed.

(** line level: a larger slot class, and maps that fix every slot of the class *)
Lemma line_all_impl (ok ok' : expr -> bool) : (forall e, ok e = true -> ok' e = true) ->
  forall l, line_all ok l = true -> line_all ok' l = true.
Proof.
  intros Himp.
  assert (Lf : forall l, forallb ok l = true -> forallb ok' l = true) by (intro l; rewrite !forallb_forall; auto).
  assert (Ls : forall m, simple_all ok m = true -> simple_all ok' m = true).
  { destruct m; cbn; auto. intros [Hi He]%andb_prop. now rewrite (Lf _ Hi), (Himp _ He). }
  destruct l; cbn [line_all]; auto.
  - intros [[Hlo Hhi]%andb_prop Hst]%andb_prop. rewrite (Himp _ Hlo), (Himp _ Hhi). destruct st; cbn in *; auto.
  - intros [Hc Hm]%andb_prop. now rewrite (Himp _ Hc), (Ls _ Hm).
Qed.

Lemma map_line_id (ok : expr -> bool) f : (forall e, ok e = true -> f e = e) ->
  forall l, line_all ok l = true -> map_line f l = l.
Proof.
  intros Hf.
  assert (Lf : forall l, forallb ok l = true -> map f l = l).
  { intros l H. apply map_id_Forall. apply forallb_Forall in H. exact (Forall_impl _ Hf H). }
  assert (Ls : forall m, simple_all ok m = true -> map_simple f m = m).
  { destruct m; cbn; intros E; [|apply andb_prop in E as [E1 E]|]; now rewrite ?(Lf _ E1), ?(Lf _ E), ?(Hf _ E). }
  destruct l; cbn [line_all map_line]; intros H; try reflexivity.
  - now rewrite (Ls _ H).
  - apply andb_prop in H as [[Hlo Hhi]%andb_prop Hst]. rewrite (Hf _ Hlo), (Hf _ Hhi).
    destruct st; cbn in *; now rewrite ?(Hf _ Hst).
  - now rewrite (Hf _ H).
  - now rewrite (Hf _ H).
  - now rewrite (Hf _ H).
  - apply andb_prop in H as [Hc Hm]. now rewrite (Hf _ Hc), (Ls _ Hm).
Qed.

Lemma shape_map_exprs f e fl :
  shape_ok (map (map_exprs f) e) fl = shape_ok e fl /\ else_pre (map (map_exprs f) e) fl = else_pre e fl.
Proof. destruct fl; [|destruct e; split; reflexivity]. split; [|reflexivity]. destruct e as [|[] []]; reflexivity. Qed.

Lemma lines1_map_list_step f ei l : Forall (fun s => forall ei, lines1 ei (map_exprs f s) = map (map_line f) (lines1 ei s)) l ->
  flat_map (lines1 ei) (map (map_exprs f) l) = map (map_line f) (flat_map (lines1 ei) l).
Proof.
  intro H. rewrite flat_map_map, map_flat_map. apply flat_map_ext_Forall.
  eapply Forall_impl; [|exact H]. intros s Hs. apply Hs.
Qed.

Lemma lines1_map f : forall s ei, lines1 ei (map_exprs f s) = map (map_line f) (lines1 ei s).
Proof.
  induction s as [m|v lo hi st b IHb|c b IHb|c t e fl IHt IHe|c m|x] using fstmt_ind'; intros ei; cbn [map_exprs]; try reflexivity.
  - cbn [lines1 map map_line]. now rewrite map_app, (lines1_map_list_step f false b IHb).
  - cbn [lines1 map map_line]. now rewrite map_app, (lines1_map_list_step f false b IHb).
  - rewrite !lines1_if, !else_part_shape. destruct (shape_map_exprs f e fl) as [-> ->]. unfold lines_of.
    rewrite (lines1_map_list_step f false t IHt), (lines1_map_list_step f fl e IHe). cbn [map]. rewrite map_app.
    f_equal; [now destruct ei|]. f_equal. destruct (shape_ok e fl); [|reflexivity].
    rewrite !map_app. f_equal; [now destruct fl, e|]. f_equal. now destruct fl.
Qed.

Lemma lines_of_map f p : lines_of (map (map_exprs f) p) = map (map_line f) (lines_of p).
Proof. apply lines1_map_list_step, Forall_forall. intros s _. apply lines1_map. Qed.

Lemma wf_map f : forall s, wf (map_exprs f s) = wf s.
Proof.
  assert (L : forall l, Forall (fun s => wf (map_exprs f s) = wf s) l -> forallb wf (map (map_exprs f) l) = forallb wf l).
  { intros l H. rewrite forallb_map. apply forallb_ext_Forall, H. }
  induction s as [m|v lo hi st b IHb|c b IHb|c t e fl IHt IHe|c m|x] using fstmt_ind'; cbn [map_exprs wf]; auto.
  rewrite (L t IHt), (L e IHe). f_equal. exact (proj1 (shape_map_exprs f e fl)).
Qed.

Lemma wf_map_list f p : wf_list (map (map_exprs f) p) = wf_list p.
Proof. unfold wf_list. rewrite forallb_map. apply forallb_ext, wf_map. Qed.

(** fuel: twice the number of printed lines bounds the size *)
Lemma size_le_lines_list_step ei l :
  Forall (fun s => wf s = true -> forall ei, (ssize s <= 2 * List.length (lines1 ei s))%nat) l ->
  forallb wf l = true -> (lsize l <= 2 * List.length (flat_map (lines1 ei) l))%nat.
Proof.
  induction 1 as [|a r Ha _ IH]; intros E; [cbn; lia|]. cbn in E. apply andb_prop in E as [E1 E2].
  rewrite lsize_cons. cbn [flat_map]. rewrite app_length. specialize (Ha E1 ei). specialize (IH E2). lia.
Qed.

Lemma size_le_lines : forall s, wf s = true -> forall ei, (ssize s <= 2 * List.length (lines1 ei s))%nat.
Proof.
  induction s as [m|v lo hi st b IHb|c b IHb|c t e fl IHt IHe|c m|x] using fstmt_ind'; intros W ei; try (cbn; lia);
    cbn [wf] in W.
  - cbn [lines1 ssize List.length]. fold (lsize b). rewrite app_length. pose proof (size_le_lines_list_step false b IHb W). cbn [List.length]. lia.
  - cbn [lines1 ssize List.length]. fold (lsize b). rewrite app_length. pose proof (size_le_lines_list_step false b IHb W). cbn [List.length]. lia.
  - apply andb_prop in W as [[Wt We]%andb_prop Wsh].
    rewrite ssize_if, lines1_if, else_part_shape, (Wsh : shape_ok e fl = true). unfold lines_of.
    cbn [List.length]. rewrite !app_length. pose proof (size_le_lines_list_step false t IHt Wt). pose proof (size_le_lines_list_step fl e IHe We). lia.
Qed.

Lemma lsize_le_lines p : wf_list p = true -> (lsize p <= 2 * List.length (lines_of p))%nat.
Proof. apply size_le_lines_list_step, Forall_forall. intros s _. apply size_le_lines. Qed.

Lemma unit_step_total r e : fix_with r e = true -> unit_step (total r e) = unit_step e.
Proof. intros H. destruct (fix_with_spec r e H) as [_ E]. unfold unit_step. now rewrite E. Qed.

Lemma norm_map_list_step r l :
  Forall (fun s => slots_all (fix_with r) s = true -> norm (map_exprs (total r) s) = map_exprs (total r) (norm s)) l ->
  forallb (slots_all (fix_with r)) l = true -> map norm (map (map_exprs (total r)) l) = map (map_exprs (total r)) (map norm l).
Proof. intros H Hs. rewrite !map_map. apply map_ext_in, Forall_forall, (Forall_impl_forallb _ _ _ H Hs). Qed.

Lemma norm_map r : forall s, slots_all (fix_with r) s = true -> norm (map_exprs (total r) s) = map_exprs (total r) (norm s).
Proof.
  induction s as [m|v lo hi st b IHb|c b IHb|c t e fl IHt IHe|c m|x] using fstmt_ind'; cbn [slots_all]; intros H; try reflexivity;
    cbn [map_exprs norm].
  - apply andb_prop in H as [[_ Hst]%andb_prop Hb]. rewrite (norm_map_list_step r b IHb Hb). f_equal.
    destruct st as [e|]; [|reflexivity]. cbn in Hst. cbn [option_map norm_step]. rewrite (unit_step_total r e Hst).
    destruct (unit_step e); reflexivity.
  - apply andb_prop in H as [_ Hb]. now rewrite (norm_map_list_step r b IHb Hb).
  - apply andb_prop in H as [[_ Ht]%andb_prop He]. now rewrite (norm_map_list_step r t IHt Ht), (norm_map_list_step r e IHe He).
Qed.

Lemma norm_map_list r p : slots_all_list (fix_with r) p = true ->
  norm_list (map (map_exprs (total r)) p) = map (map_exprs (total r)) (norm_list p).
Proof. apply norm_map_list_step, Forall_forall. intros s _. apply norm_map. Qed.

(** [norm] only removes slots *)
Lemma slots_all_norm ok : forall s, slots_all ok s = true -> slots_all ok (norm s) = true.
Proof.
  pose proof (forallb_map_impl (slots_all ok) (slots_all ok) norm) as L.
  induction s as [m|v lo hi st b IHb|c b IHb|c t e fl IHt IHe|c m|x] using fstmt_ind'; cbn [slots_all norm]; intros H; auto.
  - apply andb_prop in H as [[H Hst]%andb_prop Hb]. rewrite H, (L b IHb Hb). cbn [andb]. rewrite andb_true_r.
    destruct st as [e|]; [|reflexivity]. cbn [norm_step]. destruct (unit_step e); [reflexivity|exact Hst].
  - apply andb_prop in H as [Hc Hb]. now rewrite Hc, (L b IHb Hb).
  - apply andb_prop in H as [[Hc Ht]%andb_prop He]. now rewrite Hc, (L t IHt Ht), (L e IHe He).
Qed.

Lemma slots_all_norm_list ok p : slots_all_list ok p = true -> slots_all_list ok (norm_list p) = true.
Proof. apply forallb_map_impl, Forall_forall. intros s _. apply slots_all_norm. Qed.

Lemma print_call_ext f l l' :
  map (fun a => print_f a PREC_NONE) l = map (fun a => print_f a PREC_NONE) l' ->
  print_f (ECall f l) PREC_NONE = print_f (ECall f l') PREC_NONE.
Proof. intros E. unfold print_f in *. cbn [print at_mode]. now rewrite E. Qed.

Lemma map_print_total r l : forallb (fix_with r) l = true ->
  map (fun a => print_f a PREC_NONE) (map (total r) l) = map (fun a => print_f a PREC_NONE) l.
Proof.
  induction l as [|x q IH]; intros E; [reflexivity|]. cbn in E. apply andb_prop in E as [E1 E2].
  cbn [map]. destruct (fix_with_spec r x E1) as [_ ->]. now rewrite IH.
Qed.

Lemma render_simple_total r m : simple_all (fix_with r) m = true -> render_simple (map_simple (total r) m) = render_simple m.
Proof.
  destruct m as [x e|a i e|f a]; cbn [simple_all map_simple render_simple]; intros H; unfold pe.
  - destruct (fix_with_spec r e H) as [_ ->]. reflexivity.
  - apply andb_prop in H as [Hi He]. destruct (fix_with_spec r e He) as [_ ->].
    rewrite (print_call_ext a (map (total r) i) i); [reflexivity|now apply map_print_total].
  - rewrite (print_call_ext f (map (total r) a) a); [reflexivity|now apply map_print_total].
Qed.

Lemma render_total r l : line_all (fix_with r) l = true -> render (map_line (total r) l) = render l.
Proof.
  destruct l; cbn [line_all map_line render]; intros H; try reflexivity; unfold pe.
  - now apply render_simple_total.
  - apply andb_prop in H as [[Hlo Hhi]%andb_prop Hst].
    destruct (fix_with_spec r lo Hlo) as [_ ->]. destruct (fix_with_spec r hi Hhi) as [_ ->].
    destruct st as [e|]; cbn in *; [|reflexivity]. destruct (fix_with_spec r e Hst) as [_ ->]. reflexivity.
  - destruct (fix_with_spec r c H) as [_ ->]. reflexivity.
  - destruct (fix_with_spec r c H) as [_ ->]. reflexivity.
  - destruct (fix_with_spec r c H) as [_ ->]. reflexivity.
  - apply andb_prop in H as [Hc Hm]. destruct (fix_with_spec r c Hc) as [_ ->].
    now rewrite (render_simple_total r m Hm).
Qed.

Lemma render_total_lines r ls : forallb (line_all (fix_with r)) ls = true -> map render (map (map_line (total r)) ls) = map render ls.
Proof.
  induction ls as [|l q IH]; intros E; [reflexivity|]. cbn in E. apply andb_prop in E as [E1 E2].
  cbn [map]. now rewrite render_total, IH.
Qed.

Lemma fix_reads r e : fix_with r e = true -> reads r e = true.
Proof. unfold fix_with, reads. destruct (r e); [reflexivity|discriminate]. Qed.

(** the re-read program, explicitly: every slot must be readable *)
Theorem reparse_with_total (ok : expr -> bool) r p : (forall e, ok e = true -> reads r e = true) ->
  wf_list p = true -> slots_all_list ok p = true ->
  reparse_with r p = Some (map (map_exprs (total r)) (norm_list p)).
Proof.
  intros Hok W S. unfold reparse_with, print_stmts.
  pose proof (lines_all_list _ _ (slots_all_norm_list _ p S)) as Hr.
  rewrite (omap_lines r), <- lines_of_map.
  - apply roundtrip_lines.
    + rewrite wf_map_list. now apply wf_norm_list.
    + pose proof (lsize_le_lines (map (map_exprs (total r)) (norm_list p))) as B.
      rewrite wf_map_list in B. specialize (B (wf_norm_list p W)). lia.
  - rewrite forallb_forall in *. intros l Hl. apply (line_all_impl ok _ Hok), Hr, Hl.
Qed.

(** text fixpoint, lifted from the slots to the program: printing the re-read program gives the same token lines *)
Theorem text_fixpoint_with r p : wf_list p = true -> slots_all_list (fix_with r) p = true ->
  exists q, reparse_with r p = Some q /\ map render (print_stmts q) = map render (print_stmts p).
Proof.
  intros W S. exists (map (map_exprs (total r)) (norm_list p)). split; [apply (reparse_with_total (fix_with r)); [apply fix_reads | exact W | exact S]|].
  pose proof (slots_all_norm_list _ p S) as S1.
  unfold print_stmts at 1. rewrite (norm_map_list r _ S1), norm_idem_list, lines_of_map.
  unfold print_stmts. apply render_total_lines. now apply lines_all_list.
Qed.

(** structural identity of the re-read program, lifted from the slots: every printed line is re-read as itself *)
Theorem reread_identical_with r p : wf_list p = true -> nf_list p = true -> slots_all_list (id_with r) p = true ->
  reparse_with r p = Some p.
Proof.
  intros W N S. unfold reparse_with, print_stmts. rewrite (norm_list_nf p N).
  pose proof (lines_all_list _ _ S) as Hl. rewrite forallb_forall in Hl.
  rewrite (omap_lines r), map_id_Forall.
  - apply roundtrip_lines; [exact W|]. pose proof (lsize_le_lines p W). lia.
  - apply Forall_forall. intros l Hin. apply (map_line_id (id_with r)), Hl, Hin. intros e He. apply (id_with_spec r e He).
  - apply forallb_forall. intros l Hin. apply (line_all_impl (id_with r)), Hl, Hin.
    intros e He. apply fix_reads, id_with_fix, He.
Qed.

(** statement level alone (expression slots kept as trees) *)
Theorem print_norm p : print_stmts (norm_list p) = print_stmts p.
Proof. unfold print_stmts. now rewrite norm_idem_list. Qed.

Theorem text_fixpoint_stmts p q : wf_list p = true -> read_lines (fuel_for p) (print_stmts p) = Some q ->
  print_stmts q = print_stmts p.
Proof. intros W H. rewrite (roundtrip_stmts_norm p W) in H. inversion H; subst. apply print_norm. Qed.

Lemma reread_refuted_unit_step :
  wf_list w_unit_step = true /\
  exists q, read_lines (fuel_for w_unit_step) (print_stmts w_unit_step) = Some q /\ q <> w_unit_step /\
            print_stmts q = print_stmts w_unit_step.
Proof.
  split; [reflexivity|]. eexists. split; [vm_compute; reflexivity|]. split; [discriminate|vm_compute; reflexivity].
Qed.

Lemma expr_text_refuted_paren_plus :
  print_f w_paren_plus PREC_NONE = [TVar "a"; TMinus; TLP; TInt 2; TRP] /\
  exists e', reread_fe w_paren_plus = Some e' /\ print_f e' PREC_NONE = [TVar "a"; TMinus; TInt 2] /\ fe_fix w_paren_plus = false.
Proof. split; [vm_compute; reflexivity|]. eexists. repeat split; vm_compute; reflexivity. Qed.

Lemma expr_ir_refuted_unary_plus :
  reread_fe w_unary_plus = Some (EVar "a") /\ fe_fix w_unary_plus = true /\ fe_id w_unary_plus = false.
Proof. repeat split; vm_compute; reflexivity. Qed.

Lemma expr_ir_refuted_and_right :
  fe_fix w_and_right = true /\ fe_id w_and_right = false /\
  reread_fe w_and_right = Some (EAnd [EAnd [ECmp Clt (EVar "a") (EInt 1); ECmp Clt (EVar "b") (EInt 1)]; ECmp Clt (EVar "c") (EInt 1)]).
Proof. repeat split; vm_compute; reflexivity. Qed.

Lemma expr_reread_fails_not_not :
  print_f w_not_not PREC_NONE = [TNot; TNot; TLP; TVar "a"; TRel Clt; TInt 1; TRP] /\ reread_fe w_not_not = None.
Proof. split; vm_compute; reflexivity. Qed.

(** non-trivial members of the expression classes:  -a*b / c + (a - 2)**2 - mod(k, 3)  as the frontend builds it *)
Definition ex_fe : expr :=
  ESum false [ESum false [EProd false [EPy (-1); EQuot false (EProd false [EVar "a"; EVar "b"]) (EVar "c")];
                          EPow false (ESum true [EVar "a"; EProd false [EPy (-1); EInt 2]]) (EInt 2)];
              EProd false [EPy (-1); ECall "mod" [EVar "k"; EInt 3]]].
Definition ex_fe_logic : expr :=
  EOr [EAnd [ECmp Clt (EVar "a") (EProd false [EPy (-1); EVar "n"]); ENot (EOr [ECmp Ceq (EVar "k") (EInt 1); ELog false])];
       ECmp Cge (EPow false (EVar "a") (EPow false (EVar "b") (EInt 2))) (EProd true [EPy (-1); EVar "c"])].
Definition ex_prog_fe : list fstmt :=
  [FDo "i" (EInt 1) (EVar "n") (Some (EInt 2))
     [FIf ex_fe_logic [FSimple (MStore "x" [EVar "i"] ex_fe)]
        [FIf (ECmp Ceq (EVar "a") (EInt 0)) [FSimple (MCall "f" [EVar "a"; ESum false [EVar "b"; EInt 1]])] [FComment "! else"] false] true]].
Lemma ex_in_classes :
  fe_id ex_fe = true /\ fe_id ex_fe_logic = true /\
  wf_list ex_prog_fe = true /\ nf_list ex_prog_fe = true /\ slots_all_list fe_id ex_prog_fe = true.
Proof. repeat split; vm_compute; reflexivity. Qed.
