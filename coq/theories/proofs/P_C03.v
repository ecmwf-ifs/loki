(** C03 — lemmas, part 1: induction principle over trees, generic facts about [omap]/[omapi]/[forallbi], verbatim printing
    of tiled trees ([verb_cp]), and the block relation [Blk] with which an emitted VALID node is located in the output
    ([assemble_contains], [emitted_valid_verbatim]). *)
From Coq Require Import ZArith List Bool String Ascii Lia.
From LV Require Import Base.Strings Base.ListFacts models.M_C03.
Import ListNotations.
Open Scope list_scope.
Open Scope Z_scope.

Section tree_ind'.
  Variable P : tree -> Prop.
  Hypothesis H : forall k u lbl src tm grp lits alt slots,
      Forall (Forall P) slots -> P (T k u lbl src tm grp lits alt slots).
  Fixpoint tree_ind' (t : tree) : P t :=
    match t with
    | T k u lbl src tm grp lits alt slots =>
        H k u lbl src tm grp lits alt slots
          ((fix go (sls : list (list tree)) : Forall (Forall P) sls :=
              match sls with
              | [] => Forall_nil _
              | sl :: r =>
                  Forall_cons _
                    ((fix go2 (l : list tree) : Forall P l :=
                        match l with
                        | [] => Forall_nil _
                        | c :: l' => Forall_cons _ (tree_ind' c) (go2 l')
                        end) sl)
                    (go r)
              end) slots)
    end.
End tree_ind'.

Lemma text_eqb_eq a b : text_eqb a b = true -> a = b.
Proof.
  revert b; induction a as [|x a IH]; intros [|y b]; cbn; try discriminate; auto.
  intros E. apply andb_true_iff in E as [E1 E2]. apply String.eqb_eq in E1. f_equal; auto.
Qed.

Lemma text_eqb_refl a : text_eqb a a = true.
Proof. induction a; cbn; auto. now rewrite String.eqb_refl. Qed.

Lemma mode_eqb_eq a b : mode_eqb a b = true -> a = b.
Proof. destruct a, b; cbn; congruence. Qed.

Lemma omap_ext_in {A B} (f g : A -> option B) l :
  (forall x, In x l -> f x = g x) -> omap f l = omap g l.
Proof.
  induction l as [|x l IH]; cbn; intros Hx; [reflexivity|].
  rewrite (Hx x (or_introl eq_refl)), IH; auto.
Qed.

Lemma omapi_ext_in {A B} (f g : nat -> A -> option B) l : forall i,
  (forall j x, nth_error l j = Some x -> f (i + j)%nat x = g (i + j)%nat x) -> omapi f i l = omapi g i l.
Proof.
  induction l as [|x l IH]; cbn; intros i Hx; [reflexivity|].
  pose proof (Hx 0%nat x eq_refl) as H0. replace (i + 0)%nat with i in H0 by lia. rewrite H0.
  rewrite (IH (S i)); [reflexivity|].
  intros j y Hj. replace (S i + j)%nat with (i + S j)%nat by lia. apply Hx. exact Hj.
Qed.

Lemma forallbi_nth {A} (f : nat -> A -> bool) l : forall i,
  forallbi f i l = true -> forall j x, nth_error l j = Some x -> f (i + j)%nat x = true.
Proof.
  induction l as [|y l IH]; cbn; intros i Hf j x Hj.
  - destruct j; discriminate.
  - apply andb_true_iff in Hf as [H1 H2]. destruct j as [|j]; cbn in Hj.
    + inversion Hj; subst. now replace (i + 0)%nat with i by lia.
    + replace (i + S j)%nat with (S i + j)%nat by lia. eapply IH; eauto.
Qed.

Lemma forallbi_intro {A} (f : nat -> A -> bool) l : forall i,
  (forall j x, nth_error l j = Some x -> f (i + j)%nat x = true) -> forallbi f i l = true.
Proof.
  induction l as [|y l IH]; cbn; intros i Hf; [reflexivity|].
  apply andb_true_iff; split.
  - specialize (Hf 0%nat y eq_refl). now replace (i + 0)%nat with i in Hf by lia.
  - apply IH. intros j x Hj. replace (S i + j)%nat with (i + S j)%nat by lia. now apply Hf.
Qed.

Lemma Forall_nth_error {A} (P : A -> Prop) l j x : Forall P l -> nth_error l j = Some x -> P x.
Proof. intros HF Hj. eapply Forall_forall; eauto. eapply nth_error_In; eauto. Qed.

Lemma forallbi_const {A} (f : A -> bool) l : forall i, forallbi (fun _ x => f x) i l = forallb f l.
Proof. induction l; cbn; intros; [reflexivity|]. now rewrite IHl. Qed.

Lemma forallb_nested_impl (a c : tree -> bool) slots :
  Forall (Forall (fun t => a t = true -> c t = true)) slots ->
  forallb (forallb a) slots = true -> forallb (forallb c) slots = true.
Proof.
  induction 1 as [|sl r Hsl _ IH]; cbn; [reflexivity|]. intros E. apply andb_true_iff in E as [E1 E2].
  rewrite IH by assumption. rewrite andb_true_r. clear IH E2.
  induction Hsl as [|c0 l Hc _ IHl]; cbn in *; [reflexivity|].
  apply andb_true_iff in E1 as [E1 E3]. rewrite Hc, IHl; auto.
Qed.

Lemma forallb_nested_and (a b : tree -> bool) (slots : list (list tree)) :
  forallb (forallb (fun t => a t && b t)) slots = forallb (forallb a) slots && forallb (forallb b) slots.
Proof.
  induction slots as [|sl r IH]; cbn; [reflexivity|]. rewrite IH.
  assert (E : forallb (fun t => a t && b t) sl = forallb a sl && forallb b sl).
  { induction sl as [|c l IHl]; cbn; [reflexivity|]. rewrite IHl.
    destruct (a c), (b c), (forallb a l), (forallb b l); reflexivity. }
  rewrite E. destruct (forallb a sl), (forallb b sl), (forallb (forallb a) r), (forallb (forallb b) r); reflexivity.
Qed.

Lemma omapi_nth {A B} (f : nat -> A -> option B) l : forall i ys j x,
  omapi f i l = Some ys -> nth_error l j = Some x ->
  exists y, f (i + j)%nat x = Some y /\ nth_error ys j = Some y.
Proof.
  induction l as [|a l IH]; cbn; intros i ys j x Ho Hj.
  - destruct j; discriminate.
  - destruct (f i a) as [y0|] eqn:Ea; [|discriminate].
    destruct (omapi f (S i) l) as [ys'|] eqn:Er; [|discriminate]. inversion Ho; subst ys.
    destruct j as [|j]; cbn in Hj.
    + inversion Hj; subst. exists y0. replace (i + 0)%nat with i by lia. split; [assumption|reflexivity].
    + destruct (IH (S i) ys' j x Er Hj) as [y [Hy1 Hy2]]. exists y.
      replace (i + S j)%nat with (S i + j)%nat by lia. split; assumption.
Qed.

Lemma omap_in {A B} (f : A -> option B) l ys x :
  omap f l = Some ys -> In x l -> exists y a b, f x = Some y /\ ys = a ++ y :: b.
Proof.
  revert ys; induction l as [|a0 l IH]; cbn; intros ys Ho Hin; [contradiction|].
  destruct (f a0) as [y0|] eqn:Ea; [|discriminate].
  destruct (omap f l) as [ys'|] eqn:Er; [|discriminate]. inversion Ho; subst ys.
  destruct Hin as [->|Hin].
  - exists y0, [], ys'. split; [assumption|reflexivity].
  - destruct (IH ys' eq_refl Hin) as [y [a [b [Hy ->]]]]. exists y, (y0 :: a), b. split; [assumption|reflexivity].
Qed.

Lemma omapi_length {A B} (f : nat -> A -> option B) l : forall i ys, omapi f i l = Some ys -> List.length ys = List.length l.
Proof.
  induction l as [|a l IH]; cbn; intros i ys Ho; [now inversion Ho|].
  destruct (f i a); [|discriminate]. destruct (omapi f (S i) l) eqn:Er; [|discriminate].
  inversion Ho; subst. cbn. f_equal. eapply IH; eauto.
Qed.

Lemma oapp_some a b out : oapp a b = Some out -> exists x y, a = Some x /\ b = Some y /\ out = x ++ y.
Proof. destruct a, b; cbn; try discriminate. intros E; inversion E; eauto. Qed.

Lemma omap_length {A B} (f : A -> option B) l ys : omap f l = Some ys -> List.length ys = List.length l.
Proof.
  revert ys; induction l as [|a l IH]; cbn; intros ys E; [now inversion E|].
  destruct (f a); [|discriminate]. destruct (omap f l); [|discriminate]. inversion E; subst. cbn. now rewrite (IH l0).
Qed.

Lemma omap_app {A B} (f : A -> option B) l1 l2 :
  omap f (l1 ++ l2) = match omap f l1, omap f l2 with Some a, Some b => Some (a ++ b) | _, _ => None end.
Proof.
  induction l1 as [|x l1 IH]; cbn.
  - destruct (omap f l2); reflexivity.
  - destruct (f x); [|reflexivity]. rewrite IH. destruct (omap f l1); [|reflexivity]. destruct (omap f l2); reflexivity.
Qed.

Lemma omap_flat_map {A B C} (g : B -> option C) (h : A -> list B) l :
  omap g (flat_map h l) = option_map (@List.concat C) (omap (fun c => omap g (h c)) l).
Proof.
  induction l as [|x l IH]; cbn; [reflexivity|].
  rewrite omap_app, IH. destruct (omap g (h x)); [|reflexivity].
  destruct (omap (fun c => omap g (h c)) l); reflexivity.
Qed.

Lemma omap_map {A B C} (g : B -> option C) (h : A -> B) l : omap g (map h l) = omap (fun x => g (h x)) l.
Proof. induction l as [|x l IH]; cbn; [reflexivity|]. now rewrite IH. Qed.

Lemma omapi_map {A B C} (f : nat -> B -> option C) (h : A -> B) l : forall i,
  omapi f i (map h l) = omapi (fun i x => f i (h x)) i l.
Proof. induction l as [|x l IH]; cbn; intros; [reflexivity|]. now rewrite IH. Qed.

Lemma concat_length_flat_map {A B C} (h : A -> list B) l (parts : list (list C)) :
  Forall2 (fun c p => List.length p = List.length (h c)) l parts ->
  List.length (List.concat parts) = List.length (flat_map h l).
Proof.
  induction 1 as [|c p l parts Hc _ IH]; cbn; [reflexivity|]. rewrite !app_length. congruence.
Qed.

Lemma omap_Forall2 {A B} (f : A -> option B) l ys : omap f l = Some ys -> Forall2 (fun x y => f x = Some y) l ys.
Proof.
  revert ys; induction l as [|a l IH]; cbn; intros ys E; [inversion E; constructor|].
  destruct (f a) eqn:Ea; [|discriminate]. destruct (omap f l) eqn:El; [|discriminate]. inversion E; subst.
  constructor; auto.
Qed.

Lemma omap_one {A B} (f : A -> option B) x : omap f [x] = option_map (fun y => [y]) (f x).
Proof. cbn. now destruct (f x). Qed.

Lemma omap_single {A B} (g : A -> option B) l :
  omap (fun c => option_map (fun x => [x]) (g c)) l = option_map (map (fun x => [x])) (omap g l).
Proof.
  induction l as [|a l IH]; cbn; [reflexivity|]. rewrite IH.
  destruct (g a); [|reflexivity]. destruct (omap g l); reflexivity.
Qed.

Lemma concat_single {A} (l : list A) : List.concat (map (fun x => [x]) l) = l.
Proof. induction l; cbn; congruence. Qed.

Lemma existsb_false_In {A} (f : A -> bool) l x : existsb f l = false -> In x l -> f x = false.
Proof.
  intros E Hin. destruct (f x) eqn:F; [|reflexivity].
  assert (existsb f l = true) by (apply existsb_exists; now exists x). congruence.
Qed.

Lemma omapi_slots_ext {B} (P : tree -> Prop) (f g : nat -> list tree -> option B) slots :
  Forall (Forall P) slots ->
  (forall j sl, nth_error slots j = Some sl -> (forall c, In c sl -> P c) -> f j sl = g j sl) ->
  omapi f 0%nat slots = omapi g 0%nat slots.
Proof.
  intros IH H. apply omapi_ext_in. intros j sl Hj. apply H; [exact Hj|].
  apply Forall_forall. exact (Forall_nth_error _ _ _ _ IH Hj).
Qed.

Lemma pslot_ext dir (f g : tree -> option text) sl :
  (forall c, In c sl -> f c = g c) -> pslot dir f sl = pslot dir g sl.
Proof.
  intros Hc. unfold pslot. destruct sl as [|c0 sl']; [reflexivity|].
  rewrite (omap_ext_in (pitem dir f) (pitem dir g)); [reflexivity|].
  intros c Hin. unfold pitem. now rewrite Hc.
Qed.

(** the flag only matters for a structurally printed IF; the mode in which a text is framed is never that *)
Lemma assemble_ei_opt k src lits alt si ei (o : option (list text)) :
  match o with Some ps => assemble k src lits alt si (cmode k) ei ps | None => None end
  = match o with Some ps => assemble k src lits alt si (cmode k) false ps | None => None end.
Proof. destruct o; [destruct k|]; reflexivity. Qed.

Lemma tiled1_frame k u lbl s tm grp lits alt slots :
  negb (is_leaf_kind k) = true -> tiled1 (T k u lbl (Some s) tm grp lits alt slots) = true ->
  match omapi (fun i sl => pslot (direct k i) text_of sl) 0%nat slots with
  | Some ts => assemble k (Some s) lits alt (map sinfo slots) (cmode k) false ts
  | None => None
  end = Some (s_txt s).
Proof.
  intros Hleaf Ht1. cbn [tiled1] in Ht1.
  destruct k; try discriminate Hleaf;
    (destruct (omapi (fun i sl => pslot (direct _ i) text_of sl) 0%nat slots) as [ts|]; [|discriminate]);
    (match type of Ht1 with
     | match ?a with _ => _ end = true => destruct a as [x|] eqn:Ea; [|discriminate]
     end);
    apply text_eqb_eq in Ht1; subst x; first [exact Ea | reflexivity].
Qed.

Definition verb_spec (t : tree) : Prop := forall ei, verb ei t = true -> cp ei t = text_of t.

Lemma verb_cp_framed k u lbl src tm grp lits alt slots md ei :
  Forall (Forall verb_spec) slots ->
  negb (is_leaf_kind k) && mode_eqb md (cmode k) && tiled1 (T k u lbl src tm grp lits alt slots) &&
    forallbi (fun i sl => match child_ei k md ei i with
                          | Some e => forallb (verb e) sl
                          | None => false end) 0%nat slots = true ->
  match omapi (fun i sl => match child_ei k md ei i with
                           | Some e => pslot (direct k i) (cp e) sl
                           | None => None end) 0%nat slots with
  | Some ps => assemble k src lits alt (map sinfo slots) md ei ps
  | None => None
  end = option_map s_txt src.
Proof.
  intros IH Hv.
  apply andb_true_iff in Hv as [Hv Hkids]. apply andb_true_iff in Hv as [Hv Ht1].
  apply andb_true_iff in Hv as [Hleaf Hmode]. apply mode_eqb_eq in Hmode. subst md.
  assert (Hsame : omapi (fun i sl => match child_ei k (cmode k) ei i with
                                     | Some e => pslot (direct k i) (cp e) sl
                                     | None => None end) 0%nat slots
                  = omapi (fun i sl => pslot (direct k i) text_of sl) 0%nat slots).
  { apply (omapi_slots_ext _ _ _ _ IH). intros j sl Hj IHsl.
    pose proof (forallbi_nth _ _ _ Hkids j sl Hj) as Hf. cbn in Hf.
    destruct (child_ei k (cmode k) ei j) as [e|]; [|discriminate].
    apply pslot_ext. intros c Hc. apply IHsl; [exact Hc|].
    rewrite forallb_forall in Hf. now apply Hf. }
  rewrite Hsame, assemble_ei_opt.
  cbn [tiled1] in Ht1. destruct src as [s|]; [|discriminate].
  exact (tiled1_frame k u lbl s tm grp lits alt slots Hleaf Ht1).
Qed.

Lemma verb_cp : forall t, verb_spec t.
Proof.
  induction t as [k u lbl src tm grp lits alt slots IH] using tree_ind'. intros ei Hv.
  cbn [verb] in Hv. cbn [cp]. unfold text_of; cbn [src_of].
  destruct (mode_of k src) eqn:Emd.
  - destruct src as [s|]; [|discriminate]. cbn.
    destruct (is_comment k); [|reflexivity].
    unfold plain_comment in Hv. apply text_eqb_eq in Hv. now rewrite Hv.
  - eapply verb_cp_framed; eauto.
  - eapply verb_cp_framed; eauto.
Qed.

(** [tiled_valid_verb] holds for every flag [ei]: a VALID conditional is printed from its text and passes nothing on;
    [tiled_ok_verb] needs [ei_free] and [ei = false], since an INVALID_CHILDREN conditional hands the flag to its children *)
Lemma tiled_valid_verb : forall t ei, tiled t && all_valid t = true -> verb ei t = true.
Proof.
  induction t as [k u lbl src tm grp lits alt slots IH] using tree_ind'. intros ei Ht.
  apply andb_true_iff in Ht as [Ht Hv].
  cbn [tiled slots_of] in Ht. apply andb_true_iff in Ht as [Ht1 Htk].
  cbn [all_valid src_of slots_of] in Hv. apply andb_true_iff in Hv as [Hs Hvk].
  destruct src as [s|]; [|discriminate]. unfold is_valid in Hs. destruct (s_st s) eqn:Est; try discriminate.
  assert (Hkids : forall e, forallb (forallb (verb e)) slots = true).
  { intros e. apply (forallb_nested_impl (fun t => tiled t && all_valid t)).
    - eapply Forall_impl; [|exact IH]. intros sl Hsl. eapply Forall_impl; [|exact Hsl]. intros c Hc. apply Hc.
    - rewrite forallb_nested_and, Htk, Hvk. reflexivity. }
  cbn [verb]. unfold mode_of. rewrite Est.
  destruct k; cbn [is_comment is_leaf_kind negb mode_eqb cmode has_crule andb]; try reflexivity.
  - cbn [tiled1] in Ht1. exact Ht1.
  - rewrite Ht1. cbn [andb child_ei]. rewrite forallbi_const. apply Hkids.
  - rewrite Ht1. cbn [andb child_ei]. rewrite forallbi_const. apply Hkids.
Qed.

Lemma tiled_ok_verb : forall t, tiled t && okstatus t && ei_free t = true -> verb false t = true.
Proof.
  induction t as [k u lbl src tm grp lits alt slots IH] using tree_ind'. intros Ht.
  apply andb_true_iff in Ht as [Ht He]. apply andb_true_iff in Ht as [Ht Ho].
  cbn [tiled slots_of] in Ht. apply andb_true_iff in Ht as [Ht1 Htk].
  cbn [okstatus] in Ho. apply andb_true_iff in Ho as [Hs Hok].
  cbn [ei_free kind_of slots_of] in He. apply andb_true_iff in He as [Hk Hek].
  destruct src as [s|]; [|discriminate].
  assert (Hkids : forallb (forallb (verb false)) slots = true).
  { apply (forallb_nested_impl (fun t => tiled t && okstatus t && ei_free t)).
    - eapply Forall_impl; [|exact IH]. intros sl Hsl. eapply Forall_impl; [|exact Hsl]. intros c Hc. apply Hc.
    - rewrite !forallb_nested_and, Htk, Hok, Hek. reflexivity. }
  cbn [verb]. unfold mode_of.
  destruct (s_st s) eqn:Est; try discriminate.
  - destruct k; cbn [is_comment is_leaf_kind negb mode_eqb cmode has_crule andb]; try reflexivity.
    + cbn [tiled1] in Ht1. exact Ht1.
    + rewrite Ht1. cbn [andb child_ei]. rewrite forallbi_const. apply Hkids.
    + rewrite Ht1. cbn [andb child_ei]. rewrite forallbi_const. apply Hkids.
  - destruct k; cbn [is_leaf_kind negb] in Hs; try discriminate; try discriminate Hk;
      cbn [has_crule is_comment is_leaf_kind negb mode_eqb cmode andb]; rewrite Ht1; cbn [andb child_ei];
      rewrite forallbi_const; apply Hkids.
Qed.

Lemma nonblank_not_nil (x : text) : nonblank x = true -> x <> [].
Proof. destruct x; [discriminate|congruence]. Qed.

Definition Blk (x y : text) : Prop := exists pre post, y = pre ++ x ++ post.

Lemma Blk_refl x : Blk x x.
Proof. exists [], []. now rewrite app_nil_r. Qed.
Lemma Blk_app_l x y z : Blk x y -> Blk x (y ++ z).
Proof. intros (p & q & ->). exists p, (q ++ z). now rewrite <- !app_assoc. Qed.
Lemma Blk_app_r x y z : Blk x y -> Blk x (z ++ y).
Proof. intros (p & q & ->). exists (z ++ p), q. now rewrite <- app_assoc. Qed.
Lemma Blk_trans x y z : Blk x y -> Blk y z -> Blk x z.
Proof. intros Hxy (p & q & ->). now apply Blk_app_r, Blk_app_l. Qed.
Lemma Blk_concat (a : list text) y b : Blk y (List.concat (a ++ y :: b)).
Proof. rewrite concat_app. cbn. apply Blk_app_r, Blk_app_l, Blk_refl. Qed.
Lemma Blk_nonblank x y : Blk x y -> nonblank x = true -> nonblank y = true.
Proof.
  intros (a & b & ->) Hx. destruct x as [|s x]; [discriminate|].
  destruct a as [|a0 a]; cbn.
  - destruct x as [|s' x]; cbn; [|reflexivity]. destruct b; cbn; [exact Hx|reflexivity].
  - destruct (a ++ s :: x ++ b) eqn:E; [|reflexivity]. destruct a; discriminate.
Qed.
Local Hint Resolve Blk_refl Blk_app_l Blk_app_r : blk.

Lemma interleave_contains : forall lits ps i, (i < List.length ps)%nat -> Blk (nth i ps []) (interleave lits ps).
Proof.
  induction lits as [|l ls IH]; intros ps i Hi.
  - cbn. revert i Hi. induction ps as [|p ps IHp]; intros i Hi; [cbn in Hi; lia|].
    destruct i as [|i]; cbn; [auto with blk|]. cbn in Hi. apply Blk_app_r, IHp. lia.
  - destruct ps as [|p ps]; [cbn in Hi; lia|]. cbn [interleave].
    destruct i as [|i]; cbn [nth]; [auto with blk|]. cbn in Hi. apply Blk_app_r, Blk_app_r, IH. lia.
Qed.

(** takes every [oapp a b = Some out] apart into [out = x ++ y] *)
Ltac split_oapp :=
  repeat match goal with
         | H : oapp _ _ = Some _ |- _ => apply oapp_some in H as (? & ? & ? & H & ->)
         | H : Some _ = Some _ |- _ => injection H as <-
         end.

Lemma assemble_contains k src lits alt si md ei ps out i :
  assemble k src lits alt si md ei ps = Some out ->
  used_slot k md i = true -> (i < List.length ps)%nat -> nonblank (nth i ps []) = true ->
  Blk (nth i ps []) out.
Proof.
  intros Ha Hu Hi Hnb.
  assert (Hdrop : drop_blank (nth i ps []) = nth i ps []) by (unfold drop_blank; now rewrite Hnb).
  unfold assemble in Ha.
  destruct md.
  2:{ (* MC: the frame comes from the node's own text *)
    destruct src as [s|]; [|discriminate].
    destruct k; cbn [used_slot] in Hu; try discriminate; split_oapp;
      destruct i as [|[|[|[|i]]]]; cbn in Hu; try discriminate Hu; rewrite ?Hdrop; auto 8 with blk. }
  (* MT (never reached with children) and MS: the structural templates; units print four of their slots *)
  all: destruct k; cbn [used_slot] in Hu; injection Ha as <-; try (now apply interleave_contains).
  all: apply Nat.ltb_lt in Hu;
    pose proof (interleave_contains lits [nth 0 ps []; nth 1 ps []; nth 2 ps []; drop_blank (nth 3 ps [])] i
                  ltac:(cbn; lia)) as E;
    destruct i as [|[|[|[|i]]]]; try lia; cbn [nth] in *; rewrite ?Hdrop in E |- *; exact E.
Qed.

Lemma not_MT_match {X} md (a b : X) : md <> MT -> match md with MT => a | _ => b end = b.
Proof. destruct md; congruence. Qed.

Lemma pslot_block dir f sl c y :
  pslot dir f sl = Some y -> In c sl -> dir = true \/ lbl_of c = None ->
  exists oc, f c = Some oc /\ (nonblank oc = true -> Blk oc y).
Proof.
  intros Hy Hin Hlbl. unfold pslot in Hy. destruct sl as [|c0 sl']; [contradiction|].
  destruct (omap (pitem dir f) (c0 :: sl')) as [parts|] eqn:Ep; [|discriminate].
  destruct (omap_in _ _ _ _ Ep Hin) as (pc & a & b & Hpc & ->).
  unfold pitem in Hpc. destruct (f c) as [oc|]; [|discriminate]. exists oc. split; [reflexivity|]. intros Hnb.
  assert (pc = oc) as ->.
  { destruct dir; [now injection Hpc|]. destruct Hlbl as [|Hl]; [discriminate|]. rewrite Hl in Hpc. now injection Hpc. }
  pose proof (Blk_concat a oc b) as B. pose proof (nonblank_not_nil _ (Blk_nonblank _ _ B Hnb)) as Hn.
  injection Hy as <-. destruct dir; [exact B|]. now destruct (List.concat (a ++ oc :: b)).
Qed.

Theorem emitted_valid_verbatim : forall ei t n, emits ei t n ->
  forall out s, cp ei t = Some out -> src_of n = Some s ->
  mode_of (kind_of n) (src_of n) = MT ->
  (is_comment (kind_of n) = true -> plain_comment (s_txt s) = true) ->
  nonblank (s_txt s) = true ->
  exists pre post, out = pre ++ s_txt s ++ post.
Proof.
  induction 1 as [ei t|ei t i sl c e n Hmd Hsl Hused Hin Hlbl Hei Hem IH]; intros out s Hcp Hsrc Hmt Hplain Hnb.
  - destruct t as [k u lbl src tm grp lits alt slots]. cbn [src_of kind_of] in *. cbn [cp] in Hcp.
    rewrite Hmt in Hcp. subst src. inversion Hcp; subst out. exists [], [].
    rewrite app_nil_r. cbn [app].
    destruct (is_comment k) eqn:Ec; [|reflexivity].
    specialize (Hplain eq_refl). unfold plain_comment in Hplain. now apply text_eqb_eq in Hplain.
  - destruct t as [k u lbl src tm grp lits alt slots]. cbn [src_of kind_of slots_of] in *.
    cbn [cp] in Hcp. rewrite (not_MT_match _ _ _ Hmd) in Hcp.
    destruct (omapi _ 0%nat slots) as [ps|] eqn:Eo; [|discriminate].
    destruct (omapi_nth _ _ _ _ _ _ Eo Hsl) as [y [Hy Hnth]]. cbn [Nat.add] in Hy. rewrite Hei in Hy.
    destruct (pslot_block _ _ _ _ _ Hy Hin Hlbl) as (oc & Hoc & Hblk).
    pose proof (IH oc s Hoc Hsrc Hmt Hplain Hnb) as B1.
    pose proof (Hblk (Blk_nonblank _ _ B1 Hnb)) as B2.
    rewrite <- (nth_error_nth _ _ [] Hnth) in B2.
    pose proof (Blk_trans _ _ _ B1 B2) as B.
    exact (Blk_trans _ _ _ B (assemble_contains _ _ _ _ _ _ _ _ _ i Hcp Hused (nth_error_lt _ _ _ Hnth)
                               (Blk_nonblank _ _ B Hnb))).
Qed.
