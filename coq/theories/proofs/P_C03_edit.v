(** C03 — lemmas, part 2: the Transformer model and the text expected after an edit. *)
From Coq Require Import ZArith List Bool String Ascii Lia.
From LV Require Import Base.Strings Base.ListFacts models.M_C03 proofs.P_C03.
Import ListNotations.
Open Scope list_scope.
Open Scope Z_scope.

(** [tr_child], [new_src], [spl_child], [spl_slot] name the per-child and per-slot parts that [trn] and [spl] in M_C03.v
    write inline, so that [pslot_trslot] can be stated; [trslot_eq], [trn_eq], [spl_eq] hold by [reflexivity] only as long as
    they follow the model text *)
Definition tr_child (M : mapper) (c : tree) : list tree :=
  match M (uid c) with
  | None => [trn M c]
  | Some ADrop => []
  | Some (AOne r) => [r]
  | Some (AMany rs) => map (fun r => if uid r =? uid c then trn M c else r) rs
  end.

Lemma trslot_eq M sl : trslot M sl = flat_map (tr_child M) sl.
Proof. reflexivity. Qed.

Definition new_src (tm : tmode) (src : option source) (slots' : list (list tree)) : option source :=
  match tm, src with
  | TN, Some s => if is_valid s && has_node_child slots' then Some (invalidate true s) else src
  | _, _ => src
  end.

Lemma trn_eq M k u lbl src tm grp lits alt slots :
  trn M (T k u lbl src tm grp lits alt slots) =
  match tm with
  | TN | TS => let '(grp', slots') := strip_grp grp (map (trslot M) slots) in
               T k u lbl (new_src tm src slots') tm grp' lits alt slots'
  | TO => T k u lbl (match src with
                     | Some s => if is_valid s then Some (invalidate true s) else src
                     | None => None
                     end) tm grp lits alt slots
  | _ => T k u lbl src tm grp lits alt slots
  end.
Proof. destruct tm; reflexivity. Qed.

Definition spl_child (strong : bool) (M : mapper) (dir : bool) (e : bool) (c : tree) : option (list text) :=
  match M (uid c) with
  | None => option_map (fun x => [x]) (sitem dir (lbl_of c) (spl strong M e c))
  | Some ADrop => Some []
  | Some (AOne r) => option_map (fun x => [x]) (sitem dir (lbl_of r) (cp e r))
  | Some (AMany rs) =>
      omap (fun r => if uid r =? uid c then sitem dir (lbl_of c) (spl strong M e c)
                     else sitem dir (lbl_of r) (cp e r)) rs
  end.

Definition spl_slot (strong : bool) (M : mapper) (dir : bool) (e : bool) (sl : list tree) : option text :=
  match sl with
  | [] => Some []
  | _ => match omap (spl_child strong M dir e) sl with
         | Some parts =>
             let blocks := List.concat parts in
             match blocks with
             | [] => Some []
             | _ => let out := List.concat blocks in
                    Some (if dir then out else match out with [] => [EmptyString] | _ => out end)
             end
         | None => None
         end
  end.

Lemma spl_eq strong M ei k u lbl src tm grp lits alt slots :
  spl strong M ei (T k u lbl src tm grp lits alt slots) =
  match tm with
  | TN | TS =>
      if forallb is_nil slots then (if strong then text_of (T k u lbl src tm grp lits alt slots)
                                    else cp ei (T k u lbl src tm grp lits alt slots))
      else
        match omapi (fun i sl => match child_ei k (fmode k src) ei i with
                                 | None => None
                                 | Some e => spl_slot strong M (direct k i) e sl
                                 end) 0%nat slots with
        | Some ps => assemble k src lits alt (map sinfo (snd (strip_grp grp (map (trslot M) slots)))) (fmode k src) ei ps
        | None => None
        end
  | TO => if strong then text_of (T k u lbl src tm grp lits alt slots) else cp ei (trn M (T k u lbl src tm grp lits alt slots))
  | _ => if strong then text_of (T k u lbl src tm grp lits alt slots) else cp ei (T k u lbl src tm grp lits alt slots)
  end.
Proof. destruct tm; reflexivity. Qed.

Lemma src_trn M t :
  src_of (trn M t) = src_of t \/ exists s, src_of t = Some s /\ src_of (trn M t) = Some (invalidate true s).
Proof.
  destruct t as [k u lbl src tm grp lits alt slots]. rewrite trn_eq.
  assert (W : forall s', new_src tm src s' = src \/ exists s, src = Some s /\ new_src tm src s' = Some (invalidate true s)).
  { intros s'. unfold new_src. destruct tm, src as [s|]; try (now left).
    destruct (is_valid s && has_node_child s'); [right; now exists s|now left]. }
  destruct tm; try (now left).
  - destruct (strip_grp grp (map (trslot M) slots)) as [g' s']. apply W.
  - destruct (strip_grp grp (map (trslot M) slots)) as [g' s']. apply W.
  - cbn [src_of]. destruct src as [s|]; [|now left]. destruct (is_valid s); [right; now exists s|now left].
Qed.

Lemma text_of_trn M t : text_of (trn M t) = text_of t.
Proof. unfold text_of. destruct (src_trn M t) as [->|[s [-> ->]]]; reflexivity. Qed.

Lemma src_l0_trn M t : option_map s_l0 (src_of (trn M t)) = option_map s_l0 (src_of t).
Proof. destruct (src_trn M t) as [->|[s [-> ->]]]; reflexivity. Qed.

Lemma lbl_trn M t : lbl_of (trn M t) = lbl_of t.
Proof.
  destruct t as [k u lbl src tm grp lits alt slots]. rewrite trn_eq.
  destruct tm; try reflexivity; destruct (strip_grp grp (map (trslot M) slots)); reflexivity.
Qed.

Lemma all_nil_map {A} (f : list A -> list A) (slots : list (list A)) :
  (f [] = []) -> forallb is_nil slots = true -> map f slots = slots.
Proof.
  intros Hf. induction slots as [|sl r IH]; cbn; [reflexivity|]. intros E. apply andb_true_iff in E as [E1 E2].
  destruct sl; [|discriminate]. now rewrite Hf, IH.
Qed.

Lemma all_nil_no_child slots : forallb is_nil slots = true -> has_node_child slots = false.
Proof.
  induction slots as [|sl r IH]; cbn; [reflexivity|]. intros E. apply andb_true_iff in E as [E1 E2].
  destruct sl; [|discriminate]. cbn. now apply IH.
Qed.

Lemma assemble_status k s b lits alt si md ei ps :
  assemble k (Some (invalidate b s)) lits alt si md ei ps = assemble k (Some s) lits alt si md ei ps.
Proof. destruct s; reflexivity. Qed.

Lemma assemble_new_src k tm src slots' lits alt si md ei ps :
  assemble k (new_src tm src slots') lits alt si md ei ps = assemble k src lits alt si md ei ps.
Proof.
  unfold new_src. destruct tm, src as [s|]; try reflexivity.
  destruct (is_valid s && has_node_child slots'); [apply assemble_status|reflexivity].
Qed.

Lemma fmode_not_MT k src : fmode k src <> MT.
Proof. unfold fmode, cmode. destruct src; [destruct (has_crule k)|]; discriminate. Qed.

Lemma pitem_sitem dir f c : pitem dir f c = sitem dir (lbl_of c) (f c).
Proof. reflexivity. Qed.

Lemma pslot_trslot (strong : bool) M dir e sl :
  (forall c, In c sl ->
      (M (uid c) = None -> cp e (trn M c) = spl strong M e c) /\
      (forall rs, M (uid c) = Some (AMany rs) -> existsb (fun r => uid r =? uid c) rs = true ->
                  cp e (trn M c) = spl strong M e c)) ->
  pslot dir (cp e) (trslot M sl) = spl_slot strong M dir e sl.
Proof.
  intros Hc. rewrite trslot_eq.
  assert (Hitems : omap (fun c => omap (pitem dir (cp e)) (tr_child M c)) sl = omap (spl_child strong M dir e) sl).
  { apply omap_ext_in. intros c Hin. destruct (Hc c Hin) as [H1 H2].
    unfold tr_child, spl_child. destruct (M (uid c)) as [[|r|rs]|] eqn:EM.
    - reflexivity.
    - exact (omap_one (pitem dir (cp e)) r).
    - rewrite omap_map. apply omap_ext_in. intros r Hr.
      destruct (uid r =? uid c) eqn:Eu; [|reflexivity].
      rewrite pitem_sitem, lbl_trn, (H2 rs eq_refl); [reflexivity|].
      apply existsb_exists. exists r. split; assumption.
    - now rewrite (omap_one (pitem dir (cp e)) (trn M c)), pitem_sitem, lbl_trn, (H1 eq_refl). }
  unfold spl_slot. destruct sl as [|c0 sl']; [reflexivity|].
  unfold pslot.
  assert (Hom := omap_flat_map (pitem dir (cp e)) (tr_child M) (c0 :: sl')).
  rewrite Hitems in Hom.
  destruct (omap (spl_child strong M dir e) (c0 :: sl')) as [parts|] eqn:Ep.
  - cbn [option_map] in Hom.
    assert (Hlen : List.length (List.concat parts) = List.length (flat_map (tr_child M) (c0 :: sl'))).
    { apply concat_length_flat_map. pose proof (omap_Forall2 _ _ _ Hitems) as HF.
      eapply Forall2_impl; [|exact HF]. intros c p Hp. cbn in Hp. now apply omap_length in Hp. }
    destruct (flat_map (tr_child M) (c0 :: sl')) as [|y ys] eqn:Ef.
    + destruct (List.concat parts); [reflexivity|discriminate].
    + rewrite Hom. destruct (List.concat parts) as [|b bs] eqn:Eb; [discriminate|]. reflexivity.
  - cbn [option_map] in Hom.
    destruct (flat_map (tr_child M) (c0 :: sl')) as [|y ys] eqn:Ef.
    + cbn in Hom. discriminate.
    + now rewrite Hom.
Qed.

(** the nodes the Transformer walks into; [trn], [spl], [nt] and [touched] treat the two modes alike *)
Definition walked (tm : tmode) : bool := match tm with TN | TS => true | _ => false end.

Lemma walked_match {X} tm (a b c : X) :
  walked tm = true -> match tm with TN | TS => a | TO => b | _ => c end = a.
Proof. destruct tm; try discriminate; reflexivity. Qed.

Lemma strip_grp_0 (sls : list (list tree)) : strip_grp 0 sls = (0%nat, sls).
Proof. destruct sls; reflexivity. Qed.

Lemma new_src_nil tm src slots : forallb is_nil slots = true -> new_src tm src slots = src.
Proof.
  intros E. unfold new_src. rewrite (all_nil_no_child _ E).
  destruct tm, src as [s|]; try reflexivity. now rewrite andb_false_r.
Qed.

Lemma spl_kept (strong : bool) ei t :
  (if strong then verb ei t else true) = true -> cp ei t = if strong then text_of t else cp ei t.
Proof. destruct strong; [apply verb_cp|reflexivity]. Qed.

Theorem edit_sound : forall t strong M ei, nt strong M ei t = true -> cp ei (trn M t) = spl strong M ei t.
Proof.
  induction t as [k u lbl src tm grp lits alt slots IH] using tree_ind'. intros strong M ei Hnt.
  rewrite spl_eq. cbn [nt] in Hnt.
  destruct (walked tm) eqn:W.
  2:{ destruct tm; try discriminate W.
      - now apply spl_kept.
      - now apply spl_kept.
      - rewrite <- (text_of_trn M). now apply spl_kept. }
  rewrite (walked_match tm _ _ _ W) in Hnt. rewrite (walked_match tm _ _ _ W).
  apply andb_true_iff in Hnt as [Hg Hnt]. apply Nat.eqb_eq in Hg. subst grp.
  rewrite trn_eq, (walked_match tm _ _ _ W), strip_grp_0 in Hnt. rewrite trn_eq, (walked_match tm _ _ _ W), strip_grp_0.
  cbv iota beta in Hnt |- *.
  destruct (forallb is_nil slots) eqn:Enil.
  - rewrite (all_nil_map (trslot M) slots eq_refl Enil), (new_src_nil _ _ _ Enil). now apply spl_kept.
  - apply andb_true_iff in Hnt as [Hnt Hkids]. apply andb_true_iff in Hnt as [Hmode _].
    apply mode_eqb_eq in Hmode. cbn [src_of] in Hmode.
    cbn [cp]. rewrite Hmode, omapi_map. cbn [snd].
    rewrite (omapi_slots_ext _ _ (fun i sl => match child_ei k (fmode k src) ei i with
                                             | None => None
                                             | Some e => spl_slot strong M (direct k i) e sl end) _ IH).
    + destruct (fmode k src) eqn:Efm; [now apply fmode_not_MT in Efm| |];
        (match goal with |- match ?o with _ => _ end = _ => destruct o as [ps|]; [|reflexivity] end);
        apply assemble_new_src.
    + intros j sl Hj IHsl.
      pose proof (forallbi_nth _ _ _ Hkids j sl Hj) as Hf. cbn [Nat.add] in Hf.
      destruct (child_ei k (fmode k src) ei j) as [e|]; [|reflexivity].
      apply pslot_trslot. intros c Hin.
      rewrite forallb_forall in Hf. specialize (Hf c Hin). split.
      * intros EM. rewrite EM in Hf. now apply IHsl.
      * intros rs EM Hex. rewrite EM, Hex in Hf. now apply IHsl.
Qed.

Lemma untouched_children M slots :
  existsb (existsb (fun c => mapped M c || touched M c)) slots = false ->
  forall j sl c, nth_error slots j = Some sl -> In c sl -> M (uid c) = None /\ touched M c = false.
Proof.
  intros E j sl c Hj Hin.
  pose proof (existsb_false_In _ _ _ (existsb_false_In _ _ _ E (nth_error_In _ _ Hj)) Hin) as E4.
  apply orb_false_iff in E4 as [Em Et]. split; [|assumption].
  unfold mapped in Em. destruct (M (uid c)); [discriminate|reflexivity].
Qed.

Lemma spl_slot_untouched M dir e sl :
  (forall c, In c sl -> M (uid c) = None /\ spl true M e c = text_of c) ->
  spl_slot true M dir e sl = pslot dir text_of sl.
Proof.
  intros Hc. unfold spl_slot, pslot. destruct sl as [|c0 sl']; [reflexivity|].
  rewrite (omap_ext_in (spl_child true M dir e) (fun c => option_map (fun x => [x]) (pitem dir text_of c))).
  2:{ intros c Hin. destruct (Hc c Hin) as [EM Es]. unfold spl_child. rewrite EM, Es. reflexivity. }
  rewrite omap_single.
  destruct (omap (pitem dir text_of) (c0 :: sl')) as [ys|] eqn:Ey; [|reflexivity].
  cbn [option_map]. rewrite concat_single.
  destruct ys as [|y ys]; [apply omap_length in Ey; discriminate|]. reflexivity.
Qed.

Lemma sinfo_untouched M sl :
  (forall c, In c sl -> M (uid c) = None) -> sinfo (trslot M sl) = sinfo sl.
Proof.
  destruct sl as [|c sl]; [reflexivity|]. intros H. rewrite trslot_eq. cbn [flat_map].
  unfold tr_child at 1. rewrite (H c (or_introl eq_refl)). cbn. now rewrite src_l0_trn.
Qed.

Lemma spl_untouched : forall t M ei, nt true M ei t = true -> touched M t = false -> spl true M ei t = text_of t.
Proof.
  induction t as [k u lbl src tm grp lits alt slots IH] using tree_ind'. intros M ei Hnt Hto.
  rewrite spl_eq. cbn [nt] in Hnt. cbn [touched tm_of slots_of] in Hto.
  destruct (walked tm) eqn:W; [|destruct tm; try discriminate W; reflexivity].
  rewrite (walked_match tm _ _ _ W) in Hnt. rewrite (walked_match tm _ _ false W) in Hto. rewrite (walked_match tm _ _ _ W).
  apply andb_true_iff in Hnt as [Hg Hnt]. apply Nat.eqb_eq in Hg. subst grp.
  destruct (forallb is_nil slots); [reflexivity|].
  apply andb_true_iff in Hnt as [Hnt Hkids]. apply andb_true_iff in Hnt as [Hmode Ht1].
  apply andb_true_iff in Ht1 as [Hleaf Ht1].
  pose proof (untouched_children M slots Hto) as Hun.
  cbn [tiled1] in Ht1. destruct src as [s|]; [|discriminate]. cbn [fmode] in *.
  rewrite (omapi_slots_ext _ _ (fun i sl => pslot (direct k i) text_of sl) _ IH).
  - rewrite strip_grp_0. cbn [snd].
    assert (Hsi : map sinfo (map (trslot M) slots) = map sinfo slots).
    { rewrite map_map. apply map_ext_in. intros sl Hsl. apply sinfo_untouched. intros c Hin.
      destruct (In_nth_error _ _ Hsl) as [j Hj]. exact (proj1 (Hun j sl c Hj Hin)). }
    rewrite Hsi, assemble_ei_opt. exact (tiled1_frame k u lbl s tm 0%nat lits alt slots Hleaf Ht1).
  - intros j sl Hj IHsl.
    pose proof (forallbi_nth _ _ _ Hkids j sl Hj) as Hf. cbn [Nat.add] in Hf.
    destruct (child_ei k (cmode k) ei j) as [e|]; [|discriminate].
    apply spl_slot_untouched. intros c Hin.
    destruct (Hun j sl c Hj Hin) as [EM Et]. split; [assumption|].
    rewrite forallb_forall in Hf. specialize (Hf c Hin). rewrite EM in Hf. now apply IHsl.
Qed.

(** * above the transformed sections: program units, contains-sections, the file *)
Lemma lbl_tr sel M t : lbl_of (tr sel M t) = lbl_of t.
Proof.
  destruct t as [k u lbl src tm grp lits alt slots]. cbn [tr].
  destruct (sel u); [apply lbl_trn|]. destruct (has_sel sel _); reflexivity.
Qed.

Lemma pslot_map dir (f : tree -> option text) (h : tree -> tree) sl :
  (forall c, lbl_of (h c) = lbl_of c) -> pslot dir f (map h sl) = pslot dir (fun c => f (h c)) sl.
Proof.
  intros Hl. unfold pslot. destruct sl as [|c0 sl']; [reflexivity|]. cbn [map].
  change (h c0 :: map h sl') with (map h (c0 :: sl')). rewrite omap_map.
  rewrite (omap_ext_in (fun x => pitem dir f (h x)) (pitem dir (fun c => f (h c)))); [reflexivity|].
  intros c _. unfold pitem. now rewrite Hl.
Qed.

Lemma assemble_set k src lits alt si md ei ps :
  assemble k (set_children_invalid src) lits alt si md ei ps = assemble k src lits alt si md ei ps.
Proof. destruct src as [s|]; [apply assemble_status|reflexivity]. Qed.

Theorem edit_sound_p : forall t strong sel M, ntp strong sel M t = true -> cp false (tr sel M t) = splp strong sel M t.
Proof.
  induction t as [k u lbl src tm grp lits alt slots IH] using tree_ind'. intros strong sel M Hnt.
  cbn [tr splp]. cbn [ntp] in Hnt.
  destruct (sel u); [now apply edit_sound|].
  destruct (has_sel sel _); [|now apply spl_kept].
  apply andb_true_iff in Hnt as [Hnt Hkids]. apply andb_true_iff in Hnt as [Hmode _]. apply mode_eqb_eq in Hmode.
  cbn [cp]. rewrite Hmode, omapi_map.
  rewrite (omapi_slots_ext _ _ (fun i sl => match child_ei k (fmode k src) false i with
                                           | Some e => if e then None else pslot (direct k i) (splp strong sel M) sl
                                           | None => None end) _ IH).
  - destruct (fmode k src) eqn:Efm; [now apply fmode_not_MT in Efm| |];
      (match goal with |- match ?o with _ => _ end = _ => destruct o as [ps|]; [|reflexivity] end);
      apply assemble_set.
  - intros j sl Hj IHsl.
    pose proof (forallbi_nth _ _ _ Hkids j sl Hj) as Hf. cbn [Nat.add] in Hf.
    destruct (child_ei k (fmode k src) false j) as [[|]|]; try discriminate.
    rewrite pslot_map by (intros; apply lbl_tr). apply pslot_ext. intros c Hin.
    rewrite forallb_forall in Hf. apply IHsl; auto.
Qed.

Lemma invalidation_sound M k u lbl s grp lits alt slots :
  has_node_child (slots_of (trn M (T k u lbl (Some s) TN grp lits alt slots))) = true ->
  forall s', src_of (trn M (T k u lbl (Some s) TN grp lits alt slots)) = Some s' -> is_valid s' = false.
Proof.
  rewrite trn_eq. destruct (strip_grp grp (map (trslot M) slots)) as [g' sl'] eqn:Es.
  cbn [slots_of src_of new_src]. intros Hc s' Hs. rewrite Hc, andb_true_r in Hs.
  destruct (is_valid s) eqn:Ev; inversion Hs; subst; [reflexivity|assumption].
Qed.

Lemma untouched_verbatim M ei t : nt true M ei t = true -> touched M t = false -> cp ei (trn M t) = text_of t.
Proof. intros H Ht. rewrite (edit_sound t true) by assumption. apply spl_untouched; assumption. Qed.

Lemma tiling_verbatim t ei : tiled t = true -> all_valid t = true -> cp ei t = text_of t.
Proof. intros H1 H2. apply verb_cp. apply tiled_valid_verb. now rewrite H1, H2. Qed.

Lemma over_invalidation_harmless t : tiled t = true -> okstatus t = true -> ei_free t = true -> cp false t = text_of t.
Proof. intros H1 H2 H3. apply verb_cp. apply tiled_ok_verb. now rewrite H1, H2, H3. Qed.

(** nothing is mapped by the empty mapper, and below each child the induction hypothesis applies *)
Lemma touched_nomap : forall t, touched (fun _ => None) t = false.
Proof.
  induction t as [k u lbl src tm grp lits alt slots IH] using tree_ind'.
  cbn [touched tm_of slots_of]. destruct tm; try reflexivity.
  all: induction IH as [|sl r Hsl _ IHr]; cbn [existsb]; [reflexivity|]; rewrite IHr, orb_false_r;
       induction Hsl as [|c l Hc _ IHl]; cbn [existsb]; [reflexivity|]; rewrite IHl, orb_false_r;
       unfold mapped; cbn; exact Hc.
Qed.

Lemma identity_pass_on_class ei t : nt true (fun _ => None) ei t = true -> cp ei (trn (fun _ => None) t) = text_of t.
Proof. intros H. apply untouched_verbatim; [exact H|apply touched_nomap]. Qed.
