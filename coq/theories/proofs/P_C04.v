(** C04 — proofs about the line-wrapping model (lists of strings: full; see P_C04_nested.v for nesting).
    The notions the statements are written in come first: break marks ([renderb]), the flat text and its atoms
    ([pieces], [flat_skip], [atoms]), content preservation ([Brk]), [text_of], [join]; [flatsk], the flat text of nested
    items, is in P_C04_wit.v. *)
From Coq Require Import ZArith List Bool Ascii Lia ZifyBool.
From LV Require Import models.M_C04.
Import ListNotations.
Open Scope Z_scope.

(** break marks: a wrapped text is its atoms with a break before some of them *)
Fixpoint renderb (p : P) (line : str) (m : list (bool * str)) : list str * str :=
  match m with
  | [] => ([], line)
  | (b, a) :: r =>
    if b then let '(ls, last) := renderb p (c1 p ++ a) r in ((line ++ c0 p) :: ls, last)
    else renderb p (line ++ a) r
  end.
(** [add_str], [second_loop] and [chunk_path] return (current line, emitted lines), [renderb] (emitted lines, current line) *)
Definition swap {A B} (x : A * B) : B * A := (snd x, fst x).
Definition nobreak (l : list str) : list (bool * str) := map (fun a => (false, a)) l.

(** what [sep.join] produces when the empty items (which [_to_str] skips together with their separator) are left out *)
Fixpoint pieces (p : P) (ss : list str) : list str :=
  match ss with
  | [] => []
  | s :: rest =>
    match s with
    | [] => pieces p rest
    | _ => (s ++ match rest with [] => [] | _ => sep p end) :: pieces p rest
    end
  end.
Definition flat_skip (p : P) (ss : list str) : str := concat (pieces p ss).
(** the finest segmentation a break may use: the chunks of every (item ++ separator) *)
Definition atoms (p : P) (ss : list str) : list str := flat_map chunk_list (pieces p ss).

(** [Brk p content text]: [text] is [content] with occurrences of [c0 ++ c1] inserted, nothing else changed *)
Inductive Brk (p : P) : str -> str -> Prop :=
| Brk_nil : Brk p [] []
| Brk_char c s t : Brk p s t -> Brk p (c :: s) (c :: t)
| Brk_cont s t : Brk p s t -> Brk p s (c0 p ++ c1 p ++ t).

Definition text_of (r : list str * str) : str := concat (fst r) ++ snd r.

Fixpoint join (sp : str) (ss : list str) : str :=
  match ss with
  | [] => []
  | s :: rest => match rest with [] => s | _ => s ++ sp ++ join sp rest end
  end.

Lemma len_app a b : len (a ++ b) = len a + len b.
Proof. unfold len. rewrite app_length. lia. Qed.
Lemma len_nil : len [] = 0. Proof. reflexivity. Qed.
Lemma len_nonneg a : 0 <= len a. Proof. unfold len. lia. Qed.

Lemma str_eqb_eq a b : str_eqb a b = true <-> a = b.
Proof.
  revert b; induction a as [|x a IH]; intros [|y b]; cbn [str_eqb].
  - split; reflexivity.
  - split; discriminate.
  - split; discriminate.
  - rewrite andb_true_iff, IH, Ascii.eqb_eq. split.
    + intros [H1 H2]. subst. reflexivity.
    + intros H. inversion H. split; reflexivity.
Qed.
Lemma str_eqb_refl a : str_eqb a a = true. Proof. now apply str_eqb_eq. Qed.

Lemma is_nil_true {A} (l : list A) : is_nil l = true <-> l = [].
Proof. destruct l; cbn; split; congruence. Qed.

Definition seg_str (g : seg) : str := match g with Plain t => t | Quoted t => t end.

Lemma plain_concat acc : concat (map seg_str (plain acc)) = acc.
Proof. destruct acc; cbn; [reflexivity | now rewrite app_nil_r]. Qed.

Lemma scan_concat s : forall st acc, concat (map seg_str (scan s st acc)) = acc ++ s.
Proof.
  induction s as [|c r IH]; intros st acc; cbn [scan].
  - rewrite plain_concat, app_nil_r. reflexivity.
  - destruct st as [|q].
    + destruct (is_quote c && has_close c r).
      * rewrite map_app, concat_app, plain_concat, IH. reflexivity.
      * rewrite IH, <- app_assoc. reflexivity.
    + destruct (Ascii.eqb c q).
      * cbn [map concat seg_str]. rewrite IH. cbn. rewrite <- app_assoc. reflexivity.
      * rewrite IH, <- app_assoc. reflexivity.
Qed.

Lemma split_seps_concat s : forall cur, concat (split_seps s cur) = cur ++ s.
Proof.
  induction s as [|c r IH]; intros cur; cbn [split_seps].
  - cbn. now rewrite app_nil_r.
  - destruct (is_sep c r).
    + cbn [concat]. rewrite IH. reflexivity.
    + rewrite IH, <- app_assoc. reflexivity.
Qed.

Lemma seg_chunks_concat g : concat (seg_chunks g) = seg_str g.
Proof. destruct g; cbn [seg_chunks seg_str]; [apply split_seps_concat | cbn; apply app_nil_r]. Qed.

Lemma chunks_concat l : concat (flat_map seg_chunks l) = concat (map seg_str l).
Proof. induction l as [|g l IH]; cbn; [reflexivity|]. now rewrite concat_app, IH, seg_chunks_concat. Qed.

Lemma chunk_list_concat s : concat (chunk_list s) = s.
Proof. unfold chunk_list. rewrite chunks_concat. apply (scan_concat s QOut []). Qed.

Lemma chunk_list_nonempty s : s <> [] -> chunk_list s <> [].
Proof. intros H E. apply H. rewrite <- (chunk_list_concat s), E. reflexivity. Qed.

Lemma renderb_app p m1 : forall line m2,
  renderb p line (m1 ++ m2) =
  let '(ls1, mid) := renderb p line m1 in let '(ls2, last) := renderb p mid m2 in (ls1 ++ ls2, last).
Proof.
  induction m1 as [|[b a] r IH]; intros line m2; cbn [renderb app].
  - destruct (renderb p line m2); reflexivity.
  - destruct b.
    + rewrite IH. destruct (renderb p (c1 p ++ a) r) as [ls1 mid]. destruct (renderb p mid m2). reflexivity.
    + apply IH.
Qed.

Lemma nobreak_snd l : map snd (nobreak l) = l.
Proof. unfold nobreak. rewrite map_map. cbn. apply map_id. Qed.

Lemma renderb_nobreak p l : forall line, renderb p line (nobreak l) = ([], line ++ concat l).
Proof.
  induction l as [|a l IH]; intros line; cbn.
  - now rewrite app_nil_r.
  - rewrite IH, <- app_assoc. reflexivity.
Qed.

Lemma first_loop_spec p chs : forall line l brk,
  first_loop p line chs = (l, brk) ->
  exists pre, chs = pre ++ match brk with Some r => r | None => [] end /\ l = line ++ concat pre /\
              brk <> Some [] /\ (pre = [] \/ fits p l = true).
Proof.
  induction chs as [|ch t IH]; intros line l brk H; cbn [first_loop] in H.
  - injection H as <- <-. exists []. cbn. rewrite app_nil_r. repeat split; auto. discriminate.
  - destruct (fits p (line ++ ch)) eqn:F.
    + apply IH in H. destruct H as (pre & -> & -> & Hr & Hf).
      exists (ch :: pre). cbn [concat app]. rewrite <- app_assoc. repeat split; auto.
      right. destruct Hf as [-> | Hf]; [cbn; now rewrite app_nil_r | now rewrite <- app_assoc in Hf].
    + injection H as <- <-. exists []. cbn. rewrite app_nil_r. repeat split; auto. discriminate.
Qed.

Lemma second_loop_marks p chs : forall line,
  exists m, map snd m = chs /\ swap (second_loop p line chs) = renderb p line m.
Proof.
  induction chs as [|ch r IH]; intros line; cbn [second_loop].
  - exists []. split; reflexivity.
  - destruct (negb (fits p (line ++ ch)) && negb (str_eqb line (c1 p))).
    + destruct (IH (c1 p ++ ch)) as (m & Hm & Hr).
      exists ((true, ch) :: m). cbn [map snd renderb]. split; [now rewrite Hm|].
      rewrite <- Hr. destruct (second_loop p (c1 p ++ ch) r). reflexivity.
    + destruct (IH (line ++ ch)) as (m & Hm & Hr).
      exists ((false, ch) :: m). cbn [map snd renderb]. split; [now rewrite Hm | exact Hr].
Qed.

(** [_add_item_to_line] for a string: the emitted lines are the chunks of the item with breaks between some of them *)
Lemma add_str_marks p line s :
  s <> [] -> exists m, map snd m = chunk_list s /\ swap (add_str p line s) = renderb p line m.
Proof.
  intros Hs. unfold add_str.
  destruct (fits p (line ++ s)) eqn:F1.
  { exists (nobreak (chunk_list s)). rewrite nobreak_snd, renderb_nobreak, chunk_list_concat. split; reflexivity. }
  destruct (fits p (c1 p ++ s)) eqn:F2.
  { pose proof (chunk_list_nonempty s Hs) as Hn. pose proof (chunk_list_concat s) as Hc.
    destruct (chunk_list s) as [|ch r]; [congruence|].
    exists ((true, ch) :: nobreak r). cbn [map snd]. rewrite nobreak_snd. split; [reflexivity|].
    cbn [renderb]. rewrite renderb_nobreak. cbn [concat] in Hc. rewrite <- app_assoc, Hc. reflexivity. }
  unfold chunk_path.
  pose proof (chunk_list_nonempty s Hs) as Hn. pose proof (chunk_list_concat s) as Hc.
  destruct (first_loop p line (chunk_list s)) as [line1 brk] eqn:FL.
  apply first_loop_spec in FL. destruct FL as (pre & Hch & -> & Hr & Hf).
  destruct brk as [rest|]; cbv iota in Hch.
  2:{ (* every chunk was taken: the item would have fitted *)
      rewrite app_nil_r in Hch. subst pre. rewrite Hc in Hf. destruct Hf as [E|Hf]; congruence. }
  destruct rest as [|ch r]; [congruence|].
  cbn [second_loop]. rewrite str_eqb_refl, andb_false_r.
  destruct (second_loop_marks p r (c1 p ++ ch)) as (m & Hm & Hrd).
  destruct (second_loop p (c1 p ++ ch) r) as [l ls] eqn:SL. unfold swap in Hrd; cbn in Hrd.
  destruct (str_eqb (line ++ concat pre) (c1 p)) eqn:E.
  - apply str_eqb_eq in E.
    exists (nobreak pre ++ (false, ch) :: m). split.
    + rewrite map_app, nobreak_snd. cbn. now rewrite Hm, Hch.
    + rewrite renderb_app, renderb_nobreak. cbn [renderb]. rewrite E, <- Hrd. reflexivity.
  - exists (nobreak pre ++ (true, ch) :: m). split.
    + rewrite map_app, nobreak_snd. cbn. now rewrite Hm, Hch.
    + rewrite renderb_app, renderb_nobreak. cbn [renderb]. rewrite <- Hrd. reflexivity.
Qed.

Lemma atoms_concat p ss : concat (atoms p ss) = flat_skip p ss.
Proof.
  unfold atoms, flat_skip. induction (pieces p ss) as [|x l IH]; cbn; [reflexivity|].
  rewrite concat_app, chunk_list_concat, IH. reflexivity.
Qed.

Lemma wrap_lines_marks p ss : forall line,
  exists m, map snd m = atoms p ss /\ wrap_lines p ss line = renderb p line m.
Proof.
  induction ss as [|s rest IH]; intros line; cbn [wrap_lines].
  - exists []. split; reflexivity.
  - destruct s as [|c s'].
    + destruct (IH line) as (m & Hm & Hr). exists m. split; [exact Hm | exact Hr].
    + set (sp := match rest with [] => [] | _ => sep p end).
      destruct (add_str_marks p line ((c :: s') ++ sp)) as (m1 & Hm1 & Hr1); [discriminate|].
      destruct (add_str p line ((c :: s') ++ sp)) as [line' ls] eqn:A. unfold swap in Hr1; cbn [fst snd] in Hr1.
      destruct (IH line') as (m2 & Hm2 & Hr2).
      exists (m1 ++ m2). split.
      * rewrite map_app, Hm1, Hm2. unfold atoms. cbn [pieces flat_map]. reflexivity.
      * rewrite renderb_app, <- Hr1, <- Hr2. destruct (wrap_lines p rest line'). reflexivity.
Qed.

Lemma Brk_refl p s : Brk p s s.
Proof. induction s; constructor; auto. Qed.

Lemma Brk_app p a b x y : Brk p a x -> Brk p b y -> Brk p (a ++ b) (x ++ y).
Proof.
  induction 1; intros H2; cbn.
  - exact H2.
  - constructor. auto.
  - rewrite <- !app_assoc. constructor. auto.
Qed.

Lemma renderb_brk p m : forall line,
  exists t, text_of (renderb p line m) = line ++ t /\ Brk p (concat (map snd m)) t.
Proof.
  induction m as [|[b a] r IH]; intros line; cbn [renderb map snd concat].
  - exists []. unfold text_of; cbn. split; [now rewrite app_nil_r | constructor].
  - destruct b.
    + destruct (IH (c1 p ++ a)) as (t & Ht & Hb).
      destruct (renderb p (c1 p ++ a) r) as [ls last]. unfold text_of in *; cbn [fst snd concat] in *.
      exists (c0 p ++ c1 p ++ a ++ t). split.
      * rewrite <- !app_assoc. rewrite Ht. rewrite <- !app_assoc. reflexivity.
      * apply Brk_cont. apply Brk_app; [apply Brk_refl | exact Hb].
    + destruct (IH (line ++ a)) as (t & Ht & Hb). exists (a ++ t). split.
      * rewrite Ht, <- app_assoc. reflexivity.
      * apply Brk_app; [apply Brk_refl | exact Hb].
Qed.

(** a current line is fine when a continuation marker still fits after it, or when it consists of the
    continuation prefix followed by at most one chunk *)
Definition line_ok (p : P) (A : list str) (line : str) : Prop :=
  fits p line = true \/ exists ch, In ch ([] :: A) /\ line = c1 p ++ ch.
Definition emitted_ok (p : P) (A : list str) (x : str) : Prop :=
  exists y, x = y ++ c0 p /\ line_ok p A y.

Lemma line_ok_c1 p A : line_ok p A (c1 p).
Proof. right. exists []. split; [now left | now rewrite app_nil_r]. Qed.

Lemma second_loop_ok p A chs : forall line,
  incl chs A -> line_ok p A line ->
  line_ok p A (fst (second_loop p line chs)) /\ Forall (emitted_ok p A) (snd (second_loop p line chs)).
Proof.
  induction chs as [|ch r IH]; intros line Hi Hl; cbn [second_loop].
  - cbn. split; [exact Hl | constructor].
  - assert (Hch : In ch A) by (apply Hi; now left).
    assert (Hr : incl r A) by (intros x Hx; apply Hi; now right).
    destruct (negb (fits p (line ++ ch)) && negb (str_eqb line (c1 p))) eqn:E.
    + destruct (IH (c1 p ++ ch) Hr) as [H1 H2].
      { right. exists ch. split; [now right | reflexivity]. }
      destruct (second_loop p (c1 p ++ ch) r) as [l ls]. cbn [fst snd] in *. split; [exact H1|].
      constructor; [|exact H2]. exists line. split; [reflexivity | exact Hl].
    + apply IH; [exact Hr|].
      apply andb_false_iff in E. destruct E as [E|E].
      * left. now apply negb_false_iff in E.
      * apply negb_false_iff, str_eqb_eq in E. subst line. right. exists ch. split; [now right | reflexivity].
Qed.

Lemma add_str_ok p A line s :
  incl (chunk_list s) A -> line_ok p A line ->
  line_ok p A (fst (add_str p line s)) /\ Forall (emitted_ok p A) (snd (add_str p line s)).
Proof.
  intros Hi Hl. unfold add_str.
  destruct (fits p (line ++ s)) eqn:F1.
  { cbn. split; [now left | constructor]. }
  destruct (fits p (c1 p ++ s)) eqn:F2.
  { cbn. split; [now left|]. constructor; [|constructor]. exists line. split; [reflexivity | exact Hl]. }
  unfold chunk_path.
  destruct (first_loop p line (chunk_list s)) as [line1 brk] eqn:FL.
  assert (H1 : line_ok p A line1 /\ incl (match brk with Some r => r | None => chunk_list s end) A).
  { apply first_loop_spec in FL. destruct FL as (pre & Hch & -> & _ & Hf). split.
    - destruct Hf as [-> | Hf]; [cbn; now rewrite app_nil_r | now left].
    - destruct brk; [|exact Hi]. intros x Hx. apply Hi. rewrite Hch. apply in_or_app. now right. }
  destruct H1 as [Hl1 Hi1].
  destruct (second_loop_ok p A _ (c1 p) Hi1 (line_ok_c1 p A)) as [H2 H3].
  destruct (second_loop p (c1 p) (match brk with Some r => r | None => chunk_list s end)) as [l ls].
  cbn [fst snd] in *. split; [exact H2|].
  apply Forall_app. split; [|exact H3].
  destruct (str_eqb line1 (c1 p)); constructor; [|constructor]. exists line1. split; [reflexivity | exact Hl1].
Qed.

Lemma wrap_lines_ok p A ss : forall line,
  incl (atoms p ss) A -> line_ok p A line ->
  Forall (emitted_ok p A) (fst (wrap_lines p ss line)) /\ line_ok p A (snd (wrap_lines p ss line)).
Proof.
  induction ss as [|s rest IH]; intros line Hi Hl; cbn [wrap_lines].
  - cbn. split; [constructor | exact Hl].
  - destruct s as [|c s'].
    + apply IH; assumption.
    + set (sp := match rest with [] => [] | _ => sep p end) in *.
      unfold atoms in Hi. cbn [pieces flat_map] in Hi. fold sp in Hi.
      destruct (add_str_ok p A line ((c :: s') ++ sp)) as [H1 H2]; [|exact Hl|].
      { intros x Hx. apply Hi. apply in_or_app. now left. }
      destruct (add_str p line ((c :: s') ++ sp)) as [line' ls]. cbn [fst snd] in *.
      destruct (IH line') as [H3 H4]; [|exact H1|].
      { intros x Hx. apply Hi. apply in_or_app. now right. }
      destruct (wrap_lines p rest line') as [ls' last]. cbn [fst snd] in *. split; [|exact H4].
      apply Forall_app. split; assumption.
Qed.

Lemma line_width_flat p ss lines last :
  len (c0 p) <= width p ->
  wrap_lines p ss [] = (lines, last) ->
  Forall (fun l => len l <= width p \/ exists ch, In ch ([] :: atoms p ss) /\ l = c1 p ++ ch ++ c0 p) lines /\
  (len last + len (c0 p) <= width p \/ exists ch, In ch ([] :: atoms p ss) /\ last = c1 p ++ ch).
Proof.
  intros Hw E.
  destruct (wrap_lines_ok p (atoms p ss) ss []) as [H1 H2].
  { apply incl_refl. } { left. unfold fits. change (len []) with 0. lia. }
  rewrite E in H1, H2. cbn [fst snd] in *. split.
  - eapply Forall_impl; [|exact H1]. intros x (y & -> & [Hf | (ch & Hc & ->)]).
    + left. unfold fits in Hf. rewrite len_app. lia.
    + right. exists ch. split; [exact Hc | now rewrite <- app_assoc].
  - destruct H2 as [Hf | H]; [left; unfold fits in Hf; lia | right; exact H].
Qed.

Lemma str_of_IStr f s : str_of f (IStr s) = Ok s.
Proof. destruct f; reflexivity. Qed.
Lemma add_item_IStr f q line s : add_item f q line (IStr s) = Ok (add_str q line s).
Proof. destruct f; reflexivity. Qed.

Lemma sep_after_map {A} (sp : str) (rest : list str) (f : str -> A) :
  match map f rest with [] => [] | _ :: _ => sp end = match rest with [] => [] | _ :: _ => sp end.
Proof. destruct rest; reflexivity. Qed.

Lemma to_str_loop_flat f q ss : forall line lines,
  to_str_loop (add_item f q) (str_of f) (sep q) false (map IStr ss) line lines
  = Ok (concat lines ++ text_of (wrap_lines q ss line), None).
Proof.
  induction ss as [|s rest IH]; intros line lines; cbn [map to_str_loop wrap_lines].
  - reflexivity.
  - rewrite str_of_IStr. destruct s as [|c s']; cbn [is_nil].
    + apply IH.
    + cbn [add_sfx]. rewrite add_item_IStr.
      rewrite sep_after_map. destruct (add_str q line ((c :: s') ++ match rest with [] => [] | _ :: _ => sep q end)) as [line' ls].
      cbn [andb]. rewrite IH. destruct (wrap_lines q rest line') as [ls' last]. unfold text_of; cbn [fst snd].
      rewrite !concat_app, <- !app_assoc. reflexivity.
Qed.

Lemma str_of_flat_ok f q ss : str_of (S (S f)) (IJ q (map IStr ss)) = Ok (text_of (wrap_lines q ss [])).
Proof.
  cbn [str_of to_str]. destruct ss as [|s rest]; [reflexivity|].
  cbn [map]. change (IStr s :: map IStr rest) with (map IStr (s :: rest)).
  rewrite to_str_loop_flat. reflexivity.
Qed.

(** with fuel below 2 [str_of] fails *)
Lemma str_of_flat fuel q ss text :
  str_of fuel (IJ q (map IStr ss)) = Ok text -> text = text_of (wrap_lines q ss []).
Proof.
  destruct fuel as [|[|f]]; try discriminate. rewrite str_of_flat_ok. now intros [= <-].
Qed.

Lemma flat_skip_join p ss : Forall (fun s => s <> []) ss -> flat_skip p ss = join (sep p) ss.
Proof.
  unfold flat_skip. induction 1 as [|s rest Hs _ IH]; cbn [pieces join concat]; [reflexivity|].
  destruct s as [|c s']; [congruence|]. cbn [concat]. rewrite IH.
  destruct rest; cbn [join]; rewrite ?app_nil_r, <- ?app_assoc; reflexivity.
Qed.

Lemma rstrip_rev_spec t : exists ws, t = ws ++ rstrip_rev t /\ Forall (fun c => is_space c = true) ws.
Proof.
  induction t as [|c r IH]; cbn [rstrip_rev].
  - exists []. split; [reflexivity | constructor].
  - destruct (is_space c) eqn:E.
    + destruct IH as (ws & H1 & H2). exists (c :: ws). split; [cbn; now rewrite <- H1 | now constructor].
    + exists []. split; [reflexivity | constructor].
Qed.

Lemma rstrip_spec s : exists ws, s = rstrip s ++ ws /\ Forall (fun c => is_space c = true) ws.
Proof.
  unfold rstrip. destruct (rstrip_rev_spec (rev s)) as (ws & H1 & H2).
  exists (rev ws). split.
  - rewrite <- rev_app_distr, <- H1, rev_involutive. reflexivity.
  - apply Forall_rev. exact H2.
Qed.

Lemma collect_strs ss : collect (map build (map RStr ss)) = Ok (map IStr ss).
Proof. induction ss as [|s r IH]; cbn; [reflexivity | now rewrite IH]. Qed.

Lemma fuel_of_ge2 it : exists k, fuel_of it = S (S k).
Proof. unfold fuel_of. exists (4 * isize it + 8)%nat. lia. Qed.

Lemma norm_cont_ok c w a b : norm_cont c w = Some (a, b) -> len a < w /\ len b < w.
Proof.
  unfold norm_cont. destruct (match c with CStr s => _ | CPair a0 b0 => _ end) as [[x y]|]; [|discriminate].
  destruct (w <=? len (x ++ y)).
  - destruct ((len (strip_sp x) <? w) && (len (strip_sp y) <? w)) eqn:E; [|discriminate]. intros [= <- <-]. lia.
  - destruct ((len x <? w) && (len y <? w)) eqn:E; [|discriminate]. intros [= <- <-]. lia.
Qed.

Lemma format_line_strings w indent cont ss out :
  format_line w indent cont (map RStr ss) None false false true = Ok out ->
  exists a b ws, norm_cont cont w = Some (a, b) /\ len a < w /\ len b < w /\
    text_of (wrap_lines (mkP [] w a b true) (indent :: ss) []) = out ++ ws /\
    Forall (fun c => is_space c = true) ws.
Proof.
  unfold format_line, str_raw. cbn [build].
  change (RStr indent :: map RStr ss) with (map RStr (indent :: ss)).
  rewrite collect_strs.
  destruct (norm_cont cont w) as [[a b]|] eqn:N; [|discriminate].
  destruct (fuel_of_ge2 (IJ (mkP [] w a b true) (map IStr (indent :: ss)))) as [k ->].
  rewrite str_of_flat_ok. intros [= <-].
  destruct (rstrip_spec (text_of (wrap_lines (mkP [] w a b true) (indent :: ss) []))) as (ws & H1 & H2).
  destruct (norm_cont_ok _ _ _ _ N). exists a, b, ws. repeat split; assumption.
Qed.

Lemma breaks_at_boundaries fuel p ss text :
  str_of fuel (IJ p (map IStr ss)) = Ok text ->
  exists m, map snd m = atoms p ss /\ text = text_of (renderb p [] m).
Proof.
  intros H. apply str_of_flat in H. destruct (wrap_lines_marks p ss []) as (m & Hm & Hr).
  exists m. split; [exact Hm | now rewrite H, Hr].
Qed.

Lemma content_preserved fuel p ss text :
  str_of fuel (IJ p (map IStr ss)) = Ok text -> Brk p (flat_skip p ss) text.
Proof.
  intros H. destruct (breaks_at_boundaries _ _ _ _ H) as (m & Hm & ->).
  destruct (renderb_brk p m []) as (t & Ht & Hb). rewrite Ht. cbn [app].
  rewrite Hm, atoms_concat in Hb. exact Hb.
Qed.

Lemma content_preserved_join fuel p ss text :
  Forall (fun s => s <> []) ss ->
  str_of fuel (IJ p (map IStr ss)) = Ok text -> Brk p (join (sep p) ss) text.
Proof. intros Hn H. rewrite <- (flat_skip_join p ss Hn). eapply content_preserved; eassumption. Qed.

Lemma line_width fuel p ss text :
  len (c0 p) <= width p ->
  str_of fuel (IJ p (map IStr ss)) = Ok text ->
  exists lines last, text = concat lines ++ last /\
    Forall (fun l => len l <= width p \/ exists ch, In ch ([] :: atoms p ss) /\ l = c1 p ++ ch ++ c0 p) lines /\
    (len last + len (c0 p) <= width p \/ exists ch, In ch ([] :: atoms p ss) /\ last = c1 p ++ ch).
Proof.
  intros Hw H. apply str_of_flat in H.
  destruct (wrap_lines p ss []) as [lines last] eqn:E.
  exists lines, last. split; [exact H|]. apply line_width_flat; assumption.
Qed.

(** every produced line ends with the end-of-line marker *)
Lemma renderb_shape p m : forall line,
  Forall (fun l => exists y, l = y ++ c0 p) (fst (renderb p line m)).
Proof.
  induction m as [|[b a] r IH]; intros line; cbn [renderb].
  - constructor.
  - destruct b.
    + specialize (IH (c1 p ++ a)). destruct (renderb p (c1 p ++ a) r). cbn [fst] in *.
      constructor; [now exists line | exact IH].
    + apply IH.
Qed.
