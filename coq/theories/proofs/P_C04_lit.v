(** C04 — on strings whose character literals are terminated on the same line and contain no doubled quote,
    the chunk splitter never cuts inside a literal (the class on which F13 cannot happen). *)
From Coq Require Import ZArith List Bool Ascii Lia.
From Coq Require String.
From LV Require Import models.M_C04 proofs.P_C04.
Import ListNotations.

(** class predicate (decidable): scanning from state [st], no doubled quote, no newline inside a literal, no open literal at the end *)
Fixpoint lit_clean_from (st : lst) (s : str) : bool :=
  match s with
  | [] => match st with LIn _ => false | _ => true end
  | c :: r =>
    match st with
    | LIn q => if Ascii.eqb c ch_nl then false else lit_clean_from (lit_step st c) r
    | LClosed q => if Ascii.eqb c q then false else lit_clean_from (lit_step st c) r
    | LOut => lit_clean_from (lit_step st c) r
    end
  end.
Definition lit_clean (s : str) : bool := lit_clean_from LOut s.

Definition lit_outside (st : lst) : Prop := match st with LIn _ => False | _ => True end.
Definition lit_run (F : lst) (x : str) : lst := fold_left lit_step x F.

Lemma run_app F a b : lit_run F (a ++ b) = lit_run (lit_run F a) b.
Proof. unfold lit_run. apply fold_left_app. Qed.

Lemma clean_app a : forall F b, lit_clean_from F (a ++ b) = true -> lit_clean_from (lit_run F a) b = true.
Proof.
  induction a as [|c r IH]; intros F b H; [exact H|].
  cbn [app] in H. cbn [lit_clean_from] in H. change (lit_run F (c :: r)) with (lit_run (lit_step F c) r).
  destruct F as [|q|q].
  - apply IH. exact H.
  - destruct (Ascii.eqb c ch_nl); [discriminate|]. apply IH. exact H.
  - destruct (Ascii.eqb c q) eqn:E; [discriminate|]. apply IH. exact H.
Qed.

Lemma clean_has_close q r : lit_clean_from (LIn q) r = true -> has_close q r = true.
Proof.
  induction r as [|c r IH]; cbn [lit_clean_from has_close]; [discriminate|].
  destruct (Ascii.eqb c ch_nl) eqn:En; [discriminate|].
  cbn [lit_step]. destruct (Ascii.eqb c q) eqn:E; [reflexivity|]. exact IH.
Qed.

(** the scanner state and the compiler state agree: [F0] is the compiler state before [acc], the text scanned since the last
    segment boundary; outside a literal every prefix of [acc] leaves the compiler outside, inside one [acc] leads into it *)
Definition scan_inv (st : qst) (F0 : lst) (acc : str) : Prop :=
  match st with
  | QOut => forall a1 a2, acc = a1 ++ a2 -> lit_outside (lit_run F0 a1)
  | QIn q => lit_outside F0 /\ lit_run F0 acc = LIn q
  end.

Lemma plain_chunks_concat acc : concat (flat_map seg_chunks (plain acc)) = acc.
Proof. rewrite chunks_concat. apply plain_concat. Qed.
Lemma plain_chunks_prefix acc l1 l2 :
  flat_map seg_chunks (plain acc) = l1 ++ l2 -> acc = concat l1 ++ concat l2.
Proof. intros H. rewrite <- (plain_chunks_concat acc) at 1. rewrite H. apply concat_app. Qed.

Lemma step_outside F c r :
  lit_outside F -> lit_clean_from F (c :: r) = true -> lit_step F c = if is_quote c then LIn c else LOut.
Proof.
  intros Ho Hc. destruct F as [|q|q]; cbn [lit_step]; [reflexivity | contradiction |].
  cbn [lit_clean_from] in Hc. now destruct (Ascii.eqb c q).
Qed.

Lemma clean_step F c r : lit_clean_from F (c :: r) = true -> lit_clean_from (lit_step F c) r = true.
Proof. intros H. apply (clean_app [c] F r). exact H. Qed.

Lemma scan_cuts s : forall st acc F0,
  scan_inv st F0 acc -> lit_clean_from (lit_run F0 acc) s = true ->
  forall l1 l2, flat_map seg_chunks (scan s st acc) = l1 ++ l2 -> lit_outside (lit_run F0 (concat l1)).
Proof.
  induction s as [|c r IH]; intros st acc F0 HI HC l1 l2 HE; cbn [scan] in HE.
  - destruct st as [|q].
    + apply plain_chunks_prefix in HE. apply (HI _ _ HE).
    + destruct HI as [_ HI]. rewrite HI in HC. discriminate.
  - destruct st as [|q].
    + (* outside a literal *)
      assert (Hacc : lit_outside (lit_run F0 acc)) by (apply (HI acc []); now rewrite app_nil_r).
      destruct (is_quote c && has_close c r) eqn:EQ.
      * apply andb_true_iff in EQ. destruct EQ as [Hq _].
        rewrite flat_map_app in HE. apply app_eq_app in HE. destruct HE as (l & [[HA HB] | [HA HB]]).
        -- apply plain_chunks_prefix in HA. apply (HI _ _ HA).
        -- subst l1. rewrite concat_app, run_app.
           rewrite plain_chunks_concat. eapply (IH (QIn c) [c] (lit_run F0 acc)); [| |exact HB].
           ++ split; [exact Hacc|]. cbn. now rewrite (step_outside _ _ _ Hacc HC), Hq.
           ++ cbn. apply clean_step. exact HC.
      * eapply (IH QOut (acc ++ [c]) F0); [| |exact HE].
        -- intros a1 a2 Ha. destruct a2 as [|x a2'] using rev_ind.
           ++ rewrite app_nil_r in Ha. subst a1. rewrite run_app. cbn.
              destruct (is_quote c) eqn:Hq.
              ** cbn [andb] in EQ. pose proof (step_outside _ _ _ Hacc HC) as HS. rewrite Hq in HS.
                 pose proof (clean_step _ _ _ HC) as HC2. rewrite HS in HC2. apply clean_has_close in HC2. congruence.
              ** rewrite (step_outside _ _ _ Hacc HC), Hq. exact I.
           ++ rewrite app_assoc in Ha. apply app_inj_tail in Ha. destruct Ha as [Ha _]. apply (HI _ _ Ha).
        -- rewrite run_app. cbn. apply clean_step. exact HC.
    + (* inside a literal opened by q *)
      destruct HI as [HO HI].
      destruct (Ascii.eqb c q) eqn:E.
      * apply Ascii.eqb_eq in E. subst c. cbn [flat_map seg_chunks app] in HE.
        destruct l1 as [|x l1']; [cbn; exact HO|].
        cbn [app] in HE. injection HE as Hx HE. subst x. cbn [concat]. rewrite run_app.
        eapply (IH QOut [] (lit_run F0 (acc ++ [q]))); [| |exact HE].
        -- intros a1 a2 Ha. symmetry in Ha. apply app_eq_nil in Ha. destruct Ha as [-> _]. cbn.
           rewrite run_app, HI. cbn. rewrite Ascii.eqb_refl. exact I.
        -- cbn. rewrite run_app. cbn. rewrite HI in *. apply clean_step. exact HC.
      * eapply (IH (QIn q) (acc ++ [c]) F0); [| |exact HE].
        -- split; [exact HO|]. rewrite run_app, HI. cbn. now rewrite E.
        -- rewrite run_app. cbn. rewrite HI in *. apply clean_step. exact HC.
Qed.

Lemma chunks_respect_from F0 s l1 l2 :
  lit_outside F0 -> lit_clean_from F0 s = true -> chunk_list s = l1 ++ l2 -> lit_outside (lit_run F0 (concat l1)).
Proof.
  intros HO HC HE. eapply (scan_cuts s QOut [] F0); [| exact HC | exact HE].
  intros a1 a2 Ha. symmetry in Ha. apply app_eq_nil in Ha. destruct Ha as [-> _]. exact HO.
Qed.

Lemma clean_end s : forall F, lit_clean_from F s = true -> lit_outside (lit_run F s).
Proof.
  induction s as [|c r IH]; intros F H.
  - destruct F; cbn in *; try exact I. discriminate.
  - change (lit_run F (c :: r)) with (lit_run (lit_step F c) r). apply IH. apply clean_step. exact H.
Qed.

Lemma clean_from_outside F x rest :
  lit_outside F -> lit_clean_from F (x ++ rest) = true -> lit_clean x = true -> lit_clean_from F x = true.
Proof.
  intros HO HW HX. destruct F as [|q|q]; [exact HX | contradiction |].
  destruct x as [|c r]; [reflexivity|].
  cbn [app lit_clean_from] in HW. unfold lit_clean in HX. cbn [lit_clean_from] in *.
  destruct (Ascii.eqb c q) eqn:E; [discriminate|].
  cbn [lit_step] in *. rewrite E. exact HX.
Qed.

Lemma atoms_cuts ps : forall F,
  lit_outside F -> lit_clean_from F (concat ps) = true -> Forall (fun x => lit_clean x = true) ps ->
  forall l1 l2, flat_map chunk_list ps = l1 ++ l2 -> lit_outside (lit_run F (concat l1)).
Proof.
  induction ps as [|x ps IH]; intros F HO HW HP l1 l2 HE.
  - cbn in HE. symmetry in HE. apply app_eq_nil in HE. destruct HE as [-> _]. exact HO.
  - inversion HP as [|? ? HX HPs]; subst. cbn [concat] in HW. cbn [flat_map] in HE.
    pose proof (clean_from_outside F x (concat ps) HO HW HX) as HFx.
    apply app_eq_app in HE. destruct HE as (l & [[HA HB] | [HA HB]]).
    + eapply chunks_respect_from; eassumption.
    + subst l1. rewrite concat_app, chunk_list_concat, run_app.
      eapply IH; [apply clean_end; exact HFx | apply clean_app; exact HW | exact HPs | exact HB].
Qed.

Lemma outside_cut a b : lit_clean (a ++ b) = true -> lit_outside (lit_run LOut a) -> cut_in_literal a b = false.
Proof.
  intros HC HO. unfold lit_clean in HC. apply clean_app in HC.
  unfold cut_in_literal, lit_state. change (fold_left lit_step a LOut) with (lit_run LOut a).
  destruct (lit_run LOut a) as [|q|q]; [reflexivity | contradiction |].
  destruct b as [|c r]; [reflexivity|].
  cbn [lit_clean_from] in HC. destruct (Ascii.eqb c q); [discriminate | reflexivity].
Qed.

Lemma chunks_respect_literals s l1 l2 :
  lit_clean s = true -> chunk_list s = l1 ++ l2 -> cut_in_literal (concat l1) (concat l2) = false.
Proof.
  intros HC HE. apply outside_cut.
  - replace (concat l1 ++ concat l2) with s; [exact HC|].
    rewrite <- (chunk_list_concat s) at 1. rewrite HE. apply concat_app.
  - exact (chunks_respect_from LOut s l1 l2 I HC HE).
Qed.

(** on the class, no place where the wrapping may break (any atom boundary) lies inside a character literal *)
Lemma no_cut_in_literal p ss l1 l2 :
  Forall (fun x => lit_clean x = true) (pieces p ss) -> lit_clean (flat_skip p ss) = true ->
  atoms p ss = l1 ++ l2 -> cut_in_literal (concat l1) (concat l2) = false.
Proof.
  intros HP HW HE. apply outside_cut.
  - replace (concat l1 ++ concat l2) with (flat_skip p ss); [exact HW|].
    rewrite <- atoms_concat, HE. apply concat_app.
  - eapply (atoms_cuts (pieces p ss) LOut); [exact I | exact HW | exact HP | exact HE].
Qed.

Import String.
Local Open Scope list_scope.
(** non-vacuity: a statement with literals of both kinds is in the class, the F13 literal is not *)
Example ex_clean : lit_clean (list_ascii_of_string "x = 'say ""hi"" there' // ""it's"" // f(a)%b") = true.
Proof. vm_compute. reflexivity. Qed.
Example ex_not_clean : lit_clean (list_ascii_of_string "x = 'it''s'") = false.
Proof. vm_compute. reflexivity. Qed.
