(** C04 — content preservation for the shape that format_line + join_items builds:
    a list whose items are strings or lists of strings, all with the same width and continuation. *)
From Coq Require Import ZArith List Bool Ascii Lia ZifyBool.
From Coq Require String.
From LV Require Import models.M_C04 proofs.P_C04 proofs.P_C04_wit.
Import ListNotations.
Open Scope Z_scope.

Definition uniform (p q : P) : Prop := width q = width p /\ c0 q = c0 p /\ c1 q = c1 p.
Definition nonempty (s : str) : Prop := s <> [].

(** an item of the outer list as [_add_item_to_line] sees it *)
Definition d1_item (p : P) (it : item) : Prop :=
  match it with
  | IStr s => s <> []
  | IJ q its => uniform p q /\ exists ss, its = map IStr ss /\ ss <> [] /\ Forall nonempty ss
  end.
(** an item of the outer list as given (empty strings are skipped by [_to_str]) *)
Definition d1_top (p : P) (it : item) : Prop :=
  match it with IStr _ => True | IJ _ _ => d1_item p it end.

Lemma fits_uniform p q x : uniform p q -> fits q x = fits p x.
Proof. intros (Hw & H0 & _). unfold fits. now rewrite Hw, H0. Qed.

Lemma Brk_uniform p q s t : uniform p q -> Brk q s t -> Brk p s t.
Proof.
  intros (_ & H0 & H1). induction 1; [constructor | constructor; assumption |].
  rewrite H0, H1. constructor. assumption.
Qed.

Lemma Brk_nonempty p s t : Brk p s t -> s <> [] -> t <> [].
Proof.
  induction 1; intros Hs; [congruence | discriminate |].
  intros E. apply app_eq_nil in E. destruct E as [_ E]. apply app_eq_nil in E. destruct E as [_ E]. now apply IHBrk.
Qed.

Lemma fits_shorter p x y : fits p y = true -> len x <= len y -> fits p x = true.
Proof. unfold fits. lia. Qed.

Lemma flatsk_strs q ss : flatsk (IJ q (map IStr ss)) = flat_skip q ss.
Proof.
  cbn [flatsk]. unfold flat_skip. induction ss as [|s rest IH]; cbn [map flatsk_list pieces concat]; [reflexivity|].
  cbn [flatsk]. destruct s as [|c s']; [exact IH|].
  cbn [concat]. rewrite IH.
  rewrite sep_after_map, <- app_assoc. reflexivity.
Qed.

Lemma flat_skip_nonempty q ss : ss <> [] -> Forall nonempty ss -> flat_skip q ss <> [].
Proof.
  intros Hn Hf. destruct ss as [|s rest]; [congruence|]. inversion Hf; subst.
  unfold flat_skip. cbn [pieces]. destruct s as [|c s']; [unfold nonempty in *; congruence|]. cbn. discriminate.
Qed.

Lemma flat_skip_app q ss1 ss2 :
  Forall nonempty ss1 -> ss2 <> [] ->
  flat_skip q (ss1 ++ ss2) = concat (map (fun s => s ++ sep q) ss1) ++ flat_skip q ss2.
Proof.
  intros Hf Hn. unfold flat_skip. induction Hf as [|s rest Hs _ IH]; cbn [app map concat pieces]; [reflexivity|].
  destruct s as [|c s']; [unfold nonempty in Hs; congruence|].
  cbn [concat]. rewrite IH.
  destruct (rest ++ ss2) eqn:E; [apply app_eq_nil in E; destruct E; congruence|].
  rewrite <- !app_assoc. reflexivity.
Qed.

Lemma wrap_lines_fit q ss : forall line,
  fits q (line ++ flat_skip q ss) = true -> wrap_lines q ss line = ([], line ++ flat_skip q ss).
Proof.
  unfold flat_skip. induction ss as [|s rest IH]; intros line Hf; cbn [wrap_lines pieces concat].
  - now rewrite app_nil_r.
  - destruct s as [|c s']; [apply IH; exact Hf|].
    cbn [pieces concat] in Hf. set (sp := match rest with [] => [] | _ => sep q end) in *.
    unfold add_str.
    assert (F : fits q (line ++ (c :: s') ++ sp) = true).
    { eapply fits_shorter; [exact Hf|]. rewrite !len_app. pose proof (len_nonneg (concat (pieces q rest))). lia. }
    rewrite F. rewrite IH.
    + cbn [app]. rewrite <- !app_assoc. reflexivity.
    + rewrite <- !app_assoc. rewrite <- !app_assoc in Hf. exact Hf.
Qed.

Fixpoint app_last (ss : list str) (sp : str) : list str :=
  match ss with
  | [] => [sp]
  | s :: t => match t with [] => [s ++ sp] | _ => s :: app_last t sp end
  end.

Lemma add_sfx_strs q ss sp : add_sfx (IJ q (map IStr ss)) sp = IJ q (map IStr (app_last ss sp)).
Proof.
  cbn [add_sfx]. f_equal. induction ss as [|s t IH]; [reflexivity|].
  cbn [map app_last]. destruct t as [|s2 t']; [reflexivity|].
  cbn [map] in *. rewrite IH. reflexivity.
Qed.

Lemma app_last_nonempty ss sp : ss <> [] -> Forall nonempty ss -> app_last ss sp <> [] /\ Forall nonempty (app_last ss sp).
Proof.
  intros Hn Hf. induction Hf as [|s t Hs Ht IH]; [congruence|].
  cbn [app_last]. destruct t as [|s2 t'].
  - split; [discriminate|]. constructor; [|constructor]. unfold nonempty in *. destruct s; [congruence | discriminate].
  - destruct IH as [_ IH]; [discriminate|]. split; [discriminate | constructor; assumption].
Qed.

Lemma flat_skip_app_last q ss sp :
  ss <> [] -> Forall nonempty ss -> flat_skip q (app_last ss sp) = flat_skip q ss ++ sp.
Proof.
  intros Hn Hf. unfold flat_skip. induction Hf as [|s t Hs Ht IH]; [congruence|].
  cbn [app_last]. destruct s as [|c s']; [unfold nonempty in Hs; congruence|].
  destruct t as [|s2 t'].
  - cbn. rewrite !app_nil_r. reflexivity.
  - cbn [pieces concat]. rewrite IH; [|discriminate].
    assert (E : app_last (s2 :: t') sp <> []) by (cbn; destruct t'; discriminate).
    destruct (app_last (s2 :: t') sp) eqn:E2; [congruence|].
    rewrite <- !app_assoc. reflexivity.
Qed.

Lemma join_res_strs f sp ss : join_res (str_of f) sp (map IStr ss) = Ok (join sp ss).
Proof.
  induction ss as [|s t IH]; [reflexivity|].
  cbn [map join_res join]. rewrite str_of_IStr. destruct t as [|s2 t']; [reflexivity|].
  cbn [map] in *. rewrite IH. reflexivity.
Qed.

Lemma renderb_no_lines p m : forall line,
  fst (renderb p line m) = [] -> snd (renderb p line m) = line ++ concat (map snd m).
Proof.
  induction m as [|[b a] r IH]; intros line H; cbn [renderb map snd concat] in *.
  - now rewrite app_nil_r.
  - destruct b.
    + destruct (renderb p (c1 p ++ a) r). discriminate.
    + rewrite IH; [now rewrite <- app_assoc | exact H].
Qed.

Lemma add_str_no_lines p line s l : s <> [] -> add_str p line s = (l, []) -> l = line ++ s.
Proof.
  intros Hs E. destruct (add_str_marks p line s Hs) as (m & Hm & Hr).
  rewrite E in Hr. unfold swap in Hr; cbn [fst snd] in Hr.
  pose proof (renderb_no_lines p m line) as H. rewrite <- Hr in H. cbn [fst snd] in H.
  rewrite H, Hm, chunk_list_concat; reflexivity.
Qed.

Lemma add_str_brk p line s :
  s <> [] -> exists t, concat (snd (add_str p line s)) ++ fst (add_str p line s) = line ++ t /\ Brk p s t.
Proof.
  intros Hs. destruct (add_str_marks p line s Hs) as (m & Hm & Hr).
  destruct (renderb_brk p m line) as (t & Ht & Hb).
  exists t. rewrite <- Hr in Ht. unfold text_of, swap in Ht. cbn [fst snd] in Ht.
  split; [exact Ht|]. rewrite Hm, chunk_list_concat in Hb. exact Hb.
Qed.

Lemma pieces_cons q s rest :
  s <> [] -> pieces q (s :: rest) = (s ++ match rest with [] => [] | _ => sep q end) :: pieces q rest.
Proof. destruct s; [congruence | reflexivity]. Qed.

(** ** the re-entry [_to_str(line, stop_on_continuation=True)] on a list of strings *)
Lemma stop_loop f q ss : Forall nonempty ss -> forall line r,
  to_str_loop (add_item f q) (str_of f) (sep q) true (map IStr ss) line [] = Ok r ->
  r = (line ++ flat_skip q ss, None) \/
  exists ss1 ss2, ss = ss1 ++ ss2 /\ ss2 <> [] /\ Forall nonempty ss1 /\
                  r = (line ++ concat (map (fun s => s ++ sep q) ss1), Some (map IStr ss2)).
Proof.
  induction 1 as [|s rest Hs Hrest IH]; intros line r; cbn [map to_str_loop].
  - intros [= <-]. left. unfold flat_skip. cbn. rewrite app_nil_r. reflexivity.
  - rewrite str_of_IStr.
    assert (Hn : is_nil s = false) by (destruct s; [unfold nonempty in Hs; congruence | reflexivity]). rewrite Hn.
    cbn [add_sfx]. rewrite add_item_IStr.
    rewrite sep_after_map. set (sp := match rest with [] => [] | _ :: _ => sep q end).
    assert (Hsp : s ++ sp <> []) by (destruct s; [unfold nonempty in Hs; congruence | discriminate]).
    destruct (add_str q line (s ++ sp)) as [line' ls] eqn:A.
    destruct ls as [|l0 ls']; cbn [is_nil negb andb app].
    + apply add_str_no_lines in A; [|exact Hsp]. subst line'.
      intros Hr. apply IH in Hr. destruct Hr as [-> | (ss1 & ss2 & -> & Hn2 & Hf1 & ->)].
      * left. unfold flat_skip. rewrite pieces_cons by exact Hs. cbn [concat]. fold sp.
        rewrite <- !app_assoc. reflexivity.
      * right. exists (s :: ss1), ss2. repeat split; auto.
        cbn [map concat]. unfold sp. destruct (ss1 ++ ss2) eqn:E2; [apply app_eq_nil in E2; destruct E2; congruence|].
        rewrite <- !app_assoc. reflexivity.
    + intros [= <-]. right. exists [], (s :: rest). cbn. rewrite app_nil_r. repeat split; auto. discriminate.
Qed.

(** ** [_add_item_to_line] on a string or a list of strings *)
Lemma to_str_S_strs f q ss line stop :
  ss <> [] ->
  to_str (S f) q (map IStr ss) line stop = to_str_loop (add_item f q) (str_of f) (sep q) stop (map IStr ss) line [].
Proof. destruct ss; [congruence | reflexivity]. Qed.

Lemma add_item_d1 : forall f p line it line' ls,
  d1_item p it -> add_item f p line it = Ok (line', ls) ->
  exists t, concat ls ++ line' = line ++ t /\ Brk p (flatsk it) t.
Proof.
  assert (Hstr : forall f p line s line' ls, s <> [] -> add_item f p line (IStr s) = Ok (line', ls) ->
                 exists t, concat ls ++ line' = line ++ t /\ Brk p s t).
  { intros f p line s line' ls Hs H. rewrite add_item_IStr in H. inversion H as [E].
    destruct (add_str_brk p line s Hs) as (t & Ht & Hb). rewrite E in Ht. cbn [fst snd] in Ht. exists t. split; assumption. }
  induction f as [|f IH]; intros p line it line' ls Hd H.
  { destruct it as [s|q its]; [apply (Hstr _ _ _ _ _ _ Hd H) | discriminate]. }
  destruct it as [s|q its]; [apply (Hstr _ _ _ _ _ _ Hd H)|].
  destruct Hd as (Hu & ss & -> & Hne & Hf).
  rewrite flatsk_strs. cbn [add_item] in H.
  destruct (str_of f (IJ q (map IStr ss))) as [S0|e] eqn:ES; [|discriminate].
  pose proof (str_of_flat _ _ _ _ ES) as HS0.
  assert (HB : Brk p (flat_skip q ss) S0) by (apply (Brk_uniform p q); [exact Hu | eapply content_preserved; exact ES]).
  pose proof (flat_skip_nonempty q ss Hne Hf) as HFne.
  (* the rendered list fits on the current line *)
  destruct (fits p (line ++ S0)) eqn:F1.
  { injection H as <- <-. exists S0. split; [reflexivity | exact HB]. }
  cbv beta zeta in H.
  (* a prefix that does not fit with the wrapped text does not fit with the flat text either *)
  assert (Hnofit : forall pre, fits p (pre ++ S0) = false -> fits p (pre ++ flat_skip q ss) = false).
  { intros pre X. destruct (fits p (pre ++ flat_skip q ss)) eqn:Y; [|reflexivity]. exfalso.
    assert (Z0 : fits q ([] ++ flat_skip q ss) = true).
    { rewrite (fits_uniform p q _ Hu). eapply fits_shorter; [exact Y|]. cbn [app]. rewrite len_app. pose proof (len_nonneg pre). lia. }
    apply wrap_lines_fit in Z0. rewrite Z0 in HS0. unfold text_of in HS0. cbn in HS0. subst S0. congruence. }
  (* own line, or the chunk path on the joined text *)
  assert (Hfall : forall line' ls,
    (if fits p (c1 p ++ S0) then Ok (c1 p ++ S0, [line ++ c0 p])
     else match join_res (str_of f) (sep q) (map IStr ss) with
          | Err e => Err e
          | Ok istr => Ok (chunk_path p line istr)
          end) = Ok (line', ls) ->
    exists t, concat ls ++ line' = line ++ t /\ Brk p (flat_skip q ss) t).
  { intros line0 ls0. destruct (fits p (c1 p ++ S0)) eqn:F2.
    - intros [= <- <-]. exists (c0 p ++ c1 p ++ S0). split.
      + cbn [concat]. rewrite app_nil_r, <- !app_assoc. reflexivity.
      + apply Brk_cont. exact HB.
    - rewrite join_res_strs, <- (flat_skip_join q ss Hf). intros [= Hc].
      assert (Ha : add_str p line (flat_skip q ss) = chunk_path p line (flat_skip q ss)).
      { unfold add_str. rewrite (Hnofit line F1), (Hnofit (c1 p) F2). reflexivity. }
      destruct (add_str_brk p line (flat_skip q ss) HFne) as (t & Ht & Hb).
      rewrite Ha, Hc in Ht. cbn [fst snd] in Ht. exists t. split; assumption. }
  (* otherwise: re-entry with stop_on_continuation (fuel 0 and a re-entry that broke nothing are errors), then the rest
     of the list recursively on a fresh line: [IH] *)
  destruct ((separable q || negb (fits p (c1 p ++ S0))) && (1 <? Z.of_nat (Datatypes.length (map IStr ss)))) eqn:EC;
    [|apply Hfall; exact H].
  destruct f as [|f']; [discriminate|].
  rewrite to_str_S_strs in H by exact Hne.
  destruct (to_str_loop (add_item f' q) (str_of f') (sep q) true (map IStr ss) line []) as [[line_ [rest|]]|e] eqn:ET;
    try discriminate.
  apply stop_loop in ET; [|exact Hf].
  destruct ET as [ET | (ss1 & ss2 & Hss & Hn2 & Hf1 & ET)]; [discriminate|].
  inversion ET; subst line_ rest. clear ET.
  destruct (Datatypes.length (map IStr ss2) <? Datatypes.length (map IStr ss))%nat eqn:EL; [|apply Hfall; exact H].
  destruct (add_item (S f') p (c1 p) (IJ q (map IStr ss2))) as [[line'' ls']|e] eqn:EA; [|discriminate].
  inversion H; subst line' ls. clear H.
  assert (Hf2 : Forall nonempty ss2).
  { rewrite Hss in Hf. apply Forall_app in Hf. apply Hf. }
  destruct (IH p (c1 p) (IJ q (map IStr ss2)) line'' ls') as (t' & Ht' & Hb'); [|exact EA|].
  { split; [exact Hu|]. exists ss2. repeat split; assumption. }
  rewrite flatsk_strs in Hb'.
  exists (concat (map (fun s => s ++ sep q) ss1) ++ c0 p ++ c1 p ++ t'). split.
  - cbn [concat]. rewrite <- !app_assoc. rewrite Ht'. rewrite <- ?app_assoc. reflexivity.
  - rewrite Hss, (flat_skip_app q ss1 ss2 Hf1 Hn2). apply Brk_app; [apply Brk_refl|]. apply Brk_cont. exact Hb'.
Qed.

Lemma d1_add_sfx p it sp :
  d1_item p it -> d1_item p (add_sfx it sp) /\ flatsk (add_sfx it sp) = flatsk it ++ sp.
Proof.
  destruct it as [s|q its]; cbn [d1_item].
  - intros Hs. cbn [add_sfx flatsk d1_item]. split; [|reflexivity]. destruct s; [congruence | discriminate].
  - intros (Hu & ss & -> & Hne & Hf). rewrite add_sfx_strs. cbn [d1_item].
    destruct (app_last_nonempty ss sp Hne Hf) as [H1 H2]. split.
    + split; [exact Hu|]. exists (app_last ss sp). repeat split; assumption.
    + rewrite !flatsk_strs. apply flat_skip_app_last; assumption.
Qed.

Lemma loop_d1 f q its : Forall (d1_top q) its -> forall line lines r,
  to_str_loop (add_item f q) (str_of f) (sep q) false its line lines = Ok r ->
  exists t, r = (concat lines ++ line ++ t, None) /\ Brk q (flatsk_list flatsk (sep q) its) t.
Proof.
  induction 1 as [|it rest Hit Hrest IH]; intros line lines r; cbn [to_str_loop flatsk_list].
  - intros [= <-]. exists []. split; [now rewrite app_nil_r | constructor].
  - destruct (str_of f it) as [s|e] eqn:ES; [|discriminate].
    (* either the item is an empty string and is skipped, or it is a proper item *)
    assert (Hcase : (is_nil s = true /\ flatsk it = []) \/ (is_nil s = false /\ d1_item q it /\ flatsk it <> [])).
    { destruct it as [x|q' its'].
      - rewrite str_of_IStr in ES. injection ES as <-. cbn [flatsk d1_item]. destruct x; [left | right]; repeat split; discriminate.
      - right. cbn [d1_top] in Hit. destruct Hit as (Hu & ss & -> & Hne & Hf).
        pose proof (flat_skip_nonempty q' ss Hne Hf) as HF.
        assert (HB : Brk q' (flat_skip q' ss) s) by (eapply content_preserved; exact ES).
        pose proof (Brk_nonempty _ _ _ HB HF) as Hs.
        split; [destruct s; [congruence | reflexivity]|]. split.
        + split; [exact Hu|]. exists ss. repeat split; assumption.
        + rewrite flatsk_strs. exact HF. }
    destruct Hcase as [[Hn HF] | (Hn & Hd & HF)]; rewrite Hn.
    + rewrite HF. apply IH.
    + set (sp := match rest with [] => [] | _ :: _ => sep q end).
      destruct (d1_add_sfx q it sp Hd) as [Hd' HF'].
      destruct (add_item f q line (add_sfx it sp)) as [[line' ls]|e] eqn:EA; [|discriminate].
      destruct (add_item_d1 _ _ _ _ _ _ Hd' EA) as (t1 & Ht1 & Hb1).
      cbn [andb]. intros Hr. apply IH in Hr. destruct Hr as (t2 & -> & Hb2).
      exists (t1 ++ t2). split.
      * rewrite concat_app, <- !app_assoc. f_equal. f_equal. rewrite app_assoc, Ht1, <- app_assoc. reflexivity.
      * rewrite HF' in Hb1. destruct (flatsk it) as [|c fx] eqn:EF; [congruence|].
        fold sp. rewrite app_assoc. apply Brk_app; assumption.
Qed.

Lemma content_nested_d1 fuel q its text :
  Forall (d1_top q) its -> str_of fuel (IJ q its) = Ok text -> Brk q (flatsk (IJ q its)) text.
Proof.
  intros Hd. destruct fuel as [|[|f]]; cbn [str_of to_str]; try discriminate.
  destruct its as [|it rest].
  - intros [= <-]. cbn. constructor.
  - destruct (to_str_loop (add_item f q) (str_of f) (sep q) false (it :: rest) [] []) as [[t o]|e] eqn:E; [|discriminate].
    intros [= <-]. apply (loop_d1 _ _ _ Hd) in E. destruct E as (t' & [= -> ->] & Hb). exact Hb.
Qed.

(** the class is inhabited by the usual shape of a call statement (and the model wraps it) *)
Import String.
Local Open Scope list_scope.
Definition ex_call : list item :=
  [IStr (rep " " 4); IStr (L "CALL "); IStr (L "physics_driver"); IStr (L "(");
   IJ (mkP (L ", ") 60 fcont0 (fcont1 4) true)
      [IStr (L "temperature(jl, jk)"); IStr (L "humidity(jl, jk)"); IStr (L "pressure_half(jl, jk + 1)");
       IStr (L "'units: K'"); IStr (L "state%field(jk)%ptr"); IStr (L "kflag=.true.")];
   IStr (L ")")].
Example ex_call_in_class : Forall (d1_top (fstyle 60 4)) ex_call.
Proof.
  unfold ex_call. repeat constructor.
  exists [L "temperature(jl, jk)"; L "humidity(jl, jk)"; L "pressure_half(jl, jk + 1)"; L "'units: K'"; L "state%field(jk)%ptr"; L "kflag=.true."].
  repeat split; try discriminate. repeat constructor; discriminate.
Qed.
Example ex_call_wraps : exists text, str_of 40 (IJ (fstyle 60 4) ex_call) = Ok text /\ 60 < len text.
Proof.
  exists (L "    CALL physics_driver(temperature(jl, jk),  &" ++ nl
          ++ L "    & humidity(jl, jk), pressure_half(jl, jk + 1),  &" ++ nl
          ++ L "    & 'units: K', state%field(jk)%ptr, kflag=.true.)").
  split; vm_compute; reflexivity.
Qed.
