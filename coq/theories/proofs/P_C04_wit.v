(** C04 — concrete witnesses (computed by [vm_compute]), a complete checker for [Brk], used to refute it, and [flatsk]:
    the flat text of a nested item, in which the nested statements (here and in P_C04_nested.v) are written. *)
From Coq Require Import ZArith List Bool String Ascii Lia.
From LV Require Import models.M_C04 proofs.P_C04.
Import ListNotations.
Open Scope Z_scope.

(** * Deciding [Brk]: completeness of a backtracking checker (used to refute [Brk] on witnesses) *)
Fixpoint strip_prefix (pre s : str) : option str :=
  match pre, s with
  | [], _ => Some s
  | c :: pre', d :: s' => if Ascii.eqb c d then strip_prefix pre' s' else None
  | _ :: _, [] => None
  end.

Lemma strip_prefix_app pre s : strip_prefix pre (pre ++ s) = Some s.
Proof. induction pre as [|c r IH]; cbn; [reflexivity | now rewrite Ascii.eqb_refl]. Qed.

Fixpoint brkb (cc : str) (n : nat) (s t : str) : bool :=
  match n with
  | O => false
  | S n' =>
    (match s, t with
     | [], [] => true
     | c :: s', d :: t' => Ascii.eqb c d && brkb cc n' s' t'
     | _, _ => false
     end)
    || (match cc, strip_prefix cc t with
        | _ :: _, Some t' => brkb cc n' s t'
        | _, _ => false
        end)
  end.

Lemma brkb_complete p s t : Brk p s t -> forall n, (List.length t < n)%nat -> brkb (c0 p ++ c1 p) n s t = true.
Proof.
  induction 1 as [|c s t H IH|s t H IH]; intros n Hn.
  - destruct n; [lia | reflexivity].
  - destruct n; [cbn in Hn; lia|]. cbn [brkb]. rewrite Ascii.eqb_refl, IH; [reflexivity | cbn in Hn; lia].
  - destruct (c0 p ++ c1 p) as [|x cc] eqn:E.
    + apply app_eq_nil in E. destruct E as [E0 E1]. rewrite E0, E1 in *. cbn [app] in *. apply IH. exact Hn.
    + destruct n; [lia|]. cbn [brkb].
      rewrite app_assoc, E, strip_prefix_app, IH.
      * apply orb_true_r.
      * rewrite app_assoc, E, app_length in Hn. cbn in Hn. lia.
Qed.

Lemma brkb_refutes p s t : brkb (c0 p ++ c1 p) (S (List.length t)) s t = false -> ~ Brk p s t.
Proof. intros H B. rewrite (brkb_complete p s t B) in H; [discriminate | lia]. Qed.

Definition L (s : string) : str := list_ascii_of_string s.
Definition rep (c : string) (n : nat) : str := List.concat (repeat (L c) n).
Definition nl : str := [ch_nl].

(** the continuation of the Fortran backend at indentation [ind]: [' &\n' + indent + '& '] *)
Definition fcont0 : str := L " &" ++ nl.
Definition fcont1 (ind : nat) : str := rep " " ind ++ L "& ".
Definition fstyle (w : Z) (ind : nat) : P := mkP [] w fcont0 (fcont1 ind) true.

(** F13: [x = 'aaa...''bbb...'] at indentation 4, width 132: broken between the two halves of the doubled quote *)
Definition f13_items : list str :=
  [rep " " 4; L "x = "; L "'" ++ rep "a" 70 ++ L "''" ++ rep "b" 70 ++ L "'"].
Definition f13_pre : str := rep " " 4 ++ L "x = '" ++ rep "a" 70 ++ L "'".
Definition f13_post : str := L "'" ++ rep "b" 70 ++ L "'".

Lemma f13_witness :
  text_of (wrap_lines (fstyle 132 4) f13_items []) = f13_pre ++ c0 (fstyle 132 4) ++ c1 (fstyle 132 4) ++ f13_post /\
  flat_skip (fstyle 132 4) f13_items = f13_pre ++ f13_post /\
  cut_in_literal f13_pre f13_post = true.
Proof. vm_compute. repeat split. Qed.

(** the same defect on a literal that is not long at all: [... // ' it''s broken'] is cut whenever the line ends there *)
Definition f13s_items : list str :=
  [rep " " 2; L "x = "; L "trim(y) // ' is not what it''s meant to be' // trim(y) // ' it''s broken'"].
Definition f13s_pre : str := L "  x = trim(y) // ' is not what it'".
Lemma f13s_witness :
  let p := fstyle 40 2 in
  let text := text_of (wrap_lines p f13s_items []) in
  let k := List.length f13s_pre in
  firstn k text = f13s_pre /\
  firstn (List.length (c0 p ++ c1 p)) (skipn k text) = c0 p ++ c1 p /\
  firstn k (flat_skip p f13s_items) = f13s_pre /\
  cut_in_literal f13s_pre (skipn k (flat_skip p f13s_items)) = true.
Proof. vm_compute. repeat split. Qed.

(** what is printed when nothing has to be wrapped: [sep.join] of the non-empty items, recursively *)
Section FlatSk.
  Variable f : item -> str.
  Fixpoint flatsk_list (sp : str) (l : list item) : str :=
    match l with
    | [] => []
    | x :: t => match f x with
                | [] => flatsk_list sp t
                | fx => fx ++ match t with [] => [] | _ => sp end ++ flatsk_list sp t
                end
    end.
End FlatSk.
Fixpoint flatsk (it : item) : str :=
  match it with IStr s => s | IJ q its => flatsk_list flatsk (sep q) its end.

(** F13b at the level of JoinableStringList: a list nested two levels down that needs wrapping itself is rendered by
    [str()] first and the continuation markers inside that text are then split and re-wrapped as if they were content. *)
Definition p20 (sp : string) : P := mkP (L sp) 20 fcont0 (L "& ") true.
Definition nested_bad : item :=
  IJ (p20 "") [IStr (L "x "); IJ (p20 ", ") [IJ (p20 ", ") [IStr (rep "a" 12); IStr (rep "b" 12)]; IStr (L "c")]].

Lemma nested_rewrap_refuted :
  exists text, str_of 40 nested_bad = Ok text /\ ~ Brk (p20 "") (flatsk nested_bad) text.
Proof.
  exists (L "x aaaaaaaaaaaa,   &" ++ nl ++ L "& &" ++ nl ++ L "&  &" ++ nl ++ L "& bbbbbbbbbbbb, c").
  split; [vm_compute; reflexivity|].
  apply brkb_refutes. vm_compute. reflexivity.
Qed.

(** an empty item inside a nested list: the chunk path joins the items without skipping it, so the wrapped text has a
    separator that the unwrapped text has not *)
Definition empty_bad : item :=
  IJ (p20 "") [IStr (L "pre "); IJ (p20 ", ") [IStr (rep "a" 30); IStr []; IStr (L "b")]].
Lemma empty_item_refuted :
  exists text, str_of 40 empty_bad = Ok text /\ ~ Brk (p20 "") (flatsk empty_bad) text.
Proof.
  exists (L "pre  &" ++ nl ++ L "& aaaaaaaaaaaaaaaaaaaaaaaaaaaaaa, &" ++ nl ++ L "&  , b").
  split; [vm_compute; reflexivity|].
  apply brkb_refutes. vm_compute. reflexivity.
Qed.

(** [str()] can raise: the re-entry with [stop_on_continuation] returns [None] when nothing was broken *)
Definition attr_bad : item :=
  IJ (mkP [] 20 nl [] true) [IJ (mkP (L ", ") 20 nl [] true) [IStr []; IStr (rep "a" 30)]].
Lemma attribute_error_witness : str_of 40 attr_bad = Err EAttr.
Proof. vm_compute. reflexivity. Qed.

(** * Non-vacuity: a wrapped call statement, 3 lines, all within 60 columns *)
Definition ex_items : list str :=
  [rep " " 4; L "CALL "; L "compute_tendencies"; L "(";
   L "temperature(jl, jk), humidity(jl, jk), pressure_at_half_levels(jl, jk + 1), 'units: K', state%field(jk)%ptr";
   L ")"].
Example ex_wraps :
  fst (wrap_lines (fstyle 60 4) ex_items []) <> [] /\
  Forall (fun l => len l <= 60) (fst (wrap_lines (fstyle 60 4) ex_items [])) /\
  len (snd (wrap_lines (fstyle 60 4) ex_items [])) + 3 <= 60.
Proof. vm_compute. repeat split; try discriminate; repeat constructor; discriminate. Qed.

(** an unbreakable chunk longer than the line: the exception in the width theorem is needed *)
Example ex_unbreakable :
  30 <? len (snd (wrap_lines (fstyle 30 2) [rep " " 2; L "x = "; L "'" ++ rep "a" 40 ++ L "'"] [])) = true.
Proof. vm_compute. reflexivity. Qed.
