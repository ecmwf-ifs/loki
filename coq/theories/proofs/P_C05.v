(** C05 — pass-level and source-level results about the sanitiser model, round trips, witnesses. *)
From Coq Require Import String Ascii List Bool Arith NArith ZArith Lia.
From LV Require Import Base.Strings models.M_C05 proofs.P_C05_base proofs.P_C05_rules.
Import ListNotations.
Open Scope string_scope.

Definition nl : string := String NL "".

(** [b] is obtained from [a] line by line (lines as cut by str.splitlines), each line related by [R] *)
Definition linewise (R : string -> string -> Prop) (a b : string) : Prop :=
  exists ls', Forall2 R (splitlines a) ls' /\ b = sconcat ls'.

Lemma pass_fst f src : fst (pass f src) = sconcat (map (fun l => fst (f l)) (splitlines src)).
Proof. unfold pass. cbn [fst]. now rewrite map_map. Qed.

Lemma pass_linewise (R : string -> string -> Prop) f :
  (forall l, R l (fst (f l))) -> forall src, linewise R src (fst (pass f src)).
Proof.
  intros H src. exists (map (fun l => fst (f l)) (splitlines src)). split; [|apply pass_fst].
  induction (splitlines src) as [|l ls IH]; cbn; constructor; auto.
Qed.

Lemma run_rules_fst f rs src : fst (run_rules (f :: rs) src) = fst (run_rules rs (fst (pass f src))).
Proof. cbn [run_rules]. destruct (pass f src) as [s1 i1]. cbn [fst]. now destruct (run_rules rs s1). Qed.

Lemma pass_id_lines f ls i :
  (forall l, In l ls -> f l = (l, [])) ->
  sconcat (map fst (map f ls)) = sconcat ls /\ collect i (map snd (map f ls)) = [].
Proof.
  revert i. induction ls as [|l ls IH]; intros i H; cbn; [split; reflexivity|].
  rewrite (H l (or_introl eq_refl)). cbn.
  destruct (IH (i + 1)%Z (fun x Hx => H x (or_intror Hx))) as [E1 E2]. now rewrite E1, E2.
Qed.

Lemma pass_id f src : (forall l, In l (splitlines src) -> f l = (l, [])) -> pass f src = (src, []).
Proof.
  intro H. unfold pass. destruct (pass_id_lines f (splitlines src) 1%Z H) as [E1 E2].
  now rewrite E1, E2, sconcat_splitlines.
Qed.

Lemma run_rules_id rs src :
  (forall f, In f rs -> pass f src = (src, [])) -> run_rules rs src = (src, map (fun _ => []) rs).
Proof.
  induction rs as [|f rs IH]; intro H; cbn [run_rules map]; [reflexivity|].
  rewrite (H f (or_introl eq_refl)). rewrite IH; [reflexivity|]. intros g Hg. apply H. now right.
Qed.

(** no rule's keyword occurs in [s], each looked for in the letter case its rule matches *)
Definition untriggered (s : string) : Prop :=
  contains kw_process s = false /\ (forall t, In t macro_toks -> contains t s = false) /\ contains kw_line s = false /\
  contains_ci "convert=" s = false /\ contains_ci "newunit=" s = false /\ contains kw_ypp s = false.

Lemma untriggered_line src l : untriggered src -> In l (splitlines src) -> untriggered l.
Proof.
  intros (H1 & H2 & H3 & H4 & H5 & H6) Hl. repeat split.
  - exact (contains_line _ _ _ H1 Hl).
  - intros t Ht. exact (contains_line _ _ _ (H2 t Ht) Hl).
  - exact (contains_line _ _ _ H3 Hl).
  - exact (contains_ci_line _ _ _ H4 Hl).
  - exact (contains_ci_line _ _ _ H5 Hl).
  - exact (contains_line _ _ _ H6 Hl).
Qed.

Lemma untriggered_rule l f : untriggered l -> In f rules -> f l = (l, []).
Proof.
  intros (H1 & H2 & H3 & H4 & H5 & H6) Hf.
  cbn in Hf. destruct Hf as [<-|[<-|[<-|[<-|[<-|[<-|[]]]]]]].
  - now apply f_ibm_id.
  - now apply f_strpp_id.
  - now apply f_line_id.
  - now apply f_conv_id.
  - now apply f_nu_id.
  - now apply f_fypp_id.
Qed.

Theorem untriggered_identity src : untriggered src -> sanitize src = (src, [[]; []; []; []; []; []]).
Proof.
  intro H. unfold sanitize. rewrite run_rules_id; [reflexivity|].
  intros f Hf. apply pass_id. intros l Hl. apply untriggered_rule; [|exact Hf].
  now apply (untriggered_line src).
Qed.

Lemma no_trigger_sharp_untriggered s : no_trigger_sharp s = true -> untriggered s.
Proof.
  unfold no_trigger_sharp. intro H.
  apply andb_prop in H as [H Hy]. apply andb_prop in H as [H Hn]. apply andb_prop in H as [H Hc].
  apply andb_prop in H as [H Hl]. apply andb_prop in H as [Hp Hm].
  repeat split; try (now apply negb_true_iff).
  intros t Ht. apply negb_true_iff. exact (proj1 (forallb_forall _ _) Hm t Ht).
Qed.

(** a keyword that occurs in no letter case does not occur as the case-sensitive rules spell it *)
Lemma no_trigger_untriggered s : no_trigger s = true -> untriggered s.
Proof.
  intro H.
  assert (K : forall k, In k trigger_kws -> contains_ci k s = false).
  { intros k Hk. apply negb_true_iff. exact (proj1 (forallb_forall _ _) H k Hk). }
  assert (C : forall p, In (lower p) trigger_kws -> contains p s = false).
  { intros p Hp. apply contains_ci_false_cs, K, Hp. }
  repeat split.
  - apply C. now left.
  - intros t [<-|[<-|[<-|[<-|[]]]]]; apply C; [do 1 right|do 2 right|do 3 right|do 4 right]; now left.
  - apply C. do 5 right. now left.
  - apply K. do 6 right. now left.
  - apply K. do 7 right. now left.
  - apply C. do 8 right. now left.
Qed.

Theorem no_trigger_identity src :
  no_trigger src = true -> sanitize src = (src, [[]; []; []; []; []; []]).
Proof. intro H. apply untriggered_identity, no_trigger_untriggered, H. Qed.

(** lines without trigger text are left alone by every rule even when other lines of the source match *)
Theorem untriggered_lines_untouched f src :
  In f rules -> linewise (fun l l' => no_trigger l = true -> l' = l) src (fst (pass f src)).
Proof.
  intro Hf. apply pass_linewise. intros l Hl.
  now rewrite (untriggered_rule l f (no_trigger_untriggered _ Hl) Hf).
Qed.

Definition R_strpp := seg_rel R_macro.
Definition R_line := seg_rel R_lineno.

Theorem sanitize_only_touches_matches src :
  exists s1 s2 s3 s4 s5,
    linewise R_ibm src s1 /\ linewise R_strpp s1 s2 /\ linewise R_line s2 s3 /\
    linewise R_conv s3 s4 /\ linewise R_nu s4 s5 /\ linewise R_fypp s5 (fst (sanitize src)).
Proof.
  unfold sanitize, rules. rewrite !run_rules_fst. cbn [run_rules fst].
  set (s1 := fst (pass f_ibm src)). set (s2 := fst (pass f_strpp s1)). set (s3 := fst (pass f_line s2)).
  set (s4 := fst (pass f_conv s3)). set (s5 := fst (pass f_nu s4)).
  exists s1, s2, s3, s4, s5. repeat split; apply pass_linewise.
  - exact f_ibm_rel.
  - exact f_strpp_rel.
  - exact f_line_rel.
  - exact f_conv_rel.
  - exact f_nu_rel.
  - exact f_fypp_rel.
Qed.

Lemma cont_plain last s : ends_amp last = false -> cont last s = "".
Proof. intro H. unfold cont. now rewrite H. Qed.
Lemma cont_amp last a b :
  ends_amp last = true -> first_occ last (a ++ last ++ b) = Some (String.length a) ->
  cont last (a ++ last ++ b) = rstrip b.
Proof. intros H Hf. unfold cont, after_first. now rewrite H, Hf, sdrop_plus, !sdrop_app. Qed.

Lemma e_conv_inj g g' : e_conv g = e_conv g' -> g = g'.
Proof. destruct g, g'. unfold e_conv. cbn. intro H. inversion H. reflexivity. Qed.
Lemma e_nu_inj g g' : e_nu g = e_nu g' -> g = g'.
Proof. destruct g, g'. unfold e_nu. cbn. intro H. inversion H. reflexivity. Qed.

Lemma f_conv_recorded l l' g : f_conv l = (l', [e_conv g]) -> exists tail, conv_match l = Some (g, tail).
Proof.
  unfold f_conv. destruct (conv_match l) as [[g' tail]|]; [|discriminate].
  intro H. apply (f_equal (fun p => hd (EP "" "") (snd p))) in H. cbn [snd hd] in H.
  apply e_conv_inj in H. subst. now exists tail.
Qed.
Lemma f_nu_recorded l l' g : f_nu l = (l', [e_nu g]) -> exists tail, nu_match l = Some (g, tail).
Proof.
  unfold f_nu. destruct (nu_match l) as [[g' tail]|]; [|discriminate].
  intro H. apply (f_equal (fun p => hd (EP "" "") (snd p))) in H. cbn [snd hd] in H.
  apply e_nu_inj in H. subst. now exists tail.
Qed.

Lemma reinsert_convert_line l g tail s :
  conv_match l = Some (g, tail) -> ends_amp (cg_post g) = false -> reinsert_convert g s ++ tail = l.
Proof.
  intros M Ha. apply conv_match_app in M. destruct M as [E _].
  unfold reinsert_convert. rewrite (cont_plain _ _ Ha), E. now right_nest.
Qed.
Lemma reinsert_newunit_line l g tail s :
  nu_match l = Some (g, tail) -> ends_amp (ng_args2 g) = false -> reinsert_newunit g s ++ tail = l.
Proof.
  intros M Ha. apply nu_match_app in M. destruct M as [E _].
  unfold reinsert_newunit. rewrite (cont_plain _ _ Ha), E. now right_nest.
Qed.

(** the text rebuilt from the recorded groups is the original line without its final newline, byte for byte;
    for a statement continued with "&" the remaining lines of the statement's source string are appended, right-stripped *)
Theorem convert_roundtrip l l' g :
  f_conv l = (l', [e_conv g]) ->
  exists tail, (tail = "" \/ tail = nl) /\
    (ends_amp (cg_post g) = false -> forall s, reinsert_convert g s ++ tail = l) /\
    (ends_amp (cg_post g) = true -> forall a b,
       first_occ (cg_post g) (a ++ cg_post g ++ b) = Some (String.length a) ->
       exists first, first ++ tail = l /\ reinsert_convert g (a ++ cg_post g ++ b) = first ++ rstrip b).
Proof.
  intro H. destruct (f_conv_recorded _ _ _ H) as [tail M]. exists tail.
  destruct (conv_match_app _ _ _ M) as [E [Ht _]]. split; [exact Ht|]. split.
  - intros Ha s. exact (reinsert_convert_line _ _ _ s M Ha).
  - intros Ha a b Hf. exists (cg_ws g ++ cg_pre g ++ cg_convert g ++ cg_post g). split; [rewrite E; now right_nest|].
    unfold reinsert_convert. rewrite (cont_amp _ _ _ Ha Hf). now right_nest.
Qed.

Theorem newunit_roundtrip l l' g :
  f_nu l = (l', [e_nu g]) ->
  exists tail, (tail = "" \/ tail = nl) /\
    (ends_amp (ng_args2 g) = false -> forall s, reinsert_newunit g s ++ tail = l) /\
    (ends_amp (ng_args2 g) = true -> forall a b,
       first_occ (ng_args2 g) (a ++ ng_args2 g ++ b) = Some (String.length a) ->
       exists first, first ++ tail = l /\ reinsert_newunit g (a ++ ng_args2 g ++ b) = first ++ rstrip b).
Proof.
  intro H. destruct (f_nu_recorded _ _ _ H) as [tail M]. exists tail.
  destruct (nu_match_app _ _ _ M) as [E [Ht _]]. split; [exact Ht|]. split.
  - intros Ha s. exact (reinsert_newunit_line _ _ _ s M Ha).
  - intros Ha a b Hf.
    exists (ng_ws g ++ ng_open g ++ ng_args1 g ++ ostr (ng_delim g) ++ ng_key g ++ ng_val g ++ ng_args2 g).
    split; [rewrite E; now right_nest|].
    unfold reinsert_newunit. rewrite (cont_amp _ _ _ Ha Hf). now right_nest.
Qed.

(** what the statement ends up with after both callbacks, on the class "only one of the two rules matched the line" *)
Theorem restored_convert_only l g tail s :
  conv_match l = Some (g, tail) -> nu_match (fst (f_conv l)) = None -> ends_amp (cg_post g) = false ->
  exists text, restored_text l s = Some text /\ text ++ tail = l.
Proof.
  intros M N Ha. unfold restored_text. rewrite M, N. cbn [option_map fst final_text].
  exists (reinsert_convert g s). split; [reflexivity|]. exact (reinsert_convert_line _ _ _ s M Ha).
Qed.
Theorem restored_newunit_only l g tail s :
  conv_match l = None -> nu_match l = Some (g, tail) -> ends_amp (ng_args2 g) = false ->
  exists text, restored_text l s = Some text /\ text ++ tail = l.
Proof.
  intros M N Ha. unfold restored_text, f_conv. rewrite M. cbn [fst]. rewrite N. cbn [option_map fst final_text].
  exists (reinsert_newunit g s). split; [reflexivity|]. exact (reinsert_newunit_line _ _ _ s N Ha).
Qed.
Theorem restored_none l s : conv_match l = None -> nu_match l = None -> restored_text l s = None.
Proof. intros M N. unfold restored_text, f_conv. rewrite M. cbn [fst]. now rewrite N. Qed.

(** * witnesses: what the unconditional property would need, refuted on the model (each reproduced on the real code) *)
(** F14: macro tokens inside string literals, comments and longer identifiers are rewritten; nothing is recorded for
    the two re-inserting rules (entries 4 and 5 of pp_info stay empty), so nothing restores them *)
Theorem literal_rewritten_refuted :
  sanitize ("  c = '__LINE__'" ++ nl) = ("  c = '0'" ++ nl, [[]; []; [(1%Z, [EP "__LINE__" "0"])]; []; []; []]) /\
  sanitize ("  c = 'in __FILE__'" ++ nl)
    = ("  c = 'in ""__FILE__""'" ++ nl, [[]; [(1%Z, [e_else "__FILE__"])]; []; []; []; []]) /\
  sanitize ("  c = ""in __FILE__""" ++ nl)
    = ("  c = ""in ""__FILE__""""" ++ nl, [[]; [(1%Z, [e_else "__FILE__"])]; []; []; []; []]) /\
  sanitize ("  k = 1 ! see __LINE__" ++ nl) = ("  k = 1 ! see 0" ++ nl, [[]; []; [(1%Z, [EP "__LINE__" "0"])]; []; []; []]) /\
  sanitize ("  ! __DATE__ here" ++ nl)
    = ("  ! ""__DATE__"" here" ++ nl, [[]; [(1%Z, [e_else "__DATE__"])]; []; []; []; []]) /\
  sanitize ("  k__LINE__k = 1" ++ nl) = ("  k0k = 1" ++ nl, [[]; []; [(1%Z, [EP "__LINE__" "0"])]; []; []; []]) /\
  sanitize ("  c = 'the @PROCESS x'" ++ nl) = ("  c = 'the " ++ nl, [[(1%Z, [EG []])]; []; []; []; []; []]) /\
  sanitize ("  k = 1 ! @PROCESS x" ++ nl) = ("  k = 1 ! " ++ nl, [[(1%Z, [EG []])]; []; []; []; []; []]).
Proof. repeat split; vm_compute; reflexivity. Qed.

(** a line matched by both OPEN rules: the second callback rebuilds the text from what rule 5 saw, i.e. without CONVERT= *)
Theorem both_specifiers_convert_lost_refuted :
  let l := "  open(newunit=u, file=f, convert='big_endian')" in
  fst (sanitize (l ++ nl)) = "  open(u, file=f)" ++ nl /\
  restored_text l "  open(u, file=f)" = Some "  open(newunit=u, file=f)".
Proof. split; vm_compute; reflexivity. Qed.

(** the value of NEWUNIT= ends at the first ")" : a subscripted unit variable is cut in two *)
Theorem newunit_value_cut_refuted :
  fst (f_nu "  open(file=f, newunit=arr(2))") = "  open(arr(2,file=f))".
Proof. vm_compute. reflexivity. Qed.

(** trigger text inside a string literal of an OPEN statement is moved out of the literal *)
Theorem open_literal_rewritten_refuted :
  fst (f_nu "  open(unit=u, file='a,newunit=b,c')") = "  open(b,unit=u, file='a,c')".
Proof. vm_compute. reflexivity. Qed.

(** a CONVERT= specifier that ends its line swallows the line break (two source lines become one) *)
Theorem convert_eats_newline_refuted :
  fst (sanitize ("open(1, convert='big_endian'" ++ nl ++ "x = 1" ++ nl)) = "open(1x = 1" ++ nl.
Proof. vm_compute. reflexivity. Qed.

Example no_trigger_nontrivial :
  no_trigger ("  open(unit=10, file='x__line.dat')  ! convert = none" ++ nl ++ "  print *, ""__FILE_""" ++ nl) = true.
Proof. vm_compute. reflexivity. Qed.

Example convert_roundtrip_instance :
  let l := "  OPEN (UNIT=1, FILE='x', Convert=""Little_Endian"" , iostat=ios)" ++ nl in
  exists g, f_conv l = ("  OPEN (UNIT=1, FILE='x', iostat=ios)" ++ nl, [e_conv g]) /\ ends_amp (cg_post g) = false /\
            reinsert_convert g "" ++ nl = l.
Proof.
  exists {| cg_ws := "  "; cg_pre := "OPEN (UNIT=1, FILE='x'"; cg_convert := ", Convert=""Little_Endian"" "; cg_post := ", iostat=ios)" |}.
  split; [vm_compute; reflexivity|]. split; vm_compute; reflexivity.
Qed.

Example newunit_roundtrip_continued :
  let l := "  open(file=f, newunit=u, &" ++ nl in
  let stmt := "  open(u,file=f, &" ++ nl ++ "     & iostat=k)" in
  exists g, f_nu l = ("  open(u,file=f, &" ++ nl, [e_nu g]) /\ ends_amp (ng_args2 g) = true /\
            first_occ (ng_args2 g) stmt = Some 15 /\
            reinsert_newunit g stmt = "  open(file=f, newunit=u, &" ++ nl ++ "     & iostat=k)".
Proof.
  exists {| ng_ws := "  "; ng_open := "open("; ng_args1 := "file=f"; ng_delim := Some ","; ng_key := " newunit=";
            ng_val := "u"; ng_args2 := ", &" |}.
  split; [vm_compute; reflexivity|]. repeat split; vm_compute; reflexivity.
Qed.
