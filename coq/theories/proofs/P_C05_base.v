(** C05 — string-level lemmas used by the proofs about the sanitiser model. *)
From Coq Require Import String Ascii List Bool Arith NArith ZArith Lia.
From LV Require Import Base.Strings models.M_C05.
Import ListNotations.
Open Scope string_scope.

(** right-nests a concatenation of groups *)
Ltac right_nest := repeat (first [rewrite append_assoc | progress (cbn [append])]).

Lemma starts_app p s r : starts p s = Some r -> s = p ++ r.
Proof.
  revert s. induction p as [|a p IH]; intros s H; cbn in *.
  - now inversion H.
  - destruct s as [|b s]; [discriminate|].
    destruct (Ascii.eqb a b) eqn:E; [|discriminate].
    apply Ascii.eqb_eq in E. subst b. now rewrite (IH _ H).
Qed.
Lemma starts_intro p r : starts p (p ++ r) = Some r.
Proof. induction p as [|a p IH]; cbn; [reflexivity|]. now rewrite Ascii.eqb_refl. Qed.

Lemma starts_ci_app p s m r : starts_ci p s = Some (m, r) -> s = m ++ r.
Proof.
  revert s m. induction p as [|a p IH]; intros s m H; cbn in *.
  - inversion H. reflexivity.
  - destruct s as [|b s]; [discriminate|].
    destruct (Ascii.eqb a (lower_ascii b)); [|discriminate].
    destruct (starts_ci p s) as [[m' r']|] eqn:E; [|discriminate].
    inversion H; subst. cbn. now rewrite (IH _ _ E).
Qed.
Lemma starts_ci_self p s m r : starts_ci p s = Some (m, r) -> forall x, starts_ci p (m ++ x) = Some (m, x).
Proof.
  revert s m. induction p as [|a p IH]; intros s m H x; cbn in *.
  - inversion H. reflexivity.
  - destruct s as [|b s]; [discriminate|].
    destruct (Ascii.eqb a (lower_ascii b)) eqn:E; [|discriminate].
    destruct (starts_ci p s) as [[m' r']|] eqn:S; [|discriminate].
    inversion H; subst. cbn. rewrite E. now rewrite (IH _ _ S x).
Qed.

(** a case-sensitive hit is also a hit of the case-folded keyword *)
Lemma starts_to_ci p s r : starts p s = Some r -> exists m, starts_ci (lower p) s = Some (m, r).
Proof.
  revert s. induction p as [|a p IH]; intros s H; cbn in *.
  - inversion H. now exists "".
  - destruct s as [|b s]; [discriminate|].
    destruct (Ascii.eqb a b) eqn:E; [|discriminate].
    apply Ascii.eqb_eq in E. subst b. rewrite Ascii.eqb_refl.
    destruct (IH _ H) as [m Hm]. rewrite Hm. now exists (String a m).
Qed.

Lemma starts_mono p a b r : starts p a = Some r -> starts p (a ++ b) = Some (r ++ b).
Proof.
  revert a. induction p as [|x p IH]; intros a H; cbn in *.
  - now inversion H.
  - destruct a as [|y a]; [discriminate|]. cbn.
    destruct (Ascii.eqb x y); [|discriminate]. now apply IH.
Qed.
Lemma starts_ci_mono p a b m r : starts_ci p a = Some (m, r) -> starts_ci p (a ++ b) = Some (m, r ++ b).
Proof.
  revert a m. induction p as [|x p IH]; intros a m H; cbn in *.
  - now inversion H.
  - destruct a as [|y a]; [discriminate|]. cbn.
    destruct (Ascii.eqb x (lower_ascii y)); [|discriminate].
    destruct (starts_ci p a) as [[m' r']|] eqn:E; [|discriminate].
    inversion H; subst. now rewrite (IH _ _ E).
Qed.

Lemma span_app f s a b : span f s = (a, b) -> s = a ++ b.
Proof.
  revert a b. induction s as [|c s IH]; intros a b H; cbn in *.
  - now inversion H.
  - destruct (f c).
    + destruct (span f s) as [a' b'] eqn:E. inversion H; subst. cbn. now rewrite (IH _ _ eq_refl).
    + now inversion H.
Qed.

Lemma contains_of_starts t s r : starts t s = Some r -> contains t s = true.
Proof. intro H. destruct s; cbn [contains]; now rewrite H. Qed.
Lemma contains_cons_false t c s : contains t (String c s) = false -> contains t s = false.
Proof. cbn [contains]. destruct (is_some _); [discriminate|trivial]. Qed.
Lemma contains_ci_cons p c s : contains_ci p s = true -> contains_ci p (String c s) = true.
Proof. intro H. cbn [contains_ci]. destruct (is_some _); [reflexivity|exact H]. Qed.

Lemma contains_app_r p a b : contains p (a ++ b) = false -> contains p b = false.
Proof.
  induction a as [|x a IH]; cbn [append]; [trivial|].
  intro H. apply contains_cons_false in H. now apply IH.
Qed.
Lemma contains_app_l p a b : contains p (a ++ b) = false -> contains p a = false.
Proof.
  induction a as [|x a IH]; cbn [append]; intro H.
  - destruct p as [|y p]; cbn in *; [|reflexivity]. destruct b; cbn in H; discriminate.
  - cbn [contains] in *.
    destruct (starts p (String x a)) as [r|] eqn:E.
    + apply (starts_mono _ _ b) in E. cbn [append] in E. rewrite E in H. discriminate.
    + cbn. destruct (is_some (starts p (String x (a ++ b)))); [discriminate|]. now apply IH.
Qed.
Lemma contains_ci_app_r p a b : contains_ci p (a ++ b) = false -> contains_ci p b = false.
Proof.
  induction a as [|x a IH]; cbn [append]; [trivial|].
  intro H. cbn [contains_ci] in H. destruct (is_some (starts_ci p (String x (a ++ b)))); [discriminate|]. now apply IH.
Qed.
Lemma contains_ci_app_l p a b : contains_ci p (a ++ b) = false -> contains_ci p a = false.
Proof.
  induction a as [|x a IH]; cbn [append]; intro H.
  - destruct p as [|y p]; cbn in *; [|reflexivity]. destruct b; cbn in H; discriminate.
  - cbn [contains_ci] in *.
    destruct (starts_ci p (String x a)) as [[m r]|] eqn:E.
    + apply (starts_ci_mono _ _ b) in E. cbn [append] in E. rewrite E in H. discriminate.
    + cbn. destruct (is_some (starts_ci p (String x (a ++ b)))); [discriminate|]. now apply IH.
Qed.
Lemma contains_intro p a r : contains p (a ++ p ++ r) = true.
Proof.
  induction a as [|x a IH]; cbn [append].
  - apply (contains_of_starts _ _ r), starts_intro.
  - cbn [contains]. destruct (is_some (starts p (String x (a ++ p ++ r)))); [reflexivity|exact IH].
Qed.
Lemma contains_ci_intro p a b : is_some (starts_ci p b) = true -> contains_ci p (a ++ b) = true.
Proof.
  intro H. induction a as [|x a IH]; cbn [append].
  - destruct b; cbn [contains_ci]; now rewrite H.
  - now apply contains_ci_cons.
Qed.
Lemma contains_ci_mid p a b c : contains_ci p b = true -> contains_ci p (a ++ b ++ c) = true.
Proof.
  intro H. destruct (contains_ci p (a ++ b ++ c)) eqn:E; [reflexivity|].
  apply contains_ci_app_r in E. apply contains_ci_app_l in E. congruence.
Qed.

Lemma contains_to_ci p s : contains p s = true -> contains_ci (lower p) s = true.
Proof.
  induction s as [|c s IH]; cbn [contains contains_ci]; intro H.
  - destruct (starts p "") as [r|] eqn:E; [|discriminate].
    destruct (starts_to_ci _ _ _ E) as [m Hm]. now rewrite Hm.
  - destruct (starts p (String c s)) as [r|] eqn:E.
    + destruct (starts_to_ci _ _ _ E) as [m Hm]. now rewrite Hm.
    + cbn in H. destruct (is_some _); [reflexivity|now apply IH].
Qed.
Lemma contains_ci_false_cs p s : contains_ci (lower p) s = false -> contains p s = false.
Proof.
  intro H. destruct (contains p s) eqn:E; [|reflexivity].
  apply contains_to_ci in E. congruence.
Qed.

Lemma find_lit_some p s a b : find_lit p s = Some (a, b) -> s = a ++ b /\ exists r, starts p b = Some r.
Proof.
  revert a b. induction s as [|c s IH]; intros a b H; cbn [find_lit] in H.
  - destruct (starts p "") eqn:E; [|discriminate]. inversion H; subst. split; [reflexivity|eauto].
  - destruct (starts p (String c s)) eqn:E.
    + inversion H; subst. split; [reflexivity|eauto].
    + destruct (find_lit p s) as [[a' b']|] eqn:F; [|discriminate]. inversion H; subst.
      destruct (IH _ _ eq_refl) as [-> Hr]. split; [reflexivity|exact Hr].
Qed.
Lemma find_lit_none p s : contains p s = false -> find_lit p s = None.
Proof.
  induction s as [|c s IH]; cbn [contains find_lit]; intro H.
  - destruct (starts p ""); [discriminate|reflexivity].
  - destruct (starts p (String c s)); [discriminate|]. cbn in H. now rewrite (IH H).
Qed.

Lemma split_nl_app s a b : split_nl s = Some (a, b) -> s = a ++ String NL b.
Proof.
  revert a. induction s as [|c s IH]; intros a H; cbn in H; [discriminate|].
  destruct (is_nl c) eqn:E.
  - inversion H; subst. apply Ascii.eqb_eq in E. now subst c.
  - destruct (split_nl s) as [[a' b']|]; [|discriminate]. inversion H; subst. cbn. now rewrite (IH _ eq_refl).
Qed.
Lemma split_eol_app s a t : split_eol s = Some (a, t) -> s = a ++ t /\ (t = "" \/ t = String NL "").
Proof.
  revert a. induction s as [|c s IH]; intros a H; cbn in H.
  - inversion H; subst. split; [reflexivity|now left].
  - destruct (is_nl c) eqn:E.
    + destruct s; [|discriminate]. inversion H; subst. apply Ascii.eqb_eq in E. subst c. split; [reflexivity|now right].
    + destruct (split_eol s) as [[a' t']|]; [|discriminate]. inversion H; subst.
      destruct (IH _ eq_refl) as [-> Ht]. split; [reflexivity|exact Ht].
Qed.

Lemma sconcat_splitlines s : sconcat (splitlines s) = s.
Proof.
  induction s as [|c s IH]; [reflexivity|].
  cbn [splitlines].
  destruct (is_break c && negb (is_cr c && match s with "" => false | String d _ => is_nl d end)).
  - cbn. now rewrite IH.
  - destruct (splitlines s) as [|l ls]; cbn in *; now rewrite <- IH.
Qed.

Lemma absent_line (c : string -> bool) :
  (forall a b, c (a ++ b) = false -> c a = false) -> (forall a b, c (a ++ b) = false -> c b = false) ->
  forall src l, c src = false -> In l (splitlines src) -> c l = false.
Proof.
  intros Hl Hr src l. rewrite <- (sconcat_splitlines src) at 1.
  induction (splitlines src) as [|a ls IH]; cbn [sconcat In]; [tauto|]. intros H [->|Hin].
  - exact (Hl _ _ H).
  - exact (IH (Hr _ _ H) Hin).
Qed.
Lemma contains_line p src l : contains p src = false -> In l (splitlines src) -> contains p l = false.
Proof. exact (absent_line (contains p) (contains_app_l p) (contains_app_r p) src l). Qed.
Lemma contains_ci_line p src l : contains_ci p src = false -> In l (splitlines src) -> contains_ci p l = false.
Proof. exact (absent_line (contains_ci p) (contains_ci_app_l p) (contains_ci_app_r p) src l). Qed.

Lemma sdrop_app a b : sdrop (String.length a) (a ++ b) = b.
Proof. induction a as [|x a IH]; cbn; [reflexivity|exact IH]. Qed.
Lemma sdrop_plus n m s : sdrop (n + m) s = sdrop m (sdrop n s).
Proof.
  revert s. induction n as [|n IH]; intro s; cbn; [reflexivity|].
  destruct s; [|apply IH]. destruct m; reflexivity.
Qed.
