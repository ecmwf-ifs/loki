(** C05 — facts about the six line scanners: what a match decomposes into, and when nothing matches. *)
From Coq Require Import String Ascii List Bool Arith NArith ZArith Lia.
From LV Require Import Base.Strings models.M_C05 proofs.P_C05_base.
Import ListNotations.
Open Scope string_scope.

(** [seg_rel R a b]: [b] is [a] with some disjoint segments [t] replaced by [t'] where [R t t']; every other character is kept *)
Inductive seg_rel (R : string -> string -> Prop) : string -> string -> Prop :=
| seg_nil : seg_rel R "" ""
| seg_keep c a b : seg_rel R a b -> seg_rel R (String c a) (String c b)
| seg_rw t t' a b : R t t' -> seg_rel R a b -> seg_rel R (t ++ a) (t' ++ b).

Lemma seg_rel_prefix R m a b : seg_rel R a b -> seg_rel R (m ++ a) (m ++ b).
Proof. intro H. induction m as [|c m IH]; cbn; [exact H|now apply seg_keep]. Qed.
Lemma seg_rel_refl R a : seg_rel R a a.
Proof. induction a; [constructor|now apply seg_keep]. Qed.

Fixpoint has_tok (tok_at : string -> option string) (s : string) : bool :=
  is_some (tok_at s) || match s with "" => false | String _ r => has_tok tok_at r end.

Lemma has_tok_app_r tk a b : has_tok tk (a ++ b) = false -> has_tok tk b = false.
Proof.
  induction a as [|x a IH]; cbn [append]; [trivial|]. intro H. cbn [has_tok] in H.
  apply orb_false_elim in H. now apply IH.
Qed.

Lemma rw_go_id tk repl s : has_tok tk s = false -> rw_go tk repl 0 s = (s, []).
Proof.
  induction s as [|c s IH]; [reflexivity|]. cbn [has_tok]. intro H.
  apply orb_false_elim in H. destruct H as [H1 H2].
  cbn [rw_go]. destruct (tk (String c s)); [discriminate|]. now rewrite (IH H2).
Qed.

Lemma first_tok_some toks s t : first_tok toks s = Some t -> In t toks /\ exists r, starts t s = Some r.
Proof.
  unfold first_tok. intro H. apply find_some in H. destruct H as [Hi Hs].
  split; [exact Hi|]. destruct (starts t s) as [r|]; [eauto|discriminate].
Qed.
Lemma first_tok_none toks s : (forall t, In t toks -> contains t s = false) -> first_tok toks s = None.
Proof.
  intro H. destruct (first_tok toks s) as [t|] eqn:E; [|reflexivity].
  apply first_tok_some in E. destruct E as [Hi [r Hr]]. apply contains_of_starts in Hr. rewrite (H _ Hi) in Hr. discriminate.
Qed.
Lemma has_tok_first_false toks s :
  (forall t, In t toks -> contains t s = false) -> has_tok (first_tok toks) s = false.
Proof.
  induction s as [|c s IH]; intro H; cbn [has_tok]; rewrite (first_tok_none _ _ H); [reflexivity|].
  apply IH. intros t Hi. apply (contains_cons_false _ c), H, Hi.
Qed.

(** [k] is the number of characters of the current match still to be dropped, as in [rw_go] *)
Lemma rw_go_seg (R : string -> string -> Prop) tk repl :
  (forall s t, tk s = Some t -> t <> "" /\ (exists r, s = t ++ r) /\ R t (repl t)) ->
  forall s k, k <= String.length s -> seg_rel R (sdrop k s) (fst (rw_go tk repl k s)).
Proof.
  intros Htk. induction s as [|c s IH]; intros k Hk.
  - cbn in Hk. assert (k = 0) by lia. subst. cbn. constructor.
  - destruct k as [|k].
    + cbn [sdrop rw_go]. destruct (tk (String c s)) as [t|] eqn:T.
      * destruct (Htk _ _ T) as [Hne [[r0 Hr] HR]].
        destruct t as [|c' t']; [contradiction|]. cbn [append] in Hr. inversion Hr; subst c' s.
        cbn [String.length pred].
        destruct (rw_go tk repl (String.length t') (t' ++ r0)) as [o ts] eqn:G. cbn [fst].
        change (String c (t' ++ r0)) with (String c t' ++ r0).
        apply seg_rw; [exact HR|].
        specialize (IH (String.length t')). rewrite G, sdrop_app in IH. cbn [fst] in IH. apply IH.
        rewrite length_append. lia.
      * destruct (rw_go tk repl 0 s) as [o ts] eqn:G. cbn [fst]. apply seg_keep.
        specialize (IH 0). rewrite G in IH. cbn in IH. apply IH. lia.
    + cbn [sdrop rw_go]. apply IH. cbn in Hk. lia.
Qed.

Lemma rw_first_seg (R : string -> string -> Prop) toks repl s :
  ~ In "" toks -> (forall t, In t toks -> R t (repl t)) ->
  seg_rel R s (fst (rw_go (first_tok toks) repl 0 s)).
Proof.
  intros Hne HR. apply (rw_go_seg R (first_tok toks) repl) with (k := 0) (s := s); [|lia].
  intros s0 t Ht. apply first_tok_some in Ht. destruct Ht as [Hi [r Hr]].
  split; [intro; subst; contradiction|]. split; [exists r; now apply starts_app|now apply HR].
Qed.

(** the text from "@PROCESS" up to the newline is dropped; the text before it and the newline are kept *)
Definition R_ibm (l l' : string) : Prop :=
  l' = l \/ exists a m rest, l = a ++ kw_process ++ m ++ String NL rest /\ l' = a ++ String NL rest.

Lemma f_ibm_rel l : R_ibm l (fst (f_ibm l)).
Proof.
  unfold f_ibm. destruct (find_lit kw_process l) as [[a b]|] eqn:F; [|now left].
  destruct (find_lit_some _ _ _ _ F) as [-> [r Hr]].
  apply starts_app in Hr. subst b.
  destruct (split_nl (kw_process ++ r)) as [[m rest]|] eqn:S; [|now left].
  right. cbn [fst].
  unfold kw_process in S. cbn in S.
  destruct (split_nl r) as [[m' rest']|] eqn:S'; [|discriminate]. inversion S; subst.
  apply split_nl_app in S'. subst r. exists a, m', rest. split; reflexivity.
Qed.
Lemma f_ibm_id l : contains kw_process l = false -> f_ibm l = (l, []).
Proof. intro H. unfold f_ibm. now rewrite (find_lit_none _ _ H). Qed.

Definition R_macro (t t' : string) : Prop := In t macro_toks /\ t' = dquote t.
Definition R_lineno (t t' : string) : Prop := t = kw_line /\ t' = "0".

Lemma last_tok_app s a t rest : last_tok s = Some (a, t, rest) -> s = a ++ t ++ rest.
Proof.
  revert a. induction s as [|c s IH]; intros a H; cbn [last_tok] in H; [discriminate|].
  destruct (is_nl c); [discriminate|].
  destruct (last_tok s) as [[[a' t'] rest']|] eqn:L.
  - inversion H; subst. cbn. now rewrite (IH _ eq_refl).
  - destruct (macro_at (String c s)) as [t0|] eqn:M; [|discriminate].
    destruct (starts t0 (String c s)) as [r|] eqn:S; [|discriminate].
    inversion H; subst. cbn [append]. now apply starts_app.
Qed.
Lemma last_tok_none s : has_tok macro_at s = false -> last_tok s = None.
Proof.
  induction s as [|c s IH]; [reflexivity|]. cbn [has_tok]. intro H.
  apply orb_false_elim in H. destruct H as [H1 H2]. cbn [last_tok].
  destruct (is_nl c); [reflexivity|]. rewrite (IH H2).
  destruct (macro_at (String c s)); [discriminate|reflexivity].
Qed.
Lemma pp_alt_app l m rest : pp_alt l = Some (m, rest) -> l = m ++ rest.
Proof.
  unfold pp_alt, span_ws. destruct (span is_ws l) as [w r] eqn:S. apply span_app in S. subst l.
  destruct r as [|c r']; [discriminate|].
  destruct (Ascii.eqb c "#"); [|discriminate].
  destruct (last_tok r') as [[[a t] rest']|] eqn:L; [|discriminate].
  intro H. inversion H; subst. apply last_tok_app in L. subst r'. now right_nest.
Qed.
Lemma pp_alt_none l : has_tok macro_at l = false -> pp_alt l = None.
Proof.
  intro H. unfold pp_alt, span_ws. destruct (span is_ws l) as [w r] eqn:S. apply span_app in S. subst l.
  apply has_tok_app_r in H. destruct r as [|c r']; [reflexivity|].
  destruct (Ascii.eqb c "#"); [|reflexivity].
  cbn [has_tok] in H. apply orb_false_elim in H. destruct H as [_ H]. now rewrite (last_tok_none _ H).
Qed.

Lemma rw_macro_seg s : seg_rel R_macro s (fst (rw_go macro_at dquote 0 s)).
Proof.
  apply rw_first_seg.
  - cbn. intros [H|[H|[H|[H|[]]]]]; discriminate.
  - intros t Ht. now split.
Qed.

Lemma f_strpp_rel l : seg_rel R_macro l (fst (f_strpp l)).
Proof.
  unfold f_strpp. destruct (pp_alt l) as [[m rest]|] eqn:P.
  - apply pp_alt_app in P. subst l. pose proof (rw_macro_seg rest) as H.
    destruct (rw_go macro_at dquote 0 rest) as [o ts]. now apply seg_rel_prefix.
  - pose proof (rw_macro_seg l) as H. now destruct (rw_go macro_at dquote 0 l).
Qed.
Lemma f_strpp_id l : (forall t, In t macro_toks -> contains t l = false) -> f_strpp l = (l, []).
Proof.
  intro H. apply has_tok_first_false in H. unfold f_strpp.
  rewrite (pp_alt_none _ H). unfold macro_at. now rewrite (rw_go_id _ _ _ H).
Qed.

Lemma f_line_rel l : seg_rel R_lineno l (fst (f_line l)).
Proof.
  assert (H : seg_rel R_lineno l (fst (rw_go line_at (fun _ => "0") 0 l))).
  { apply rw_first_seg.
    - cbn. intros [E|[]]. discriminate.
    - intros t [<-|[]]. now split. }
  unfold f_line. now destruct (rw_go line_at (fun _ => "0") 0 l).
Qed.
Lemma f_line_id l : contains kw_line l = false -> f_line l = (l, []).
Proof.
  intro H. unfold f_line, line_at.
  rewrite (rw_go_id (first_tok [kw_line]) _ l); [reflexivity|].
  apply has_tok_first_false. intros t [<-|[]]. exact H.
Qed.

Lemma conv_body_app s cv rest : conv_body s = Some (cv, rest) -> s = cv ++ rest /\ contains_ci "convert=" cv = true.
Proof.
  unfold conv_body, span_ws. destruct (span is_ws s) as [w r] eqn:S. apply span_app in S. subst s.
  destruct (starts_ci "convert=" r) as [[m1 r1]|] eqn:K; [|discriminate].
  destruct r1 as [|q1 r2]; [discriminate|].
  destruct (is_quote q1); [|discriminate].
  destruct (match starts_ci "big" r2 with Some x => Some x | None => starts_ci "little" r2 end) as [[m2 r3]|] eqn:B; [|discriminate].
  destruct (starts_ci "_endian" r3) as [[m3 r4]|] eqn:N; [|discriminate].
  destruct r4 as [|q2 r5]; [discriminate|].
  destruct (is_quote q2); [|discriminate].
  destruct (span is_ws r5) as [w2 r6] eqn:S2. apply span_app in S2. subst r5.
  intro H. inversion H; subst.
  pose proof (starts_ci_self _ _ _ _ K) as Kself.
  apply starts_ci_app in K. apply starts_ci_app in N.
  assert (r2 = m2 ++ r3) as ->.
  { destruct (starts_ci "big" r2) as [[x y]|] eqn:B1.
    - inversion B; subst. now apply starts_ci_app in B1.
    - now apply starts_ci_app in B. }
  subst. split; [now right_nest|].
  apply contains_ci_intro. now rewrite Kself.
Qed.

Lemma conv_at_app s cv rest : conv_at s = Some (cv, rest) -> s = cv ++ rest /\ contains_ci "convert=" cv = true.
Proof.
  unfold conv_at. destruct s as [|c r]; [apply conv_body_app|].
  destruct (Ascii.eqb c ","); [|apply conv_body_app].
  destruct (conv_body r) as [[cv' rest']|] eqn:B; [|apply conv_body_app].
  intro H. inversion H; subst. apply conv_body_app in B. destruct B as [-> Hc].
  split; [reflexivity|now apply contains_ci_cons].
Qed.

Lemma find_conv_app s a cv rest : find_conv s = Some (a, cv, rest) -> s = a ++ cv ++ rest /\ contains_ci "convert=" cv = true.
Proof.
  revert a. induction s as [|c s IH]; intros a H; cbn [find_conv] in H.
  - destruct (conv_at "") as [[cv' rest']|] eqn:C; [|discriminate]. inversion H; subst. exact (conv_at_app _ _ _ C).
  - destruct (conv_at (String c s)) as [[cv' rest']|] eqn:C.
    + inversion H; subst. exact (conv_at_app _ _ _ C).
    + destruct (is_nl c); [discriminate|].
      destruct (find_conv s) as [[[a' cv'] rest']|] eqn:F; [|discriminate]. inversion H; subst.
      destruct (IH _ eq_refl) as [-> Hc]. split; [reflexivity|exact Hc].
Qed.
Lemma find_conv_none s : contains_ci "convert=" s = false -> find_conv s = None.
Proof.
  intro H. destruct (find_conv s) as [[[a cv] rest]|] eqn:F; [|reflexivity].
  apply find_conv_app in F. destruct F as [-> Hc]. rewrite (contains_ci_mid _ a cv rest Hc) in H. discriminate.
Qed.

Lemma open_head_app l w op r3 : open_head l = Some (w, op, r3) -> l = w ++ op ++ r3.
Proof.
  unfold open_head, span_ws. destruct (span is_ws l) as [w0 r] eqn:S. apply span_app in S. subst l.
  destruct (starts_ci "open" r) as [[m r1]|] eqn:K; [|discriminate]. apply starts_ci_app in K. subst r.
  destruct (span is_ws r1) as [w1 r2] eqn:S1. apply span_app in S1. subst r1.
  destruct r2 as [|c r3']; [discriminate|]. destruct (Ascii.eqb c "("); [|discriminate].
  intro H. inversion H; subst. now right_nest.
Qed.

Lemma conv_match_app l g tail : conv_match l = Some (g, tail) ->
  l = cg_ws g ++ cg_pre g ++ cg_convert g ++ cg_post g ++ tail /\ (tail = "" \/ tail = String NL "")
  /\ contains_ci "convert=" (cg_convert g) = true.
Proof.
  unfold conv_match. destruct (open_head l) as [[[w op] r3]|] eqn:O; [|discriminate].
  apply open_head_app in O. subst l.
  destruct (find_conv r3) as [[[a cv] rest]|] eqn:F; [|discriminate].
  apply find_conv_app in F. destruct F as [-> Hc].
  destruct (split_eol rest) as [[post tl]|] eqn:E; [|discriminate].
  apply split_eol_app in E. destruct E as [-> Ht].
  intro H. inversion H; subst. cbn. split; [now right_nest|]. split; assumption.
Qed.
Lemma conv_match_none l : contains_ci "convert=" l = false -> conv_match l = None.
Proof.
  intro H. unfold conv_match. destruct (open_head l) as [[[w op] r3]|] eqn:O; [|reflexivity].
  apply open_head_app in O. subst l. apply contains_ci_app_r in H. apply contains_ci_app_r in H.
  now rewrite (find_conv_none _ H).
Qed.
Lemma f_conv_id l : contains_ci "convert=" l = false -> f_conv l = (l, []).
Proof. intro H. unfold f_conv. now rewrite (conv_match_none _ H). Qed.

(** the line is [ws pre convert post tail] and becomes [ws pre post tail] *)
Definition R_conv (l l' : string) : Prop :=
  l' = l \/ exists w pre cv post tail,
     l = w ++ pre ++ cv ++ post ++ tail /\ l' = w ++ pre ++ post ++ tail /\
     (tail = "" \/ tail = String NL "") /\ contains_ci "convert=" cv = true.

Lemma f_conv_rel l : R_conv l (fst (f_conv l)).
Proof.
  unfold f_conv. destruct (conv_match l) as [[g tail]|] eqn:M; [|now left].
  right. apply conv_match_app in M. destruct M as [E [Ht Hc]].
  exists (cg_ws g), (cg_pre g), (cg_convert g), (cg_post g), tail. cbn [fst]. auto.
Qed.

Lemma key_body_app x k0 r0 : key_body x = Some (k0, r0) -> x = k0 ++ r0 /\ contains_ci "newunit=" k0 = true.
Proof.
  unfold key_body, span_ws. destruct (span is_ws x) as [w r] eqn:S. apply span_app in S. subst x.
  destruct (starts_ci "newunit=" r) as [[m r1]|] eqn:K; [|discriminate].
  intro H. inversion H; subst. pose proof (starts_ci_self _ _ _ _ K "") as Ks.
  apply starts_ci_app in K. subst r. split; [now right_nest|].
  rewrite append_nil_r in Ks. apply contains_ci_intro. now rewrite Ks.
Qed.
Lemma key_at_app s k rest : key_at s = Some (k, rest) -> s = k ++ rest /\ contains_ci "newunit=" k = true.
Proof.
  unfold key_at. destruct s as [|c r]; [apply key_body_app|].
  destruct (Ascii.eqb c ","); [|apply key_body_app].
  destruct (key_body r) as [[k' rest']|] eqn:E; [|apply key_body_app].
  intro H. inversion H; subst. apply key_body_app in E. destruct E as [-> Hc]. split; [reflexivity|now apply contains_ci_cons].
Qed.

Lemma val_split_app s v r : val_split s = Some (v, r) -> s = v ++ r.
Proof.
  revert v. induction s as [|c s IH]; intros v H; cbn [val_split] in H; [discriminate|].
  destruct (is_term c); [inversion H; reflexivity|].
  destruct (is_nl c); [discriminate|].
  destruct (val_split s) as [[v' r']|]; [|discriminate]. inversion H; subst. cbn. now rewrite (IH _ eq_refl).
Qed.

Lemma nu_fin_app d x d' k v a2 tail : nu_fin d x = Some (d', k, v, a2, tail) ->
  d' = d /\ x = k ++ v ++ a2 ++ tail /\ (tail = "" \/ tail = String NL "") /\ contains_ci "newunit=" k = true.
Proof.
  unfold nu_fin. destruct (key_at x) as [[k0 r]|] eqn:K; [|discriminate].
  apply key_at_app in K. destruct K as [-> Hc].
  destruct (val_split r) as [[v0 r2]|] eqn:V; [|discriminate]. apply val_split_app in V. subst r.
  destruct (split_eol r2) as [[a20 tl]|] eqn:E; [|discriminate]. apply split_eol_app in E. destruct E as [-> Ht].
  intro H. inversion H; subst. repeat split; try assumption.
Qed.

Definition nu_groups_of (s : string) (d : option string) (k v a2 tail : string) : Prop :=
  s = ostr d ++ k ++ v ++ a2 ++ tail /\ (tail = "" \/ tail = String NL "") /\ (d = None \/ d = Some ",") /\
  contains_ci "newunit=" k = true.

Lemma nu_tail_app s d k v a2 tail : nu_tail s = Some (d, k, v, a2, tail) -> nu_groups_of s d k v a2 tail.
Proof.
  assert (plain : nu_fin None s = Some (d, k, v, a2, tail) -> nu_groups_of s d k v a2 tail).
  { intro H. apply nu_fin_app in H. destruct H as [-> [-> [Ht Hc]]]. repeat split; auto. }
  unfold nu_tail. destruct s as [|c r]; [exact plain|].
  destruct (Ascii.eqb c ",") eqn:EC; [|exact plain].
  destruct (nu_fin (Some (String c "")) r) as [x|] eqn:F; [|exact plain].
  intro H. inversion H; subst x. apply nu_fin_app in F. destruct F as [-> [-> [Ht Hc]]].
  apply Ascii.eqb_eq in EC. subst c. repeat split; auto.
Qed.

Lemma find_nu_app s a d k v a2 tail : find_nu s = Some (a, (d, k, v, a2, tail)) ->
  exists s', s = a ++ s' /\ nu_groups_of s' d k v a2 tail.
Proof.
  revert a. induction s as [|c s IH]; intros a H; cbn [find_nu] in H.
  - destruct (nu_tail "") as [x|] eqn:N; [|discriminate]. inversion H; subst. exists "". split; [reflexivity|now apply nu_tail_app].
  - destruct (nu_tail (String c s)) as [x|] eqn:N.
    + inversion H; subst. exists (String c s). split; [reflexivity|now apply nu_tail_app].
    + destruct (is_nl c); [discriminate|].
      destruct (find_nu s) as [[a' x]|] eqn:F; [|discriminate]. inversion H; subst.
      destruct (IH _ eq_refl) as [s' [-> Hs']]. now exists s'.
Qed.

Lemma nu_match_app l g tail : nu_match l = Some (g, tail) ->
  l = ng_ws g ++ ng_open g ++ ng_args1 g ++ ostr (ng_delim g) ++ ng_key g ++ ng_val g ++ ng_args2 g ++ tail
  /\ (tail = "" \/ tail = String NL "") /\ (ng_delim g = None \/ ng_delim g = Some ",")
  /\ contains_ci "newunit=" (ng_key g) = true.
Proof.
  unfold nu_match. destruct (open_head l) as [[[w op] r3]|] eqn:O; [|discriminate].
  apply open_head_app in O. subst l.
  destruct (find_nu r3) as [[a1 [[[[d k] v] a2] tl]]|] eqn:F; [|discriminate].
  apply find_nu_app in F. destruct F as [s' [-> [-> Hs']]].
  intro H. inversion H; subst. cbn. split; [reflexivity|exact Hs'].
Qed.
Lemma nu_match_none l : contains_ci "newunit=" l = false -> nu_match l = None.
Proof.
  intro H. destruct (nu_match l) as [[g tail]|] eqn:M; [|reflexivity].
  apply nu_match_app in M. destruct M as [-> [_ [_ Hc]]].
  do 4 apply contains_ci_app_r in H.
  apply contains_ci_app_l in H. congruence.
Qed.
Lemma f_nu_id l : contains_ci "newunit=" l = false -> f_nu l = (l, []).
Proof. intro H. unfold f_nu. now rewrite (nu_match_none _ H). Qed.

(** the line is [ws open args1 delim key val args2 tail] and becomes [ws open val delim args1 args2 tail] *)
Definition R_nu (l l' : string) : Prop :=
  l' = l \/ exists w op a1 d k v a2 tail,
     l = w ++ op ++ a1 ++ d ++ k ++ v ++ a2 ++ tail /\ l' = w ++ op ++ v ++ d ++ a1 ++ a2 ++ tail /\
     (tail = "" \/ tail = String NL "") /\ (d = "" \/ d = ",") /\ contains_ci "newunit=" k = true.

Lemma f_nu_rel l : R_nu l (fst (f_nu l)).
Proof.
  unfold f_nu. destruct (nu_match l) as [[g tail]|] eqn:M; [|now left].
  right. apply nu_match_app in M. destruct M as [E [Ht [Hd Hc]]].
  exists (ng_ws g), (ng_open g), (ng_args1 g), (ostr (ng_delim g)), (ng_key g), (ng_val g), (ng_args2 g), tail.
  cbn [fst]. repeat split; try assumption.
  destruct Hd as [->| ->]; cbn; auto.
Qed.

Definition kw_ypp : string := "ypp""".

Lemma fypp_end_contains s : fypp_end s = true -> contains kw_ypp s = true.
Proof.
  unfold fypp_end. destruct (starts ".fypp""" s) as [r|] eqn:A.
  - intros _. apply starts_app in A. subst s. apply (contains_intro kw_ypp ".f" r).
  - destruct (starts ".hypp""" s) as [r|] eqn:B; [|discriminate].
    intros _. apply starts_app in B. subst s. apply (contains_intro kw_ypp ".h" r).
Qed.
Lemma fypp_core_app s a : fypp_core s = Some a -> exists b, s = a ++ b /\ fypp_end b = true.
Proof.
  revert a. induction s as [|c s IH]; intros a H; cbn [fypp_core] in H.
  - destruct (fypp_end "") eqn:E; [|discriminate]. inversion H; subst. now exists "".
  - destruct (fypp_end (String c s)) eqn:E.
    + inversion H; subst. now exists (String c s).
    + destruct (is_nl c); [discriminate|].
      destruct (fypp_core s) as [a'|] eqn:F; [|discriminate]. inversion H; subst.
      destruct (IH _ eq_refl) as [b [-> Hb]]. now exists b.
Qed.
Lemma fypp_core_none s : contains kw_ypp s = false -> fypp_core s = None.
Proof.
  intro H. destruct (fypp_core s) as [a|] eqn:F; [|reflexivity].
  apply fypp_core_app in F. destruct F as [b [-> Hb]].
  apply contains_app_r in H. apply fypp_end_contains in Hb. congruence.
Qed.
Lemma f_fypp_id l : contains kw_ypp l = false -> f_fypp l = (l, []).
Proof. intro H. unfold f_fypp. now rewrite (fypp_core_none _ H). Qed.

Lemma fypp_find_app s a : fypp_find s = Some a -> exists m, s = a ++ m /\ fypp_head m = true.
Proof.
  revert a. induction s as [|c s IH]; intros a H; cbn [fypp_find] in H; [discriminate|].
  destruct (fypp_head (String c s)) eqn:E.
  - inversion H; subst. now exists (String c s).
  - destruct (fypp_find s) as [a'|] eqn:F; [|discriminate]. inversion H; subst.
    destruct (IH _ eq_refl) as [m [-> Hm]]. now exists m.
Qed.

(** a suffix starting with "# " and containing the fypp/hypp marker is dropped *)
Definition R_fypp (l l' : string) : Prop :=
  l' = l \/ exists a m, l = a ++ m /\ l' = a /\ is_some (starts "# " m) = true /\ contains kw_ypp m = true.

Lemma f_fypp_rel l : R_fypp l (fst (f_fypp l)).
Proof.
  unfold f_fypp. destruct (fypp_core l) as [core|] eqn:C; [|now left].
  destruct (fypp_find core) as [before|] eqn:F; [|now left].
  right. cbn [fst]. apply fypp_core_app in C. destruct C as [b [-> Hb]].
  apply fypp_find_app in F. destruct F as [m [-> Hm]].
  exists before, (m ++ b). split; [now right_nest|]. split; [reflexivity|]. split.
  - destruct m as [|x [|y [|z m]]]; try discriminate. cbn in Hm.
    destruct (Ascii.eqb x "#") eqn:E1; [|discriminate]. destruct (Ascii.eqb y " ") eqn:E2; [|discriminate].
    apply Ascii.eqb_eq in E1. apply Ascii.eqb_eq in E2. subst. reflexivity.
  - apply fypp_end_contains in Hb. destruct (contains kw_ypp (m ++ b)) eqn:E; [reflexivity|].
    apply contains_app_r in E. congruence.
Qed.

