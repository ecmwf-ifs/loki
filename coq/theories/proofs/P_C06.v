(** C06 — main statements: the printed text denotes the tree on the class; witnesses outside the class.
    The file defines the example trees [ex_arith], [ex_logic], the local token check [wf_toks] (with [ender],
    [starter], [lvl_rank], [first_ok], [after_operand], [adj_ok], [okpairs]) that every phrase of the grammar
    passes ([G_wf]), and the witness trees [w_*] of finding F1 with their environment [rho_w]. *)
From Coq Require Import ZArith List Bool String Lia.
From LV Require Import Base.Expr models.M_C06 proofs.P_C06_base proofs.P_C06_sound.
Import ListNotations.
Open Scope Z_scope.
Open Scope string_scope.
Open Scope list_scope.

(** the statement with the enclosing precedence generalised: at every precedence at which the class predicate
    accepts the tree, the text is a phrase of the accepted grammar class *)
Lemma print_denotes_at_prec e p k : classify e (MP p) = Some k ->
  exists t, RA k (print_f e p) t /\ G LExpr (print_f e p) t /\ forall rho, evalF rho t = evalZ rho e.
Proof.
  intro E. destruct (classify_mp e p k E) as (t & HR & Hv). exists t.
  split; [exact HR|]. split; [apply (RA_expr k), HR | exact Hv].
Qed.

Lemma print_denotes_arith e : arith_safe e = true ->
  exists t, G LExpr (print_f e PREC_NONE) t /\ forall rho, evalF rho t = evalZ rho e.
Proof.
  unfold arith_safe. destruct (classify e (MP PREC_NONE)) as [k|] eqn:E; [intros _|discriminate].
  destruct (print_denotes_at_prec e _ k E) as (t & _ & HG & Hv). exists t. split; assumption.
Qed.

Lemma print_denotes_logic e : logic_safe e = true ->
  exists t, G LExpr (print_f e PREC_NONE) t /\ forall rho, evalFB rho t = evalB rho e.
Proof.
  unfold logic_safe. destruct (classifyB e PREC_NONE) as [k|] eqn:E; [intros _|discriminate].
  destruct (classifyB_sound e _ k E) as (t & HR & Hv). exists t. split; [apply (RB_expr k), HR | exact Hv].
Qed.

Lemma print_denotes_on_class e : fortran_safe e = true ->
  exists t, G LExpr (print_f e PREC_NONE) t /\
    ((arith_safe e = true /\ forall rho, evalF rho t = evalZ rho e) \/
     (logic_safe e = true /\ forall rho, evalFB rho t = evalB rho e)).
Proof.
  unfold fortran_safe. destruct (arith_safe e) eqn:Ea; cbn [orb]; intro El.
  - destruct (print_denotes_arith e Ea) as (t & HG & Hv). exists t. auto.
  - destruct (print_denotes_logic e El) as (t & HG & Hv). exists t. auto.
Qed.

(** the hypotheses are satisfiable by non-trivial trees:  -a*b / c + (a - 2)**2 - mod(k, 3)  and
    a / (b*c) < -n .and. .not.(k == 1 .or. .false.) *)
Definition ex_arith : expr :=
  ESum false [EQuot false (EProd false [EPy (-1); EProd false [EVar "a"; EVar "b"]]) (EVar "c");
              EPow false (ESum true [EVar "a"; EProd false [EPy (-1); EInt 2]]) (EInt 2);
              EProd false [EPy (-1); ECall "mod" [EVar "k"; EInt 3]]].
Definition ex_logic : expr :=
  EAnd [ECmp Clt (EQuot false (EVar "a") (EProd true [EVar "b"; EVar "c"])) (EProd false [EPy (-1); EVar "n"]);
        ENot (EOr [ECmp Ceq (EVar "k") (EInt 1); ELog false])].
Lemma ex_arith_safe : arith_safe ex_arith = true. Proof. vm_compute. reflexivity. Qed.
Lemma ex_logic_safe : logic_safe ex_logic = true. Proof. vm_compute. reflexivity. Qed.

(** A local check that every derivable token list passes (first token per level, last token, adjacent pairs);
    a printed text that fails it has no derivation. *)
Definition ender (t : token) : bool := match t with TInt _ | TVar _ | TTrue | TFalse | TRP => true | _ => false end.
Definition starter (t : token) : bool := match t with TInt _ | TVar _ | TTrue | TFalse | TLP => true | _ => false end.
Definition lvl_rank (l : lvl) : nat :=
  match l with LPrim => 0 | LMul => 1 | LAdd => 2 | L2 => 3 | L4 => 4 | LAndOp => 5 | LOrOp => 6 | LExpr => 7 end%nat.
Definition first_ok (l : lvl) (t : token) : bool :=
  match t with
  | TMinus | TPlus => Nat.leb 3 (lvl_rank l)
  | TNot => Nat.leb 5 (lvl_rank l)
  | _ => starter t
  end.
Definition after_operand (b : token) : bool :=
  match b with TPow | TStar | TSlash | TPlus | TMinus | TRel _ | TAnd | TOr | TRP | TComma => true | _ => false end.
Definition adj_ok (a b : token) : bool :=
  match a with
  | TInt _ | TTrue | TFalse | TRP => after_operand b
  | TVar _ => after_operand b || match b with TLP => true | _ => false end
  | TPow | TStar | TSlash => first_ok LMul b
  | TPlus | TMinus => first_ok LAdd b
  | TRel _ => first_ok L2 b
  | TNot => first_ok L4 b
  | TAnd => first_ok LAndOp b
  | TOr => first_ok LOrOp b
  | TLP => first_ok LExpr b || match b with TRP => true | _ => false end
  | TComma => first_ok LExpr b
  | TErr => false
  end.
Fixpoint okpairs (ts : list token) : bool :=
  match ts with
  | a :: ((b :: _) as r) => adj_ok a b && okpairs r
  | _ => true
  end.
Definition wf_toks (l : lvl) (ts : list token) : bool :=
  match ts with
  | [] => false
  | x :: _ => first_ok l x && ender (last ts TErr) && okpairs ts
  end.

Lemma okpairs_cons a x r : okpairs (a :: x :: r) = adj_ok a x && okpairs (x :: r).
Proof. reflexivity. Qed.

Lemma okpairs_app xs y ys : xs <> [] ->
  okpairs (xs ++ y :: ys) = okpairs xs && adj_ok (last xs TErr) y && okpairs (y :: ys).
Proof.
  induction xs as [|a [|b r] IH]; [congruence | reflexivity |]; intros _.
  cbn [app] in *. rewrite !okpairs_cons, IH by discriminate. rewrite !andb_assoc. reflexivity.
Qed.

Lemma last_app_cons (xs : list token) y ys d : last (xs ++ y :: ys) d = last (y :: ys) d.
Proof.
  induction xs as [|a r IH]; [reflexivity|].
  cbn [app]. destruct (r ++ y :: ys) as [|t l] eqn:E; [destruct r; discriminate | exact IH].
Qed.

Lemma first_ok_mono l l' x : (lvl_rank l <=? lvl_rank l')%nat = true -> first_ok l x = true -> first_ok l' x = true.
Proof. rewrite Nat.leb_le. destruct x; cbn [first_ok]; rewrite ?Nat.leb_le; auto; lia. Qed.

Lemma ender_after e op : ender e = true -> after_operand op = true -> adj_ok e op = true.
Proof. destruct e; cbn; try discriminate; intros _ E; rewrite ?E; reflexivity. Qed.

Lemma wf_toks_inv l ts : wf_toks l ts = true ->
  exists x r, ts = x :: r /\ first_ok l x = true /\ ender (last ts TErr) = true /\ okpairs ts = true.
Proof.
  destruct ts as [|x r]; [discriminate|]. cbn [wf_toks]. rewrite !andb_true_iff. intros [[Hf He] Hp]. eauto 6.
Qed.

(** the three shapes of grammar rule: inclusion of a level in a higher one, a binary operator whose right
    operand may start with what the operator may be followed by, a prefix operator *)
Lemma wf_mono l l' ts : wf_toks l ts = true -> (lvl_rank l <=? lvl_rank l')%nat = true -> wf_toks l' ts = true.
Proof.
  intros H Hle. destruct (wf_toks_inv _ _ H) as (x & r & -> & Hf & He & Hp).
  cbn [wf_toks]. rewrite (first_ok_mono l l' x Hle Hf), He, Hp. reflexivity.
Qed.

Lemma wf_bin l1 l2 l op ts1 ts2 :
  wf_toks l1 ts1 = true -> wf_toks l2 ts2 = true ->
  (lvl_rank l1 <=? lvl_rank l)%nat = true -> after_operand op = true -> adj_ok op = first_ok l2 ->
  wf_toks l (ts1 ++ op :: ts2) = true.
Proof.
  intros H1 H2 Hle Hop Hadj.
  destruct (wf_toks_inv _ _ H1) as (x1 & r1 & -> & Hf1 & He1 & Hp1).
  destruct (wf_toks_inv _ _ H2) as (x2 & r2 & -> & Hf2 & He2 & Hp2).
  cbn [app wf_toks]. rewrite app_comm_cons, last_app_cons, okpairs_app, okpairs_cons by discriminate.
  change (last (op :: x2 :: r2) TErr) with (last (x2 :: r2) TErr).
  rewrite (first_ok_mono l1 l x1 Hle Hf1), He2, Hp1, Hp2, (ender_after _ _ He1 Hop), Hadj, Hf2. reflexivity.
Qed.

Lemma wf_pre l2 l op ts :
  wf_toks l2 ts = true -> first_ok l op = true -> adj_ok op = first_ok l2 -> wf_toks l (op :: ts) = true.
Proof.
  intros H2 Hop Hadj. destruct (wf_toks_inv _ _ H2) as (x2 & r2 & -> & Hf2 & He2 & Hp2).
  cbn [wf_toks]. rewrite okpairs_cons. change (last (op :: x2 :: r2) TErr) with (last (x2 :: r2) TErr).
  rewrite Hop, He2, Hp2, Hadj, Hf2. reflexivity.
Qed.

(** what can be closed by [)]: used for parenthesised expressions and for argument lists *)
Definition wf_args (ts : list token) : Prop :=
  exists x r, ts = x :: r /\ first_ok LExpr x = true /\ okpairs (ts ++ [TRP]) = true.

Lemma wf_close ts : wf_toks LExpr ts = true -> wf_args ts.
Proof.
  intros H. destruct (wf_toks_inv _ _ H) as (x & r & -> & Hf & He & Hp).
  exists x, r. split; [reflexivity|]. split; [exact Hf|].
  rewrite okpairs_app by discriminate. rewrite Hp, (ender_after _ TRP He eq_refl). reflexivity.
Qed.

Lemma wf_parens ts : wf_args ts -> wf_toks LPrim (TLP :: ts ++ [TRP]) = true.
Proof.
  intros (x & r & -> & Hf & Hp). cbn [app] in *.
  cbn [wf_toks first_ok starter andb]. rewrite okpairs_cons, Hp. cbn [adj_ok]. rewrite Hf.
  change (TLP :: x :: r ++ [TRP]) with ((TLP :: x :: r) ++ [TRP]). rewrite last_last. reflexivity.
Qed.

Scheme G_mind := Minimality for G Sort Prop
  with Gargs_mind := Minimality for Gargs Sort Prop.
Combined Scheme G_Gargs_mind from G_mind, Gargs_mind.

Lemma G_wf_both :
  (forall l ts t, G l ts t -> wf_toks l ts = true) /\ (forall ts args, Gargs ts args -> wf_args ts).
Proof.
  (* literals, variables and [f()] by computation; then the three shapes: inclusion, binary operator, prefix operator *)
  apply G_Gargs_mind; intros;
    try reflexivity;
    try (eapply wf_mono; [eassumption | reflexivity]);
    try (eapply wf_bin; [eassumption | eassumption | reflexivity ..]);
    try (eapply wf_pre; [eassumption | reflexivity ..]).
  (* left: parentheses, call, one argument, more arguments *)
  - apply wf_parens, wf_close. assumption.
  - (* [f(args)] is [(args)] behind a name *) refine (wf_parens ts _). assumption.
  - apply wf_close. assumption.
  - match goal with Hts : wf_toks LExpr ts = true, Htss : wf_args tss |- _ =>
      destruct (wf_toks_inv _ _ Hts) as (x & r & -> & Hf & He & Hp); destruct Htss as (y & s & -> & Hfy & Hpy) end.
    exists x, (r ++ TComma :: y :: s). split; [reflexivity|]. split; [exact Hf|].
    rewrite <- app_assoc, <- (app_comm_cons (y :: s)), okpairs_app by discriminate. cbn [app] in *.
    rewrite okpairs_cons, Hp, Hpy, (ender_after _ TComma He eq_refl). cbn [adj_ok]. rewrite Hfy. reflexivity.
Qed.

Lemma G_wf l ts t : G l ts t -> wf_toks l ts = true.
Proof. apply (proj1 G_wf_both). Qed.

Lemma not_fortran ts : wf_toks LExpr ts = false -> forall t, ~ G LExpr ts t.
Proof. intros E t H. apply G_wf in H. congruence. Qed.

(** Witnesses outside the class (finding F1): what FCodeMapper prints for them either is not a Fortran
    expression at all, or is one with a different value; the reference reader agrees in each case *)
Definition va := EVar "a". Definition vb := EVar "b". Definition vc := EVar "c".
Definition rho_w (a b c : Z) : env := env_of [("a", a); ("b", b); ("c", c)].

(** [e] prints as [toks], which is the Fortran expression [t] (also for the reference reader) and has the
    value [vF] where [e] has [vZ] *)
Definition misread (e : expr) (toks : list token) (rho : env) (vF vZ : option Z) : Prop :=
  print_f e 0 = toks /\
  (exists t, G LExpr (print_f e 0) t /\ ref_parse (print_f e 0) = Some t /\ evalF rho t = vF /\ evalZ rho e = vZ).

Lemma misread_by e toks t rho vF vZ :
  print_f e 0 = toks -> G LExpr toks t -> ref_parse toks = Some t -> evalF rho t = vF -> evalZ rho e = vZ ->
  misread e toks rho vF vZ.
Proof. intros <- HG HR HF HZ. split; [reflexivity|]. exists t. auto. Qed.

(** [e] prints as [toks], which fails the local token check, so is no Fortran expression; [P] says what [e] is worth *)
Lemma print_unreadable e toks (P : Prop) :
  print_f e 0 = toks -> wf_toks LExpr toks = false -> ref_parse toks = None -> P ->
  print_f e 0 = toks /\ (forall t, ~ G LExpr (print_f e 0) t) /\ ref_parse (print_f e 0) = None /\ P.
Proof. intros <- Hwf HR HP. split; [reflexivity|]. split; [apply not_fortran, Hwf|]. split; assumption. Qed.

Lemma G_var_mul x : G LMul [TVar x] (FVar x). Proof. apply G_mul_prim, G_var. Qed.
Lemma G_var_add x : G LAdd [TVar x] (FVar x). Proof. apply G_add_mul, G_var_mul. Qed.

(** a / (b*c) without the parentheses *)
Definition w_quot_prod := EQuot false va (EProd false [vb; vc]).
Lemma print_refuted_quot_prod :
  misread w_quot_prod [TVar "a"; TSlash; TVar "b"; TStar; TVar "c"] (rho_w 8 2 2) (Some 8) (Some 2).
Proof.
  apply (misread_by _ _ (FBin BMul (FBin BDiv (FVar "a") (FVar "b")) (FVar "c"))); try (vm_compute; reflexivity).
  apply (G_to_expr LAdd), (G_times [TVar "a"; TSlash; TVar "b"] _ [TVar "c"]), G_var_mul.
  apply (G_div [TVar "a"] _ [TVar "b"]), G_var_mul. apply G_var_add.
Qed.

(** a / (b / c) without the parentheses *)
Definition w_quot_quot := EQuot false va (EQuot false vb vc).
Lemma print_refuted_quot_quot :
  misread w_quot_quot [TVar "a"; TSlash; TVar "b"; TSlash; TVar "c"] (rho_w 8 4 2) (Some 1) (Some 4).
Proof.
  apply (misread_by _ _ (FBin BDiv (FBin BDiv (FVar "a") (FVar "b")) (FVar "c"))); try (vm_compute; reflexivity).
  apply (G_to_expr LAdd), (G_div [TVar "a"; TSlash; TVar "b"] _ [TVar "c"]), G_var_mul.
  apply (G_div [TVar "a"] _ [TVar "b"]), G_var_mul. apply G_var_add.
Qed.

(** a * (b / c) without the parentheses: integer division *)
Definition w_prod_quot := EProd false [va; EQuot false vb vc].
Lemma print_refuted_prod_quot :
  misread w_prod_quot [TVar "a"; TStar; TVar "b"; TSlash; TVar "c"] (rho_w 2 1 2) (Some 1) (Some 0).
Proof.
  apply (misread_by _ _ (FBin BDiv (FBin BMul (FVar "a") (FVar "b")) (FVar "c"))); try (vm_compute; reflexivity).
  apply (G_to_expr LAdd), (G_div [TVar "a"; TStar; TVar "b"] _ [TVar "c"]), G_var_mul.
  apply (G_times [TVar "a"] _ [TVar "b"]), G_var_mul. apply G_var_add.
Qed.

(** (a**b)**c without the parentheses: ** associates to the right *)
Definition w_pow_pow := EPow false (EPow false va vb) vc.
Lemma print_refuted_pow_pow :
  misread w_pow_pow [TVar "a"; TPow; TVar "b"; TPow; TVar "c"] (rho_w 2 3 2) (Some 512) (Some 64).
Proof.
  apply (misread_by _ _ (FBin BPow (FVar "a") (FBin BPow (FVar "b") (FVar "c")))); try (vm_compute; reflexivity).
  apply (G_to_expr LMul), (G_pow [TVar "a"] _ [TVar "b"; TPow; TVar "c"]), (G_pow [TVar "b"] _ [TVar "c"]), G_var_mul;
    apply G_var.
Qed.

(** IntLiteral(-3)**2: the literal is printed bare and the sign applies to the power *)
Definition w_neg_base := EPow false (EInt (-3)) (EInt 2).
Lemma print_refuted_neg_base :
  misread w_neg_base [TMinus; TInt 3; TPow; TInt 2] (rho_w 0 0 0) (Some (-9)) (Some 9).
Proof.
  apply (misread_by _ _ (FNeg (FBin BPow (FInt 3) (FInt 2)))); try (vm_compute; reflexivity).
  apply G_l2_expr, G_neg, G_add_mul, (G_pow [TInt 3] _ [TInt 2]); [|apply G_mul_prim]; apply G_int; lia.
Qed.

(** a * (-b): "a*-b" is not a Fortran expression (and the reference reader rejects it) *)
Definition w_mul_neg := EProd false [va; EProd false [EPy (-1); vb]].
(** a + IntLiteral(-1): "a + -1" is not a Fortran expression *)
Definition w_add_neg := ESum false [va; EInt (-1)].
(** .not. .not. (a < b): an and-operand takes a single .not. *)
Definition w_not_not := ENot (ENot (ECmp Clt va vb)).

Lemma witnesses_outside_class :
  forallb (fun e => negb (fortran_safe e))
    [w_quot_prod; w_quot_quot; w_prod_quot; w_pow_pow; w_neg_base; w_mul_neg; w_add_neg; w_not_not] = true.
Proof. vm_compute. reflexivity. Qed.
