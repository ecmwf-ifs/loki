(** C06 — proofs: on the class [classify]/[classifyB], the token list printed by the model of
    FCodeMapper is a phrase of the Fortran expression grammar whose parse tree has the value of the
    expression tree.  This file: the algebra of partial values; [phrase] (a token list that is a phrase of
    a given kind with a given value); left-associative chains of phrases ([chain], [addchain], [signed])
    and how they re-associate; the phrase classes [RA] that [classify] computes; that the token
    equalities of M_C06 decide equality. *)
From Coq Require Import ZArith List Bool String Lia.
From LV Require Import Base.Expr Base.ListFacts models.M_C06.
Import ListNotations.
Open Scope Z_scope.

(* case analysis on every partial value in sight; what remains is linear arithmetic *)
Ltac oz :=
  intros;
  repeat match goal with x : option Z |- _ => destruct x end;
  cbn; try reflexivity; try (f_equal; lia).

Lemma oadd_assoc a b c : oadd (oadd a b) c = oadd a (oadd b c). Proof. oz. Qed.
Lemma oadd_sub_assoc a b c : osub (oadd a b) c = oadd a (osub b c). Proof. oz. Qed.
Lemma oadd_0_r a : oadd a (Some 0) = a. Proof. oz. Qed.
Lemma oadd_neg a b : oadd a (oneg b) = osub a b. Proof. oz. Qed.
Lemma omul_assoc a b c : omul (omul a b) c = omul a (omul b c). Proof. oz. Qed.
Lemma omul_1_r a : omul a (Some 1) = a. Proof. oz. Qed.
Lemma omul_m1_l a : omul (Some (-1)) a = oneg a. Proof. oz. Qed.
Lemma omul_neg_l a b : omul (oneg a) b = oneg (omul a b). Proof. oz. Qed.
Lemma oneg_neg_int v : oneg (Some (- v)) = Some v. Proof. oz. Qed.
Lemma odiv_neg_l a b : odiv (oneg a) b = oneg (odiv a b).
Proof.
  destruct a as [a|], b as [b|]; cbn; try reflexivity.
  unfold div_z. destruct (Z.eqb_spec b 0) as [|Hb]; cbn; [reflexivity|].
  f_equal. apply Z.quot_opp_l, Hb.
Qed.
Lemma oand_assoc a b c : oand (oand a b) c = oand a (oand b c).
Proof. destruct a as [[]|], b as [[]|], c as [[]|]; reflexivity. Qed.
Lemma oor_assoc a b c : oor (oor a b) c = oor a (oor b c).
Proof. destruct a as [[]|], b as [[]|], c as [[]|]; reflexivity. Qed.
Lemma oand_true_r a : oand a (Some true) = a. Proof. destruct a as [[]|]; reflexivity. Qed.
Lemma oor_false_r a : oor a (Some false) = a. Proof. destruct a as [[]|]; reflexivity. Qed.

Lemma evalZ_sum_fold rho p cs : evalZ rho (ESum p cs) = fold_right (fun c acc => oadd (evalZ rho c) acc) (Some 0) cs.
Proof. reflexivity. Qed.
Lemma evalZ_prod_fold rho p cs : evalZ rho (EProd p cs) = fold_right (fun c acc => omul (evalZ rho c) acc) (Some 1) cs.
Proof. reflexivity. Qed.
Lemma evalB_and_fold rho cs : evalB rho (EAnd cs) = fold_right (fun c acc => oand (evalB rho c) acc) (Some true) cs.
Proof. reflexivity. Qed.
Lemma evalB_or_fold rho cs : evalB rho (EOr cs) = fold_right (fun c acc => oor (evalB rho c) acc) (Some false) cs.
Proof. reflexivity. Qed.

Lemma G_prim_add ts t : G LPrim ts t -> G LAdd ts t.
Proof. intro H. apply G_add_mul, G_mul_prim, H. Qed.
Lemma G_add_l4 ts t : G LAdd ts t -> G L4 ts t.
Proof. intro H. apply G_l4_l2, G_l2_add, H. Qed.
Lemma G_l4_expr ts t : G L4 ts t -> G LExpr ts t.
Proof. intro H. apply G_expr_orop, G_orop_andop, G_andop_l4, H. Qed.
Lemma G_l2_expr ts t : G L2 ts t -> G LExpr ts t.
Proof. intro H. apply G_l4_expr, G_l4_l2, H. Qed.
Lemma G_to_expr l ts t : G l ts t -> G LExpr ts t.
Proof.
  destruct l; intro H.
  - apply G_l4_expr, G_add_l4, G_prim_add, H.
  - apply G_l4_expr, G_add_l4, G_add_mul, H.
  - apply G_l4_expr, G_add_l4, H.
  - apply G_l2_expr, H.
  - apply G_l4_expr, H.
  - apply G_expr_orop, G_orop_andop, H.
  - apply G_expr_orop, H.
  - exact H.
Qed.

Inductive chain (H : list token -> fx -> Prop) (sep : token) (op : binop) : list token -> fx -> Prop :=
| ch_one ts t : H ts t -> chain H sep op ts t
| ch_more ts1 t1 ts2 t2 :
    chain H sep op ts1 t1 -> H ts2 t2 -> chain H sep op (ts1 ++ sep :: ts2) (FBin op t1 t2).

Definition phrase {V} (sem : env -> fx -> V) (R : list token -> fx -> Prop) (toks : list token) (v : env -> V) : Prop :=
  exists t, R toks t /\ forall rho, sem rho t = v rho.

Lemma chain_in (H A : list token -> fx -> Prop) sep op :
  (forall ts t, H ts t -> A ts t) ->
  (forall X tx Y ty, A X tx -> H Y ty -> A (X ++ sep :: Y) (FBin op tx ty)) ->
  forall ts t, chain H sep op ts t -> A ts t.
Proof. intros Hone Hmore ts t. induction 1; auto. Qed.

Section ChainApp.
  Variables (V : Type) (sem : env -> fx -> V) (f : V -> V -> V) (op : binop) (sep : token).
  Hypothesis sem_op : forall rho a b, sem rho (FBin op a b) = f (sem rho a) (sem rho b).
  Hypothesis f_assoc : forall a b c, f (f a b) c = f a (f b c).
  Variables (A H : list token -> fx -> Prop).
  Hypothesis step : forall X tx Y ty, A X tx -> H Y ty -> A (X ++ sep :: Y) (FBin op tx ty).

  (** appending a whole chain to a phrase that may be extended on the right re-associates to the left *)
  Lemma chain_app Y ty : chain H sep op Y ty -> forall X tx, A X tx ->
    exists t, A (X ++ sep :: Y) t /\ forall rho, sem rho t = f (sem rho tx) (sem rho ty).
  Proof.
    induction 1 as [ts t Ht | ts1 t1 ts2 t2 H1 IH H2]; intros X tx HA.
    - exists (FBin op tx t). split; [apply step; assumption | intro; apply sem_op].
    - destruct (IH X tx HA) as (t' & HA' & E).
      exists (FBin op t' t2). split.
      + rewrite app_comm_cons, app_assoc. apply step; assumption.
      + intro rho. rewrite !sem_op, E, f_assoc. reflexivity.
  Qed.
End ChainApp.

(** the same for the children [r] of an n-ary node, each printed by [pr] as a chain with value [val]:
    the text [X sep c1 sep c2 ...] is again an [A], its value the right fold the tree semantics uses *)
Section ChainFold.
  Variables (V : Type) (sem : env -> fx -> V) (f : V -> V -> V) (u : V) (op : binop) (sep : token).
  Hypothesis sem_op : forall rho a b, sem rho (FBin op a b) = f (sem rho a) (sem rho b).
  Hypothesis f_assoc : forall a b c, f (f a b) c = f a (f b c).
  Hypothesis f_unit : forall a, f a u = a.
  Variables (A H : list token -> fx -> Prop).
  Hypothesis step : forall X tx Y ty, A X tx -> H Y ty -> A (X ++ sep :: Y) (FBin op tx ty).
  Variables (pr : expr -> list token) (val : env -> expr -> V).

  Lemma chain_fold r :
    Forall (fun c => phrase sem (chain H sep op) (pr c) (fun rho => val rho c)) r ->
    forall X tx, A X tx ->
    phrase sem A (X ++ flat_map (fun p => sep :: p) (map pr r))
      (fun rho => f (sem rho tx) (fold_right (fun c acc => f (val rho c) acc) u r)).
  Proof.
    induction 1 as [|c r (tc & Hc & Hv) _ IH]; intros X tx HX.
    - exists tx. cbn. rewrite app_nil_r. split; [exact HX|]. intro. symmetry. apply f_unit.
    - destruct (chain_app V sem f op sep sem_op f_assoc A H step _ _ Hc X tx HX) as (t1 & Ht1 & Hv1).
      destruct (IH _ t1 Ht1) as (t & Ht & Hvt).
      exists t. split.
      + cbn [map flat_map]. rewrite <- app_assoc in Ht. exact Ht.
      + intro rho. rewrite Hvt, Hv1, Hv. apply f_assoc.
  Qed.
End ChainFold.

Definition mchain := chain (G LMul) TStar BMul.
Definition andchain := chain (G LAndOp) TAnd BAnd.
Definition orchain := chain (G LOrOp) TOr BOr.

Lemma mchain_add ts t : mchain ts t -> G LAdd ts t.
Proof. apply chain_in; [apply G_add_mul | apply G_times]. Qed.
Lemma andchain_orop ts t : andchain ts t -> G LOrOp ts t.
Proof. apply chain_in; [apply G_orop_andop | apply G_and]. Qed.
Lemma orchain_expr ts t : orchain ts t -> G LExpr ts t.
Proof. apply chain_in; [apply G_expr_orop | apply G_or]. Qed.

Lemma evalF_mul rho a b : evalF rho (FBin BMul a b) = omul (evalF rho a) (evalF rho b). Proof. reflexivity. Qed.
Lemma evalFB_and rho a b : evalFB rho (FBin BAnd a b) = oand (evalFB rho a) (evalFB rho b). Proof. reflexivity. Qed.
Lemma evalFB_or rho a b : evalFB rho (FBin BOr a b) = oor (evalFB rho a) (evalFB rho b). Proof. reflexivity. Qed.

Definition add_app_mchain := chain_app (option Z) evalF omul BMul TStar evalF_mul omul_assoc (G LAdd) (G LMul) G_times.
Definition mchain_app_mchain := chain_app (option Z) evalF omul BMul TStar evalF_mul omul_assoc mchain (G LMul)
                                  (ch_more (G LMul) TStar BMul).
Definition andchain_app := chain_app (option bool) evalFB oand BAnd TAnd evalFB_and oand_assoc andchain (G LAndOp)
                             (ch_more (G LAndOp) TAnd BAnd).
Definition orchain_app := chain_app (option bool) evalFB oor BOr TOr evalFB_or oor_assoc orchain (G LOrOp)
                            (ch_more (G LOrOp) TOr BOr).

(** additive chains: head [H], then (+|-) add-operand ... *)
Inductive addchain (H : list token -> fx -> Prop) : list token -> fx -> Prop :=
| ac_hd ts t : H ts t -> addchain H ts t
| ac_plus ts1 t1 ts2 t2 : addchain H ts1 t1 -> G LAdd ts2 t2 -> addchain H (ts1 ++ TPlus :: ts2) (FBin BAdd t1 t2)
| ac_minus ts1 t1 ts2 t2 : addchain H ts1 t1 -> G LAdd ts2 t2 -> addchain H (ts1 ++ TMinus :: ts2) (FBin BSub t1 t2).

Definition signed (H : list token -> fx -> Prop) (ts : list token) (t : fx) : Prop :=
  exists ts' t', ts = TMinus :: ts' /\ H ts' t' /\ t = FNeg t'.

Lemma signed_intro (H : list token -> fx -> Prop) ts t : H ts t -> signed H (TMinus :: ts) (FNeg t).
Proof. intro Ht. exists ts, t. auto. Qed.

Lemma addchain_l2 (H : list token -> fx -> Prop) ts t : (forall ts t, H ts t -> G L2 ts t) -> addchain H ts t -> G L2 ts t.
Proof. intros HH. induction 1; [apply HH; assumption | apply G_plus; assumption | apply G_minus; assumption]. Qed.

Lemma signed_l2 ts t : signed (G LAdd) ts t -> G L2 ts t.
Proof. intros (ts' & t' & -> & H & ->). apply G_neg, H. Qed.

(** [X + (y1 + y2 - y3)] is printed without the parentheses: as in [chain_app], but the operators of the appended chain stay *)
Lemma addchain_app_plus (H : list token -> fx -> Prop) Y ty : addchain (G LAdd) Y ty -> forall X tx, addchain H X tx ->
  phrase evalF (addchain H) (X ++ TPlus :: Y) (fun rho => oadd (evalF rho tx) (evalF rho ty)).
Proof.
  induction 1 as [ts t Ht | ts1 t1 ts2 t2 H1 IH H2 | ts1 t1 ts2 t2 H1 IH H2]; intros X tx HA.
  - exists (FBin BAdd tx t). split; [apply ac_plus; assumption | reflexivity].
  - destruct (IH X tx HA) as (t' & HA' & E).
    exists (FBin BAdd t' t2). split.
    + rewrite app_comm_cons, app_assoc. apply ac_plus; assumption.
    + intro rho. cbn [evalF]. rewrite E. apply oadd_assoc.
  - destruct (IH X tx HA) as (t' & HA' & E).
    exists (FBin BSub t' t2). split.
    + rewrite app_comm_cons, app_assoc. apply ac_minus; assumption.
    + intro rho. cbn [evalF]. rewrite E. apply oadd_sub_assoc.
Qed.

Definition RA (k : cls) : list token -> fx -> Prop :=
  match k with
  | KPrim => G LPrim
  | KMul => G LMul
  | KChain => mchain
  | KAdd => G LAdd
  | KSAdd => signed (G LAdd)
  | KL2 => addchain (G LAdd)
  | KSL2 => addchain (signed (G LAdd))
  end.

Lemma RA_le_mul k ts t : le_unsigned k 1 = true -> RA k ts t -> G LMul ts t.
Proof. destruct k; cbn; intros E H; try discriminate; [apply G_mul_prim|]; exact H. Qed.
Lemma RA_le_chain k ts t : le_unsigned k 2 = true -> RA k ts t -> mchain ts t.
Proof. destruct k; intros E H; try discriminate; [apply ch_one, (RA_le_mul KPrim) | apply ch_one | ]; auto. Qed.
Lemma RA_le_add k ts t : le_unsigned k 3 = true -> RA k ts t -> G LAdd ts t.
Proof. destruct k; intros E H; try discriminate; [apply mchain_add, (RA_le_chain KPrim) | apply mchain_add, (RA_le_chain KMul) | apply mchain_add | ]; auto. Qed.
Lemma RA_unsigned k ts t : cls_signed k = false -> RA k ts t -> addchain (G LAdd) ts t.
Proof.
  intros E H. destruct (le_unsigned k 3) eqn:E3; [apply ac_hd, (RA_le_add k); assumption|].
  destruct k; try discriminate. exact H.
Qed.
Lemma RA_signed k ts t : cls_signed k = true -> RA k ts t -> addchain (signed (G LAdd)) ts t.
Proof. destruct k; cbn; intros E H; try discriminate; [apply ac_hd|]; exact H. Qed.
Lemma RA_l2 k ts t : RA k ts t -> G L2 ts t.
Proof.
  destruct (cls_signed k) eqn:E; intro H.
  - apply (addchain_l2 (signed (G LAdd))); [apply signed_l2 | apply RA_signed with k; assumption].
  - apply (addchain_l2 (G LAdd)); [apply G_l2_add | apply RA_unsigned with k; assumption].
Qed.
Lemma RA_expr k ts t : RA k ts t -> G LExpr ts t.
Proof. intro H. apply G_l2_expr, RA_l2 with k, H. Qed.
Lemma le_unsigned_4 k : le_unsigned k 4 = true -> cls_signed k = false.
Proof. destruct k; cbn; congruence. Qed.

Lemma token_eqb_eq a b : token_eqb a b = true -> a = b.
Proof.
  destruct a, b; cbn; try discriminate; try reflexivity.
  - intros E. apply Z.eqb_eq in E. now subst.
  - intros E. apply String.eqb_eq in E. now subst.
  - destruct op, op0; cbn; try discriminate; reflexivity.
Qed.

Lemma token_eqb_refl a : token_eqb a a = true.
Proof. destruct a; cbn; try reflexivity; [apply Z.eqb_refl|apply String.eqb_refl|destruct op; reflexivity]. Qed.

Lemma toks_eqb_eq a b : toks_eqb a b = true -> a = b.
Proof. apply (list_eqb_eq token_eqb), Forall_forall. intros x _. apply token_eqb_eq. Qed.

Lemma toks_eqb_refl a : toks_eqb a a = true.
Proof. apply (list_eqb_refl token_eqb), Forall_forall. intros x _. apply token_eqb_refl. Qed.
