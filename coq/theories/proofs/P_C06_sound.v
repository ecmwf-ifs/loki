(** C06 — soundness of the class predicates: [classify e m = Some k] implies that the printed text is a
    phrase of class [k] with the value of [e] (induction over the tree with the printing context
    generalised); on top of it the same for [classifyB] and the logical operators. *)
From Coq Require Import ZArith List Bool String Lia.
From LV Require Import Base.Expr Base.ListFacts Base.ExprFacts models.M_C06 proofs.P_C06_base.
Import ListNotations.
Open Scope Z_scope.

(** What [classify e m = Some k] promises.  At an enclosing precedence: the text is a [k]-phrase with the
    value of [e].  As a term of a sum: the text is the operator [map_sum] chose for [e], then a [k]-phrase
    whose value is that of [e] up to that sign. *)
Definition denotes (e : expr) (m : mode) (k : cls) : Prop :=
  match m with
  | MP p => phrase evalF (RA k) (print LF e (MP p)) (fun rho => evalZ rho e)
  | MT => exists ts t, print LF e MT = (if term_neg e then TMinus else TPlus) :: ts /\ RA k ts t /\
            forall rho, evalZ rho e = if term_neg e then oneg (evalF rho t) else evalF rho t
  end.

Definition sound (e : expr) : Prop := forall m k, classify e m = Some k -> denotes e m k.

(** every node but an un-parenthesised product is, as a term of a sum, "+" and its text at PREC_SUM *)
Lemma sound_of_MP e :
  term_neg e = false ->
  print LF e MT = TPlus :: print LF e (MP PREC_SUM) ->
  classify e MT = classify e (MP PREC_SUM) ->
  (forall p k, classify e (MP p) = Some k -> denotes e (MP p) k) -> sound e.
Proof.
  intros Hn Hp Hc H m k. destruct m as [p|]; [apply H|].
  rewrite Hc. intro E. destruct (H _ _ E) as (t & HR & Hv).
  cbn [denotes]. rewrite Hn. exists (print LF e (MP PREC_SUM)), t.
  split; [exact Hp|]. split; [exact HR|]. intro rho; symmetry; apply Hv.
Qed.

(** a node whose body has class [kb] and which is parenthesised when [par] or the enclosing precedence
    exceeds [my] *)
Lemma wrap_ok (par : bool) (my p : nat) (body : option cls) (toks : list token) (v : env -> option Z) k :
  (forall kb, body = Some kb -> phrase evalF (RA kb) toks v) ->
  (if par || Nat.ltb my p then to_prim body else body) = Some k ->
  phrase evalF (RA k) (if par then paren toks else paren_if p my toks) v.
Proof.
  intros Hb.
  replace (if par then paren toks else paren_if p my toks) with (if par || Nat.ltb my p then paren toks else toks)
    by (destruct par; reflexivity).
  destruct (par || Nat.ltb my p); [|apply Hb].
  destruct body as [kb|]; cbn [to_prim]; intros [= <-].
  destruct (Hb kb eq_refl) as (t & HR & Hv).
  exists t. split; [unfold paren; apply G_paren, (RA_expr kb), HR | exact Hv].
Qed.

Lemma neg_literal v : v < 0 -> signed (G LAdd) [TMinus; TInt (- v)] (FNeg (FInt (- v))).
Proof. intro Hv. apply signed_intro, G_prim_add, G_int. lia. Qed.

Lemma sound_int v : sound (EInt v).
Proof.
  apply sound_of_MP; try reflexivity.
  intros p k. cbn [classify cat_mode print at_mode denotes]. unfold tok_int.
  destruct (Z.ltb_spec v 0) as [Hv|Hv].
  - destruct (Nat.ltb PREC_PRODUCT p); intros [= <-].
    exists (FNeg (FInt (- v))). split; [apply neg_literal, Hv | intro; apply oneg_neg_int].
  - intros [= <-]. exists (FInt v). split; [apply G_int, Hv | reflexivity].
Qed.

Lemma sound_py v : sound (EPy v).
Proof.
  apply sound_of_MP; try reflexivity.
  intros p k. cbn [classify cat_mode print at_mode denotes]. unfold print_const, tok_int.
  destruct (Z.ltb_spec v 0) as [Hv|Hv]; cbn [andb].
  - destruct (Nat.ltb PREC_SUM p); intros [= <-]; exists (FNeg (FInt (- v))); (split; [|intro; apply oneg_neg_int]).
    + unfold paren. apply G_paren, G_l2_expr, signed_l2, neg_literal, Hv.
    + apply neg_literal, Hv.
  - intros [= <-]. exists (FInt v). split; [apply G_int, Hv | reflexivity].
Qed.

Lemma sound_var x : sound (EVar x).
Proof.
  apply sound_of_MP; try reflexivity.
  intros p k. cbn [classify]. intros [= <-]. exists (FVar x). split; [apply G_var | reflexivity].
Qed.

(** a child as a term of a sum: its sign and class, its text *)
Definition tcls (c : expr) := (term_neg c, classify c MT).
Definition tprint (c : expr) := print LF c MT.

(** one more term after an additive chain: a "-" term is one add-operand, a "+" term may itself be an
    unsigned additive chain *)
Lemma sum_term (H : list token -> fx -> Prop) c k X tx :
  sound c -> classify c MT = Some k -> term_ok false (term_neg c, Some k) = true -> addchain H X tx ->
  phrase evalF (addchain H) (X ++ tprint c) (fun rho => oadd (evalF rho tx) (evalZ rho c)).
Proof.
  intros Hc Ek Hok HX. unfold tprint. destruct (Hc MT k Ek) as (ts & t & -> & HR & Hv).
  destruct (term_neg c); cbn [term_ok] in Hok.
  - exists (FBin BSub tx t). split; [apply ac_minus; [exact HX | apply (RA_le_add k); assumption]|].
    intro rho. rewrite Hv. symmetry. apply oadd_neg.
  - destruct (addchain_app_plus H ts t (RA_unsigned k _ _ (le_unsigned_4 _ Hok) HR) X tx HX) as (t1 & Ht1 & Hv1).
    exists t1. split; [exact Ht1|]. intro rho. now rewrite Hv1, Hv.
Qed.

Lemma sum_rest (H : list token -> fx -> Prop) : forall r, Forall sound r ->
  forallb (term_ok false) (map tcls r) = true ->
  forall X tx, addchain H X tx ->
  phrase evalF (addchain H) (X ++ List.concat (map tprint r))
    (fun rho => oadd (evalF rho tx) (fold_right (fun c acc => oadd (evalZ rho c) acc) (Some 0) r)).
Proof.
  induction r as [|c r IHr]; intros HF Hok X tx HX.
  - exists tx. cbn. rewrite app_nil_r. split; [exact HX|]. intro; symmetry; apply oadd_0_r.
  - inversion HF as [|? ? Hc Hr]; subst. cbn [map forallb] in Hok. apply andb_prop in Hok as [Hok1 Hok2].
    unfold tcls at 1 in Hok1. destruct (classify c MT) as [k|] eqn:Ek; [|destruct (term_neg c); discriminate].
    destruct (sum_term H c k X tx Hc Ek Hok1 HX) as (t1 & Ht1 & Hv1).
    destruct (IHr Hr Hok2 _ t1 Ht1) as (t & Ht & Hv).
    exists t. split; [cbn [map List.concat]; rewrite app_assoc; exact Ht|].
    intro rho. rewrite Hv, Hv1. apply oadd_assoc.
Qed.

Lemma sum_from_head (H : list token -> fx -> Prop) par c0 r hd thd :
  Forall sound r -> forallb (term_ok false) (map tcls r) = true ->
  addchain H hd thd -> (forall rho, evalF rho thd = evalZ rho c0) ->
  phrase evalF (addchain H) (hd ++ List.concat (map tprint r)) (fun rho => evalZ rho (ESum par (c0 :: r))).
Proof.
  intros Hr Hok Hh Hv. destruct (sum_rest H r Hr Hok hd thd Hh) as (t & Ht & E).
  exists t. split; [exact Ht|]. intro rho. rewrite E, Hv, evalZ_sum_fold. reflexivity.
Qed.

(** the first term without its "+" is the head of the chain; it decides whether the chain is signed *)
Lemma sum_body par cs kb : Forall sound cs -> sum_cls (map tcls cs) = Some kb ->
  phrase evalF (RA kb) (sum_toks (map tprint cs)) (fun rho => evalZ rho (ESum par cs)).
Proof.
  intros HF. destruct cs as [|c0 r]; [discriminate|].
  inversion HF as [|? ? Hc Hr]; subst.
  cbn [map sum_cls]. unfold tcls at 1.
  destruct (classify c0 MT) as [k0|] eqn:Ek; [|destruct (term_neg c0); discriminate].
  destruct (Hc MT k0 Ek) as (ts & t & Hp & HR & Hv).
  destruct (term_ok true (term_neg c0, Some k0) && forallb (term_ok false) (map tcls r)) eqn:Eok; [|discriminate].
  apply andb_prop in Eok; destruct Eok as [Eok1 Eok2]. intros [= <-].
  unfold sum_toks. cbn [List.concat]. unfold tprint at 1. rewrite Hp.
  destruct (term_neg c0) eqn:En; cbn [term_ok orb] in *.
  - refine (sum_from_head (signed (G LAdd)) par c0 r (TMinus :: ts) (FNeg t) Hr Eok2 _ _).
    + apply ac_hd, signed_intro, (RA_le_add k0); assumption.
    + intro rho. rewrite Hv. reflexivity.
  - destruct (cls_signed k0) eqn:Es.
    + refine (sum_from_head (signed (G LAdd)) par c0 r ts t Hr Eok2 _ _).
      * apply (RA_signed k0); assumption.
      * intro rho. rewrite Hv. reflexivity.
    + refine (sum_from_head (G LAdd) par c0 r ts t Hr Eok2 _ _).
      * apply (RA_unsigned k0); assumption.
      * intro rho. rewrite Hv. reflexivity.
Qed.

Lemma sound_sum par cs : Forall sound cs -> sound (ESum par cs).
Proof.
  intro HF. apply sound_of_MP; try reflexivity.
  intros p k E.
  refine (wrap_ok par PREC_SUM p _ _ (fun rho => evalZ rho (ESum par cs)) k _ E).
  intros kb. apply sum_body, HF.
Qed.

(** a child as a factor, at PREC_PRODUCT = 12: its class, its text; [le2]: of rank at most 2 (KChain) and unsigned *)
Definition le2 (k : option cls) : bool := match k with Some k => le_unsigned k 2 | None => false end.
Definition c12 (c : expr) := classify c (MP PREC_PRODUCT).
Definition p12 (c : expr) := print LF c (MP PREC_PRODUCT).

(** the factors after the first are product chains; [chain_fold] appends them to whatever the first one is *)
Lemma prod_rest (A : list token -> fx -> Prop)
  (step : forall X tx Y ty, A X tx -> G LMul Y ty -> A (X ++ TStar :: Y) (FBin BMul tx ty)) r :
  Forall sound r -> forallb le2 (map c12 r) = true ->
  forall X tx, A X tx ->
  exists t, A (X ++ flat_map (fun p => TStar :: p) (map p12 r)) t /\
     forall rho, evalF rho t = omul (evalF rho tx) (fold_right (fun c acc => omul (evalZ rho c) acc) (Some 1) r).
Proof.
  intros HF Hok.
  apply (chain_fold (option Z) evalF omul (Some 1) BMul TStar evalF_mul omul_assoc omul_1_r A (G LMul) step p12 evalZ).
  rewrite forallb_map in Hok. refine (Forall_impl_forallb _ _ _ (Forall_impl _ _ HF) Hok). intros c Hc Hle. unfold c12 in Hle.
  destruct (classify c (MP PREC_PRODUCT)) as [k|] eqn:Ek; [|discriminate].
  destruct (Hc _ k Ek) as (t & HR & Hv). exists t. split; [apply (RA_le_chain k); assumption | exact Hv].
Qed.

Lemma is_m1_val c rho : is_m1 c = true -> evalZ rho c = Some (-1).
Proof. destruct c; cbn; try discriminate; intros E%Z.eqb_eq; congruence. Qed.

Lemma prod_shape cs :
  (exists c0 c1, cs = [c0; c1] /\ is_m1 c0 = true) \/
  (prod_cls cs (map c12 cs) = chain_cls (map c12 cs) /\ prod_toks cs (map p12 cs) = join TStar (map p12 cs)).
Proof.
  destruct cs as [|c0 [|c1 [|c2 r]]]; try (right; split; reflexivity).
  cbn [map prod_cls prod_toks]. destruct (is_m1 c0) eqn:E; [left; eauto | right; split; reflexivity].
Qed.

Lemma chain_cls_some ks kb : chain_cls ks = Some kb ->
  exists k0 r, ks = Some k0 :: r /\ forallb le2 r = true /\
    ((le_unsigned k0 2 = true /\ kb = KChain) \/ (k0 = KAdd /\ kb = KAdd) \/ (k0 = KSAdd /\ kb = KSAdd)).
Proof.
  destruct ks as [|[k0|] r]; cbn [chain_cls]; try discriminate.
  change (forallb _ r) with (forallb le2 r).
  destruct (forallb le2 r) eqn:Er; [|discriminate].
  intro E. exists k0, r. split; [reflexivity|]. split; [exact Er|].
  destruct k0; inversion E; subst; auto.
Qed.

Lemma prod_body par cs kb : Forall sound cs -> prod_cls cs (map c12 cs) = Some kb ->
  phrase evalF (RA kb) (prod_toks cs (map p12 cs)) (fun rho => evalZ rho (EProd par cs)).
Proof.
  intros HF. destruct (prod_shape cs) as [(c0 & c1 & -> & Em) | (Ec & Et)].
  - (* "-x" *)
    cbn [map prod_cls prod_toks]. rewrite Em.
    inversion HF as [|? ? H0 HF1]; subst. inversion HF1 as [|? ? H1 _]; subst.
    unfold c12 at 1. destruct (classify c1 (MP PREC_PRODUCT)) as [k|] eqn:Ek; [|discriminate].
    destruct (le_unsigned k 3) eqn:El; [|discriminate]. intros [= <-].
    destruct (H1 _ k Ek) as (t & HR & Hv).
    exists (FNeg t). split.
    + apply signed_intro, (RA_le_add k); assumption.
    + intro rho. rewrite evalZ_prod_fold. cbn [fold_right evalF].
      rewrite (is_m1_val _ _ Em), omul_1_r, (omul_m1_l (evalZ rho c1)), Hv. reflexivity.
  - rewrite Ec, Et. intro E. apply chain_cls_some in E. destruct E as (k0 & rk & Eks & Hrest & Hk).
    destruct cs as [|c0 r]; [discriminate|].
    cbn [map] in Eks. injection Eks as E0 Er. subst rk.
    inversion HF as [|? ? H0 Hr]; subst.
    destruct (H0 _ k0 E0) as (t0 & HR0 & Hv0).
    cbn [map join].
    destruct Hk as [(Hle & ->) | [(-> & ->) | (-> & ->)]].
    + destruct (prod_rest mchain (ch_more (G LMul) TStar BMul) r Hr Hrest (p12 c0) t0 (RA_le_chain _ _ _ Hle HR0))
        as (t & Ht & Hv).
      exists t. split; [exact Ht|]. intro rho. rewrite Hv, Hv0, evalZ_prod_fold. reflexivity.
    + destruct (prod_rest (G LAdd) G_times r Hr Hrest (p12 c0) t0 HR0) as (t & Ht & Hv).
      exists t. split; [exact Ht|]. intro rho. rewrite Hv, Hv0, evalZ_prod_fold. reflexivity.
    + (* the sign of the first factor becomes the sign of the product *)
      destruct HR0 as (ts' & t' & Ep & HA & ->).
      destruct (prod_rest (G LAdd) G_times r Hr Hrest ts' t' HA) as (t & Ht & Hv).
      exists (FNeg t). split.
      * unfold p12 at 1. rewrite Ep. apply signed_intro, Ht.
      * intro rho. cbn [evalF]. rewrite Hv, evalZ_prod_fold. cbn [fold_right]. rewrite <- Hv0. cbn [evalF].
        symmetry. apply omul_neg_l.
Qed.

Lemma sound_prod par cs : Forall sound cs -> sound (EProd par cs).
Proof.
  intro HF.
  assert (HMP : forall p k, classify (EProd par cs) (MP p) = Some k -> denotes (EProd par cs) (MP p) k).
  { intros p k E.
    refine (wrap_ok par PREC_PRODUCT p (prod_cls cs (map c12 cs)) (prod_toks cs (map p12 cs))
              (fun rho => evalZ rho (EProd par cs)) k _ _).
    - intros kb. apply prod_body, HF.
    - destruct par; exact E. }
  destruct par; [apply sound_of_MP; try reflexivity; exact HMP|].
  intros [p|] k; [apply HMP|].
  (* as a term of a sum: a leading python -1 is printed as the "-" of the term *)
  cbn [classify print denotes term_neg].
  destruct cs as [|c0 rcs]; [discriminate|]. cbn [map].
  inversion HF as [|? ? _ Hr]; subst.
  destruct (is_py_m1 c0) eqn:Em; intro E.
  - destruct (prod_body false rcs k Hr E) as (t & HR & Hv).
    exists (prod_toks rcs (map p12 rcs)), t. split; [reflexivity|]. split; [exact HR|].
    intro rho. rewrite evalZ_prod_fold. cbn [fold_right]. rewrite (is_py_m1_val _ _ Em), Hv, evalZ_prod_fold. apply omul_m1_l.
  - destruct (prod_body false (c0 :: rcs) k HF E) as (t & HR & Hv).
    exists (prod_toks (c0 :: rcs) (map p12 (c0 :: rcs))), t. split; [reflexivity|]. split; [exact HR|].
    intro rho. symmetry. apply Hv.
Qed.

Lemma sound_quot par n d : sound n -> sound d -> sound (EQuot par n d).
Proof.
  intros Hn Hd. apply sound_of_MP; try reflexivity.
  intros p k. cbn [classify cat_mode print at_mode denotes]. intro E.
  refine (wrap_ok par PREC_PRODUCT p _ _ (fun rho => evalZ rho (EQuot par n d)) k _ E).
  clear E. intros kb.
  destruct (classify n (MP PREC_PRODUCT)) as [kn|] eqn:En; [|discriminate].
  destruct (classify d (MP PREC_PRODUCT)) as [kd|] eqn:Ed; [|discriminate].
  destruct (le_unsigned kd 1) eqn:Eld; [|discriminate].
  destruct (Hn _ kn En) as (tn & HRn & Hvn). destruct (Hd _ kd Ed) as (td & HRd & Hvd).
  assert (HD := RA_le_mul _ _ _ Eld HRd).
  destruct (le_unsigned kn 3) eqn:Eln.
  - intros [= <-]. exists (FBin BDiv tn td). split.
    + apply G_div; [apply (RA_le_add kn); assumption | exact HD].
    + intro rho. cbn [evalF evalZ]. rewrite Hvn, Hvd. reflexivity.
  - (* a signed numerator: the sign becomes the sign of the quotient *)
    destruct kn; try discriminate. intros [= <-].
    destruct HRn as (ts' & t' & Ep & HA & ->).
    exists (FNeg (FBin BDiv t' td)). split.
    + rewrite Ep. apply signed_intro, G_div; assumption.
    + intro rho. cbn [evalF evalZ]. rewrite <- Hvn, <- Hvd. cbn [evalF]. symmetry. apply odiv_neg_l.
Qed.

Lemma sound_pow par b x : sound b -> sound x -> sound (EPow par b x).
Proof.
  intros Hb Hx. apply sound_of_MP; try reflexivity.
  intros p k. cbn [classify cat_mode print at_mode denotes]. intro E.
  refine (wrap_ok par PREC_POWER p _ _ (fun rho => evalZ rho (EPow par b x)) k _ E).
  clear E. intros kb.
  destruct (classify b (MP PREC_POWER)) as [kb0|] eqn:Eb; [|discriminate].
  destruct (classify x (MP PREC_POWER)) as [kx|] eqn:Ex; [|destruct kb0; discriminate].
  destruct kb0; try discriminate.
  destruct (le_unsigned kx 1) eqn:El; [|discriminate]. intros [= <-].
  destruct (Hb _ _ Eb) as (tb & HRb & Hvb). destruct (Hx _ _ Ex) as (tx & HRx & Hvx).
  exists (FBin BPow tb tx). split.
  - apply G_pow; [exact HRb | apply (RA_le_mul kx); assumption].
  - intro rho. cbn [evalF evalZ]. rewrite Hvb, Hvx. reflexivity.
Qed.

Lemma eval_call rho f ts args : Forall2 (fun t a => forall rho, evalF rho t = evalZ rho a) ts args ->
  evalF rho (FCall f ts) = evalZ rho (ECall f args).
Proof.
  intro H. cbn [evalF evalZ]. f_equal.
  induction H as [|t a ts args E _ IH]; [reflexivity|]. rewrite E, IH. reflexivity.
Qed.

Lemma args_denote : forall args, args <> [] -> Forall sound args ->
  forallb (fun a => is_some (classify a (MP PREC_NONE))) args = true ->
  exists ts, Gargs (join TComma (map (fun a => print LF a (MP PREC_NONE)) args)) ts /\
     Forall2 (fun t a => forall rho, evalF rho t = evalZ rho a) ts args.
Proof.
  induction args as [|a r IHr]; [congruence|]. intros _ HF Hok.
  inversion HF as [|? ? Ha Hr]; subst. cbn [forallb] in Hok. apply andb_prop in Hok. destruct Hok as [Hoka Hokr].
  destruct (classify a (MP PREC_NONE)) as [k|] eqn:Ek; [|discriminate].
  destruct (Ha _ k Ek) as (t & HR & Hv).
  destruct r as [|b r'].
  - exists [t]. split.
    + cbn. rewrite app_nil_r. apply Gargs_one, (RA_expr k), HR.
    + constructor; [exact Hv | constructor].
  - destruct (IHr ltac:(discriminate) Hr Hokr) as (ts & Hts & Hall).
    exists (t :: ts). split.
    + apply (Gargs_cons _ t _ ts); [apply (RA_expr k), HR | exact Hts].
    + constructor; assumption.
Qed.

Lemma sound_call f args : Forall sound args -> sound (ECall f args).
Proof.
  intro HF. apply sound_of_MP; try reflexivity.
  intros p k. cbn [classify print at_mode denotes].
  destruct (forallb (fun a => is_some (classify a (MP PREC_NONE))) args) eqn:Eok; [|discriminate].
  intros [= <-]. destruct args as [|a r].
  - exists (FCall f []). split; [apply G_call0 | reflexivity].
  - destruct (args_denote (a :: r) ltac:(discriminate) HF Eok) as (ts & Hts & Hall).
    exists (FCall f ts). split; [apply G_call, Hts | intro rho; apply eval_call, Hall].
Qed.

Lemma classify_sound : forall e, sound e.
Proof.
  induction e using expr_ind';
    auto using sound_int, sound_py, sound_var, sound_sum, sound_prod, sound_quot, sound_pow, sound_call;
    intros [p|] k; discriminate.
Qed.

Lemma classify_mp e p k : classify e (MP p) = Some k ->
  phrase evalF (RA k) (print LF e (MP p)) (fun rho => evalZ rho e).
Proof. apply (classify_sound e (MP p)). Qed.

Definition RB (k : bcls) : list token -> fx -> Prop :=
  match k with
  | KBPrim => G LPrim
  | KBRel => G L4
  | KBNot => G LAndOp
  | KBAnd => andchain
  | KBOr => orchain
  end.

Lemma RB_le1 k ts t : Nat.leb (bcls_rank k) 1 = true -> RB k ts t -> G L4 ts t.
Proof. destruct k; cbn; intros E H; try discriminate; [apply G_add_l4, G_prim_add, H | exact H]. Qed.
Lemma RB_le3 k ts t : Nat.leb (bcls_rank k) 3 = true -> RB k ts t -> andchain ts t.
Proof.
  intros E H. destruct (Nat.leb (bcls_rank k) 1) eqn:E1; [apply ch_one, G_andop_l4, (RB_le1 k); assumption|].
  destruct k; try discriminate; [apply ch_one|]; exact H.
Qed.
(* every [bcls] has rank at most 4: the hypothesis is there to fit [weaken] of [LogicChain] *)
Lemma RB_le4 k ts t : Nat.leb (bcls_rank k) 4 = true -> RB k ts t -> orchain ts t.
Proof.
  intros _ H. destruct (Nat.leb (bcls_rank k) 3) eqn:E3; [apply ch_one, andchain_orop, (RB_le3 k); assumption|].
  destruct k; try discriminate. exact H.
Qed.
Lemma RB_expr k ts t : RB k ts t -> G LExpr ts t.
Proof. intro H. apply orchain_expr, (RB_le4 k); [destruct k; reflexivity | exact H]. Qed.

Definition denotesB (e : expr) (p : nat) (k : bcls) : Prop :=
  phrase evalFB (RB k) (print LF e (MP p)) (fun rho => evalB rho e).
Definition soundB (e : expr) : Prop := forall p k, classifyB e p = Some k -> denotesB e p k.

Lemma wrapB_ok (my p : nat) (body : option bcls) (toks : list token) (v : env -> option bool) k :
  (forall kb, body = Some kb -> phrase evalFB (RB kb) toks v) ->
  (if Nat.ltb my p then to_bprim body else body) = Some k ->
  phrase evalFB (RB k) (paren_if p my toks) v.
Proof.
  intros Hb. unfold paren_if. destruct (Nat.ltb my p); [|apply Hb].
  destruct body as [kb|]; cbn [to_bprim]; intros [= <-].
  destruct (Hb kb eq_refl) as (t & HR & Hv).
  exists t. split; [unfold paren; apply G_paren, (RB_expr kb), HR | exact Hv].
Qed.

(** [.and.] and [.or.] nodes: every operand is a chain of the node's own kind *)
Section LogicChain.
  Variables (sep : token) (op : binop) (f : option bool -> option bool -> option bool) (unit : bool)
            (my bound : nat) (Hl : list token -> fx -> Prop).
  Hypothesis sem_op : forall rho a b, evalFB rho (FBin op a b) = f (evalFB rho a) (evalFB rho b).
  Hypothesis f_assoc : forall a b c, f (f a b) c = f a (f b c).
  Hypothesis f_unit_r : forall a, f a (Some unit) = a.
  Hypothesis weaken : forall k ts t, Nat.leb (bcls_rank k) bound = true -> RB k ts t -> chain Hl sep op ts t.

  Definition leb_bound (k : option bcls) : bool :=
    match k with Some k => Nat.leb (bcls_rank k) bound | None => false end.

  Lemma logic_body cs : Forall soundB cs -> all_le bound (map (fun c => classifyB c my) cs) = true ->
    phrase evalFB (chain Hl sep op) (join sep (map (fun c => print LF c (MP my)) cs))
      (fun rho => fold_right (fun c acc => f (evalB rho c) acc) (Some unit) cs).
  Proof.
    intros HF. destruct cs as [|c0 r]; [discriminate|]. intro Hall.
    change (forallb leb_bound (map (fun c => classifyB c my) (c0 :: r)) = true) in Hall. rewrite forallb_map in Hall.
    assert (Hcs : Forall (fun c => phrase evalFB (chain Hl sep op) (print LF c (MP my)) (fun rho => evalB rho c)) (c0 :: r)).
    { refine (Forall_impl_forallb _ _ _ (Forall_impl _ _ HF) Hall). intros c Hc Hle.
      destruct (classifyB c my) as [k|] eqn:Ek; [|discriminate].
      destruct (Hc _ k Ek) as (t & HR & Hv). exists t. split; [apply (weaken k); assumption | exact Hv]. }
    apply Forall_cons_iff in Hcs. destruct Hcs as [(t0 & H0 & Hv0) Hr].
    destruct (chain_fold (option bool) evalFB f (Some unit) op sep sem_op f_assoc f_unit_r (chain Hl sep op) Hl
                (ch_more Hl sep op) (fun c => print LF c (MP my)) evalB r Hr _ t0 H0) as (t & Ht & Hv).
    exists t. split; [exact Ht|]. intro rho. rewrite Hv, Hv0. reflexivity.
  Qed.
End LogicChain.

Lemma soundB_log b : soundB (ELog b).
Proof.
  intros p k. cbn [classifyB]. intros [= <-]. exists (FLog b). split; [|reflexivity].
  cbn [RB print at_mode]. destruct b; constructor.
Qed.

Lemma soundB_cmp op a b : soundB (ECmp op a b).
Proof.
  intros p k. cbn [classifyB]. intro E.
  refine (wrapB_ok PREC_COMPARISON p _ _ (fun rho => evalB rho (ECmp op a b)) k _ E).
  clear E. intros kb.
  destruct (classify a (MP PREC_COMPARISON)) as [ka|] eqn:Ea; [|discriminate].
  destruct (classify b (MP PREC_COMPARISON)) as [kb'|] eqn:Eb; [|discriminate].
  cbn. intros [= <-].
  destruct (classify_mp _ _ _ Ea) as (ta & HRa & Hva). destruct (classify_mp _ _ _ Eb) as (tb & HRb & Hvb).
  exists (FCmp op ta tb). split.
  - apply G_rel; [apply (RA_l2 ka), HRa | apply (RA_l2 kb'), HRb].
  - intro rho. cbn [evalFB evalB]. rewrite Hva, Hvb. reflexivity.
Qed.

Lemma soundB_not a : soundB a -> soundB (ENot a).
Proof.
  intros Ha p k. cbn [classifyB]. intro E.
  refine (wrapB_ok PREC_UNARY p _ _ (fun rho => evalB rho (ENot a)) k _ E).
  clear E. intros kb.
  destruct (classifyB a PREC_UNARY) as [ka|] eqn:Ea; [|discriminate].
  destruct (Nat.leb (bcls_rank ka) 1) eqn:El; [|discriminate]. intros [= <-].
  destruct (Ha _ _ Ea) as (t & HR & Hv).
  exists (FNot t). split.
  - apply G_not, (RB_le1 ka); assumption.
  - intro rho. cbn [evalFB evalB]. rewrite Hv. reflexivity.
Qed.

Lemma soundB_and cs : Forall soundB cs -> soundB (EAnd cs).
Proof.
  intros HF p k. cbn [classifyB]. intro E.
  refine (wrapB_ok PREC_AND p _ _ (fun rho => evalB rho (EAnd cs)) k _ E).
  clear E. intros kb.
  destruct (all_le 3 (map (fun c => classifyB c PREC_AND) cs)) eqn:Eall; [|discriminate]. intros [= <-].
  (* [evalB rho (EAnd cs)] is the right fold [logic_body] speaks of, by conversion ([evalB_and_fold]) *)
  exact (logic_body TAnd BAnd oand true PREC_AND 3 (G LAndOp) evalFB_and oand_assoc oand_true_r RB_le3 cs HF Eall).
Qed.

Lemma soundB_or cs : Forall soundB cs -> soundB (EOr cs).
Proof.
  intros HF p k. cbn [classifyB]. intro E.
  refine (wrapB_ok PREC_OR p _ _ (fun rho => evalB rho (EOr cs)) k _ E).
  clear E. intros kb.
  destruct (all_le 4 (map (fun c => classifyB c PREC_OR) cs)) eqn:Eall; [|discriminate]. intros [= <-].
  exact (logic_body TOr BOr oor false PREC_OR 4 (G LOrOp) evalFB_or oor_assoc oor_false_r RB_le4 cs HF Eall).
Qed.

Lemma classifyB_sound : forall e, soundB e.
Proof.
  induction e using expr_ind';
    auto using soundB_log, soundB_cmp, soundB_not, soundB_and, soundB_or;
    intros ? ?; discriminate.
Qed.
