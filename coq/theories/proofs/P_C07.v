(** C07 — proofs, part 1: the parser model builds, on the yield of every derivation of the arithmetic
    levels (and of every logical derivation without [.not.] on a comparison), a tree that is described
    by the functions [tr_*] below.  No class hypothesis is needed for the arithmetic levels: [tr_*]
    describes what Loki builds, including the re-association after [*] and the binding of a leading
    minus to the first primary. *)
From Coq Require Import ZArith List Bool String Ascii Lia Arith.
From LV Require Import Base.Expr models.M_C07.
Import ListNotations.
Open Scope Z_scope.

Notation len := (@List.length token).

Definition negp (x : pexp) : pexp := PProd false PM1 x.
Definition idp (x : pexp) : pexp := x.
Definition wrap_of (s : option sign) : pexp -> pexp :=
  match s with Some SMinus => negp | _ => idp end.

Fixpoint tr_prim (p : prim) : pexp :=
  match p with
  | PrInt n => PNum n
  | PrVar x => PVar x
  | PrParen e => parenthesise (tr_l2 e)
  | PrCall f a => PCall (PVar f) (tr_args a)
  end
with tr_mulw (w : pexp -> pexp) (m : mulopd) {struct m} : pexp :=
  match m with
  | MBase p => w (tr_prim p)
  | MPow p m' => PPow false (w (tr_prim p)) (tr_mulw idp m')
  end
with tr_mtail (l : pexp) (t : mtail) {struct t} : pexp :=
  match t with
  | MNil => l
  | MDiv m r => tr_mtail (PQuot false l (tr_mulw idp m)) r
  | MMul m r => mul_reassoc l (tr_mtail (tr_mulw idp m) r)
  end
with tr_add (a : addopd) : pexp :=
  match a with AO m t => tr_mtail (tr_mulw idp m) t end
with tr_atail (l : pexp) (t : atail) {struct t} : pexp :=
  match t with
  | ANil => l
  | AAdd a r => tr_atail (PSum false l (tr_add a)) r
  | ASub a r => tr_atail (PSum false l (negp (tr_add a))) r
  end
with tr_l2 (e : lvl2) : pexp :=
  match e with
  | L2 s (AO m mt) t => tr_atail (tr_mtail (tr_mulw (wrap_of s) m) mt) t
  end
with tr_args (a : args) : list pexp :=
  match a with
  | AOne e => [tr_l2 e]
  | ACons e r => tr_l2 e :: tr_args r
  end.

Notation tr_mul := (tr_mulw idp).

Fixpoint tr_lprim (p : lprim) : pexp :=
  match p with
  | LTrue => PLog true
  | LFalse => PLog false
  | LVar x => PVar x
  | LParen e => parenthesise (tr_lexpr e)
  end
with tr_l4 (x : l4) : pexp :=
  match x with
  | L4Prim p => tr_lprim p
  | L4Cmp a op b => PCmp op (tr_l2 a) (tr_l2 b)
  end
with tr_and (x : andopd) : pexp :=
  match x with
  | AndBase y => tr_l4 y
  | AndNot y => PNot (tr_l4 y)
  end
with tr_andtail (l : pexp) (t : andtail) {struct t} : pexp :=
  match t with
  | DNil => l
  | DAnd x r => tr_andtail (PAnd l (tr_and x)) r
  end
with tr_or (x : oropd) : pexp :=
  match x with OrO y t => tr_andtail (tr_and y) t end
with tr_ortail (l : pexp) (t : ortail) {struct t} : pexp :=
  match t with
  | ONil => l
  | OOr x r => tr_ortail (POr l (tr_or x)) r
  end
with tr_lexpr (e : lexpr) : pexp :=
  match e with LE x t => tr_ortail (tr_or x) t end.

Definition tprec (t : token) : nat :=
  match t with
  | TPct | TLp => P_CALL
  | TPow => P_POWER
  | TStar | TSlash => P_TIMES
  | TPlus | TMinus => P_PLUS
  | TCmp _ => P_CMP
  | TAnd => P_AND
  | TOr => P_OR
  | TComma => P_COMMA
  | _ => 0%nat
  end.

Definition stops (k : nat) (ts : list token) : Prop :=
  match ts with [] => True | t :: _ => (tprec t <= k)%nat end.

Lemma stops_mono k k' ts : (k <= k')%nat -> stops k ts -> stops k' ts.
Proof. destruct ts; simpl; auto; lia. Qed.

(** side conditions compare the precedence ranks: [lia] needs to see the numbers *)
Ltac plia := unfold P_CALL, P_UNARY, P_POWER, P_TIMES, P_PLUS, P_CMP, P_AND, P_OR, P_COMMA in *; lia.

Lemma ploop_stop rec minp l ts f :
  stops minp ts -> (1 <= f)%nat -> ploop rec f minp l ts = Ok (l, ts).
Proof.
  intros Hs Hf. destruct f as [|f]; [lia|].
  destruct ts as [|t r]; [reflexivity|].
  destruct t; cbn [stops tprec] in Hs; cbn [ploop]; try reflexivity; rewrite (proj2 (Nat.ltb_ge _ _) Hs); reflexivity.
Qed.

(** the postfix loop, entered with left operand [l] in front of [ts], returns [res] for every fuel >= [f0];
    [ContOk] is the same for a whole [parse_expression] (prefix, then loop).  The lemmas [K_*] turn a [LoopOk]
    for what follows a yield into a [ContOk] for the yield and what follows (continuation style); the lemmas
    [T_*] do the same for the operator tails inside the loop. *)
Definition LoopOk (rec : parser) (f0 : nat) (minp : prec) (l : pexp) (ts : list token) (res : pexp * list token) : Prop :=
  forall f, (f0 <= f)%nat -> ploop rec f minp l ts = Ok res.
Definition ContOk (rec : parser) (f0 : nat) (minp : prec) (ts : list token) (res : pexp * list token) : Prop :=
  forall f, (f0 <= f)%nat -> pcont rec f minp ts = Ok res.

Lemma LoopOk_weaken rec f0 f1 minp l ts res :
  (f0 <= f1)%nat -> LoopOk rec f0 minp l ts res -> LoopOk rec f1 minp l ts res.
Proof. intros H1 H f Hf. apply H. lia. Qed.
Lemma ContOk_weaken rec f0 f1 minp ts res :
  (f0 <= f1)%nat -> ContOk rec f0 minp ts res -> ContOk rec f1 minp ts res.
Proof. intros H1 H f Hf. apply H. lia. Qed.

Lemma LoopOk_stop rec minp l ts : stops minp ts -> LoopOk rec 1 minp l ts (l, ts).
Proof. intros H f Hf. now apply ploop_stop. Qed.

(** the loop's table of binary operators: rank below which the loop goes on, rank at which the right
    operand is parsed, node built *)
Definition binop (t : token) : option (nat * nat * (pexp -> pexp -> pexp)) :=
  match t with
  | TPlus => Some (P_PLUS, P_PLUS, PSum false)
  | TMinus => Some (P_PLUS, P_PLUS, fun l e => PSum false l (negp e))
  | TStar => Some (P_TIMES, P_PLUS, mul_reassoc)
  | TSlash => Some (P_TIMES, P_TIMES, PQuot false)
  | TPow => Some (P_POWER, P_TIMES, PPow false)
  | TCmp op => Some (P_CMP, P_CMP, PCmp op)
  | TAnd => Some (P_AND, P_AND, PAnd)
  | TOr => Some (P_OR, P_OR, POr)
  | _ => None
  end.

Lemma ploop_step rec t P P' node f0 f1 minp l e r r' res : binop t = Some (P, P', node) ->
  (minp < P)%nat -> rec P' r = Ok (e, r') -> LoopOk rec f0 minp (node l e) r' res -> (f0 < f1)%nat ->
  LoopOk rec f1 minp l (t :: r) res.
Proof.
  intros Hb Hm Hr H Hf1 f Hf. destruct f; [lia|]. apply Nat.ltb_lt in Hm.
  destruct t; try discriminate Hb; injection Hb as <- <- <-;
    cbn [ploop]; rewrite Hm, Hr; cbn [bind fst snd]; apply H; lia.
Qed.

Definition starts_operand (ts : list token) : Prop :=
  match ts with
  | TInt _ :: _ | TId _ :: _ | TLp :: _ | TPlus :: _ | TMinus :: _ | TTrue :: _ | TFalse :: _ | TNot :: _ => True
  | _ => False
  end.

Lemma y_prim_starts p rest : starts_operand (y_prim p ++ rest).
Proof. destruct p; simpl; exact I. Qed.
Lemma y_mul_starts m rest : starts_operand (y_mul m ++ rest).
Proof. destruct m; simpl; [apply y_prim_starts|rewrite <- app_assoc; apply y_prim_starts]. Qed.
Lemma y_add_starts a rest : starts_operand (y_add a ++ rest).
Proof. destruct a; simpl. rewrite <- app_assoc. apply y_mul_starts. Qed.
Lemma y_l2_starts e rest : starts_operand (y_l2 e ++ rest).
Proof. destruct e as [[[]|] a t]; simpl; try exact I. rewrite <- app_assoc. apply y_add_starts. Qed.

(* stated with [ts ++ []] because that is the shape the [_starts] lemmas give *)
Lemma starts_nonempty ts : starts_operand (ts ++ []) -> (1 <= len ts)%nat.
Proof. destruct ts; [intros []|cbn; lia]. Qed.

(** in front of an operand the prefix parser and the argument-list parser take their recursive branch *)
Lemma pprefix_paren rec ts : starts_operand ts ->
  pprefix rec (TLp :: ts) =
  bind (rec 0%nat ts) (fun p => match snd p with TRp :: r' => Ok (parenthesise (fst p), r') | _ => Err EParse end).
Proof. destruct ts as [|[] q]; intros []; reflexivity. Qed.

Lemma parglist_operand rec f ts : starts_operand ts ->
  let arg := bind (rec P_COMMA ts) (fun p => bind (parglist rec f true (snd p)) (fun q => Ok (fst p :: fst q, snd q))) in
  parglist rec (S f) false ts = arg /\ parglist rec (S f) true (TComma :: ts) = arg.
Proof. destruct ts as [|[] q]; intros []; split; reflexivity. Qed.

Definition base_of (m : mulopd) : prim := match m with MBase p => p | MPow p _ => p end.
Definition ptail_y (m : mulopd) : list token := match m with MBase _ => [] | MPow _ m' => TPow :: y_mul m' end.
Definition ptail_tr (l : pexp) (m : mulopd) : pexp := match m with MBase _ => l | MPow _ m' => PPow false l (tr_mul m') end.

Lemma y_mul_split m : y_mul m = y_prim (base_of m) ++ ptail_y m.
Proof. destruct m; simpl; [now rewrite app_nil_r|reflexivity]. Qed.
Lemma tr_mulw_split w m : tr_mulw w m = ptail_tr (w (tr_prim (base_of m))) m.
Proof. destruct m; reflexivity. Qed.

(** [rec] parses, at every arithmetic level, each yield shorter than [N] followed by a token that stops the
    loop.  [pexpr F] is [GoodA] for [N = F - 1]: a yield of length [n] needs fuel [n + 2], one unit per token
    plus one for the outermost call and one for the loop iteration that stops.  The bound is strict here and
    [<= N] in the [K_*] lemmas, which speak of [pcont rec], one level above [rec]. *)
Definition GoodA (rec : parser) (N : nat) : Prop :=
  (forall p minp rest, (len (y_prim p) < N)%nat -> (minp < P_CALL)%nat -> stops minp rest ->
      rec minp (y_prim p ++ rest) = Ok (tr_prim p, rest)) /\
  (forall m minp rest, (len (y_mul m) < N)%nat -> (minp < P_POWER)%nat -> stops minp rest ->
      rec minp (y_mul m ++ rest) = Ok (tr_mul m, rest)) /\
  (forall a minp rest, (len (y_add a) < N)%nat -> (minp < P_TIMES)%nat -> stops minp rest ->
      rec minp (y_add a ++ rest) = Ok (tr_add a, rest)) /\
  (forall e minp rest, (len (y_l2 e) < N)%nat -> (minp < P_PLUS)%nat -> stops minp rest ->
      rec minp (y_l2 e ++ rest) = Ok (tr_l2 e, rest)).

Section arith.
  Variable rec : parser.
  Variable N : nat.
  Hypothesis Hrec : GoodA rec N.

  Let Hrec_prim := proj1 Hrec.
  Let Hrec_mul := proj1 (proj2 Hrec).
  Let Hrec_add := proj1 (proj2 (proj2 Hrec)).
  Let Hrec_l2 := proj2 (proj2 (proj2 Hrec)).

  Lemma arglist_ok a : forall fuel later, (len (y_args a) < N)%nat -> (len (y_args a) < fuel)%nat ->
    parglist rec fuel false (y_args a ++ TRp :: later) = Ok (tr_args a, later) /\
    parglist rec fuel true (TComma :: y_args a ++ TRp :: later) = Ok (tr_args a, later).
  Proof.
    induction a as [e|e r IH]; intros fuel later HN Hf; cbn [y_args tr_args] in *;
      (destruct fuel as [|fuel]; [lia|]).
    - destruct (parglist_operand rec fuel _ (y_l2_starts e (TRp :: later))) as [-> ->].
      rewrite Hrec_l2; [|lia|plia|cbn [stops tprec]; plia]. cbn [bind fst snd].
      pose proof (starts_nonempty _ (y_l2_starts e [])). destruct fuel; [lia|]. split; reflexivity.
    - rewrite app_length in HN, Hf. cbn [List.length] in HN, Hf. rewrite <- app_assoc. cbn [app].
      destruct (parglist_operand rec fuel _ (y_l2_starts e (TComma :: y_args r ++ TRp :: later))) as [-> ->].
      rewrite Hrec_l2; [|lia|plia|cbn [stops tprec]; plia]. cbn [bind fst snd].
      destruct (IH fuel later) as [_ ->]; [lia|lia|]. split; reflexivity.
  Qed.

  (** a primary, then whatever the loop does next *)
  Lemma K_prim p minp f0 later res :
    (len (y_prim p) <= N)%nat -> (minp < P_CALL)%nat ->
    LoopOk rec f0 minp (tr_prim p) later res ->
    ContOk rec (f0 + len (y_prim p)) minp (y_prim p ++ later) res.
  Proof.
    intros HN Hm HL f Hf. unfold pcont.
    destruct p as [n|x|e|g a]; cbn [y_prim tr_prim] in *.
    - cbn [app pprefix bind fst snd]. apply HL. simpl in Hf. lia.
    - cbn [app pprefix bind fst snd]. apply HL. simpl in Hf. lia.
    - cbn [app List.length] in *. rewrite app_length in HN, Hf. cbn [List.length] in HN, Hf.
      rewrite <- app_assoc. cbn [app]. rewrite pprefix_paren by apply y_l2_starts.
      rewrite Hrec_l2; [|lia|plia|cbn [stops tprec]; plia]. cbn [bind fst snd]. apply HL. lia.
    - cbn [app List.length] in *. rewrite app_length in HN, Hf. cbn [List.length] in HN, Hf.
      cbn [pprefix bind fst snd].
      destruct f as [|f]; [lia|]. cbn [ploop]. rewrite (proj2 (Nat.ltb_lt _ _) Hm).
      rewrite <- app_assoc. cbn [app].
      destruct (arglist_ok a f later) as [-> _]; [lia|lia|]. cbn [bind fst snd]. apply HL. lia.
  Qed.

  Lemma stops_ptail m later : stops P_TIMES later -> stops P_UNARY (ptail_y m ++ later).
  Proof. destruct m; simpl; [apply stops_mono; plia|plia]. Qed.

  Lemma T_pow w m minp f0 later res :
    (len (y_mul m) <= N)%nat -> (minp < P_POWER)%nat -> stops P_TIMES later ->
    LoopOk rec f0 minp (tr_mulw w m) later res ->
    LoopOk rec (f0 + len (ptail_y m)) minp (w (tr_prim (base_of m))) (ptail_y m ++ later) res.
  Proof.
    intros HN Hm Hs HL. destruct m as [p|p m']; cbn [ptail_y base_of tr_mulw app] in *.
    - simpl. rewrite Nat.add_0_r. exact HL.
    - cbn [y_mul] in HN. rewrite app_length in HN. cbn [List.length] in *.
      pose proof (starts_nonempty _ (y_prim_starts p [])).
      eapply ploop_step; [reflexivity|exact Hm| |exact HL|lia].
      apply Hrec_mul; [lia|plia|exact Hs].
  Qed.

  Lemma stops_mtail r later : stops P_PLUS later -> stops P_TIMES (y_mtail r ++ later).
  Proof. destruct r; simpl; [apply stops_mono; plia|plia|plia]. Qed.

  (** the [*] [/] tail of an add-operand: after [*] the whole rest of the add-operand is the right operand *)
  Lemma T_mtail mt : forall l minp f0 later res,
    (len (y_mtail mt) <= N)%nat -> (minp < P_TIMES)%nat -> stops P_PLUS later ->
    LoopOk rec f0 minp (tr_mtail l mt) later res ->
    LoopOk rec (f0 + len (y_mtail mt)) minp l (y_mtail mt ++ later) res.
  Proof.
    induction mt as [|m r IH|m r IH]; intros l minp f0 later res HN Hm Hs HL.
    - simpl. rewrite Nat.add_0_r. exact HL.
    - cbn [y_mtail tr_mtail List.length app] in *. rewrite app_length in HN.
      eapply ploop_step; [reflexivity|exact Hm| |exact HL|lia].
      rewrite <- app_assoc. rewrite app_assoc.
      apply (Hrec_add (AO m r)); [cbn [y_add]; rewrite app_length; lia|plia|exact Hs].
    - cbn [y_mtail tr_mtail List.length app] in *. rewrite app_length in *.
      eapply ploop_step; [reflexivity|exact Hm| |apply IH; [lia|exact Hm|exact Hs|exact HL]|lia].
      rewrite <- app_assoc. apply Hrec_mul; [lia|plia|]. now apply stops_mtail.
  Qed.

  Lemma stops_atail r later : stops P_PLUS later -> stops P_PLUS (y_atail r ++ later).
  Proof. destruct r; simpl; auto; plia. Qed.

  Lemma T_atail t : forall l minp f0 later res,
    (len (y_atail t) <= N)%nat -> (minp < P_PLUS)%nat -> stops P_PLUS later ->
    LoopOk rec f0 minp (tr_atail l t) later res ->
    LoopOk rec (f0 + len (y_atail t)) minp l (y_atail t ++ later) res.
  Proof.
    induction t as [|a r IH|a r IH]; intros l minp f0 later res HN Hm Hs HL;
      [simpl; rewrite Nat.add_0_r; exact HL| |];
      cbn [y_atail tr_atail List.length app] in *; rewrite app_length in *;
      (eapply ploop_step; [reflexivity|exact Hm| |apply IH; [lia|exact Hm|exact Hs|exact HL]|lia]);
      rewrite <- app_assoc; (apply Hrec_add; [lia|plia|]); now apply stops_atail.
  Qed.

  Lemma K_mul m minp f0 later res :
    (len (y_mul m) <= N)%nat -> (minp < P_POWER)%nat -> stops P_TIMES later ->
    LoopOk rec f0 minp (tr_mul m) later res ->
    ContOk rec (f0 + len (y_mul m)) minp (y_mul m ++ later) res.
  Proof.
    intros HN Hm Hs HL. rewrite y_mul_split in *. rewrite app_length in HN. rewrite <- app_assoc.
    eapply ContOk_weaken; [|apply K_prim; [|plia|apply (T_pow idp m); [|exact Hm|exact Hs|exact HL]]];
      rewrite ?y_mul_split, ?app_length; lia.
  Qed.

  Lemma K_add a minp f0 later res :
    (len (y_add a) <= N)%nat -> (minp < P_TIMES)%nat -> stops P_PLUS later ->
    LoopOk rec f0 minp (tr_add a) later res ->
    ContOk rec (f0 + len (y_add a)) minp (y_add a ++ later) res.
  Proof.
    intros HN Hm Hs HL. destruct a as [m mt]. cbn [y_add tr_add] in *. rewrite app_length in HN. rewrite <- app_assoc.
    eapply ContOk_weaken; [|apply K_mul; [|plia|now apply stops_mtail|apply T_mtail; [|exact Hm|exact Hs|exact HL]]];
      rewrite ?app_length; lia.
  Qed.

  (** after the prefix of a level-2 expression (optional sign and first primary) *)
  Lemma after_first w m mt t minp f0 later res :
    (len (y_mul m ++ y_mtail mt ++ y_atail t) <= N)%nat -> (minp < P_PLUS)%nat -> stops P_PLUS later ->
    LoopOk rec f0 minp (tr_atail (tr_mtail (tr_mulw w m) mt) t) later res ->
    LoopOk rec (f0 + len (ptail_y m ++ y_mtail mt ++ y_atail t)) minp (w (tr_prim (base_of m)))
      (ptail_y m ++ y_mtail mt ++ y_atail t ++ later) res.
  Proof.
    intros HN Hm Hs HL. rewrite y_mul_split, !app_length in HN.
    eapply LoopOk_weaken; [|apply T_pow; [|plia|apply stops_mtail; now apply stops_atail|
      apply T_mtail; [|plia|now apply stops_atail|apply T_atail; [|exact Hm|exact Hs|exact HL]]]];
      rewrite ?y_mul_split, ?app_length; lia.
  Qed.

  Lemma stops_after_prim m mt t later : stops P_PLUS later -> stops P_UNARY (ptail_y m ++ y_mtail mt ++ y_atail t ++ later).
  Proof.
    intros Hs. apply stops_ptail. apply stops_mtail. now apply stops_atail.
  Qed.

  (** a sign is consumed by the prefix parser, which then parses the first primary at rank UNARY and wraps it *)
  Lemma K_l2 e minp f0 later res :
    (len (y_l2 e) <= N)%nat -> (minp < P_PLUS)%nat -> stops P_PLUS later ->
    LoopOk rec f0 minp (tr_l2 e) later res ->
    ContOk rec (f0 + len (y_l2 e)) minp (y_l2 e ++ later) res.
  Proof.
    intros HN Hm Hs HL. destruct e as [s [m mt] t]. cbn [tr_l2] in HL.
    assert (Hy : y_add (AO m mt) ++ y_atail t = y_prim (base_of m) ++ ptail_y m ++ y_mtail mt ++ y_atail t).
    { cbn [y_add]. rewrite y_mul_split. now rewrite <- !app_assoc. }
    assert (Hafter : LoopOk rec (f0 + len (ptail_y m ++ y_mtail mt ++ y_atail t)) minp (wrap_of s (tr_prim (base_of m)))
                       (ptail_y m ++ y_mtail mt ++ y_atail t ++ later) res).
    { apply after_first; [|exact Hm|exact Hs|exact HL].
      destruct s as [[|]|]; cbn [y_l2 List.length] in HN; rewrite Hy in HN; rewrite y_mul_split, !app_length in *; lia. }
    destruct s as [sg|].
    - (* a sign, [+] and [-] alike *)
      destruct sg; cbn [y_l2 wrap_of] in *; rewrite Hy in *; cbn [List.length app] in *; rewrite !app_length in *;
        rewrite <- !app_assoc; intros f Hf; unfold pcont; cbn [pprefix];
        (rewrite (Hrec_prim (base_of m) P_UNARY); [|lia|plia|now apply stops_after_prim]);
        cbn [bind fst snd]; apply Hafter; lia.
    - (* no sign *)
      cbn [y_l2 wrap_of] in *. rewrite Hy in *. rewrite !app_length in *. rewrite <- !app_assoc.
      eapply ContOk_weaken; [|apply K_prim; [|plia|exact Hafter]]; lia.
  Qed.
End arith.

(** a continuation that ends by stopping the loop closes one level of the induction on the fuel *)
Lemma cont_closes F y minp rest t : (len y < F)%nat -> stops minp rest ->
  (LoopOk (pexpr F) 1 minp t rest (t, rest) -> ContOk (pexpr F) (1 + len y) minp (y ++ rest) (t, rest)) ->
  pexpr (S F) minp (y ++ rest) = Ok (t, rest).
Proof. intros Hl Hs HK. apply (HK (LoopOk_stop _ _ _ _ Hs)). lia. Qed.

Lemma pexpr_goodA : forall F, GoodA (pexpr F) (F - 1).
Proof.
  induction F as [|F IH].
  - repeat split; intros; simpl in *; lia.
  - replace (S F - 1)%nat with F by lia.
    repeat split; intros y minp rest Hl Hm Hs; (apply cont_closes; [lia|exact Hs|]).
    + apply (K_prim _ _ IH); [lia|exact Hm].
    + apply (K_mul _ _ IH); [lia|exact Hm|]. eapply stops_mono; [|exact Hs]. plia.
    + apply (K_add _ _ IH); [lia|exact Hm|]. eapply stops_mono; [|exact Hs]. plia.
    + apply (K_l2 _ _ IH); [lia|exact Hm|]. eapply stops_mono; [|exact Hs]. plia.
Qed.

(** from here on for derivations in the class: [.not.] is not applied to a comparison *)
Lemma y_lprim_starts p rest : starts_operand (y_lprim p ++ rest).
Proof. destruct p; simpl; exact I. Qed.
Lemma y_l4_starts x rest : starts_operand (y_l4 x ++ rest).
Proof. destruct x; simpl; [apply y_lprim_starts|rewrite <- app_assoc; apply y_l2_starts]. Qed.
Lemma y_and_starts x rest : starts_operand (y_and x ++ rest).
Proof. destruct x; simpl; [apply y_l4_starts|exact I]. Qed.
Lemma y_or_starts x rest : starts_operand (y_or x ++ rest).
Proof. destruct x; simpl. rewrite <- app_assoc. apply y_and_starts. Qed.
Lemma y_lexpr_starts e rest : starts_operand (y_lexpr e ++ rest).
Proof. destruct e; simpl. rewrite <- app_assoc. apply y_or_starts. Qed.

(** the same for the logical levels, on the class [std_*] *)
Definition GoodL (rec : parser) (N : nat) : Prop :=
  (forall p minp rest, std_lprim p = true -> (len (y_lprim p) < N)%nat -> (minp < P_CALL)%nat -> stops minp rest ->
      rec minp (y_lprim p ++ rest) = Ok (tr_lprim p, rest)) /\
  (forall x minp rest, std_l4 x = true -> (len (y_l4 x) < N)%nat -> (minp < P_CMP)%nat -> stops minp rest ->
      rec minp (y_l4 x ++ rest) = Ok (tr_l4 x, rest)) /\
  (forall x minp rest, std_and x = true -> (len (y_and x) < N)%nat -> (minp < P_CMP)%nat -> stops minp rest ->
      rec minp (y_and x ++ rest) = Ok (tr_and x, rest)) /\
  (forall x minp rest, std_or x = true -> (len (y_or x) < N)%nat -> (minp < P_AND)%nat -> stops minp rest ->
      rec minp (y_or x ++ rest) = Ok (tr_or x, rest)) /\
  (forall e minp rest, std_lexpr e = true -> (len (y_lexpr e) < N)%nat -> (minp < P_OR)%nat -> stops minp rest ->
      rec minp (y_lexpr e ++ rest) = Ok (tr_lexpr e, rest)).

Section logic.
  Variable rec : parser.
  Variable N : nat.
  Hypothesis HA : GoodA rec N.
  Hypothesis HL : GoodL rec N.

  Let HA_l2 := proj2 (proj2 (proj2 HA)).
  Let HL_lprim := proj1 HL.
  Let HL_and := proj1 (proj2 (proj2 HL)).
  Let HL_or := proj1 (proj2 (proj2 (proj2 HL))).
  Let HL_lexpr := proj2 (proj2 (proj2 (proj2 HL))).

  Lemma K_lprim p minp f0 later res :
    std_lprim p = true -> (len (y_lprim p) <= N)%nat -> (minp < P_CALL)%nat ->
    LoopOk rec f0 minp (tr_lprim p) later res ->
    ContOk rec (f0 + len (y_lprim p)) minp (y_lprim p ++ later) res.
  Proof.
    intros Hstd HN Hm HK f Hf. unfold pcont.
    destruct p as [| |x|e]; cbn [y_lprim tr_lprim std_lprim] in *;
      try (cbn [app pprefix bind fst snd]; apply HK; simpl in Hf; lia).
    cbn [app List.length] in *. rewrite app_length in HN, Hf. cbn [List.length] in HN, Hf.
    rewrite <- app_assoc. cbn [app]. rewrite pprefix_paren by apply y_lexpr_starts.
    rewrite HL_lexpr; [|exact Hstd|lia|plia|cbn [stops tprec]; plia]. cbn [bind fst snd]. apply HK. lia.
  Qed.

  Lemma K_l4 x minp f0 later res :
    std_l4 x = true -> (len (y_l4 x) <= N)%nat -> (minp < P_CMP)%nat -> stops P_CMP later ->
    LoopOk rec f0 minp (tr_l4 x) later res ->
    ContOk rec (f0 + len (y_l4 x)) minp (y_l4 x ++ later) res.
  Proof.
    intros Hstd HN Hm Hs HK. destruct x as [p|a op b]; cbn [y_l4 tr_l4 std_l4] in *.
    - apply K_lprim; [exact Hstd|exact HN|plia|exact HK].
    - rewrite app_length in HN. cbn [List.length] in HN. rewrite <- app_assoc. cbn [app].
      eapply ContOk_weaken; [|apply (K_l2 rec N HA); [|plia|cbn [stops tprec]; plia|
        eapply ploop_step; [reflexivity|exact Hm|apply HA_l2; [|plia|exact Hs]|exact HK|apply Nat.lt_succ_diag_r]]];
        rewrite ?app_length; cbn [List.length]; lia.
  Qed.

  Lemma K_and x minp f0 later res :
    std_and x = true -> (len (y_and x) <= N)%nat -> (minp < P_CMP)%nat -> stops P_CMP later ->
    LoopOk rec f0 minp (tr_and x) later res ->
    ContOk rec (f0 + len (y_and x)) minp (y_and x ++ later) res.
  Proof.
    intros Hstd HN Hm Hs HK. destruct x as [y|y]; cbn [y_and tr_and std_and] in *.
    - now apply K_l4.
    - destruct y as [p|a op b]; [|discriminate]. cbn [y_l4 tr_l4] in *.
      cbn [List.length app] in *.
      intros f Hf. unfold pcont. cbn [pprefix].
      rewrite (HL_lprim p P_UNARY later); [|exact Hstd|lia|plia|].
      + cbn [bind fst snd]. apply HK. lia.
      + eapply stops_mono; [|exact Hs]. plia.
  Qed.

  Lemma stops_andtail r later : stops P_AND later -> stops P_AND (y_andtail r ++ later).
  Proof. destruct r; simpl; auto; plia. Qed.

  Lemma T_andtail t : forall l minp f0 later res,
    std_andtail t = true -> (len (y_andtail t) <= N)%nat -> (minp < P_AND)%nat -> stops P_AND later ->
    LoopOk rec f0 minp (tr_andtail l t) later res ->
    LoopOk rec (f0 + len (y_andtail t)) minp l (y_andtail t ++ later) res.
  Proof.
    induction t as [|x r IH]; intros l minp f0 later res Hstd HN Hm Hs HK.
    - simpl. rewrite Nat.add_0_r. exact HK.
    - cbn [y_andtail tr_andtail std_andtail List.length app] in *. rewrite app_length in *.
      apply andb_true_iff in Hstd as [Hx Hr].
      eapply ploop_step; [reflexivity|exact Hm| |apply IH; [exact Hr|lia|exact Hm|exact Hs|exact HK]|lia].
      rewrite <- app_assoc. apply HL_and; [exact Hx|lia|plia|]. now apply stops_andtail.
  Qed.

  Lemma K_or x minp f0 later res :
    std_or x = true -> (len (y_or x) <= N)%nat -> (minp < P_AND)%nat -> stops P_AND later ->
    LoopOk rec f0 minp (tr_or x) later res ->
    ContOk rec (f0 + len (y_or x)) minp (y_or x ++ later) res.
  Proof.
    intros Hstd HN Hm Hs HK. destruct x as [y t]. cbn [y_or tr_or std_or] in *. rewrite app_length in HN. rewrite <- app_assoc.
    apply andb_true_iff in Hstd as [Hy Ht].
    eapply ContOk_weaken; [|apply K_and; [exact Hy| |plia|eapply stops_mono; [|apply stops_andtail; exact Hs]; plia|
      apply T_andtail; [exact Ht| |exact Hm|exact Hs|exact HK]]]; rewrite ?app_length; lia.
  Qed.

  Lemma stops_ortail r later : stops P_OR later -> stops P_OR (y_ortail r ++ later).
  Proof. destruct r; simpl; auto; plia. Qed.

  Lemma T_ortail t : forall l minp f0 later res,
    std_ortail t = true -> (len (y_ortail t) <= N)%nat -> (minp < P_OR)%nat -> stops P_OR later ->
    LoopOk rec f0 minp (tr_ortail l t) later res ->
    LoopOk rec (f0 + len (y_ortail t)) minp l (y_ortail t ++ later) res.
  Proof.
    induction t as [|x r IH]; intros l minp f0 later res Hstd HN Hm Hs HK.
    - simpl. rewrite Nat.add_0_r. exact HK.
    - cbn [y_ortail tr_ortail std_ortail List.length app] in *. rewrite app_length in *.
      apply andb_true_iff in Hstd as [Hx Hr].
      eapply ploop_step; [reflexivity|exact Hm| |apply IH; [exact Hr|lia|exact Hm|exact Hs|exact HK]|lia].
      rewrite <- app_assoc. apply HL_or; [exact Hx|lia|plia|]. now apply stops_ortail.
  Qed.

  Lemma K_lexpr e minp f0 later res :
    std_lexpr e = true -> (len (y_lexpr e) <= N)%nat -> (minp < P_OR)%nat -> stops P_OR later ->
    LoopOk rec f0 minp (tr_lexpr e) later res ->
    ContOk rec (f0 + len (y_lexpr e)) minp (y_lexpr e ++ later) res.
  Proof.
    intros Hstd HN Hm Hs HK. destruct e as [x t]. cbn [y_lexpr tr_lexpr std_lexpr] in *. rewrite app_length in HN. rewrite <- app_assoc.
    apply andb_true_iff in Hstd as [Hx Ht].
    eapply ContOk_weaken; [|apply K_or; [exact Hx| |plia|eapply stops_mono; [|apply stops_ortail; exact Hs]; plia|
      apply T_ortail; [exact Ht| |exact Hm|exact Hs|exact HK]]]; rewrite ?app_length; lia.
  Qed.
End logic.

Lemma GoodA_mono rec N N' : (N' <= N)%nat -> GoodA rec N -> GoodA rec N'.
Proof.
  intros H (H1 & H2 & H3 & H4). repeat split; intros; [apply H1|apply H2|apply H3|apply H4]; auto; lia.
Qed.

Lemma pexpr_goodL : forall F, GoodL (pexpr F) (F - 1).
Proof.
  induction F as [|F IH].
  - repeat split; intros; simpl in *; lia.
  - replace (S F - 1)%nat with F by lia.
    pose proof (pexpr_goodA F) as IA.
    repeat split; intros y minp rest Hstd Hl Hm Hs; (apply cont_closes; [lia|exact Hs|]).
    + apply (K_lprim _ _ IH); [exact Hstd|lia|exact Hm].
    + apply (K_l4 _ _ IA IH); [exact Hstd|lia|exact Hm|]. eapply stops_mono; [|exact Hs]. plia.
    + apply (K_and _ _ IA IH); [exact Hstd|lia|exact Hm|]. eapply stops_mono; [|exact Hs]. plia.
    + apply (K_or _ _ IA IH); [exact Hstd|lia|exact Hm|]. eapply stops_mono; [|exact Hs]. plia.
    + apply (K_lexpr _ _ IA IH); [exact Hstd|lia|exact Hm|]. eapply stops_mono; [|exact Hs]. plia.
Qed.

Theorem parse_p_l2 e : parse_p (y_l2 e) = Ok (tr_l2 e).
Proof.
  unfold parse_p, parse_fuel.
  destruct (pexpr_goodA (S (S (len (y_l2 e))))) as (_ & _ & _ & H).
  specialize (H e 0%nat [] ltac:(simpl; lia) ltac:(plia) I).
  rewrite app_nil_r in H. rewrite H. reflexivity.
Qed.

Theorem parse_p_lexpr e : std_lexpr e = true -> parse_p (y_lexpr e) = Ok (tr_lexpr e).
Proof.
  intros Hstd. unfold parse_p, parse_fuel.
  destruct (pexpr_goodL (S (S (len (y_lexpr e))))) as (_ & _ & _ & _ & H).
  specialize (H e 0%nat [] Hstd ltac:(simpl; lia) ltac:(plia) I).
  rewrite app_nil_r in H. rewrite H. reflexivity.
Qed.
