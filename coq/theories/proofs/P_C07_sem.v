(** C07 — proofs, part 2: on the class [std_*] the tree built by the parser (after PymbolicMapper) has the
    value the Fortran grammar assigns to the derivation.  At the end: [evalL] extends [evalB], the witnesses
    against the unconditional statement, and an inhabitant of the class. *)
From Coq Require Import ZArith List Bool String Ascii Lia Arith.
From LV Require Import Base.Expr Base.ListFacts Base.ExprFacts models.M_C07 proofs.P_C07.
Import ListNotations.
Open Scope Z_scope.

(** on lookup-free trees PymbolicMapper is a plain homomorphism, [pma] *)
Fixpoint mappable (e : pexp) : bool :=
  match e with
  | PNum _ | PM1 | PVar _ | PLog _ => true
  | PSum _ l r | PProd _ l r | PQuot _ l r | PPow _ l r | PCmp _ l r | PAnd l r | POr l r => mappable l && mappable r
  | PNot x => mappable x
  | PCall (PVar name) args => negb (is_cast_name name) && forallb mappable args
  | PCall _ _ => false
  | PLookup _ _ => false
  end.

Fixpoint pma (e : pexp) : expr :=
  match e with
  | PNum n => EInt n
  | PM1 => EPy (-1)
  | PVar s => EVar s
  | PLog b => ELog b
  | PSum p l r => ESum p [pma l; pma r]
  | PProd p l r => EProd p [pma l; pma r]
  | PQuot p l r => EQuot p (pma l) (pma r)
  | PPow p l r => EPow p (pma l) (pma r)
  | PCmp op l r => ECmp op (pma l) (pma r)
  | PAnd l r => EAnd [pma l; pma r]
  | POr l r => EOr [pma l; pma r]
  | PNot x => ENot (pma x)
  | PCall (PVar name) args => ECall name (map pma args)
  | PCall _ _ => EVar ""
  | PLookup _ _ => EVar ""
  end.

Lemma pm_list_map f l : Forall (fun x => f x = Ok (pma x)) l -> pm_list f l = Ok (map pma l).
Proof.
  induction 1 as [|x r Hx Hr IH]; [reflexivity|].
  unfold pm_list in *. cbn [map]. rewrite Hx. cbn [bind]. rewrite IH. reflexivity.
Qed.

(** structural recursion, through the argument list of a call by a nested induction *)
Lemma pm_pma : forall e, mappable e = true -> pm None e = Ok (pma e).
Proof.
  fix IH 1. intros [n| |s|b|p l r|p l r|p l r|p l r|op l r|l r|l r|x|f args|a n] Hm; cbn [mappable] in Hm;
    try reflexivity; try discriminate.
  1-7: apply andb_true_iff in Hm as [H1 H2]; cbn [pm pma]; rewrite (IH l H1), (IH r H2); reflexivity.
  - cbn [pm pma]. rewrite (IH x Hm). reflexivity.
  - destruct f as [| |s| | | | | | | | | | |]; try discriminate. apply andb_true_iff in Hm as [H1 H2].
    cbn [pm pma]. destruct (is_cast_name s); [discriminate|].
    assert (HF : Forall (fun x => pm None x = Ok (pma x)) args).
    { clear H1. induction args as [|a r IHr]; [constructor|]. cbn [forallb] in H2. apply andb_true_iff in H2 as [Ha Hr].
      constructor; [apply IH, Ha|apply IHr, Hr]. }
    destruct (fintr_name s); rewrite (pm_list_map (fun x => pm None x) args HF); reflexivity.
Qed.

Lemma evalZ_sum2 rho b x y : evalZ rho (ESum b [x; y]) = addo (evalZ rho x) (evalZ rho y).
Proof.
  cbn [evalZ fold_right]. unfold addo, lift2.
  destruct (evalZ rho x), (evalZ rho y); cbn [obind]; try reflexivity. f_equal. lia.
Qed.
Lemma evalZ_prod2 rho b x y : evalZ rho (EProd b [x; y]) = mulo (evalZ rho x) (evalZ rho y).
Proof.
  cbn [evalZ fold_right]. unfold mulo, lift2.
  destruct (evalZ rho x), (evalZ rho y); cbn [obind]; try reflexivity. f_equal. lia.
Qed.
Lemma evalZ_quot rho b x y : evalZ rho (EQuot b x y) = divo (evalZ rho x) (evalZ rho y).
Proof. reflexivity. Qed.
Lemma evalZ_pow rho b x y : evalZ rho (EPow b x y) = powo (evalZ rho x) (evalZ rho y).
Proof. reflexivity. Qed.
Lemma evalZ_negp rho x : evalZ rho (EProd false [EPy (-1); x]) = nego (evalZ rho x).
Proof.
  rewrite evalZ_prod2. cbn [evalZ]. unfold mulo, nego, lift2. cbn [obind].
  destruct (evalZ rho x); cbn [obind]; try reflexivity; try (f_equal; lia).
Qed.
Lemma evalL_and2 rho x y : evalL rho (EAnd [x; y]) = ando (evalL rho x) (evalL rho y).
Proof.
  cbn [evalL fold_right]. unfold ando, lift2.
  destruct (evalL rho x), (evalL rho y); cbn [obind]; try reflexivity. now rewrite andb_true_r.
Qed.
Lemma evalL_or2 rho x y : evalL rho (EOr [x; y]) = oro (evalL rho x) (evalL rho y).
Proof.
  cbn [evalL fold_right]. unfold oro, lift2.
  destruct (evalL rho x), (evalL rho y); cbn [obind]; try reflexivity. now rewrite orb_false_r.
Qed.

Lemma mulo_assoc x y z : mulo (mulo x y) z = mulo x (mulo y z).
Proof. destruct x, y, z; cbn; try reflexivity. f_equal. ring. Qed.
Lemma mulo_none_r x : mulo x None = None.
Proof. destruct x; reflexivity. Qed.
Lemma mulo_nego x y : mulo (nego x) y = nego (mulo x y).
Proof. destruct x, y; cbn; try reflexivity. f_equal. ring. Qed.
Lemma divo_nego x y : divo (nego x) y = nego (divo x y).
Proof.
  destruct x as [a|], y as [b|]; cbn; try reflexivity.
  unfold div_z. destruct (b =? 0) eqn:E; cbn; [reflexivity|].
  f_equal. apply Z.quot_opp_l. now apply Z.eqb_neq.
Qed.

Definition bareQ (t : expr) : bool := match t with EQuot false _ _ => true | _ => false end.

Definition mul_reassoc_e (l r : expr) : expr :=
  match r with
  | EQuot false n d => EQuot false (EProd false [l; n]) d
  | EProd false [x; y] => EProd false [EProd false [l; x]; y]
  | _ => EProd false [l; r]
  end.

Lemma pma_mul_reassoc l r : pma (mul_reassoc l r) = mul_reassoc_e (pma l) (pma r).
Proof.
  destruct r; try reflexivity.
  - destruct paren; reflexivity.
  - destruct paren; reflexivity.
  - destruct r; reflexivity.
Qed.

Lemma mappable_mul_reassoc l r : mappable (mul_reassoc l r) = mappable l && mappable r.
Proof.
  destruct r; try reflexivity.
  - destruct paren; cbn [mul_reassoc mappable]; [reflexivity|now rewrite andb_assoc].
  - destruct paren; cbn [mul_reassoc mappable]; [reflexivity|now rewrite andb_assoc].
Qed.

Lemma reassoc_val_nq rho l r : bareQ r = false ->
  evalZ rho (mul_reassoc_e l r) = mulo (evalZ rho l) (evalZ rho r).
Proof.
  intros H. destruct r; try (unfold mul_reassoc_e; apply evalZ_prod2).
  - destruct paren; [apply evalZ_prod2|].
    destruct cs as [|x [|y [|z cs]]]; try apply evalZ_prod2.
    unfold mul_reassoc_e. rewrite !evalZ_prod2. apply mulo_assoc.
  - destruct paren; [apply evalZ_prod2|discriminate].
Qed.

Lemma reassoc_val_q rho l n d :
  evalZ rho (mul_reassoc_e l (EQuot false n d)) = divo (mulo (evalZ rho l) (evalZ rho n)) (evalZ rho d).
Proof. unfold mul_reassoc_e. rewrite evalZ_quot, evalZ_prod2. reflexivity. Qed.

Lemma bareQ_reassoc l r : bareQ r = false -> bareQ (mul_reassoc_e l r) = false.
Proof.
  intros H. destruct r; try reflexivity.
  - destruct paren; [reflexivity|]. destruct cs as [|x [|y [|z cs]]]; reflexivity.
  - destruct paren; [reflexivity|discriminate].
Qed.

Lemma mappable_parenthesise x : mappable (parenthesise x) = mappable x.
Proof. destruct x; reflexivity. Qed.
Lemma bareQ_paren x : bareQ (pma (parenthesise x)) = false.
Proof.
  destruct x; try reflexivity. destruct x; reflexivity.
Qed.
Lemma evalZ_parenthesise rho x : evalZ rho (pma (parenthesise x)) = evalZ rho (pma x).
Proof. destruct x; reflexivity. Qed.
Lemma evalL_parenthesise rho x : evalL rho (pma (parenthesise x)) = evalL rho (pma x).
Proof. destruct x; reflexivity. Qed.

(** prefixes: [tr_] the pymbolic tree the parser builds (P_C07), [te_] its image under [pma], [tre_] the
    [expr] tree of an operator tail folded onto a left operand *)
Definition te_mul (m : mulopd) : expr := pma (tr_mul m).
Definition te_add (a : addopd) : expr := pma (tr_add a).

Fixpoint tre_mtail (l : expr) (t : mtail) : expr :=
  match t with
  | MNil => l
  | MMul m r => mul_reassoc_e l (tre_mtail (te_mul m) r)
  | MDiv m r => tre_mtail (EQuot false l (te_mul m)) r
  end.

Lemma pma_tr_mtail t : forall l, pma (tr_mtail l t) = tre_mtail (pma l) t.
Proof.
  induction t as [|m r IH|m r IH]; intros l; cbn [tr_mtail tre_mtail].
  - reflexivity.
  - rewrite pma_mul_reassoc, IH. reflexivity.
  - rewrite IH. reflexivity.
Qed.

Fixpoint all_m (Q : mulopd -> Prop) (t : mtail) : Prop :=
  match t with
  | MNil => True
  | MMul m r | MDiv m r => Q m /\ all_m Q r
  end.
Fixpoint all_a (Q : addopd -> Prop) (t : atail) : Prop :=
  match t with
  | ANil => True
  | AAdd a r | ASub a r => Q a /\ all_a Q r
  end.

Lemma all_m_impl (Q Q' : mulopd -> Prop) t : (forall m, Q m -> Q' m) -> all_m Q t -> all_m Q' t.
Proof. intros H. induction t; cbn; intuition. Qed.
Lemma all_a_impl (Q Q' : addopd -> Prop) t : (forall m, Q m -> Q' m) -> all_a Q t -> all_a Q' t.
Proof. intros H. induction t; cbn; intuition. Qed.

Lemma mappable_tr_mtail t : forall l, mappable l = true ->
  all_m (fun m => mappable (tr_mul m) = true) t -> mappable (tr_mtail l t) = true.
Proof.
  induction t as [|m r IH|m r IH]; intros l Hl Ha; cbn [tr_mtail all_m] in *.
  - exact Hl.
  - destruct Ha as [Hm Hr]. rewrite mappable_mul_reassoc, Hl. cbn. now apply IH.
  - destruct Ha as [Hm Hr]. apply IH; [|exact Hr]. cbn [mappable]. now rewrite Hl, Hm.
Qed.

(** what the chain lemmas need of one mult-operand: its tree is mappable, is no bare quotient (so that
    [mul_reassoc] does not look into it) and has the reference value; [Qa], [Qd], [Qo] likewise *)
Definition Qm (m : mulopd) : Prop :=
  mappable (tr_mul m) = true /\ bareQ (te_mul m) = false /\ forall rho, evalZ rho (te_mul m) = v_mul rho m.

(** reference values of simple tails *)
Fixpoint v_front (rho : env) (acc : option Z) (t : mtail) : option Z :=
  match t with
  | MMul m r => v_front rho (mulo acc (v_mul rho m)) r
  | _ => acc
  end.
Fixpoint lastdiv (t : mtail) : option mulopd :=
  match t with
  | MNil => None
  | MMul _ r => lastdiv r
  | MDiv m _ => Some m
  end.

Lemma v_front_scale rho t : forall x y, v_front rho (mulo x y) t = mulo x (v_front rho y t).
Proof.
  induction t as [|m r IH|m r IH]; intros x y; cbn [v_front]; try reflexivity.
  rewrite mulo_assoc. apply IH.
Qed.

Lemma simple_val rho t : forall acc, simple_mtail t = true ->
  v_mtail rho acc t = match lastdiv t with
                      | None => v_front rho acc t
                      | Some md => divo (v_front rho acc t) (v_mul rho md)
                      end.
Proof.
  induction t as [|m r IH|m r IH]; intros acc H; cbn [v_mtail lastdiv v_front simple_mtail] in *.
  - reflexivity.
  - now apply IH.
  - destruct r; [reflexivity|discriminate|discriminate].
Qed.

Lemma simple_shape t : simple_mtail t = true -> all_m Qm t -> forall l, bareQ l = false ->
  match lastdiv t with
  | None => bareQ (tre_mtail l t) = false /\ forall rho, evalZ rho (tre_mtail l t) = v_front rho (evalZ rho l) t
  | Some md => exists n, tre_mtail l t = EQuot false n (te_mul md) /\
                 (forall rho, evalZ rho n = v_front rho (evalZ rho l) t) /\
                 (forall rho, evalZ rho (te_mul md) = v_mul rho md)
  end.
Proof.
  induction t as [|m r IH|m r IH]; intros Hs Ha l Hl; cbn [lastdiv tre_mtail v_front simple_mtail all_m] in *.
  - split; [exact Hl|reflexivity].
  - destruct Ha as [(Hm1 & Hm2 & Hm3) Hr].
    specialize (IH Hs Hr (te_mul m) Hm2).
    destruct (lastdiv r) as [md|].
    + destruct IH as (n & En & Vn & Vd). rewrite En. exists (EProd false [l; n]). split; [reflexivity|]. split; [|exact Vd].
      intros rho. rewrite evalZ_prod2, Vn, Hm3. now rewrite v_front_scale.
    + destruct IH as [Hb Hv]. split; [now apply bareQ_reassoc|].
      intros rho. rewrite reassoc_val_nq by exact Hb. rewrite Hv, Hm3. now rewrite v_front_scale.
  - destruct Ha as [(Hm1 & Hm2 & Hm3) Hr].
    destruct r; try discriminate. cbn [tre_mtail]. exists l. split; [reflexivity|]. split; [reflexivity|exact Hm3].
Qed.

Lemma ok_val t : ok_mtail t = true -> all_m Qm t -> forall l rho,
  evalZ rho (tre_mtail l t) = v_mtail rho (evalZ rho l) t.
Proof.
  induction t as [|m r IH|m r IH]; intros Hok Ha l rho; cbn [tre_mtail v_mtail ok_mtail all_m] in *.
  - reflexivity.
  - destruct Ha as [(Hm1 & Hm2 & Hm3) Hr].
    pose proof (simple_shape r Hok Hr (te_mul m) Hm2) as Sh.
    rewrite (simple_val rho r _ Hok).
    destruct (lastdiv r) as [md|].
    + destruct Sh as (n & En & Vn & Vd). rewrite En, reassoc_val_q, Vn, Vd, Hm3.
      now rewrite v_front_scale.
    + destruct Sh as [Hb Hv]. rewrite reassoc_val_nq by exact Hb. rewrite Hv, Hm3. now rewrite v_front_scale.
  - destruct Ha as [(Hm1 & Hm2 & Hm3) Hr].
    rewrite (IH Hok Hr). rewrite evalZ_quot, Hm3. reflexivity.
Qed.

(** a leading minus on the first primary = minus on the whole add-operand *)
Lemma v_mtail_nego rho t : forall x, v_mtail rho (nego x) t = nego (v_mtail rho x t).
Proof.
  induction t as [|m r IH|m r IH]; intros x; cbn [v_mtail].
  - reflexivity.
  - rewrite mulo_nego. apply IH.
  - rewrite divo_nego. apply IH.
Qed.

Fixpoint tre_atail (l : expr) (t : atail) : expr :=
  match t with
  | ANil => l
  | AAdd a r => tre_atail (ESum false [l; te_add a]) r
  | ASub a r => tre_atail (ESum false [l; EProd false [EPy (-1); te_add a]]) r
  end.

Lemma pma_tr_atail t : forall l, pma (tr_atail l t) = tre_atail (pma l) t.
Proof.
  induction t as [|a r IH|a r IH]; intros l; cbn [tr_atail tre_atail]; [reflexivity| |]; rewrite IH; reflexivity.
Qed.

Lemma mappable_tr_atail t : forall l, mappable l = true ->
  all_a (fun a => mappable (tr_add a) = true) t -> mappable (tr_atail l t) = true.
Proof.
  induction t as [|a r IH|a r IH]; intros l Hl Ha; cbn [tr_atail all_a] in *.
  - exact Hl.
  - destruct Ha as [H1 H2]. apply IH; [|exact H2]. cbn [mappable]. now rewrite Hl, H1.
  - destruct Ha as [H1 H2]. apply IH; [|exact H2]. cbn [mappable negp]. now rewrite Hl, H1.
Qed.

Definition Qa (a : addopd) : Prop :=
  mappable (tr_add a) = true /\ forall rho, evalZ rho (te_add a) = v_add rho a.

Lemma subo_addo x y : addo x (nego y) = subo x y.
Proof. destruct x, y; cbn; try reflexivity; try (f_equal; lia). Qed.

Lemma atail_val t : all_a Qa t -> forall l rho, evalZ rho (tre_atail l t) = v_atail rho (evalZ rho l) t.
Proof.
  induction t as [|a r IH|a r IH]; intros Ha l rho; cbn [tre_atail v_atail all_a] in *.
  - reflexivity.
  - destruct Ha as [[H1 H2] Hr]. rewrite (IH Hr), evalZ_sum2, H2. reflexivity.
  - destruct Ha as [[H1 H2] Hr]. rewrite (IH Hr), evalZ_sum2, evalZ_negp, H2, subo_addo. reflexivity.
Qed.

Scheme prim_mind := Induction for prim Sort Prop
  with mulopd_mind := Induction for mulopd Sort Prop
  with mtail_mind := Induction for mtail Sort Prop
  with addopd_mind := Induction for addopd Sort Prop
  with atail_mind := Induction for atail Sort Prop
  with lvl2_mind := Induction for lvl2 Sort Prop
  with args_mind := Induction for args Sort Prop.
Combined Scheme arith_mutind from prim_mind, mulopd_mind, mtail_mind, addopd_mind, atail_mind, lvl2_mind, args_mind.

(** the statements of the mutual induction, one per family.  [S_mul] also speaks of the first primary alone and
    [S_add] keeps [S_mul m] unapplied next to the facts about the tail: under a leading minus [tr_l2] wraps the
    first primary, not the add-operand, so the [L2] case has to reassemble the add-operand itself *)
Definition S_prim (p : prim) : Prop := std_prim p = true ->
  mappable (tr_prim p) = true /\ bareQ (pma (tr_prim p)) = false /\ forall rho, evalZ rho (pma (tr_prim p)) = v_prim rho p.
Definition S_mul (m : mulopd) : Prop := std_mul m = true -> Qm m /\
  (mappable (tr_prim (base_of m)) = true /\ forall rho, evalZ rho (pma (tr_prim (base_of m))) = v_prim rho (base_of m)).
Definition S_mtail (t : mtail) : Prop := std_mtail t = true -> all_m Qm t.
Definition S_add (a : addopd) : Prop := std_add a = true ->
  match a with AO m mt => S_mul m /\ std_mul m = true /\ all_m Qm mt /\ ok_mtail mt = true end.
Definition S_atail (t : atail) : Prop := std_atail t = true -> all_a Qa t.
Definition S_l2 (e : lvl2) : Prop := std_l2 e = true ->
  mappable (tr_l2 e) = true /\ forall rho, evalZ rho (pma (tr_l2 e)) = v_l2 rho e.
Definition S_args (a : args) : Prop := std_args a = true ->
  forallb mappable (tr_args a) = true /\ forall rho, omap_list (evalZ rho) (map pma (tr_args a)) = v_args rho a.

Lemma Qa_of_parts m mt : Qm m -> all_m Qm mt -> ok_mtail mt = true -> Qa (AO m mt).
Proof.
  intros (H1 & H2 & H3) Hm Hok. split.
  - cbn [tr_add]. apply mappable_tr_mtail; [exact H1|]. eapply all_m_impl; [|exact Hm]. intros m' Hq. apply Hq.
  - intros rho. unfold te_add. cbn [tr_add v_add]. rewrite pma_tr_mtail. rewrite (ok_val mt Hok Hm). fold (te_mul m). now rewrite H3.
Qed.

Lemma sem_arith :
  (forall p, S_prim p) /\ (forall m, S_mul m) /\ (forall t, S_mtail t) /\ (forall a, S_add a) /\
  (forall t, S_atail t) /\ (forall e, S_l2 e) /\ (forall a, S_args a).
Proof.
  apply arith_mutind.
  8,9: (* MMul, MDiv *) intros m IHm r IHr Hs; cbn [std_mtail] in Hs; apply andb_true_iff in Hs as [H1 H2];
    (split; [apply (IHm H1)|apply (IHr H2)]).
  10,11: (* AAdd, ASub *) intros [m mt] IHa r IHr Hs; cbn [std_atail] in Hs; apply andb_true_iff in Hs as [H1 H2];
    destruct (IHa H1) as (Sm & Hm & Hmt & Hok); (split; [apply Qa_of_parts; [apply (Sm Hm)|exact Hmt|exact Hok]|apply (IHr H2)]).
  - (* PrInt *) intros n _. repeat split.
  - (* PrVar *) intros x _. repeat split.
  - (* PrParen *) intros e IH Hs. cbn [std_prim] in Hs. destruct (IH Hs) as [H1 H2].
    cbn [tr_prim v_prim]. split; [now rewrite mappable_parenthesise|]. split; [apply bareQ_paren|].
    intros rho. now rewrite evalZ_parenthesise.
  - (* PrCall *) intros f a IH Hs. cbn [std_prim] in Hs. apply andb_true_iff in Hs. destruct Hs as [Hc Ha].
    destruct (IH Ha) as [H1 H2]. cbn [tr_prim v_prim pma mappable]. split; [now rewrite Hc, H1|]. split; [reflexivity|].
    intros rho. rewrite evalZ_call, H2. reflexivity.
  - (* MBase *) intros p IH Hs. cbn [std_mul] in Hs. destruct (IH Hs) as (H1 & H2 & H3).
    split; [split; [exact H1|split; [exact H2|exact H3]]|]. split; [exact H1|exact H3].
  - (* MPow *) intros p IHp m IHm Hs. cbn [std_mul] in Hs. apply andb_true_iff in Hs. destruct Hs as [Hp Hm].
    destruct (IHp Hp) as (P1 & P2 & P3). destruct (IHm Hm) as [(M1 & M2 & M3) _].
    split; [|split; [exact P1|exact P3]].
    unfold Qm, te_mul in *. change (tr_mul (MPow p m)) with (PPow false (tr_prim p) (tr_mul m)).
    cbn [pma mappable v_mul]. split; [now rewrite P1, M1|]. split; [reflexivity|].
    intros rho. rewrite evalZ_pow, P3, M3. reflexivity.
  - (* MNil *) intros _. exact I.
  - (* AO *) intros m IHm t IHt Hs. cbn [std_add] in Hs. apply andb_true_iff in Hs. destruct Hs as [Hs Hok].
    apply andb_true_iff in Hs. destruct Hs as [H1 H2].
    split; [exact IHm|]. split; [exact H1|]. split; [apply (IHt H2)|exact Hok].
  - (* ANil *) intros _. exact I.
  - (* L2 *) intros s a IHa t IHt Hs. cbn [std_l2] in Hs. apply andb_true_iff in Hs. destruct Hs as [Hs Ht].
    apply andb_true_iff in Hs. destruct Hs as [Hnp Ha].
    destruct a as [m mt]. destruct (IHa Ha) as (Sm & Hm & Hmt & Hok).
    destruct (Sm Hm) as [(M1 & M2 & M3) (B1 & B3)].
    pose proof (IHt Ht) as Hat.
    assert (HmapT : all_a (fun a => mappable (tr_add a) = true) t).
    { eapply all_a_impl; [|exact Hat]. intros a' Hq. apply Hq. }
    assert (HmapM : all_m (fun m => mappable (tr_mul m) = true) mt).
    { eapply all_m_impl; [|exact Hmt]. intros m' Hq. apply Hq. }
    cbn [tr_l2].
    assert (Hcase : (wrap_of s = idp /\ forall rho, v_l2 rho (L2 s (AO m mt) t) = v_atail rho (v_add rho (AO m mt)) t)
                    \/ (s = Some SMinus /\ exists p, m = MBase p)).
    { destruct s as [[|]|]; [left; split; reflexivity| |left; split; reflexivity].
      right. split; [reflexivity|]. cbn [neg_pow_free] in Hnp. destruct m; [eauto|discriminate]. }
    destruct Hcase as [[Hw Hv]|[-> [p ->]]].
    + rewrite Hw. split.
      * apply mappable_tr_atail; [|exact HmapT]. apply mappable_tr_mtail; [exact M1|exact HmapM].
      * intros rho. rewrite pma_tr_atail, (atail_val t Hat), pma_tr_mtail, (ok_val mt Hok Hmt).
        fold (te_mul m). rewrite M3. rewrite (Hv rho). reflexivity.
    + cbn [wrap_of tr_mulw base_of] in *. split.
      * apply mappable_tr_atail; [|exact HmapT]. apply mappable_tr_mtail; [|exact HmapM]. cbn [negp mappable]. exact B1.
      * intros rho. rewrite pma_tr_atail, (atail_val t Hat), pma_tr_mtail, (ok_val mt Hok Hmt).
        cbn [negp pma]. rewrite evalZ_negp, B3, v_mtail_nego. reflexivity.
  - (* AOne *) intros e IH Hs. cbn [std_args] in Hs. destruct (IH Hs) as [H1 H2].
    cbn [tr_args forallb map omap_list v_args]. split; [now rewrite H1|].
    intros rho. rewrite H2. destruct (v_l2 rho e); reflexivity.
  - (* ACons *) intros e IHe r IHr Hs. cbn [std_args] in Hs. apply andb_true_iff in Hs. destruct Hs as [H1 H2].
    destruct (IHe H1) as [E1 E2]. destruct (IHr H2) as [R1 R2].
    cbn [tr_args forallb map omap_list v_args]. split; [now rewrite E1, R1|].
    intros rho. rewrite E2, R2. reflexivity.
Qed.

Theorem parser_agrees_arith e : std_l2 e = true ->
  exists t, parse (y_l2 e) = Some t /\ forall rho, evalZ rho t = v_l2 rho e.
Proof.
  intros Hs. destruct sem_arith as (_ & _ & _ & _ & _ & H & _). destruct (H e Hs) as [H1 H2].
  exists (pma (tr_l2 e)). split; [|exact H2].
  unfold parse, parse_res. rewrite parse_p_l2. cbn [bind]. now rewrite pm_pma.
Qed.

Fixpoint tre_andtail (l : expr) (t : andtail) : expr :=
  match t with DNil => l | DAnd x r => tre_andtail (EAnd [l; pma (tr_and x)]) r end.
Fixpoint tre_ortail (l : expr) (t : ortail) : expr :=
  match t with ONil => l | OOr x r => tre_ortail (EOr [l; pma (tr_or x)]) r end.
Fixpoint all_d (Q : andopd -> Prop) (t : andtail) : Prop :=
  match t with DNil => True | DAnd x r => Q x /\ all_d Q r end.
Fixpoint all_o (Q : oropd -> Prop) (t : ortail) : Prop :=
  match t with ONil => True | OOr x r => Q x /\ all_o Q r end.

Lemma pma_tr_andtail t : forall l, pma (tr_andtail l t) = tre_andtail (pma l) t.
Proof. induction t as [|x r IH]; intros l; cbn [tr_andtail tre_andtail]; [reflexivity|]. now rewrite IH. Qed.
Lemma pma_tr_ortail t : forall l, pma (tr_ortail l t) = tre_ortail (pma l) t.
Proof. induction t as [|x r IH]; intros l; cbn [tr_ortail tre_ortail]; [reflexivity|]. now rewrite IH. Qed.

Definition Qd (x : andopd) : Prop := mappable (tr_and x) = true /\ forall rho, evalL rho (pma (tr_and x)) = v_and rho x.
Definition Qo (x : oropd) : Prop := mappable (tr_or x) = true /\ forall rho, evalL rho (pma (tr_or x)) = v_or rho x.

Lemma andtail_facts t : all_d Qd t -> forall l, mappable l = true ->
  mappable (tr_andtail l t) = true /\ forall rho, evalL rho (tre_andtail (pma l) t) = v_andtail rho (evalL rho (pma l)) t.
Proof.
  induction t as [|x r IH]; intros Ha l Hl; cbn [tr_andtail tre_andtail v_andtail all_d] in *.
  - split; [exact Hl|reflexivity].
  - destruct Ha as [[H1 H2] Hr].
    destruct (IH Hr (PAnd l (tr_and x))) as [I1 I2]; [cbn [mappable]; now rewrite Hl, H1|].
    split; [exact I1|]. intros rho. cbn [pma] in I2. rewrite I2, evalL_and2, H2. reflexivity.
Qed.
Lemma ortail_facts t : all_o Qo t -> forall l, mappable l = true ->
  mappable (tr_ortail l t) = true /\ forall rho, evalL rho (tre_ortail (pma l) t) = v_ortail rho (evalL rho (pma l)) t.
Proof.
  induction t as [|x r IH]; intros Ha l Hl; cbn [tr_ortail tre_ortail v_ortail all_o] in *.
  - split; [exact Hl|reflexivity].
  - destruct Ha as [[H1 H2] Hr].
    destruct (IH Hr (POr l (tr_or x))) as [I1 I2]; [cbn [mappable]; now rewrite Hl, H1|].
    split; [exact I1|]. intros rho. cbn [pma] in I2. rewrite I2, evalL_or2, H2. reflexivity.
Qed.

Scheme lprim_mind := Induction for lprim Sort Prop
  with l4_mind := Induction for l4 Sort Prop
  with andopd_mind := Induction for andopd Sort Prop
  with andtail_mind := Induction for andtail Sort Prop
  with oropd_mind := Induction for oropd Sort Prop
  with ortail_mind := Induction for ortail Sort Prop
  with lexpr_mind := Induction for lexpr Sort Prop.
Combined Scheme logic_mutind from lprim_mind, l4_mind, andopd_mind, andtail_mind, oropd_mind, ortail_mind, lexpr_mind.

(** the shape shared by the statements for the logical families *)
Definition SL (A : Type) (std : A -> bool) (tr : A -> pexp) (v : env -> A -> option bool) (x : A) : Prop :=
  std x = true -> mappable (tr x) = true /\ forall rho, evalL rho (pma (tr x)) = v rho x.

Lemma sem_logic :
  (forall p, SL lprim std_lprim tr_lprim v_lprim p) /\ (forall x, SL l4 std_l4 tr_l4 v_l4 x) /\
  (forall x, SL andopd std_and tr_and v_and x) /\ (forall t, std_andtail t = true -> all_d Qd t) /\
  (forall x, SL oropd std_or tr_or v_or x) /\ (forall t, std_ortail t = true -> all_o Qo t) /\
  (forall e, SL lexpr std_lexpr tr_lexpr v_lexpr e).
Proof.
  apply logic_mutind; unfold SL.
  10,13: (* DAnd, OOr *) intros x IHx r IHr Hs; cbn [std_andtail std_ortail] in Hs; apply andb_true_iff in Hs as [H1 H2];
    (split; [apply (IHx H1)|apply (IHr H2)]).
  - (* LTrue *) intros _. split; reflexivity.
  - (* LFalse *) intros _. split; reflexivity.
  - (* LVar *) intros x _. split; reflexivity.
  - (* LParen *) intros e IH Hs. cbn [std_lprim] in Hs. destruct (IH Hs) as [H1 H2].
    cbn [tr_lprim v_lprim]. split; [now rewrite mappable_parenthesise|]. intros rho. now rewrite evalL_parenthesise.
  - (* L4Prim *) intros p IH Hs. apply (IH Hs).
  - (* L4Cmp *) intros a op b Hs. cbn [std_l4] in Hs. apply andb_true_iff in Hs. destruct Hs as [Ha Hb].
    destruct sem_arith as (_ & _ & _ & _ & _ & H & _).
    destruct (H a Ha) as [A1 A2]. destruct (H b Hb) as [B1 B2].
    cbn [tr_l4 mappable pma v_l4]. split; [now rewrite A1, B1|].
    intros rho. cbn [evalL]. rewrite A2, B2. reflexivity.
  - (* AndBase *) intros y IH Hs. apply (IH Hs).
  - (* AndNot *) intros y IH Hs. destruct y as [p|a op b]; [|discriminate]. cbn [std_and] in Hs.
    destruct (IH Hs) as [H1 H2]. cbn [tr_and mappable pma v_and]. split; [exact H1|].
    intros rho. cbn [evalL]. rewrite H2. reflexivity.
  - (* DNil *) intros _. exact I.
  - (* OrO *) intros y IHy t IHt Hs. cbn [std_or] in Hs. apply andb_true_iff in Hs. destruct Hs as [H1 H2].
    destruct (IHy H1) as [Y1 Y2]. destruct (andtail_facts t (IHt H2) (tr_and y) Y1) as [T1 T2].
    cbn [tr_or v_or]. split; [exact T1|]. intros rho. rewrite pma_tr_andtail, T2, Y2. reflexivity.
  - (* ONil *) intros _. exact I.
  - (* LE *) intros x IHx t IHt Hs. cbn [std_lexpr] in Hs. apply andb_true_iff in Hs. destruct Hs as [H1 H2].
    destruct (IHx H1) as [X1 X2]. destruct (ortail_facts t (IHt H2) (tr_or x) X1) as [T1 T2].
    cbn [tr_lexpr v_lexpr]. split; [exact T1|]. intros rho. rewrite pma_tr_ortail, T2, X2. reflexivity.
Qed.

Theorem parser_agrees_logic e : std_lexpr e = true ->
  exists t, parse (y_lexpr e) = Some t /\ forall rho, evalL rho t = v_lexpr rho e.
Proof.
  intros Hs. destruct sem_logic as (_ & _ & _ & _ & _ & _ & H). destruct (H e Hs) as [H1 H2].
  exists (pma (tr_lexpr e)). split; [|exact H2].
  unfold parse, parse_res. rewrite (parse_p_lexpr e Hs). cbn [bind]. now rewrite pm_pma.
Qed.

(** the main statement: every derivation in the class is parsed to a tree with the derivation's value *)
Theorem parser_agrees_on_class d : std_prec d = true ->
  exists t, parse (y_fexpr d) = Some t /\ forall rho, tree_val rho d t = v_fexpr rho d.
Proof.
  destruct d as [e|e]; cbn [std_prec y_fexpr tree_val v_fexpr]; intros Hs.
  - destruct (parser_agrees_arith e Hs) as (t & H1 & H2). exists t. split; [exact H1|]. intros rho. now rewrite H2.
  - destruct (parser_agrees_logic e Hs) as (t & H1 & H2). exists t. split; [exact H1|]. intros rho. now rewrite H2.
Qed.

(** [evalL] agrees with the shared [evalB] wherever the latter is defined *)
Lemma evalL_fold rho (op : bool -> bool -> bool) u cs :
  Forall (fun c => forall v, evalB rho c = Some v -> evalL rho c = Some v) cs -> forall b,
  fold_right (fun c acc => obind (evalB rho c) (fun v => obind acc (fun a => Some (op v a)))) u cs = Some b ->
  fold_right (fun c acc => obind (evalL rho c) (fun v => obind acc (fun a => Some (op v a)))) u cs = Some b.
Proof.
  intros H b Hb. pose proof (fold_obind_mono (evalL rho) (evalB rho) (fun c => c) op u cs H b Hb) as G.
  rewrite map_id in G. exact G.
Qed.

Lemma evalL_extends rho t : forall b, evalB rho t = Some b -> evalL rho t = Some b.
Proof.
  induction t as [| | | | | | | | |cs IH|cs IH|t IH|] using expr_ind'; intros bb Hb; cbn [evalB] in Hb; try discriminate; cbn [evalL].
  - exact Hb.
  - exact Hb.
  - exact (evalL_fold rho andb _ cs IH bb Hb).
  - exact (evalL_fold rho orb _ cs IH bb Hb).
  - destruct (evalB rho t) as [v|] eqn:E; [|discriminate]. rewrite (IH v eq_refl). exact Hb.
Qed.

(** witnesses: the unconditional statement is false for the real parser *)
Definition rho0 : env := env_of [].

Definition d_neg_pow : lvl2 :=                      (* -2**2 *)
  L2 (Some SMinus) (AO (MPow (PrInt 2) (MBase (PrInt 2))) MNil) ANil.
Lemma neg_pow_refuted :
  exists t, parse (y_l2 d_neg_pow) = Some t /\ evalZ rho0 t = Some 4 /\ v_l2 rho0 d_neg_pow = Some (-4).
Proof. exists (pma (tr_l2 d_neg_pow)). repeat split; vm_compute; reflexivity. Qed.

Definition d_mul_div : lvl2 :=                      (* 2*3/2*1 *)
  L2 None (AO (MBase (PrInt 2)) (MMul (MBase (PrInt 3)) (MDiv (MBase (PrInt 2)) (MMul (MBase (PrInt 1)) MNil)))) ANil.
Lemma mul_div_refuted :
  exists t, parse (y_l2 d_mul_div) = Some t /\ evalZ rho0 t = Some 2 /\ v_l2 rho0 d_mul_div = Some 3.
Proof. exists (pma (tr_l2 d_mul_div)). repeat split; vm_compute; reflexivity. Qed.

Definition d_not_cmp : lexpr :=                     (* .not. 1 == 2 *)
  LE (OrO (AndNot (L4Cmp (L2 None (AO (MBase (PrInt 1)) MNil) ANil) Ceq (L2 None (AO (MBase (PrInt 2)) MNil) ANil))) DNil) ONil.
Lemma not_cmp_refuted :
  exists t, parse (y_lexpr d_not_cmp) = Some t /\ t = ECmp Ceq (ENot (EInt 1)) (EInt 2) /\
            evalL rho0 t = None /\ v_lexpr rho0 d_not_cmp = Some true.
Proof. exists (ECmp Ceq (ENot (EInt 1)) (EInt 2)). repeat split; vm_compute; reflexivity. Qed.

Lemma eqv_refuted :                                  (* l .eqv. m : the dots are read as '%' *)
  parse [TId "l"; TPct; TId "eqv"; TPct; TId "m"] = Some (EVar "l%eqv%m").
Proof. vm_compute. reflexivity. Qed.

Lemma comp_times_refuted :                           (* x%y*z : z is looked up inside x *)
  parse [TId "x"; TPct; TId "y"; TStar; TId "z"] = Some (EProd false [EVar "x%y"; EVar "x%z"]).
Proof. vm_compute. reflexivity. Qed.

(** the class is inhabited by non-trivial derivations:  -a*b/c + 2**3**2 - mod(a, (b))  *)
Definition d_example : lvl2 :=
  L2 (Some SMinus)
     (AO (MBase (PrVar "a")) (MMul (MBase (PrVar "b")) (MDiv (MBase (PrVar "c")) MNil)))
     (AAdd (AO (MPow (PrInt 2) (MPow (PrInt 3) (MBase (PrInt 2)))) MNil)
       (ASub (AO (MBase (PrCall "mod" (ACons (L2 None (AO (MBase (PrVar "a")) MNil) ANil)
                                            (AOne (L2 None (AO (MBase (PrParen (L2 None (AO (MBase (PrVar "b")) MNil) ANil))) MNil) ANil))))) MNil)
          ANil)).
Example class_inhabited :
  std_l2 d_example = true /\
  v_l2 (env_of [("a", 7); ("b", 3); ("c", 2)]%string) d_example = Some 501.
Proof. split; vm_compute; reflexivity. Qed.
