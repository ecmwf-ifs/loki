(** C08 — soundness of the SimplifyMapper model on its class. *)
From Coq Require Import ZArith List Bool String Lia.
From LV Require Import Base.Expr models.M_C08 proofs.P_C08_sem proofs.P_C08_helpers.
Import ListNotations.
Open Scope Z_scope.

Lemma to_of_expr : forall e, to_expr (of_expr e) = e.
Proof.
  induction e using expr_ind'; cbn [of_expr to_expr]; try congruence.
  1,2: destruct p. (* ESum, EProd: the class tag *)
  all: cbn [is_KP]; f_equal; rewrite map_map; induction H; cbn [map]; congruence.
Qed.

Lemma rbind_ok {A B} (r : res A) (f : A -> res B) b : rbind r f = Ok b -> exists a, r = Ok a /\ f a = Ok b.
Proof. destruct r; try discriminate. eauto. Qed.

Section Main.
Variable rho : env.

Notation tv := (tv rho).
Notation df := (df rho).
Notation tb := (tb rho).
Notation dfb := (dfb rho).
Notation zsound := (zsound rho).

Definition bsound (e e' : sx) : Prop := dfb e = true -> dfb e' = true /\ tb e' = tb e.
Definition sound (e e' : sx) : Prop := zsound e e' /\ bsound e e'.

Lemma bsound_trans a b c : bsound a b -> bsound b c -> bsound a c.
Proof. intros H1 H2 Ha. destruct (H1 Ha) as [Hb E1]. destruct (H2 Hb) as [Hc E2]. split; congruence. Qed.
Lemma sound_refl e : sound e e. Proof. split; intros H; auto. Qed.
Lemma sound_trans a b c : sound a b -> sound b c -> sound a c.
Proof. intros [A1 A2] [B1 B2]. split; [eapply zsound_trans|eapply bsound_trans]; eauto. Qed.

(** a node that is not a logical has no logical value: [bsound] holds vacuously; likewise [zsound] *)
Lemma bsound_nonlog e e' : dfb e = false -> bsound e e'.
Proof. intros H H'. congruence. Qed.
Lemma zsound_nonint e e' : df e = false -> zsound e e'.
Proof. intros H H'. congruence. Qed.

(** [rec] is sound on every safe run *)
Definition rec_ok (rec : sx -> res (sx * bool)) : Prop :=
  forall e r, rec e = Ok (r, true) -> sound e r.

Lemma rmapb_sound rec cs : rec_ok rec -> forall cs', rmapb rec cs = Ok (cs', true) -> Forall2 sound cs cs'.
Proof.
  intros Hr. induction cs as [|c cs IH]; cbn [rmapb]; intros cs'; [intros [= <-]; constructor|].
  destruct (rec c) as [[c' bc]| |] eqn:F; cbn [rbind]; try discriminate.
  destruct (rmapb rec cs) as [[cs0 b0]| |]; cbn [rbind fst snd]; try discriminate.
  intros [= <- Hb]. apply andb_true_iff in Hb as [-> ->]. constructor; [apply Hr, F|apply IH; reflexivity].
Qed.

Lemma children_z cs cs' : Forall2 sound cs cs' -> alldf rho cs = true ->
  alldf rho cs' = true /\ sumv rho cs' = sumv rho cs /\ prodv rho cs' = prodv rho cs /\ map tv cs' = map tv cs.
Proof.
  induction 1 as [|c c' cs cs' [Hc _] _ IH]; [auto|].
  rewrite !alldf_cons, !sumv_cons, !prodv_cons. intros H. apply andb_true_iff in H as [H1 H2].
  destruct (Hc H1) as [Cd Cv]. destruct (IH H2) as [Id [Is [Ip Im]]].
  cbn [map]. rewrite Cd, Cv, Id, Is, Ip, Im. auto.
Qed.

Lemma children_b cs cs' : Forall2 sound cs cs' -> forallb dfb cs = true ->
  forallb dfb cs' = true /\ forallb tb cs' = forallb tb cs /\ existsb tb cs' = existsb tb cs.
Proof.
  induction 1 as [|c c' cs cs' [_ Hc] _ IH]; [auto|].
  cbn [forallb existsb]. intros H. apply andb_true_iff in H as [H1 H2].
  destruct (Hc H1) as [Cd Cv]. destruct (IH H2) as [Id [Ia Io]].
  rewrite Cd, Cv, Id, Ia, Io. auto.
Qed.

Lemma flatten_opt_sound fl wf e e1 :
  (if f_flatten fl then flatten_i wf e else Ok (e, true)) = Ok (e1, true) -> zsound e e1.
Proof. destruct (f_flatten fl); [apply flatten_sound|intros [= <-]; apply zsound_refl]. Qed.

Lemma pipeline_sum_sound fl wf e r : pipeline_sum fl wf e = Ok (r, true) -> zsound e r.
Proof.
  unfold pipeline_sum. intros H. apply rbind_ok in H as ([e1 s1] & F & H). cbn [fst snd] in H.
  injection H as <- Hs. apply andb_true_iff in Hs as [-> Hs3].
  set (e2 := if f_int fl || f_fp fl then sum_literals (f_int fl) (f_fp fl) e1 else e1) in *.
  assert (Z2 : zsound e1 e2).
  { subst e2. destruct (f_int fl || f_fp fl); [apply sum_literals_sound|apply zsound_refl]. }
  assert (Z3 : zsound e2 (fst (if f_cc fl then collect_i e2 else (e2, true)))).
  { destruct (f_cc fl); [|apply zsound_refl]. destruct (collect_i e2) as [e3 s3] eqn:C. cbn [fst snd] in *.
    subst s3. apply (collect_sound rho _ _ C). }
  exact (zsound_trans _ _ _ _ (flatten_opt_sound _ _ _ _ F) (zsound_trans _ _ _ _ Z2 Z3)).
Qed.

Lemma pipeline_prod_sound fl wf e r : pipeline_prod fl wf e = Ok (r, true) -> zsound e r.
Proof.
  unfold pipeline_prod. intros H. apply rbind_ok in H as ([e1 s1] & F & H). cbn [fst snd] in H.
  destruct (f_int fl || f_fp fl); injection H as <- ->.
  - eapply zsound_trans; [exact (flatten_opt_sound _ _ _ _ F)|apply mul_literals_sound].
  - exact (flatten_opt_sound _ _ _ _ F).
Qed.

Lemma pipeline_quot_sound fl wf e r : pipeline_quot fl wf e = Ok (r, true) -> zsound e r.
Proof.
  unfold pipeline_quot. intros H. apply rbind_ok in H as ([e1 s1] & F & H). cbn [fst snd] in H.
  destruct (f_int fl || f_fp fl).
  - apply rbind_ok in H as ([e2 s2] & D & H). cbn [fst snd] in H.
    injection H as <- Hs. apply andb_true_iff in Hs as [-> ->].
    eapply zsound_trans; [exact (flatten_opt_sound _ _ _ _ F)|exact (div_literals_sound rho _ _ _ D)].
  - injection H as <- ->. exact (flatten_opt_sound _ _ _ _ F).
Qed.

Lemma powv_1_l n : powv 1 n = 1.
Proof.
  unfold powv. destruct (0 <=? n) eqn:E.
  - apply Z.pow_1_l. apply Z.leb_le. assumption.
  - rewrite Z.pow_1_l; [reflexivity|]. apply Z.leb_gt in E. lia.
Qed.

Lemma powv_1_r a : powv a 1 = a.
Proof. apply Z.pow_1_r. Qed.

Lemma simp_pow_sound fl p b x : zsound (SPow p b x) (simp_pow fl p b x).
Proof.
  unfold simp_pow. destruct p; [apply zsound_refl|]. destruct (f_int fl); [|apply zsound_refl].
  intros Hd. pose proof (val_self rho _ Hd) as Hself.
  assert (Hb : df b = true) by (cbn [P_C08_sem.df] in Hd; rewrite !andb_true_iff in Hd; tauto).
  cbn [P_C08_sem.tv] in *.
  assert (Hone : forall bv, b = SInt bv -> (bv =? 1) = true -> val rho b (powv (tv b) (tv x))).
  { intros bv -> E. apply Z.eqb_eq in E as ->. cbn [P_C08_sem.tv]. rewrite powv_1_l. split; reflexivity. }
  assert (Hexp : forall xv, x = SInt xv ->
            val rho (if xv =? 0 then SInt 1 else if xv =? 1 then b else SPow false b x) (powv (tv b) (tv x))).
  { intros xv ->. cbn [P_C08_sem.tv]. destruct (Z.eqb_spec xv 0) as [->|_]; [split; reflexivity|].
    destruct (Z.eqb_spec xv 1) as [->|_]; [rewrite powv_1_r; apply val_self, Hb|exact Hself]. }
  destruct b as [bv| | | | | | | | | | | |]; destruct x as [xv| | | | | | | | | | | |];
    try exact Hself; try (apply Hexp; reflexivity);
    (destruct (bv =? 1) eqn:E1; [exact (Hone _ eq_refl E1)|]); try exact Hself.
  (* literal ** literal, folded for a positive exponent *)
  destruct (0 <? xv) eqn:E3; [|exact (Hexp _ eq_refl)]. apply Z.ltb_lt in E3.
  destruct (Z.eqb_spec xv 0) as [->|_]; [lia|]. destruct (Z.eqb_spec xv 1) as [->|_]; [exact (Hexp 1 eq_refl)|].
  split; [reflexivity|]. cbn [P_C08_sem.tv]. unfold powv. rewrite (proj2 (Z.leb_le 0 xv)) by lia. reflexivity.
Qed.

Lemma cval_spec e : is_constant e = true -> df e = true /\ tv e = cval e.
Proof.
  unfold is_constant, cval. destruct (peel e) as [k core] eqn:P. destruct (peel_spec rho e k core P) as [-> ->].
  cbn [snd]. destruct core; try discriminate; intros _; cbn [P_C08_sem.tv P_C08_sem.df]; auto.
Qed.

Lemma simp_cmp_sound fl op l r l' r' s res :
  zsound l l' -> zsound r r' -> simp_cmp fl op l' r' s = Ok (res, true) -> bsound (SCmp op l r) res.
Proof.
  intros Zl Zr. unfold simp_cmp. intros H Hd. cbn [P_C08_sem.dfb] in Hd. apply andb_true_iff in Hd as [Hl Hr].
  destruct (Zl Hl) as [Ld Lv]. destruct (Zr Hr) as [Rd Rv].
  destruct (f_logic fl && is_constant l' && is_constant r') eqn:C; injection H as <- _; cbn [P_C08_sem.dfb P_C08_sem.tb].
  - apply andb_true_iff in C as [C Cr]. apply andb_true_iff in C as [_ Cl].
    destruct (cval_spec _ Cl) as [_ E1]. destruct (cval_spec _ Cr) as [_ E2]. split; [reflexivity|]. congruence.
  - rewrite Ld, Rd, Lv, Rv. auto.
Qed.

Definition lit (b : bool) : string := if b then "true" else "false".
(** [simp_and] and [simp_or] are, by conversion, one function of the absorbing literal [z] ([false] for and)
    and of the node built; [agg z] is the value of that node *)
Definition simp_junct (z : bool) (mk : list sx -> sx) (fl : flags) (cs' : list sx) (s0 : bool) : sx * bool :=
  if f_logic fl then
    let s := s0 && log_shape_ok cs' in
    if existsb (fun c => eq_str c (lit z)) cs' then (SLog z, s)
    else match filter (fun c => negb (eq_str c (lit (negb z)))) cs' with [] => (SLog (negb z), s) | l => (mk l, s) end
  else match cs' with [] => (SLog (negb z), s0) | _ => (mk cs', s0) end.
Definition agg (z : bool) (cs : list sx) : bool := if z then existsb tb cs else forallb tb cs.

(** the flag of the logical cases: the children were safe and, with LogicEvaluation, every child that
    compares equal to 'True' / 'False' is that literal *)
Lemma simp_junct_flag z mk fl cs s : snd (simp_junct z mk fl cs s) = s && implb (f_logic fl) (log_shape_ok cs).
Proof.
  unfold simp_junct. destruct (f_logic fl); [destruct (existsb _ cs); [|destruct (filter _ cs)]|destruct cs];
    cbn [snd implb]; rewrite ?andb_true_r; reflexivity.
Qed.
Lemma simp_not_flag fl c s : snd (simp_not fl c s) = s && implb (f_logic fl) (log_shape_ok [c]).
Proof.
  unfold simp_not. destruct (f_logic fl); [destruct (eq_str c "true"); [|destruct (eq_str c "false")]|];
    cbn [snd implb]; rewrite ?andb_true_r; reflexivity.
Qed.

Lemma shape_lit cs c (b : bool) : log_shape_ok cs = true -> In c cs -> eq_str c (lit b) = true -> c = SLog b.
Proof.
  unfold log_shape_ok. rewrite forallb_forall. intros H Hin E. specialize (H c Hin).
  assert (L : is_log c = true) by (destruct b; cbv [lit] in E; rewrite E, ?orb_true_r in H; exact H).
  destruct c as [| | |b0| | | | | | | | |]; try discriminate L.
  destruct b, b0; try reflexivity; vm_compute in E; discriminate E.
Qed.

Lemma agg_absorb z cs : In (SLog z) cs -> agg z cs = z.
Proof.
  intros H. destruct z; cbn [agg]; [apply existsb_exists; exists (SLog true); auto|].
  apply not_true_is_false. intros C. rewrite forallb_forall in C. discriminate (C _ H).
Qed.

Lemma filter_neutral z cs : log_shape_ok cs = true -> forallb dfb cs = true ->
  forallb dfb (filter (fun c => negb (eq_str c (lit (negb z)))) cs) = true /\
  agg z (filter (fun c => negb (eq_str c (lit (negb z)))) cs) = agg z cs.
Proof.
  intros Hs. pose proof (fun c => shape_lit cs c (negb z) Hs) as L. clear Hs.
  induction cs as [|c cs IH]; intros Hd; [auto|]. cbn [forallb] in Hd. apply andb_true_iff in Hd as [Hd1 Hd2].
  destruct IH as [I1 I2]; [intros; apply L; [right|]; assumption|assumption|].
  cbn [filter]. destruct (eq_str c (lit (negb z))) eqn:E; cbn [negb].
  - rewrite (L c (or_introl eq_refl) E). split; [exact I1|]. rewrite I2. destruct z; reflexivity.
  - cbn [forallb]. rewrite Hd1, I1. split; [reflexivity|]. destruct z; cbn [agg forallb existsb] in *; rewrite I2; reflexivity.
Qed.

Lemma simp_junct_sound z mk fl cs cs' s r :
  (forall l, dfb (mk l) = forallb dfb l /\ tb (mk l) = agg z l) -> simp_junct z mk fl cs' s = (r, true) ->
  s = true /\ (Forall2 sound cs cs' -> forallb dfb cs = true -> dfb r = true /\ tb r = agg z cs).
Proof.
  intros Hmk E. pose proof (f_equal snd E) as Hs. rewrite simp_junct_flag in Hs. apply andb_true_iff in Hs as [-> Hshape].
  split; [reflexivity|]. intros F Hd. destruct (children_b _ _ F Hd) as (Cd & Ca & Co).
  replace (agg z cs) with (agg z cs') by (destruct z; cbn [agg]; assumption).
  apply (f_equal fst) in E. cbn [fst] in E. subst r. unfold simp_junct.
  assert (Hnil : dfb (SLog (negb z)) = true /\ tb (SLog (negb z)) = agg z []) by (destruct z; split; reflexivity).
  assert (Hl : forall l, forallb dfb l = true -> dfb (mk l) = true /\ tb (mk l) = agg z l)
    by (intros l D; destruct (Hmk l) as [-> ->]; auto).
  destruct (f_logic fl); [|destruct cs'; cbn [fst]; auto].
  destruct (existsb (fun c => eq_str c (lit z)) cs') eqn:Ex.
  - cbn [fst]. apply existsb_exists in Ex as [c [Hin Ec]]. rewrite (shape_lit _ _ z Hshape Hin Ec) in Hin.
    rewrite (agg_absorb z cs' Hin). split; reflexivity.
  - destruct (filter_neutral z cs' Hshape Cd) as [F1 <-].
    destruct (filter (fun c => negb (eq_str c (lit (negb z)))) cs'); cbn [fst]; auto.
Qed.

(** the [SAnd] / [SOr] case of the mapper *)
Lemma junct_step_sound rec z mk fl cs r : rec_ok rec ->
  (forall l, df (mk l) = false /\ dfb (mk l) = forallb dfb l /\ tb (mk l) = agg z l) ->
  rbind (rmapb rec cs) (fun r0 => Ok (simp_junct z mk fl (fst r0) (snd r0))) = Ok (r, true) -> sound (mk cs) r.
Proof.
  intros Hr Hmk H. apply rbind_ok in H as ([cs' s0] & R & H). cbn [fst snd] in H. injection H as E.
  destruct (simp_junct_sound z mk fl cs cs' s0 r (fun l => proj2 (Hmk l)) E) as [-> B].
  destruct (Hmk cs) as (Z0 & D & T). split; [apply zsound_nonint, Z0|]. rewrite <- D, <- T in B.
  exact (B (rmapb_sound _ _ Hr _ R)).
Qed.

Lemma simp_not_sound fl c c' s r : simp_not fl c' s = (r, true) ->
  s = true /\ (sound c c' -> bsound (SNot c) r).
Proof.
  intros E. pose proof (f_equal snd E) as Hs. rewrite simp_not_flag in Hs. apply andb_true_iff in Hs as [-> Hshape].
  split; [reflexivity|]. intros [_ Hc] Hd. cbn [P_C08_sem.dfb P_C08_sem.tb] in *.
  destruct (Hc Hd) as [Cd Cv]. rewrite <- Cv. apply (f_equal fst) in E. cbn [fst] in E. subst r.
  unfold simp_not. destruct (f_logic fl); [|cbn [fst P_C08_sem.dfb P_C08_sem.tb]; auto].
  destruct (eq_str c' "true") eqn:E1; [|destruct (eq_str c' "false") eqn:E2].
  - rewrite (shape_lit _ _ true Hshape (or_introl eq_refl) E1). split; reflexivity.
  - rewrite (shape_lit _ _ false Hshape (or_introl eq_refl) E2). split; reflexivity.
  - cbn [fst P_C08_sem.dfb P_C08_sem.tb]. auto.
Qed.

(** the re-application loop [if new_expr != expr: rec(new_expr)] *)
Lemma reapply_sound rec e s0 new r : rec_ok rec -> (s0 = true -> snd new = true -> zsound e (fst new)) ->
  dfb e = false -> reapply rec e s0 new = Ok (r, true) -> sound e r.
Proof.
  intros Hr Hz Hb. unfold reapply. destruct (loki_eq (fst new) e); [intros [= <-]; apply sound_refl|].
  intros H. apply rbind_ok in H as ([r' s'] & R & H). cbn [fst snd] in H.
  injection H as <- Hs. apply andb_true_iff in Hs as [Hs ->]. apply andb_true_iff in Hs as [H0 H1].
  split; [|apply bsound_nonlog; assumption].
  eapply zsound_trans; [apply Hz; assumption|apply (Hr _ _ R)].
Qed.

(** the [SSum] / [SProd] case of the mapper: children, pipeline [pipe], re-application *)
Lemma nary_step_sound rec pipe (mk : kls -> list sx -> sx) k cs r : rec_ok rec -> dfb (mk k cs) = false ->
  (forall cs', Forall2 sound cs cs' -> zsound (mk k cs) (mk KL cs')) ->
  (forall x y, pipe x = Ok (y, true) -> zsound x y) ->
  rbind (rmapb rec cs) (fun r0 => rbind (pipe (mk KL (fst r0))) (fun r => reapply rec (mk k cs) (snd r0) r)) = Ok (r, true) ->
  sound (mk k cs) r.
Proof.
  intros Hr Hb Hc Hp H. apply rbind_ok in H as ([cs' s0] & R & H). apply rbind_ok in H as ([new s1] & P & H).
  cbn [fst snd] in *. revert H. apply reapply_sound; [assumption| |exact Hb]. cbn [fst snd]. intros -> ->.
  exact (zsound_trans _ _ _ _ (Hc _ (rmapb_sound _ _ Hr _ R)) (Hp _ _ P)).
Qed.

Lemma simp_step_sound fl wf rec : rec_ok rec -> rec_ok (simp_step fl wf rec).
Proof.
  intros Hr e r. destruct e; cbn [simp_step]; try (intros [= <-]; apply sound_refl); intros H.
  - refine (nary_step_sound rec (pipeline_sum fl wf) SSum k cs r Hr eq_refl _ (pipeline_sum_sound fl wf) H).
    intros cs' F Hd. destruct (children_z _ _ F Hd) as [A [B _]]. split; assumption.
  - refine (nary_step_sound rec (pipeline_prod fl wf) SProd k cs r Hr eq_refl _ (pipeline_prod_sound fl wf) H).
    intros cs' F Hd. destruct (children_z _ _ F Hd) as [A [_ [B _]]]. split; assumption.
  - apply rbind_ok in H as ([n' sn] & Rn & H). apply rbind_ok in H as ([d' sd] & Rd & H).
    apply rbind_ok in H as ([new s1] & P & H). cbn [fst snd] in *.
    revert H. apply reapply_sound; [assumption| |reflexivity].
    cbn [fst snd]. intros Hs ->. apply andb_true_iff in Hs as [-> ->].
    eapply zsound_trans; [|apply (pipeline_quot_sound _ _ _ _ P)].
    destruct (Hr _ _ Rn) as [Zn _]. destruct (Hr _ _ Rd) as [Zd _].
    intros Hd. apply df_quot_true in Hd as (Hd1 & Hd2 & Hz).
    destruct (Zn Hd1) as [Nd Nv]. destruct (Zd Hd2) as [Dd Dv].
    split; [apply df_quot_true; rewrite Dv; auto|cbn [P_C08_sem.tv]; congruence].
  - apply rbind_ok in H as ([b' sb] & Rb & H). apply rbind_ok in H as ([x' sx] & Rx & H). cbn [fst snd] in *.
    injection H as <- Hs. apply andb_true_iff in Hs as [-> ->].
    destruct (Hr _ _ Rb) as [Zb _]. destruct (Hr _ _ Rx) as [Zx _].
    split; [|apply bsound_nonlog; reflexivity].
    eapply zsound_trans; [|apply simp_pow_sound].
    intros Hd. cbn [P_C08_sem.df] in Hd. apply andb_true_iff in Hd as [Hd Hz]. apply andb_true_iff in Hd as [Hd1 Hd2].
    destruct (Zb Hd1) as [Bd Bv]. destruct (Zx Hd2) as [Xd Xv].
    cbn [P_C08_sem.df P_C08_sem.tv]. rewrite Bd, Xd, Bv, Xv, Hz. auto.
  - apply rbind_ok in H as ([l' sl] & Rl & H). apply rbind_ok in H as ([r' sr] & Rr & H). cbn [fst snd] in *.
    assert (Hs : sl && sr = true).
    { unfold simp_cmp in H. destruct (f_logic fl && is_constant l' && is_constant r'); injection H as _ H; assumption. }
    apply andb_true_iff in Hs as [-> ->].
    destruct (Hr _ _ Rl) as [Zl _]. destruct (Hr _ _ Rr) as [Zr _].
    split; [apply zsound_nonint; reflexivity|]. eapply simp_cmp_sound; eassumption.
  - exact (junct_step_sound rec false SAnd fl cs r Hr (fun l => conj eq_refl (conj eq_refl eq_refl)) H).
  - exact (junct_step_sound rec true SOr fl cs r Hr (fun l => conj eq_refl (conj eq_refl eq_refl)) H).
  - apply rbind_ok in H as ([c' sc] & R & H). cbn [fst snd] in *. injection H as E.
    destruct (simp_not_sound _ e _ _ _ E) as [-> B].
    split; [apply zsound_nonint; reflexivity|apply B, Hr, R].
  - apply rbind_ok in H as ([args' s0] & R & H). cbn [fst snd] in *. injection H as <- ->.
    split; [|apply bsound_nonlog; reflexivity].
    intros Hd. cbn [P_C08_sem.df] in Hd. apply andb_true_iff in Hd as [Hd Hc].
    destruct (children_z _ _ (rmapb_sound _ _ Hr _ R) Hd) as [A [_ [_ M]]].
    cbn [P_C08_sem.df P_C08_sem.tv]. fold (alldf rho args'). rewrite A, M, Hc. auto.
Qed.

Theorem simp_sound fl wf fuel : rec_ok (simp_i fl wf fuel).
Proof.
  induction fuel as [|fu IH]; cbn [simp_i].
  - intros e r H. discriminate.
  - apply simp_step_sound. assumption.
Qed.

End Main.


(** [zsound] / [bsound] are the statements about the shared semantics *)
Lemma zsound_is_evalZ rho e e' : zsound rho e e' <->
  (forall v, evalZ rho (to_expr e) = Some v -> evalZ rho (to_expr e') = Some v).
Proof.
  unfold zsound. split.
  - intros H v Hv. apply evalZ_some in Hv as [Hd Ht]. apply evalZ_some. destruct (H Hd). split; congruence.
  - intros H Hd. specialize (H (tv rho e)). rewrite !evalZ_some in H. destruct H as [A B]; auto.
Qed.

Lemma bsound_evalB rho e e' : bsound rho e e' ->
  forall v, evalB rho (to_expr e) = Some v -> evalB rho (to_expr e') = Some v.
Proof. intros H v Hv. apply evalB_some in Hv as [Hd Ht]. apply evalB_some. destruct (H Hd). split; congruence. Qed.

(** whenever the instrumented model run ends without an unsafe step, for every fuel *)
Theorem simp_sound_any_fuel fl wf fuel e r : simp_i fl wf fuel (of_expr e) = Ok (r, true) ->
  forall rho, (forall v, evalZ rho e = Some v -> evalZ rho (to_expr r) = Some v) /\
              (forall v, evalB rho e = Some v -> evalB rho (to_expr r) = Some v).
Proof.
  intros S rho. destruct (simp_sound rho fl _ _ _ _ S) as [Z B].
  split; intros v; rewrite <- (to_of_expr e) at 1; [apply (proj1 (zsound_is_evalZ _ _ _) Z)|apply (bsound_evalB _ _ _ B)].
Qed.

(** [in_class] says that the run with the default fuel is such a run *)
Lemma in_class_run fl e : in_class fl e = true ->
  exists r, simp_i fl default_wf default_fuel (of_expr e) = Ok (r, true) /\ simplify fl e = Some (to_expr r).
Proof.
  unfold in_class, simplify, simplify_i. destruct (simp_i fl default_wf default_fuel (of_expr e)) as [[r s]| |]; try discriminate.
  cbn [fst snd]. intros ->. eauto.
Qed.

Theorem simplify_sound_Z_on_class fl e : in_class fl e = true ->
  exists e', simplify fl e = Some e' /\
    forall rho v, evalZ rho e = Some v -> evalZ rho e' = Some v.
Proof.
  intros H. destruct (in_class_run fl e H) as (r & S & E). exists (to_expr r). split; [exact E|].
  intros rho. apply (simp_sound_any_fuel _ _ _ _ _ S rho).
Qed.

Theorem simplify_sound_B_on_class fl e : in_class fl e = true ->
  exists e', simplify fl e = Some e' /\
    forall rho v, evalB rho e = Some v -> evalB rho e' = Some v.
Proof.
  intros H. destruct (in_class_run fl e H) as (r & S & E). exists (to_expr r). split; [exact E|].
  intros rho. apply (simp_sound_any_fuel _ _ _ _ _ S rho).
Qed.
