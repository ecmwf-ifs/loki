(** C08 — soundness of the helper functions of symbolic.py for truncating integer division
    (each helper preserves [tv] and definedness on the inputs where its guard holds). *)
From Coq Require Import ZArith List Bool String Lia.
From LV Require Import Base.Expr Base.ListFacts models.M_C08 proofs.P_C08_sem.
Import ListNotations.
Open Scope Z_scope.

Section Helpers.
Variable rho : env.

(* the notations hide the constants: [cbn] lists have to name them as [P_C08_sem.tv], [P_C08_sem.df] *)
Notation tv := (tv rho).
Notation df := (df rho).
Notation sumv := (sumv rho).
Notation prodv := (prodv rho).
Notation alldf := (alldf rho).

Definition zsound (e e' : sx) : Prop := df e = true -> df e' = true /\ tv e' = tv e.

Lemma zsound_refl e : zsound e e. Proof. intros H; auto. Qed.
Lemma zsound_trans a b c : zsound a b -> zsound b c -> zsound a c.
Proof. intros H1 H2 Ha. destruct (H1 Ha) as [Hb E1]. destruct (H2 Hb) as [Hc E2]. split; congruence. Qed.

(** [e] is defined and its value is [v]: [zsound e e'] says [val e' (tv e)] whenever [e] is defined *)
Definition val (e : sx) (v : Z) : Prop := df e = true /\ tv e = v.

Lemma val_self e : df e = true -> val e (tv e).
Proof. split; auto. Qed.
Lemma val_eq e v w : val e v -> v = w -> val e w.
Proof. intros H <-. exact H. Qed.
Lemma val_quot p n d a b : val n a -> val d b -> b <> 0 -> val (SQuot p n d) (Z.quot a b).
Proof. intros [Hn <-] [Hd <-] Hb. split; [apply df_quot_true; auto|reflexivity]. Qed.

Lemma is_py_m1_spec c : is_py_m1 c = true -> c = SPy (-1).
Proof. destruct c; try discriminate. cbn. intros H. apply Z.eqb_eq in H. congruence. Qed.

Lemma is_m1_val c : is_m1 c = true -> val c (-1).
Proof. destruct c; try discriminate; cbn; intros H; apply Z.eqb_eq in H; (split; [reflexivity|exact H]). Qed.

Lemma neg_node k y : tv (SProd k [SPy (-1); y]) = - tv y /\ df (SProd k [SPy (-1); y]) = df y.
Proof.
  rewrite tv_prod, df_prod, !prodv_cons, !alldf_cons, prodv_nil, alldf_nil, andb_true_r.
  cbn [P_C08_sem.tv P_C08_sem.df andb]. split; [lia|reflexivity].
Qed.

Lemma neg_val k r v : val r v -> val (SProd k [SPy (-1); r]) (- v).
Proof. intros [Hd <-]. unfold val. destruct (neg_node k r) as [-> ->]. auto. Qed.

Lemma wrap_neg_val k r v : val r v -> val (wrap_neg k r) (sgn_of k * v).
Proof.
  intros H. induction k as [|k IH]; cbn [wrap_neg].
  - eapply val_eq; [exact H|]. change (sgn_of 0) with 1. lia.
  - eapply val_eq; [apply neg_val, IH|]. rewrite sgn_of_S. lia.
Qed.

Lemma strip_spec e : is_minus_prefix e = true ->
  tv e = - tv (strip_minus_prefix e) /\ df e = df (strip_minus_prefix e).
Proof.
  destruct e as [| | | | |k [|c0 rest]| | | | | | |]; try discriminate.
  cbn [is_minus_prefix]. intros H. apply andb_true_iff in H as [_ H]. apply is_py_m1_spec in H as ->.
  destruct rest as [|c [|c' r]]; cbn [strip_minus_prefix]; [|apply neg_node|];
    rewrite !tv_prod, !df_prod, prodv_cons, alldf_cons; cbn [P_C08_sem.tv P_C08_sem.df andb]; (split; [lia|reflexivity]).
Qed.

Lemma peel_f_spec fuel : forall e k c, peel_f fuel e = (k, c) ->
  tv e = sgn_of k * tv c /\ df e = df c.
Proof.
  assert (H0 : forall e, tv e = sgn_of 0 * tv e /\ df e = df e)
    by (intros; change (sgn_of 0) with 1; split; [lia|reflexivity]).
  induction fuel as [|f IH]; intros e k c; cbn [peel_f]; [intros [= <- <-]; apply H0|].
  destruct (is_minus_prefix e) eqn:E; [|intros [= <- <-]; apply H0].
  destruct (peel_f f (strip_minus_prefix e)) as [n x] eqn:P. intros [= <- <-].
  destruct (strip_spec e E) as [-> ->]. destruct (IH _ _ _ P) as [-> ->]. rewrite sgn_of_S. split; [lia|reflexivity].
Qed.

Lemma peel_spec e k c : peel e = (k, c) -> tv e = sgn_of k * tv c /\ df e = df c.
Proof. apply peel_f_spec. Qed.

Lemma truthy_false e : df e = true -> truthy e = false -> tv e = 0.
Proof.
  induction e as [v|v| | |k cs IHcs|k cs IHcs|p n d IHn _| | | | | |] using sx_ind'; cbn [truthy]; try discriminate.
  - cbn. intros _ H. apply negb_false_iff, Z.eqb_eq in H. assumption.
  - cbn. intros _ H. apply negb_false_iff, Z.eqb_eq in H. assumption.
  - destruct cs as [|c [|c' r]]; try discriminate. intros Hd Ht.
    inversion IHcs as [|? ? Hc _]; subst. rewrite df_sum in Hd. apply alldf_cons_true in Hd as [Hd _].
    rewrite tv_sum, sumv_cons, sumv_nil, (Hc Hd Ht). lia.
  - rewrite df_prod, tv_prod. induction IHcs as [|c cs Hc _ IH]; [discriminate|].
    rewrite alldf_cons_true, prodv_cons. cbn [forallb]. intros [Hd Hds] Ht.
    destruct (truthy c); [rewrite (IH Hds Ht)|rewrite (Hc Hd eq_refl)]; lia.
  - intros Hd Ht. apply df_quot_true in Hd as [Hd _]. cbn [P_C08_sem.tv]. rewrite (IHn Hd Ht). reflexivity.
Qed.

Lemma is_py_some e a : is_py e = Some a -> e = SPy a.
Proof. destruct e; try discriminate. cbn. congruence. Qed.
Lemma prod_children_spec e cs : prod_children e = Some cs -> df e = true -> alldf cs = true /\ prodv cs = tv e.
Proof. destruct e; try discriminate. intros [= <-] H. split; [exact H|reflexivity]. Qed.

Lemma single_spec e : df e = true -> alldf [e] = true /\ prodv [e] = tv e.
Proof. intros H. rewrite alldf_cons, prodv_cons, prodv_nil, H. split; [reflexivity|lia]. Qed.

Lemma val_prod_app k l1 l2 a b :
  alldf l1 = true /\ prodv l1 = a -> alldf l2 = true /\ prodv l2 = b -> val (SProd k (l1 ++ l2)) (a * b).
Proof.
  intros [D1 <-] [D2 <-]. split; [rewrite df_prod, alldf_app, D1, D2; reflexivity|rewrite tv_prod; apply prodv_app].
Qed.

(** every product it builds is the concatenation of the factors of [x] (its children, or [x] itself) and of [y] *)
Lemma py_mul_spec x y : df x = true -> df y = true -> val (py_mul x y) (tv x * tv y).
Proof.
  intros Hx Hy. unfold py_mul. pose proof (single_spec x Hx) as Sx. pose proof (single_spec y Hy) as Sy.
  assert (Z0 : truthy y = false -> val (SPy 0) (tv x * tv y))
    by (intros T; rewrite (truthy_false y Hy T), Z.mul_0_r; split; reflexivity).
  assert (One : forall e v, df e = true -> v = 1 -> val e (tv e * v) /\ val e (v * tv e))
    by (intros e v He ->; split; (split; [exact He|lia])).
  destruct (is_py x) as [a|] eqn:Ex.
  - apply is_py_some in Ex as ->. destruct (is_py y) as [b|] eqn:Ey; [apply is_py_some in Ey as ->; split; reflexivity|].
    destruct (Z.eqb_spec a 1) as [E|_]; [exact (proj2 (One y a Hy E))|].
    destruct (Z.eqb_spec a 0) as [->|_]; [split; reflexivity|].
    destruct (prod_children y) as [ys|] eqn:Py.
    + exact (val_prod_app KN [SPy a] ys _ _ Sx (prod_children_spec _ _ Py Hy)).
    + exact (val_prod_app KN [SPy a] [y] _ _ Sx Sy).
  - destruct (match is_py y with Some b => b =? 1 | None => false end) eqn:E1.
    + destruct (is_py y) as [b|] eqn:Ey; [|discriminate]. apply is_py_some in Ey as ->.
      exact (proj1 (One x b Hx (proj1 (Z.eqb_eq _ _) E1))).
    + clear E1. destruct (prod_children x) as [xs|] eqn:Px; [destruct (prod_children y) as [ys|] eqn:Py|].
      * exact (val_prod_app KN xs ys _ _ (prod_children_spec _ _ Px Hx) (prod_children_spec _ _ Py Hy)).
      * destruct (truthy y); [exact (val_prod_app KN xs [y] _ _ (prod_children_spec _ _ Px Hx) Sy)|auto].
      * destruct (truthy y); [exact (val_prod_app KN [x] [y] _ _ Sx Sy)|auto].
Qed.

Lemma prod_node_val (l : list sx) : alldf l = true ->
  val (match l with [] => SInt 1 | [x] => x | _ => SProd KL l end) (prodv l).
Proof.
  intros H. destruct l as [|x [|y r]]; [split; reflexivity| |split; [exact H|reflexivity]].
  apply alldf_cons_true in H as [H _]. split; [exact H|]. rewrite prodv_cons, prodv_nil. lia.
Qed.

Lemma sum_node_val (l : list sx) : alldf l = true ->
  val (match l with [] => SInt 0 | [x] => x | _ => SSum KL l end) (sumv l).
Proof.
  intros H. destruct l as [|x [|y r]]; [split; reflexivity| |split; [exact H|reflexivity]].
  apply alldf_cons_true in H as [H _]. split; [exact H|]. rewrite sumv_cons, sumv_nil. lia.
Qed.

(** the same node when the model's last branch binds the whole list ([| l => SSum KL l]) *)
Lemma sum_node_val_bound (l : list sx) : alldf l = true ->
  val (match l with [] => SInt 0 | [x] => x | x :: y :: r => SSum KL (x :: y :: r) end) (sumv l).
Proof. intros H. pose proof (sum_node_val l H) as G. destruct l as [|x [|y r]]; exact G. Qed.

(** value and definedness of the list [done] of partial products kept by the loop of distribute_product *)
Definition dpv (done : list (list sx)) : Z := fold_right (fun l a => prodv l + a) 0 done.
Definition dpd (done : list (list sx)) : bool := forallb alldf done.

Lemma dpv_cons l done : dpv (l :: done) = prodv l + dpv done. Proof. reflexivity. Qed.
Lemma dpv_app a b : dpv (a ++ b) = dpv a + dpv b.
Proof. induction a as [|x a IH]; cbn [app]; [reflexivity|]. rewrite !dpv_cons, IH. lia. Qed.
Lemma dpd_app a b : dpd (a ++ b) = dpd a && dpd b.
Proof. unfold dpd. apply forallb_app. Qed.

Lemma dpv_snoc done x : dpv (map (fun l => l ++ [x]) done) = dpv done * tv x.
Proof.
  induction done as [|l done IH]; [reflexivity|].
  cbn [map]. rewrite !dpv_cons, IH, prodv_app, prodv_cons, prodv_nil. lia.
Qed.
Lemma dpd_snoc done x : dpd done = true -> df x = true -> dpd (map (fun l => l ++ [x]) done) = true.
Proof.
  intros Hd Hx. induction done as [|l done IH]; [reflexivity|].
  cbn [map dpd forallb] in *. apply andb_true_iff in Hd as [Hl Hd].
  rewrite alldf_app, Hl, alldf_cons, Hx. cbn. apply IH. assumption.
Qed.
Lemma dpv_flat done cs : dpv (flat_map (fun c => map (fun l => l ++ [c]) done) cs) = dpv done * sumv cs.
Proof.
  induction cs as [|c cs IH]; cbn [flat_map]; [rewrite sumv_nil; cbn; lia|].
  rewrite dpv_app, dpv_snoc, IH, sumv_cons. lia.
Qed.
Lemma dpd_flat done cs : dpd done = true -> alldf cs = true ->
  dpd (flat_map (fun c => map (fun l => l ++ [c]) done) cs) = true.
Proof.
  intros Hd. induction cs as [|c cs IH]; cbn [flat_map]; [reflexivity|].
  rewrite alldf_cons_true. intros [Hc Hcs]. rewrite dpd_app, dpd_snoc, IH by assumption. reflexivity.
Qed.

(** what a quotient-free factor of value [v] (defined iff [d]) does to the state of the loop: the list of
    denominators stays, every partial product is multiplied by the factor *)
Definition dp_ext (v : Z) (d : bool) (st st' : list (list sx) * list sx) : Prop :=
  snd st' = snd st /\ dpv (fst st') = dpv (fst st) * v /\
  (dpd (fst st) = true -> d = true -> dpd (fst st') = true) /\ (fst st <> [] -> fst st' <> []).

Lemma dp_ext_refl st : dp_ext 1 true st st.
Proof. repeat split; auto; lia. Qed.

Lemma dp_ext_trans v w d e a b c : dp_ext v d a b -> dp_ext w e b c -> dp_ext (v * w) (d && e) a c.
Proof.
  intros (A1 & A2 & A3 & A4) (B1 & B2 & B3 & B4). repeat split; [congruence|rewrite B2, A2; lia| |auto].
  intros Hd He. apply andb_true_iff in He as [? ?]. auto.
Qed.

Lemma dp_ext_snoc item st : dp_ext (tv item) (df item) st (map (fun l => l ++ [item]) (fst st), snd st).
Proof.
  repeat split; cbn [fst snd]; [apply dpv_snoc|apply dpd_snoc|]. destruct (fst st); [congruence|discriminate].
Qed.

Definition dp_item_ok (item : sx) : Prop :=
  qfree item = true -> forall st, dp_ext (tv item) (df item) st (dp_process item st).

Lemma dp_fold_ext cs : Forall dp_item_ok cs -> forallb qfree cs = true -> forall st,
  dp_ext (prodv cs) (alldf cs) st (fold_left (fun s c => dp_process c s) cs st).
Proof.
  induction 1 as [|c cs Hc _ IH]; cbn [forallb fold_left]; intros Hq st; [apply dp_ext_refl|].
  apply andb_true_iff in Hq as [Hqc Hqs]. exact (dp_ext_trans _ _ _ _ _ _ _ (Hc Hqc st) (IH Hqs _)).
Qed.

Lemma dp_process_qfree item : dp_item_ok item.
Proof.
  induction item using sx_ind'; intros Hq st; cbn [dp_process]; try apply dp_ext_snoc.
  - destruct (Z.eqb_spec v 1) as [->|_]; [apply dp_ext_refl|apply dp_ext_snoc].
  - cbn [qfree] in Hq. destruct (is_KN k); [apply dp_ext_snoc|].
    destruct cs as [|c0 cs']; [discriminate|].
    repeat split; cbn [fst snd]; [rewrite tv_sum; apply dpv_flat|rewrite df_sum; apply dpd_flat|].
    destruct (fst st); [congruence|discriminate].
  - cbn [qfree] in Hq. destruct (is_KN k); [apply dp_ext_snoc|]. apply dp_fold_ext; assumption.
  - discriminate.
Qed.

Lemma prodv_filter_m1 comps :
  prodv comps = (if Nat.odd (List.length (filter is_m1 comps)) then -1 else 1)
                * prodv (filter (fun v => negb (is_m1 v)) comps).
Proof.
  induction comps as [|a comps IH]; [reflexivity|].
  cbn [filter]. rewrite prodv_cons, IH. destruct (is_m1 a) eqn:E; cbn [negb].
  - destruct (is_m1_val a E) as [_ ->]. cbn [List.length]. rewrite Nat.odd_succ, <- Nat.negb_odd.
    destruct (Nat.odd (List.length (filter is_m1 comps))); cbn [negb]; lia.
  - rewrite prodv_cons. lia.
Qed.

Lemma alldf_filter f comps : alldf comps = true -> alldf (filter f comps) = true.
Proof.
  induction comps as [|a comps IH]; [reflexivity|]. rewrite alldf_cons_true. intros [Ha Hc].
  cbn [filter]. destruct (f a); [rewrite alldf_cons, Ha|]; auto.
Qed.

Lemma dp_component_spec comps : alldf comps = true -> val (dp_component comps) (prodv comps).
Proof.
  intros H. unfold dp_component. cbv zeta. rewrite (prodv_filter_m1 comps).
  pose proof (prod_node_val _ (alldf_filter (fun v => negb (is_m1 v)) comps H)) as N.
  destruct (Nat.odd _); [eapply val_eq; [apply neg_val, N|lia]|eapply val_eq; [exact N|lia]].
Qed.

Lemma dp_sum_spec done : done <> [] -> dpd done = true ->
  val (match map dp_component done with [x] => x | ch => SSum KL ch end) (dpv done).
Proof.
  intros Hn Hd.
  assert (G : alldf (map dp_component done) = true /\ sumv (map dp_component done) = dpv done).
  { clear Hn. induction done as [|l done IH]; [split; reflexivity|].
    cbn [dpd forallb] in Hd. apply andb_true_iff in Hd as [Hl Hd].
    destruct (dp_component_spec l Hl) as [Cd Cv]. destruct (IH Hd) as [Id Iv].
    cbn [map]. rewrite alldf_cons, sumv_cons, Cd, Cv, Id, Iv. split; reflexivity. }
  destruct G as [Gd Gv]. destruct done as [|l1 [|l2 r]]; [congruence| |]; cbn [map] in *.
  - apply alldf_cons_true in Gd as [Gd _]. rewrite sumv_cons, sumv_nil in Gv. split; [assumption|lia].
  - split; assumption.
Qed.

(** the two matches at the end of distribute_product build [dp_retval] of one numerator *)
Lemma dp_result_eq done den : done <> [] ->
  match done with
  | [] => dp_retval (SInt 1) den
  | _ => match map dp_component done with [x] => dp_retval x den | ch => dp_retval (SSum KL ch) den end
  end = dp_retval (match map dp_component done with [x] => x | ch => SSum KL ch end) den.
Proof. destruct done as [|l [|l' r]]; [congruence|reflexivity|reflexivity]. Qed.

Lemma distribute_product_sound e : dp_safe e = true -> zsound e (distribute_product e).
Proof.
  intros Hs Hd. destruct e as [| | | | |k cs| | | | | | |]; try (split; [assumption|reflexivity]).
  cbn [distribute_product]. destruct (is_KN k) eqn:K; [split; [assumption|reflexivity]|].
  change (val (let (done, den) := dp_children cs in
               match done with
               | [] => dp_retval (SInt 1) den
               | _ => match map dp_component done with [x] => dp_retval x den | ch => dp_retval (SSum KL ch) den end
               end) (tv (SProd k cs))).
  rewrite df_prod in Hd. apply orb_true_iff in Hs as [Hq|Hs].
  - (* quotient-free: a ring identity *)
    cbn [qfree] in Hq. rewrite K in Hq.
    assert (Hall : Forall dp_item_ok cs) by (apply Forall_forall; intros; apply dp_process_qfree).
    pose proof (dp_fold_ext cs Hall Hq ([[]], []) : dp_ext _ _ _ (dp_children cs)) as (E1 & E2 & E3 & E4).
    destruct (dp_children cs) as [done den]. cbn [fst snd] in *. subst den.
    rewrite dp_result_eq by (apply E4; discriminate). cbn [dp_retval].
    eapply val_eq; [apply dp_sum_spec; [apply E4; discriminate|apply E3; [reflexivity|assumption]]|].
    rewrite E2, tv_prod. change (dpv [[]]) with 1. lia.
  - (* (-1) * (n / d) with quotient-free n: the sign is moved into the numerator *)
    destruct cs as [|u [|[| | | | | |p n d| | | | | |] [|]]]; try discriminate.
    rewrite K in Hs. cbn [negb andb] in Hs. apply andb_true_iff in Hs as [Hu Hq].
    destruct (is_m1_val u Hu) as [Ud Uv].
    rewrite !alldf_cons_true, df_quot_true in Hd. destruct Hd as (_ & (Hn & Hdd & Hz) & _).
    assert (Hqu : qfree u = true) by (destruct u; try discriminate; reflexivity).
    pose proof (dp_process_qfree u Hqu ([[]], [])) as (A1 & A2 & A3 & A4).
    unfold dp_children. cbn [fold_left dp_process].
    set (st1 := dp_process u ([[]], [])) in *.
    pose proof (dp_process_qfree n Hq (fst st1, snd st1 ++ [d])) as (B1 & B2 & B3 & B4).
    destruct (dp_process n (fst st1, snd st1 ++ [d])) as [done den]. cbn [fst snd] in *.
    rewrite A1 in B1. cbn [app] in B1. subst den.
    assert (Hne : done <> []) by (apply B4, A4; discriminate).
    rewrite dp_result_eq by exact Hne. cbn [dp_retval].
    eapply val_eq; [apply val_quot; [apply dp_sum_spec; [exact Hne|]|apply val_self, Hdd|exact Hz]|].
    + apply B3; [apply A3; [reflexivity|exact Ud]|exact Hn].
    + rewrite B2, A2, Uv, tv_prod, !prodv_cons, prodv_nil, Uv. change (dpv [[]]) with 1. cbn [P_C08_sem.tv].
      replace (1 * -1 * tv n) with (- tv n) by lia. rewrite Z.quot_opp_l by assumption. lia.
Qed.

Definition dq_ok (r : sx * bool) (n d : sx) : Prop :=
  snd r = true -> df n = true -> df d = true -> tv d <> 0 -> val (fst r) (Z.quot (tv n) (tv d)).

(** the items stand for summands of the numerator that add up to [total].  [dq_finish] is safe only for
    exactly one item, so nothing needs to be known about two or more: a single safe item has the value
    [total / dc], no item means [total = 0] *)
Definition items_ok (dc : sx) (items : list (sx * bool)) (total : Z) : Prop :=
  match items with
  | [] => total = 0
  | [it] => snd it = true -> val (fst it) (Z.quot total (tv dc))
  | _ => True
  end.

Lemma items_ok_app dc a b ta tb : items_ok dc a ta -> items_ok dc b tb -> items_ok dc (a ++ b) (ta + tb).
Proof.
  destruct a as [|x [|y a]]; cbn [app items_ok]; [intros -> H; exact H| |trivial].
  destruct b; cbn [app items_ok]; [intros H ->; rewrite Z.add_0_r; exact H|trivial].
Qed.

Lemma items_ok_single dc m : df m = true -> df dc = true -> tv dc <> 0 ->
  items_ok dc [(SQuot false m dc, true)] (tv m).
Proof. intros Hm Hd Hz _. apply val_quot; auto using val_self. Qed.

Lemma dq_items_spec rec dc : (forall x y, dq_ok (rec x y) x y) -> df dc = true -> tv dc <> 0 ->
  forall m, df m = true -> items_ok dc (dq_items rec dc m) (tv m).
Proof.
  intros Hrec Hd Hz. induction m as [v| | | |k cs IHcs| |p x y _ _| | | | | |] using sx_ind'; intros Hm; cbn [dq_items];
    try (apply items_ok_single; assumption).
  - destruct (Z.eqb_spec v 0) as [->|_]; [reflexivity|apply items_ok_single; assumption].
  - destruct (is_KN k); [apply items_ok_single; assumption|].
    rewrite tv_sum. rewrite df_sum in Hm. induction IHcs as [|c cs Hc _ IH]; cbn [flat_map]; [reflexivity|].
    apply alldf_cons_true in Hm as [Hm1 Hm2]. rewrite sumv_cons. apply items_ok_app; auto.
  - (* (x / y) / dc = x / (y * dc) *)
    apply df_quot_true in Hm as (Hx & Hy & Hnz). destruct (py_mul_spec y dc Hy Hd) as [Pd Pv].
    intros Hs. eapply val_eq; [apply (Hrec x (py_mul y dc) Hs Hx Pd); rewrite Pv; lia|].
    rewrite Pv. cbn [P_C08_sem.tv]. rewrite Z.quot_quot by assumption. reflexivity.
Qed.

Lemma dq_finish_spec kd dc items total : items_ok dc items total -> snd (dq_finish kd items) = true ->
  val (fst (dq_finish kd items)) (sgn_of kd * Z.quot total (tv dc)).
Proof.
  unfold dq_finish. cbn [fst snd]. intros Hi Hs. apply andb_true_iff in Hs as [Hl Ha].
  destruct items as [|[r s] [|? ?]]; try discriminate. cbn [forallb snd] in Ha. rewrite andb_true_r in Ha.
  apply wrap_neg_val. exact (Hi Ha).
Qed.

Lemma dq_spec fuel : forall n d, dq_ok (dq fuel n d) n d.
Proof.
  induction fuel as [|f IH]; intros n d; cbn [dq]; [intros H; discriminate|].
  destruct (is_minus_prefix n) eqn:E.
  - intros Hs Hn Hd Hz. unfold neg_r in *. cbn [fst snd] in *.
    destruct (strip_spec n E) as [Sv Sd]. rewrite Sd in Hn. rewrite Sv, Z.quot_opp_l by assumption.
    apply neg_val. exact (IH _ _ Hs Hn Hd Hz).
  - destruct (peel d) as [kd dc] eqn:P. intros Hs Hn Hd Hz.
    destruct (peel_spec d kd dc P) as [Pv Pd]. rewrite Pd in Hd. rewrite Pv in *.
    assert (Hz' : tv dc <> 0) by (intros C; apply Hz; rewrite C; lia).
    rewrite quot_sgn_r by (auto using sgn_of_cases).
    apply dq_finish_spec; [apply dq_items_spec; assumption|exact Hs].
Qed.

Lemma distribute_quotient_sound fuel e :
  snd (distribute_quotient_i fuel e) = true -> zsound e (fst (distribute_quotient_i fuel e)).
Proof.
  destruct e; cbn [distribute_quotient_i fst snd]; try (intros _; apply zsound_refl).
  intros Hs Hd. apply df_quot_true in Hd as (Hd1 & Hd2 & Hz). exact (dq_spec fuel e1 e2 Hs Hd1 Hd2 Hz).
Qed.

(** the flag only ever goes down, so a safe end means every step was safe *)
Lemma flat_loop_spec wf : forall q dr s l, flat_loop wf q dr s = Ok (l, true) ->
  s = true /\ (alldf q = true -> alldf dr = true -> alldf l = true /\ sumv l = sumv q + sumv dr).
Proof.
  induction wf as [|wf IH]; intros q dr s l; destruct q as [|item q]; cbn [flat_loop]; try discriminate;
    try (intros [= <- ->]; split; [reflexivity|]; intros _ Hd; rewrite alldf_rev, sumv_rev, sumv_nil; split; [assumption|lia]).
  rewrite alldf_cons_true, sumv_cons. destruct (truthy item) eqn:T; cbn [negb]; intros H.
  2:{ destruct (IH _ _ _ _ H) as [Hs G]. split; [exact Hs|]. intros [Hi Hq] Hd. destruct (G Hq Hd) as [B C].
      rewrite (truthy_false item Hi T). split; [assumption|lia]. }
  set (it1 := if lprod item then distribute_product item else item) in *.
  set (s1 := if lprod item then dp_safe item else true) in *.
  set (r2 := distribute_quotient_i (S wf) it1) in *.
  (* whatever the rest of the loop is, it runs with the flag [s && s1 && snd r2] *)
  assert (Hstep : forall q' dr', flat_loop wf q' dr' (s && s1 && snd r2) = Ok (l, true) ->
            s = true /\ (df item = true -> val (fst r2) (tv item)) /\
            (alldf q' = true -> alldf dr' = true -> alldf l = true /\ sumv l = sumv q' + sumv dr')).
  { intros q' dr' H'. destruct (IH _ _ _ _ H') as [Hf G].
    apply andb_true_iff in Hf as [Hf Hs2]. apply andb_true_iff in Hf as [Hs Hs1]. split; [exact Hs|]. split; [|exact G].
    assert (Z1 : zsound item it1).
    { subst it1 s1. destruct (lprod item); [apply distribute_product_sound; assumption|apply zsound_refl]. }
    exact (zsound_trans _ _ _ Z1 (distribute_quotient_sound _ _ Hs2)). }
  assert (Hother : flat_loop wf q (fst r2 :: dr) (s && s1 && snd r2) = Ok (l, true) ->
            s = true /\ (df item = true /\ alldf q = true -> alldf dr = true -> alldf l = true /\ sumv l = tv item + sumv q + sumv dr)).
  { intros H'. destruct (Hstep _ _ H') as (Hs & Hv & G). split; [exact Hs|]. intros [Hi Hq] Hd. destruct (Hv Hi) as [Sd Sv].
    destruct (G Hq) as [B C]; [rewrite alldf_cons, Sd, Hd; reflexivity|]. rewrite sumv_cons, Sv in C. split; [assumption|lia]. }
  destruct (fst r2) as [v|v|x|b|k cs|k cs|p n d|p b e|op a b|cs|cs|e|f args] eqn:F; try (apply Hother; assumption).
  destruct (is_KN k); [apply Hother; assumption|].
  (* a Loki sum: its children are put in front of the queue *)
  destruct (Hstep _ _ H) as (Hs & Hv & G). split; [exact Hs|]. intros [Hi Hq] Hd. destruct (Hv Hi) as [Sd Sv].
  rewrite df_sum in Sd. rewrite tv_sum in Sv.
  destruct (G ltac:(rewrite alldf_app, Sd, Hq; reflexivity) Hd) as [B C]. rewrite sumv_app, Sv in C. split; [assumption|lia].
Qed.

Lemma flatten_sound wf e r : flatten_i wf e = Ok (r, true) -> zsound e r.
Proof.
  unfold flatten_i. destruct (flat_loop wf [e] [] true) as [[l b]| |] eqn:F; cbn [rbind fst snd]; try discriminate.
  intros [= <- ->] Hd. destruct (flat_loop_spec _ _ _ _ _ F) as [_ G].
  destruct G as [B C]; [rewrite alldf_cons, Hd; reflexivity|reflexivity|].
  eapply val_eq; [apply sum_node_val_bound, B|]. rewrite C, sumv_cons, !sumv_nil. lia.
Qed.

Lemma sl_val_spec lit c w : sl_val lit c = Some w -> tv c = w.
Proof.
  unfold sl_val. destruct (peel c) as [k core] eqn:P. destruct (peel_spec c k core P) as [-> _].
  destruct core; try discriminate. destruct lit; [|discriminate]. cbn [P_C08_sem.tv].
  destruct k as [|k']; [intros [= <-]; change (sgn_of 0) with 1; lia|].
  destruct (v =? 0); [discriminate|]. intros [= <-]. reflexivity.
Qed.

Lemma sl_split_spec lit cs : forall v rem, sl_split lit cs = (v, rem) ->
  sumv cs = v + sumv rem /\ (alldf cs = true -> alldf rem = true).
Proof.
  induction cs as [|c cs IH]; cbn [sl_split]; intros v rem; [intros [= <- <-]; auto|].
  destruct (sl_split lit cs) as [v0 rem0]. destruct (IH _ _ eq_refl) as [Iv Id].
  rewrite sumv_cons, alldf_cons_true. destruct (sl_val lit c) as [w|] eqn:V; intros [= <- <-].
  - rewrite (sl_val_spec _ _ _ V). split; [lia|]. intros [_ Hd]. auto.
  - rewrite sumv_cons, alldf_cons_true. split; [lia|]. intros [Hc Hd]. auto.
Qed.

Lemma sum_literals_sound ia fp e : zsound e (sum_literals ia fp e).
Proof.
  destruct e; try apply zsound_refl. cbn [sum_literals]. destruct (is_KN k); [apply zsound_refl|].
  destruct (sl_split (ia || fp) cs) as [value rem] eqn:S. destruct (sl_split_spec _ _ _ _ S) as [Sv Sd].
  destruct (negb ia); [apply zsound_refl|]. intros Hd. rewrite df_sum in Hd. specialize (Sd Hd).
  eapply val_eq; [apply sum_node_val_bound|rewrite tv_sum, Sv].
  - destruct (value =? 0); [exact Sd|rewrite alldf_cons, Sd; reflexivity].
  - destruct (Z.eqb_spec value 0) as [->|_]; [lia|reflexivity].
Qed.

Definition opt_tv (o : option sx) : Z := match o with Some x => tv x | None => 1 end.
Definition opt_df (o : option sx) : bool := match o with Some x => df x | None => true end.

Lemma sc_process_spec lit c : forall w o, sc_process lit c = (w, o) ->
  tv c = w * opt_tv o /\ (df c = true -> opt_df o = true).
Proof.
  unfold sc_process. destruct (peel c) as [k core] eqn:P. destruct (peel_spec c k core P) as [-> ->].
  intros w o.
  assert (Hdef : (sgn_of k, Some core) = (w, o) ->
                 sgn_of k * tv core = w * opt_tv o /\ (df core = true -> opt_df o = true))
    by (intros [= <- <-]; cbn [opt_tv opt_df]; auto).
  destruct core; try exact Hdef; (destruct lit; [|exact Hdef]);
    intros [= <- <-]; cbn [opt_tv opt_df P_C08_sem.tv]; (split; [lia|auto]).
Qed.

Lemma sc_children_spec lit cs : forall v rem, sc_children lit cs = (v, rem) ->
  prodv cs = v * prodv rem /\ (alldf cs = true -> alldf rem = true).
Proof.
  induction cs as [|c cs IH]; cbn [sc_children]; intros v rem; [intros [= <- <-]; auto|].
  destruct (sc_children lit cs) as [v0 rem0]. destruct (IH _ _ eq_refl) as [Iv Id].
  destruct (sc_process lit c) as [w o] eqn:P. destruct (sc_process_spec lit c _ _ P) as [Pv Pd].
  intros [= <- <-]. rewrite prodv_cons, alldf_cons_true, Pv, Iv.
  destruct o as [x|]; cbn [opt_tv opt_df] in *.
  - rewrite prodv_cons, alldf_cons_true. split; [lia|]. intros [H1 H2]. auto.
  - split; [lia|]. intros [_ H2]. auto.
Qed.

Lemma separate_spec ia fp e : forall v rem, separate_coefficients ia fp e = (v, rem) ->
  tv e = v * prodv rem /\ (df e = true -> alldf rem = true).
Proof.
  unfold separate_coefficients. destruct (peel e) as [k core] eqn:P.
  destruct (peel_spec e k core P) as [-> ->]. intros v rem.
  assert (Hdef : forall v0 rem0, (1, [core]) = (v0, rem0) -> (sgn_of k * v0, rem0) = (v, rem) ->
                 sgn_of k * tv core = v * prodv rem /\ (df core = true -> alldf rem = true)).
  { intros v0 rem0 [= <- <-] [= <- <-].
    rewrite prodv_cons, prodv_nil, alldf_cons, alldf_nil, andb_true_r. split; [lia|auto]. }
  destruct core; try (apply Hdef; reflexivity).
  - destruct (ia || fp); [|apply Hdef; reflexivity].
    intros [= <- <-]. cbn [P_C08_sem.tv]. rewrite prodv_nil. split; [lia|auto].
  - destruct (is_KN k0); [apply Hdef; reflexivity|]. destruct (negb ia); [apply Hdef; reflexivity|].
    destruct (sc_children (ia || fp) cs) as [v0 rem0] eqn:S.
    destruct (sc_children_spec _ _ _ _ S) as [Sv Sd].
    intros [= <- <-]. rewrite tv_prod, df_prod, Sv. split; [lia|assumption].
Qed.

Lemma mul_literals_sound ia fp e : zsound e (mul_literals ia fp e).
Proof.
  unfold mul_literals. destruct (lprod e); [|apply zsound_refl].
  destruct (separate_coefficients ia fp e) as [v rem0] eqn:S.
  destruct (separate_spec ia fp e _ _ S) as [Sv Sd]. intros Hd. specialize (Sd Hd). rewrite Sv.
  destruct (Z.eqb_spec v 0) as [->|E0]; [split; reflexivity|].
  set (rem := if Z.abs v =? 1 then rem0 else SInt (Z.abs v) :: rem0).
  assert (Hr : alldf rem = true /\ prodv rem = Z.abs v * prodv rem0).
  { subst rem. destruct (Z.eqb_spec (Z.abs v) 1) as [->|_]; [split; [assumption|lia]|].
    rewrite alldf_cons, prodv_cons, Sd. split; reflexivity. }
  destruct Hr as [Rd Rv]. pose proof (prod_node_val rem Rd) as N.
  destruct (Z.ltb_spec v 0).
  - eapply val_eq; [apply neg_val, N|]. rewrite Rv. lia.
  - eapply val_eq; [exact N|]. rewrite Rv. lia.
Qed.

Lemma quot_div_cancel g a b c : (g | a) -> (g | b) -> b <> 0 ->
  Z.quot (a * c) b = Z.quot (a / g * c) (b / g).
Proof.
  intros [a' ->] [b' ->] Hb.
  assert (g <> 0 /\ b' <> 0) as [Hg Hb'] by (split; intros ->; lia).
  rewrite !Z.div_mul by assumption. replace (a' * g * c) with (a' * c * g) by lia.
  apply Z.quot_mul_cancel_r; assumption.
Qed.

Lemma quot_gcd_cancel a b : b <> 0 ->
  Z.quot a b = Z.quot (a / Z.gcd a b) (b / Z.gcd a b).
Proof.
  intros Hb. rewrite <- (Z.mul_1_r a) at 1. rewrite <- (Z.mul_1_r (a / Z.gcd a b)).
  apply quot_div_cancel; [apply Z.gcd_divide_l|apply Z.gcd_divide_r|exact Hb].
Qed.

Lemma div_exact_nz g b : (g | b) -> b <> 0 -> b / g <> 0.
Proof. intros [b' ->] Hb. rewrite Z.div_mul by (intros ->; lia). intros ->. lia. Qed.

Lemma quot_lit_val n2 d2 X : d2 <> 0 -> df n2 = true -> Z.quot (tv n2) d2 = X ->
  val (if d2 =? 1 then n2 else SQuot false n2 (SInt d2)) X.
Proof.
  intros Hz Hn <-. destruct (Z.eqb_spec d2 1) as [->|_].
  - rewrite Z.quot_1_r. apply val_self, Hn.
  - apply val_quot; [apply val_self, Hn|split; reflexivity|exact Hz].
Qed.

Lemma div_literals_sound fp e r : div_literals_i fp e = Ok (r, true) -> zsound e r.
Proof.
  destruct e as [| | | | | |p n d| | | | | |]; cbn [div_literals_i]; try (intros [= <-]; apply zsound_refl).
  destruct (peel n) as [kn nc] eqn:Pn. destruct (peel d) as [kd dc] eqn:Pd.
  destruct (peel_spec _ _ _ Pn) as [Nv Nd]. destruct (peel_spec _ _ _ Pd) as [Dv Dd].
  intros H Hdf. apply df_quot_true in Hdf as (Hd1 & Hd2 & Hz). rewrite Nd in Hd1. rewrite Dd in Hd2.
  assert (Hz' : tv dc <> 0) by (intros C; apply Hz; rewrite Dv, C; lia).
  (* the input is  sgn * (nc / dc)  for the cores; every result is [wrap_neg] of some [R] with value  nc / dc *)
  assert (Hval : tv (SQuot p n d) = sgn_of (kn + kd) * Z.quot (tv nc) (tv dc)).
  { cbn [P_C08_sem.tv]. rewrite Nv, Dv, sgn_of_add, quot_sgn_r, quot_sgn_l by (auto using sgn_of_cases). lia. }
  rewrite Hval.
  assert (W : forall R, val R (Z.quot (tv nc) (tv dc)) -> Ok (wrap_neg (kn + kd) R, true) = Ok (r, true) ->
              df r = true /\ tv r = sgn_of (kn + kd) * Z.quot (tv nc) (tv dc))
    by (intros R HR [= <-]; apply wrap_neg_val, HR).
  assert (Hcur : val (match (kn + kd)%nat with O => SQuot p n d | _ => SQuot false nc dc end) (Z.quot (tv nc) (tv dc))).
  { destruct (kn + kd)%nat eqn:K; [|apply val_quot; auto using val_self].
    assert (kn = O /\ kd = O) as [-> ->] by lia. change (sgn_of 0) with 1 in *.
    split; [apply df_quot_true; rewrite Nd, Dd; auto|cbn [P_C08_sem.tv]; f_equal; lia]. }
  destruct dc as [dv| | | | | | | | | | | |]; try (apply (W _ Hcur H)).
  cbn [P_C08_sem.tv] in *.
  assert (Hone : val (if dv =? 1 then nc else SQuot false nc (SInt dv)) (Z.quot (tv nc) dv))
    by (apply quot_lit_val; auto).
  destruct nc as [nv| | | |kk cs|kk cs| | | | | | |]; try (apply (W _ Hone H)).
  - destruct (Z.gcd nv dv =? 0); [discriminate|]. refine (W _ _ H). cbn [P_C08_sem.tv].
    apply quot_lit_val; [apply div_exact_nz; [apply Z.gcd_divide_r|exact Hz']|reflexivity|].
    symmetry. apply quot_gcd_cancel, Hz'.
  - (* product / literal: the gcd is cancelled against the coefficient of the product *)
    destruct (is_KN kk); [apply (W _ Hone H)|].
    destruct (separate_coefficients true fp (SProd kk cs)) as [v rem] eqn:S.
    destruct (Z.gcd v dv =? 0); [discriminate|].
    destruct (separate_spec true fp _ _ _ S) as [Sv Sd]. specialize (Sd Hd1).
    destruct (mul_literals_sound true fp (SProd KL (SInt (v / Z.gcd v dv) :: rem))) as [Md Mv];
      [rewrite df_prod, alldf_cons, Sd; reflexivity|].
    refine (W _ _ H). apply quot_lit_val; [apply div_exact_nz; [apply Z.gcd_divide_r|exact Hz']|exact Md|].
    rewrite Mv, Sv, tv_prod, prodv_cons. cbn [P_C08_sem.tv]. symmetry.
    apply quot_div_cancel; [apply Z.gcd_divide_l|apply Z.gcd_divide_r|exact Hz'].
Qed.

(** every test inside [sx_eqb] reflects an equality of the corresponding components; the list comparison is
    [ListFacts.list_eqb sx_eqb], by conversion *)
Lemma sx_eqb_eq a : forall b, sx_eqb a b = true -> a = b.
Proof.
  induction a using sx_ind'; intros []; try discriminate; cbn [sx_eqb]; intros E;
    repeat (apply andb_true_iff in E as [E ?]); f_equal;
    first [apply Z.eqb_eq | apply String.eqb_eq | apply Bool.eqb_prop | apply (ListFacts.list_eqb_eq sx_eqb _ H)
          | match goal with |- ?x = ?y :> kls => destruct x, y | |- ?x = ?y :> cmpop => destruct x, y end;
            (reflexivity || discriminate)
          | auto]; assumption.
Qed.

(** [key_eq] uses the model's own [M_C08.list_eqb], whose test is an argument of the fixpoint: it is not
    convertible to [ListFacts.list_eqb], so [ListFacts.list_eqb_eq] does not apply *)
Lemma list_sx_eqb_eq k : forall k', M_C08.list_eqb sx_eqb k k' = true -> k = k'.
Proof.
  induction k as [|a k IH]; intros [|b k']; cbn [list_eqb]; try discriminate; [reflexivity|].
  intros H. apply andb_true_iff in H as [H1 H2]. f_equal; [apply sx_eqb_eq; assumption|auto].
Qed.

(** value and definedness of the dictionary of accumulate_polynomial_terms: the sum of coefficient * key *)
Definition av (assoc : list (list sx * Z)) : Z :=
  fold_right (fun kf a => snd kf * prodv (fst kf) + a) 0 assoc.
Definition ad (assoc : list (list sx * Z)) : bool := forallb (fun kf => alldf (fst kf)) assoc.
Lemma av_cons k f r : av ((k, f) :: r) = f * prodv k + av r. Proof. reflexivity. Qed.
Lemma ad_cons k f r : ad ((k, f) :: r) = alldf k && ad r. Proof. reflexivity. Qed.

(** a safe update merged structurally equal keys only *)
Lemma acc_add_spec key v assoc : forall assoc', acc_add key v assoc = (assoc', true) ->
  av assoc' = av assoc + v * prodv key /\ (ad assoc = true -> alldf key = true -> ad assoc' = true).
Proof.
  induction assoc as [|[k f] r IH]; cbn [acc_add]; intros assoc'.
  - intros [= <-]. rewrite av_cons, ad_cons. cbn. split; [lia|]. intros _ ->. reflexivity.
  - destruct (key_eq k key).
    + intros [= <- E]. apply list_sx_eqb_eq in E. subst key.
      rewrite !av_cons, !ad_cons. split; [lia|auto].
    + destruct (acc_add key v r) as [r' s]. intros [= <- ->].
      destruct (IH _ eq_refl) as [Iv Id]. rewrite !av_cons, !ad_cons, Iv. split; [lia|].
      intros H1 H2. apply andb_true_iff in H1 as [-> H1]. cbn. auto.
Qed.

Lemma insert_key_spec x l :
  prodv (map snd (insert_key x l)) = tv (snd x) * prodv (map snd l) /\
  alldf (map snd (insert_key x l)) = df (snd x) && alldf (map snd l).
Proof.
  induction l as [|y l [IHv IHd]]; cbn [insert_key]; [split; reflexivity|].
  destruct (String.ltb (fst x) (fst y)); [split; reflexivity|].
  cbn [map]. rewrite !prodv_cons, !alldf_cons, IHv, IHd. split; [lia|].
  destruct (df (snd y)), (df (snd x)); reflexivity.
Qed.

Lemma sort_by_str_spec l : prodv (sort_by_str l) = prodv l /\ alldf (sort_by_str l) = alldf l.
Proof.
  unfold sort_by_str.
  assert (G : forall acc, prodv (map snd (fold_left (fun acc x => insert_key (str_of x, x) acc) l acc))
                          = prodv l * prodv (map snd acc) /\
                          alldf (map snd (fold_left (fun acc x => insert_key (str_of x, x) acc) l acc))
                          = alldf l && alldf (map snd acc)).
  { induction l as [|a l IH]; intros acc; cbn [fold_left].
    - rewrite prodv_nil. split; [lia|reflexivity].
    - destruct (IH (insert_key (str_of a, a) acc)) as [Iv Id].
      destruct (insert_key_spec (str_of a, a) acc) as [Kv Kd]. cbn [snd] in *.
      rewrite Iv, Id, Kv, Kd, prodv_cons, alldf_cons. split; [lia|].
      destruct (alldf l), (df a); reflexivity. }
  destruct (G []) as [-> ->]. cbn [map]. rewrite prodv_nil, alldf_nil, andb_true_r. split; [lia|reflexivity].
Qed.

(** the constant and the association list of the dictionary stand for the sum [total] of the items met so far *)
Definition acc_inv (st : acc_state) (total : Z) : Prop :=
  a_const st + av (a_assoc st) = total /\ ad (a_assoc st) = true.

(** a safe step from [st] to [st'] was safe before, and adds [v] to what the state stands for if [d] holds *)
Definition acc_step (v : Z) (d : bool) (st st' : acc_state) : Prop :=
  a_safe st' = true -> a_safe st = true /\ (d = true -> forall total, acc_inv st total -> acc_inv st' (total + v)).

Lemma acc_step_eq v w d e st st' : acc_step v d st st' -> v = w -> (e = true -> d = true) -> acc_step w e st st'.
Proof. intros S <- Hd H. destruct (S H) as [H1 H2]. auto. Qed.

Lemma acc_step_const st c d : acc_step c d st {| a_const := a_const st + c; a_assoc := a_assoc st; a_safe := a_safe st |}.
Proof. intros H. split; [exact H|]. intros _ total [I1 I2]. split; cbn [a_const a_assoc]; [lia|assumption]. Qed.

Lemma acc_step_add st key w as' s' : acc_add key w (a_assoc st) = (as', s') ->
  acc_step (w * prodv key) (alldf key) st {| a_const := a_const st; a_assoc := as'; a_safe := a_safe st && s' |}.
Proof.
  intros A H. cbn [a_safe] in H. apply andb_true_iff in H as [H1 ->]. split; [assumption|].
  destruct (acc_add_spec _ _ _ _ A) as [Av Ad]. intros Hk total [I1 I2].
  split; cbn [a_const a_assoc]; [rewrite Av; lia|auto].
Qed.

Lemma acc_item_spec st item : acc_step (tv item) (df item) st (acc_item st item).
Proof.
  unfold acc_item. destruct (lprod item).
  - destruct (separate_coefficients true false item) as [v rem] eqn:S.
    destruct (separate_spec true false item _ _ S) as [Sv Sd].
    destruct (Z.eqb_spec v 0) as [->|_]; [|destruct rem as [|r0 rem']].
    + intros H. split; [exact H|]. intros _ total [I1 I2]. split; cbn [a_const a_assoc]; [lia|assumption].
    + eapply acc_step_eq; [apply acc_step_const|rewrite Sv, prodv_nil; lia|auto].
    + destruct (acc_add (sort_by_str (r0 :: rem')) v (a_assoc st)) as [as' s'] eqn:A.
      destruct (sort_by_str_spec (r0 :: rem')) as [Tv Td].
      eapply acc_step_eq; [apply (acc_step_add _ _ _ _ _ A)|rewrite Tv; auto|rewrite Td; exact Sd].
  - destruct item;
      try (destruct (acc_add _ 1 (a_assoc st)) as [as' s'] eqn:A;
           eapply acc_step_eq; [apply (acc_step_add _ _ _ _ _ A)|rewrite prodv_cons, prodv_nil; lia|
                                intros Hd; rewrite alldf_cons, Hd; reflexivity]);
      (eapply acc_step_eq; [apply acc_step_const|reflexivity|auto]).
Qed.

Lemma acc_fold_spec items : forall st, acc_step (sumv items) (alldf items) st (fold_left acc_item items st).
Proof.
  induction items as [|it items IH]; intros st H; cbn [fold_left] in *.
  - split; [exact H|]. intros _ total I. rewrite sumv_nil, Z.add_0_r. exact I.
  - destruct (IH _ H) as [H1 H2]. destruct (acc_item_spec st it H1) as [H3 H4]. split; [exact H3|].
    intros Hd total I. apply andb_true_iff in Hd as [Hd1 Hd2]. rewrite sumv_cons, Z.add_assoc. auto.
Qed.

Lemma cc_coeff_spec f : alldf (cc_coeff f) = true /\ prodv (cc_coeff f) = f.
Proof.
  unfold cc_coeff. destruct (Z.eqb_spec f 1) as [->|_]; [split; reflexivity|].
  destruct (Z.eqb_spec f (-1)) as [->|_]; [split; reflexivity|].
  destruct (Z.ltb_spec f 0); rewrite ?prodv_cons, prodv_nil; cbn [P_C08_sem.tv]; split; try reflexivity; lia.
Qed.

Lemma cc_terms_spec assoc : ad assoc = true ->
  alldf (cc_terms assoc) = true /\ sumv (cc_terms assoc) = av assoc.
Proof.
  induction assoc as [|[base f] r IH]; cbn [cc_terms]; [split; reflexivity|].
  rewrite ad_cons, av_cons. intros H. apply andb_true_iff in H as [Hb Hr]. destruct (IH Hr) as [Id Iv].
  destruct (Z.eqb_spec f 0) as [->|_]; [split; [assumption|lia]|].
  destruct (cc_coeff_spec f) as [Cd Cv].
  assert (Hgen : alldf (SProd KL (cc_coeff f ++ base) :: cc_terms r) = true /\
                 sumv (SProd KL (cc_coeff f ++ base) :: cc_terms r) = f * prodv base + av r).
  { rewrite alldf_cons, sumv_cons, df_prod, tv_prod, alldf_app, prodv_app, Cd, Cv, Hb, Id, Iv. split; reflexivity. }
  destruct base as [|b [|b' base']]; try exact Hgen.
  destruct (Z.eqb_spec f 1) as [->|_]; [|exact Hgen].
  apply alldf_cons_true in Hb as [Hb _].
  rewrite alldf_cons, sumv_cons, Hb, Id, Iv, prodv_cons, prodv_nil. split; [reflexivity|lia].
Qed.

Lemma collect_sound e r : collect_i e = (r, true) -> zsound e r.
Proof.
  unfold collect_i, accumulate. intros [= <- Hs] Hd.
  set (items := if lsum e then match e with SSum _ cs => cs | _ => [e] end else [e]) in *.
  assert (Hitems : alldf items = true /\ sumv items = tv e).
  { assert (Hself : alldf [e] = true /\ sumv [e] = tv e)
      by (rewrite alldf_cons, sumv_cons, sumv_nil, Hd; split; [reflexivity|lia]).
    subst items. destruct e; try exact Hself. cbn [lsum]. destruct (negb (is_KN k)); [auto|exact Hself]. }
  destruct Hitems as [Hi1 Hi2].
  destruct (acc_fold_spec items _ Hs) as [_ Hf].
  destruct (Hf Hi1 0) as [I1 I2]. { split; reflexivity. }
  set (st := fold_left acc_item items {| a_const := 0; a_assoc := []; a_safe := true |}) in *.
  destruct (cc_terms_spec _ I2) as [Td Tv].
  set (c := a_const st) in *.
  set (pre := if c <? 0 then [SProd KL [SPy (-1); SInt (Z.abs c)]] else if 0 <? c then [SInt c] else []).
  assert (Hpre : alldf pre = true /\ sumv pre = c).
  { subst pre. destruct (Z.ltb_spec c 0); [|destruct (Z.ltb_spec 0 c)].
    - destruct (neg_node KL (SInt (Z.abs c))) as [Nv Nd].
      rewrite alldf_cons, sumv_cons, sumv_nil, Nv, Nd. cbn [P_C08_sem.tv P_C08_sem.df]. split; [reflexivity|lia].
    - split; [reflexivity|]. rewrite sumv_cons, sumv_nil. cbn [P_C08_sem.tv]. lia.
    - split; [reflexivity|]. rewrite sumv_nil. lia. }
  destruct Hpre as [Pd Pv].
  eapply val_eq; [apply sum_node_val; rewrite alldf_app, Pd, Td; reflexivity|].
  rewrite sumv_app, Pv, Tv. lia.
Qed.

End Helpers.
