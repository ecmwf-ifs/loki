(** C08 — semantics of the model trees [sx]: total value [tv] / definedness [df] (integers) and
    [tb] / [dfb] (logicals), their agreement with the shared [evalZ] / [evalB] through [to_expr], and the
    sign arithmetic of minus prefixes under truncating division ([sgn_of_*], [quot_sgn_*], [quot_neg_both]). *)
From Coq Require Import ZArith List Bool String Lia.
From LV Require Import Base.Expr models.M_C08.
Import ListNotations.
Open Scope Z_scope.

(** induction principle through the nested lists *)
Section sx_ind'.
  Variable P : sx -> Prop.
  Hypothesis HInt : forall v, P (SInt v).
  Hypothesis HPy : forall v, P (SPy v).
  Hypothesis HVar : forall x, P (SVar x).
  Hypothesis HLog : forall b, P (SLog b).
  Hypothesis HSum : forall k cs, Forall P cs -> P (SSum k cs).
  Hypothesis HProd : forall k cs, Forall P cs -> P (SProd k cs).
  Hypothesis HQuot : forall p n d, P n -> P d -> P (SQuot p n d).
  Hypothesis HPow : forall p b e, P b -> P e -> P (SPow p b e).
  Hypothesis HCmp : forall op l r, P l -> P r -> P (SCmp op l r).
  Hypothesis HAnd : forall cs, Forall P cs -> P (SAnd cs).
  Hypothesis HOr : forall cs, Forall P cs -> P (SOr cs).
  Hypothesis HNot : forall e, P e -> P (SNot e).
  Hypothesis HCall : forall f args, Forall P args -> P (SCall f args).

  Fixpoint sx_ind' (e : sx) : P e :=
    let fix go (l : list sx) : Forall P l :=
      match l with
      | [] => Forall_nil P
      | x :: r => Forall_cons x (sx_ind' x) (go r)
      end in
    match e with
    | SInt v => HInt v
    | SPy v => HPy v
    | SVar x => HVar x
    | SLog b => HLog b
    | SSum k cs => HSum k cs (go cs)
    | SProd k cs => HProd k cs (go cs)
    | SQuot p n d => HQuot p n d (sx_ind' n) (sx_ind' d)
    | SPow p b x => HPow p b x (sx_ind' b) (sx_ind' x)
    | SCmp op l r => HCmp op l r (sx_ind' l) (sx_ind' r)
    | SAnd cs => HAnd cs (go cs)
    | SOr cs => HOr cs (go cs)
    | SNot x => HNot x (sx_ind' x)
    | SCall f args => HCall f args (go args)
    end.
End sx_ind'.

Definition powv (a n : Z) : Z := if 0 <=? n then a ^ n else Z.quot 1 (a ^ (- n)).
Definition call_opt (rho : env) (f : string) (vs : list Z) : option Z :=
  match intrinsic f vs with Some r => r | None => ev_fun rho f vs end.
Definition callv (rho : env) (f : string) (vs : list Z) : Z :=
  match call_opt rho f vs with Some v => v | None => 0 end.
Definition calld (rho : env) (f : string) (vs : list Z) : bool :=
  match call_opt rho f vs with Some _ => true | None => false end.

Fixpoint tv (rho : env) (s : sx) : Z :=
  match s with
  | SInt v | SPy v => v
  | SVar x => ev_var rho x
  | SSum _ cs => fold_right (fun c a => tv rho c + a) 0 cs
  | SProd _ cs => fold_right (fun c a => tv rho c * a) 1 cs
  | SQuot _ n d => Z.quot (tv rho n) (tv rho d)
  | SPow _ b x => powv (tv rho b) (tv rho x)
  | SCall f args => callv rho f (map (tv rho) args)
  | _ => 0
  end.

Fixpoint df (rho : env) (s : sx) : bool :=
  match s with
  | SInt _ | SPy _ | SVar _ => true
  | SSum _ cs | SProd _ cs => forallb (df rho) cs
  | SQuot _ n d => df rho n && df rho d && negb (tv rho d =? 0)
  | SPow _ b x => df rho b && df rho x && ((0 <=? tv rho x) || negb (tv rho b =? 0))
  | SCall f args => forallb (df rho) args && calld rho f (map (tv rho) args)
  | _ => false
  end.

Fixpoint tb (rho : env) (s : sx) : bool :=
  match s with
  | SLog b => b
  | SCmp op l r => cmp_z op (tv rho l) (tv rho r)
  | SAnd cs => forallb (tb rho) cs
  | SOr cs => existsb (tb rho) cs
  | SNot x => negb (tb rho x)
  | _ => false
  end.

Fixpoint dfb (rho : env) (s : sx) : bool :=
  match s with
  | SLog _ => true
  | SCmp _ l r => df rho l && df rho r
  | SAnd cs | SOr cs => forallb (dfb rho) cs
  | SNot x => dfb rho x
  | _ => false
  end.

Definition sumv (rho : env) (cs : list sx) : Z := fold_right (fun c a => tv rho c + a) 0 cs.
Definition prodv (rho : env) (cs : list sx) : Z := fold_right (fun c a => tv rho c * a) 1 cs.
Definition alldf (rho : env) (cs : list sx) : bool := forallb (df rho) cs.

Lemma tv_sum rho k cs : tv rho (SSum k cs) = sumv rho cs. Proof. reflexivity. Qed.
Lemma tv_prod rho k cs : tv rho (SProd k cs) = prodv rho cs. Proof. reflexivity. Qed.
Lemma df_sum rho k cs : df rho (SSum k cs) = alldf rho cs. Proof. reflexivity. Qed.
Lemma df_prod rho k cs : df rho (SProd k cs) = alldf rho cs. Proof. reflexivity. Qed.

Lemma sumv_cons rho c cs : sumv rho (c :: cs) = tv rho c + sumv rho cs. Proof. reflexivity. Qed.
Lemma prodv_cons rho c cs : prodv rho (c :: cs) = tv rho c * prodv rho cs. Proof. reflexivity. Qed.
Lemma alldf_cons rho c cs : alldf rho (c :: cs) = df rho c && alldf rho cs. Proof. reflexivity. Qed.
Lemma alldf_cons_true rho c cs : alldf rho (c :: cs) = true <-> df rho c = true /\ alldf rho cs = true.
Proof. apply andb_true_iff. Qed.
Lemma alldf_nil rho : alldf rho [] = true. Proof. reflexivity. Qed.
Lemma sumv_nil rho : sumv rho [] = 0. Proof. reflexivity. Qed.
Lemma prodv_nil rho : prodv rho [] = 1. Proof. reflexivity. Qed.

Lemma sumv_app rho a b : sumv rho (a ++ b) = sumv rho a + sumv rho b.
Proof. induction a; cbn [app]; rewrite ?sumv_cons, ?sumv_nil; lia. Qed.
Lemma prodv_app rho a b : prodv rho (a ++ b) = prodv rho a * prodv rho b.
Proof. induction a; cbn [app]; rewrite ?prodv_cons, ?prodv_nil; [lia | rewrite IHa; ring]. Qed.
Lemma alldf_app rho a b : alldf rho (a ++ b) = alldf rho a && alldf rho b.
Proof. unfold alldf. apply forallb_app. Qed.
Lemma alldf_rev rho a : alldf rho (rev a) = alldf rho a.
Proof.
  induction a; [reflexivity|]. cbn [rev]. rewrite alldf_app, IHa, alldf_cons. cbn [alldf forallb].
  rewrite andb_true_r. apply andb_comm.
Qed.
Lemma sumv_rev rho a : sumv rho (rev a) = sumv rho a.
Proof. induction a; [reflexivity|]. cbn [rev]. rewrite sumv_app, IHa, !sumv_cons, sumv_nil. lia. Qed.


(** [evalZ] and [evalB] fold every n-ary node with the same option-monad step.  [R] is the total
    counterpart of the fold ([sumv], [prodv], [forallb tb], [existsb tb], [map tv]); [d] and [t] are the
    definedness and the total value of one child. *)
Lemma fold_obind_spec {A B C D} (ev : A -> option B) (g : C -> A) (d : C -> bool) (t : C -> B)
    (op : B -> D -> D) (u : D) (R : list C -> D) cs :
  R [] = u -> (forall c l, R (c :: l) = op (t c) (R l)) ->
  Forall (fun c => ev (g c) = if d c then Some (t c) else None) cs ->
  fold_right (fun c acc => obind (ev c) (fun v => obind acc (fun a => Some (op v a)))) (Some u) (map g cs)
  = if forallb d cs then Some (R cs) else None.
Proof.
  intros Hnil Hcons. induction 1 as [|c cs Hc _ IH]; cbn [map fold_right forallb]; [rewrite Hnil; reflexivity|].
  rewrite IH, Hc, Hcons. destruct (d c); [destruct (forallb d cs)|]; reflexivity.
Qed.

Lemma if_some_iff {A} (o : option A) (d : bool) (t v : A) :
  o = (if d then Some t else None) -> (o = Some v <-> d = true /\ t = v).
Proof. intros ->. destruct d; split; [intros [= <-]; auto|intros [_ <-]; reflexivity|discriminate|intros [[=] _]]. Qed.

Lemma evalZ_to_expr rho s : evalZ rho (to_expr s) = if df rho s then Some (tv rho s) else None.
Proof.
  induction s using sx_ind'; cbn [to_expr]; try reflexivity.
  - exact (fold_obind_spec (evalZ rho) to_expr (df rho) (tv rho) Z.add 0 (sumv rho) cs eq_refl (fun _ _ => eq_refl) H).
  - exact (fold_obind_spec (evalZ rho) to_expr (df rho) (tv rho) Z.mul 1 (prodv rho) cs eq_refl (fun _ _ => eq_refl) H).
  - cbn [evalZ df tv]. rewrite IHs1, IHs2.
    destruct (df rho s1); [destruct (df rho s2)|]; cbn [obind andb]; try reflexivity.
    unfold div_z. destruct (tv rho s2 =? 0); reflexivity.
  - cbn [evalZ df tv]. rewrite IHs1, IHs2.
    destruct (df rho s1); [destruct (df rho s2)|]; cbn [obind andb]; try reflexivity.
    unfold pow_z, powv. destruct (0 <=? tv rho s2); [reflexivity|]. destruct (tv rho s1 =? 0); reflexivity.
  - (* the argument loop of [evalZ] on a call is the same fold, with [cons] *)
    pose proof (fold_obind_spec (evalZ rho) to_expr (df rho) (tv rho) cons [] (map (tv rho)) args
                  eq_refl (fun _ _ => eq_refl) H) as E.
    cbn [evalZ df tv]. etransitivity; [exact (f_equal (fun o => obind o _) E)|].
    destruct (forallb (df rho) args); cbn [obind andb]; [|reflexivity].
    unfold calld, callv, call_opt.
    destruct (intrinsic f (map (tv rho) args)) as [[v|]|]; try reflexivity.
    destruct (ev_fun rho f (map (tv rho) args)); reflexivity.
Qed.

Lemma evalZ_some rho s v : evalZ rho (to_expr s) = Some v <-> df rho s = true /\ tv rho s = v.
Proof. apply if_some_iff, evalZ_to_expr. Qed.

Lemma evalB_to_expr rho s : evalB rho (to_expr s) = if dfb rho s then Some (tb rho s) else None.
Proof.
  induction s using sx_ind'; cbn [to_expr]; try reflexivity.
  - cbn [evalB dfb tb]. rewrite !evalZ_to_expr.
    destruct (df rho s1); [destruct (df rho s2)|]; reflexivity.
  - exact (fold_obind_spec (evalB rho) to_expr (dfb rho) (tb rho) andb true (forallb (tb rho)) cs eq_refl (fun _ _ => eq_refl) H).
  - exact (fold_obind_spec (evalB rho) to_expr (dfb rho) (tb rho) orb false (existsb (tb rho)) cs eq_refl (fun _ _ => eq_refl) H).
  - cbn [evalB dfb tb]. rewrite IHs. destruct (dfb rho s); reflexivity.
Qed.

Lemma evalB_some rho s v : evalB rho (to_expr s) = Some v <-> dfb rho s = true /\ tb rho s = v.
Proof. apply if_some_iff, evalB_to_expr. Qed.

Lemma df_quot_true rho p n d : df rho (SQuot p n d) = true <-> df rho n = true /\ df rho d = true /\ tv rho d <> 0.
Proof. cbn [df]. rewrite !andb_true_iff, negb_true_iff, Z.eqb_neq. tauto. Qed.

Lemma sgn_of_sq k : sgn_of k * sgn_of k = 1.
Proof. unfold sgn_of. destruct (Nat.even k); lia. Qed.
Lemma sgn_of_S k : sgn_of (S k) = - sgn_of k.
Proof. unfold sgn_of. rewrite Nat.even_succ, <- Nat.negb_even. destruct (Nat.even k); reflexivity. Qed.
Lemma sgn_of_add a b : sgn_of (a + b) = sgn_of a * sgn_of b.
Proof. induction a; [cbn [Nat.add]; change (sgn_of 0) with 1; lia|]. cbn [Nat.add]. rewrite !sgn_of_S, IHa. lia. Qed.
Lemma sgn_of_cases k : sgn_of k = 1 \/ sgn_of k = -1.
Proof. unfold sgn_of. destruct (Nat.even k); auto. Qed.

Lemma quot_sgn_l s a b : (s = 1 \/ s = -1) -> b <> 0 -> Z.quot (s * a) b = s * Z.quot a b.
Proof.
  intros [->| ->] Hb; [rewrite !Z.mul_1_l; reflexivity|].
  replace (-1 * a) with (- a) by lia. rewrite Z.quot_opp_l by assumption. lia.
Qed.
Lemma quot_sgn_r s a b : (s = 1 \/ s = -1) -> b <> 0 -> Z.quot a (s * b) = s * Z.quot a b.
Proof.
  intros [->| ->] Hb; [rewrite !Z.mul_1_l; reflexivity|].
  replace (-1 * b) with (- b) by lia. rewrite Z.quot_opp_r by assumption. lia.
Qed.
Lemma quot_neg_both a b : b <> 0 -> Z.quot (- a) b = - Z.quot a b /\ Z.quot a (- b) = - Z.quot a b.
Proof. intros H. split; [apply Z.quot_opp_l|apply Z.quot_opp_r]; assumption. Qed.
