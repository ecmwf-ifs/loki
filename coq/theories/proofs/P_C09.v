(** C09 — soundness of the definite answers of symbolic_op that are derived from a literal difference,
    and the refutations (guessed answers for == / !=, answers inherited from unsound simplification). *)
From Coq Require Import ZArith List Bool String Lia.
From LV Require Import Base.Expr Base.ExprFacts models.M_C08 models.M_C09 proofs.P_C08_sem proofs.P_C08_helpers proofs.P_C08.
Import ListNotations.
Open Scope Z_scope.

Section Sym.
Variable rho : env.
Notation tv := (tv rho).
Notation df := (df rho).
Notation val := (val rho).

Lemma py_neg_spec y : df y = true -> val (py_neg y) (- tv y).
Proof.
  intros Hy. destruct y; cbn [py_neg]; try (apply neg_val, val_self, Hy).
  - split; reflexivity.
  - rewrite df_prod in Hy. split; [exact Hy|]. rewrite !tv_prod, prodv_cons. cbn [P_C08_sem.tv]. lia.
Qed.

Lemma py_sub_spec x y : df x = true -> df y = true -> val (py_sub x y) (tv x - tv y).
Proof.
  intros Hx Hy. unfold py_sub. destruct (truthy y) eqn:Ty.
  2:{ rewrite (truthy_false rho y Hy Ty), Z.sub_0_r. apply val_self, Hx. }
  destruct (py_neg_spec y Hy) as [Nd Nv].
  assert (Hgen : val (if truthy x then SSum KN [x; py_neg y] else py_neg y) (tv x - tv y)).
  { destruct (truthy x) eqn:Tx.
    - split; [rewrite df_sum, !alldf_cons, Hx, Nd; reflexivity|rewrite tv_sum, !sumv_cons, sumv_nil, Nv; lia].
    - rewrite (truthy_false rho x Hx Tx). split; [assumption|lia]. }
  destruct x; try exact Hgen.
  rewrite df_sum in Hx. split; [rewrite df_sum, alldf_app, Hx, alldf_cons, Nd; reflexivity|].
  rewrite !tv_sum, sumv_app, sumv_cons, sumv_nil, Nv. lia.
Qed.

(** what a chain says about the difference [dv] of the operands *)
Fixpoint cv (ch : chain) (dv : Z) : Prop :=
  match ch with
  | CLit v s => s = true -> dv = v
  | CNeg inner s => s = true -> cv inner (- dv)
  | _ => True
  end.

Lemma symdiff_cv wf fuel depth : forall x y, df x = true -> df y = true ->
  cv (symdiff wf fuel depth x y) (tv x - tv y).
Proof.
  induction depth as [|dp IH]; intros x y Hx Hy; cbn [symdiff]; [exact I|].
  destruct (simp_i all_flags wf fuel (py_sub x y)) as [[e s]| |] eqn:S; try exact I.
  destruct (py_sub_spec x y Hx Hy) as [Pd Pv].
  assert (Hs : s = true -> val e (tv x - tv y)).
  { intros ->. destruct (simp_sound rho _ _ _ _ _ S) as [Hz _]. destruct (Hz Pd) as [A B]. split; congruence. }
  destruct (is_minus_prefix e) eqn:M.
  - cbn [cv]. intros Hst. destruct (Hs Hst) as [Ed Ev]. destruct (strip_spec rho e M) as [Sv Sd].
    replace (- (tv x - tv y)) with (tv (strip_minus_prefix e) - tv (SPy 0)).
    + apply IH; [congruence|reflexivity].
    + cbn [P_C08_sem.tv]. lia.
  - destruct e; try exact I; cbn [cv]; intros Hst; destruct (Hs Hst) as [_ Ev]; cbn [P_C08_sem.tv] in Ev; lia.
Qed.

Lemma decide_sound op ch : forall dv b c g, cv ch dv -> decide op ch = (Answer b, Some c, g) ->
  dv = c /\ b = cmp_z op c 0.
Proof.
  induction ch as [v s|s|inner IH s|e|]; intros dv b c g Hcv; cbn [decide].
  - destruct s; [|discriminate]. intros H. injection H as <- <- _. split; [apply Hcv|]; reflexivity.
  - destruct op; discriminate.
  - destruct (decide op inner) as [[a d] g'] eqn:D.
    set (a' := if is_eqne op then a else match a with Answer b0 => Answer (negb b0) | o => o end).
    destruct a' as [b'| |] eqn:A'; try discriminate. destruct d as [c'|]; [|discriminate].
    destruct (s && Bool.eqb b' (cmp_z op (- c') 0)) eqn:G; [|discriminate].
    apply andb_true_iff in G as [Gs Gb]. apply Bool.eqb_prop in Gb. intros H. injection H as <- <- _.
    cbn [cv] in Hcv. specialize (Hcv Gs).
    assert (Ha : exists b0, a = Answer b0).
    { subst a'. destruct (is_eqne op); destruct a; try discriminate; eauto. }
    destruct Ha as [b0 ->]. destruct (IH _ _ _ _ Hcv eq_refl) as [E1 _]. split; [lia|assumption].
  - destruct e; discriminate.
  - discriminate.
Qed.

End Sym.

(** A definite answer with a proven difference is right for every valuation that defines both operands. *)
Theorem symop_sound a op b v c g : symbolic_op a op b = (Answer v, Some c, g) ->
  forall rho x y, evalZ rho a = Some x -> evalZ rho b = Some y -> x - y = c /\ cmp_z op x y = v.
Proof.
  unfold symbolic_op, symchain. intros H rho x y Hx Hy.
  rewrite <- (to_of_expr a) in Hx. rewrite <- (to_of_expr b) in Hy.
  apply evalZ_some in Hx as [Dx Vx]. apply evalZ_some in Hy as [Dy Vy].
  pose proof (symdiff_cv rho default_wf default_fuel default_depth _ _ Dx Dy) as Hcv.
  destruct (decide_sound op _ _ _ _ _ Hcv H) as [E1 E2]. subst x y.
  split; [assumption|]. rewrite cmp_z_diff, E1. symmetry. assumption.
Qed.

(** The order operators never guess (that a non-literal difference raises TypeError is shown on one case, [wit_order_raises]). *)
Lemma decide_order_no_guess op ch : is_eqne op = false -> snd (decide op ch) = false.
Proof.
  intros Ho. induction ch as [v s|s|inner IH s|e|]; cbn [decide].
  - reflexivity.
  - destruct op; try discriminate; reflexivity.
  - destruct (decide op inner) as [[a d] g]. cbn [snd] in *. assumption.
  - destruct e; reflexivity.
  - reflexivity.
Qed.

Theorem symop_order_never_guesses a op b : is_eqne op = false -> guessed_of (symbolic_op a op b) = false.
Proof. intros H. apply decide_order_no_guess. assumption. Qed.

(** every definite answer of the model is either proven, or a guess (== / != only), or follows an unsafe simplification run *)
Lemma decide_unproven op ch b g : decide op ch = (Answer b, None, g) ->
  g = true \/ (exists v, ch = CLit v false) \/ (exists inner s, ch = CNeg inner s).
Proof.
  destruct ch as [v s|s|inner s|e|]; cbn [decide].
  - destruct s; [discriminate|]. intros _. right. left. eauto.
  - destruct op; intros H; try discriminate; injection H as _ <-; auto.
  - intros _. right. right. eauto.
  - destruct e; discriminate.
  - discriminate.
Qed.

Open Scope string_scope.
Definition va := EVar "a". Definition vb := EVar "b". Definition vn := EVar "n".
Definition rho_eq : env := env_of [("a", 1); ("b", 1)].

(** F4: unrelated variables: [a == b] is answered False and [a != b] True although a = b is satisfiable *)
Lemma wit_guess_eq : symbolic_op va Ceq vb = (Answer false, None, true) /\
                     evalZ rho_eq va = Some 1 /\ evalZ rho_eq vb = Some 1.
Proof. repeat split; vm_compute; reflexivity. Qed.
Lemma wit_guess_ne : symbolic_op va Cne vb = (Answer true, None, true).
Proof. vm_compute; reflexivity. Qed.
Lemma wit_order_raises : answer_of (symbolic_op va Clt vb) = Raises RTypeError.
Proof. vm_compute; reflexivity. Qed.

(** F3 inherited: (a + b)/2 == a/2 + b/2 is answered True (a = b = 1: 1 vs 0) *)
Definition w_half_l : expr := EQuot false (ESum false [va; vb]) (EInt 2).
Definition w_half_r : expr := ESum false [EQuot false va (EInt 2); EQuot false vb (EInt 2)].
Lemma wit_unsound_simplify : symbolic_op w_half_l Ceq w_half_r = (Answer true, None, false) /\
  evalZ rho_eq w_half_l = Some 1 /\ evalZ rho_eq w_half_r = Some 0.
Proof. repeat split; vm_compute; reflexivity. Qed.

(** satisfiable instances of the proven class: n < n + 1 (minus-prefix path), n + 1 > n, 2*n + 3 == 3 + n + n *)
Lemma ex_lt : symbolic_op vn Clt (ESum false [vn; EInt 1]) = (Answer true, Some (-1), false).
Proof. vm_compute; reflexivity. Qed.
Lemma ex_gt : symbolic_op (ESum false [vn; EInt 1]) Cgt vn = (Answer true, Some 1, false).
Proof. vm_compute; reflexivity. Qed.
Lemma ex_eq : symbolic_op (ESum false [EProd false [EInt 2; vn]; EInt 3]) Ceq (ESum false [EInt 3; vn; vn]) = (Answer true, Some 0, false).
Proof. vm_compute; reflexivity. Qed.
