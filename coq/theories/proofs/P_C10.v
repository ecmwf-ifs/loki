(** C10 — the Fortran trip sequence against Loki's range helpers.

    [Z.quot] truncates towards zero, so its sign analysis is done once, in
    [trip_count_pos]: for an ascending loop the trip count is a floor division
    clipped at 0.  A descending loop is the mirror image of an ascending one
    ([trip_count_opp]), and every statement about both directions is proved for
    [0 < s] and mirrored.

    In order: facts about [iota_steps] and [do_trips] (also used by C31 and C36), the trip
    count, [get_pyrange], [num_iterations], [iteration_number] / [iteration_index], bounds. *)
From Coq Require Import ZArith List Bool Lia ZifyBool.
From LV Require Import models.M_C10.
Import ListNotations.
Open Scope Z_scope.

Lemma iota_steps_length n a s : length (iota_steps n a s) = n.
Proof. revert a; induction n as [|n IH]; intros a; cbn; [reflexivity|now rewrite IH]. Qed.

Lemma iota_steps_nth n a s k : (k < n)%nat -> nth k (iota_steps n a s) 0 = a + Z.of_nat k * s.
Proof.
  revert a k; induction n as [|n IH]; intros a k Hk; [lia|].
  destruct k as [|k]; cbn [iota_steps nth]; [lia|].
  rewrite IH by lia. lia.
Qed.

Lemma iota_steps_app m r a s :
  iota_steps (m + r) a s = iota_steps m a s ++ iota_steps r (a + Z.of_nat m * s) s.
Proof.
  revert a. induction m as [|m IH]; intros a; cbn [iota_steps Nat.add app].
  - f_equal. lia.
  - rewrite IH. do 3 f_equal. lia.
Qed.

(** [f] turns steps of [s] into steps of [s'] *)
Lemma map_iota_steps (f : Z -> Z) s s' :
  (forall x, f (x + s) = f x + s') -> forall n a, map f (iota_steps n a s) = iota_steps n (f a) s'.
Proof. intros Hf. induction n as [|n IH]; intros a; cbn [iota_steps map]; [reflexivity|]. now rewrite IH, Hf. Qed.

Lemma do_trips_length a b s : length (do_trips a b s) = Z.to_nat (trip_count a b s).
Proof. apply iota_steps_length. Qed.

Lemma do_trips_nth a b s k :
  (k < length (do_trips a b s))%nat -> nth k (do_trips a b s) 0 = a + Z.of_nat k * s.
Proof. rewrite do_trips_length. apply iota_steps_nth. Qed.


Lemma trip_count_pos a b s : 0 < s -> trip_count a b s = Z.max 0 ((b - a) / s + 1).
Proof.
  intros Hs. unfold trip_count.
  rewrite <- (Z.div_add (b - a) 1 s), Z.mul_1_l by lia.
  destruct (Z.le_gt_cases 0 (b - a + s)) as [H|H].
  - now rewrite Z.quot_div_nonneg.
  - (* both quotients of a negative number are <= 0 *)
    assert ((b - a + s) ÷ s <= 0) by (rewrite <- (Z.quot_0_l s) by lia; apply Z.quot_le_mono; lia).
    assert ((b - a + s) / s < 0) by (apply Z.div_lt_upper_bound; lia).
    lia.
Qed.

Lemma trip_count_opp a b s : s <> 0 -> trip_count (- a) (- b) (- s) = trip_count a b s.
Proof.
  intros Hs. unfold trip_count.
  replace (- b - - a + - s) with (- (b - a + s)) by ring.
  now rewrite Z.quot_opp_opp.
Qed.

Lemma do_trips_unit m : do_trips 1 m 1 = iota_steps (Z.to_nat m) 1 1.
Proof. unfold do_trips. rewrite trip_count_pos, Z.div_1_r by lia. f_equal. lia. Qed.


Lemma len_pos a b s : 0 < s -> py_range_len a (b + 1) s = trip_count a b s.
Proof.
  intros Hs. rewrite trip_count_pos by exact Hs. unfold py_range_len.
  replace (0 <? s) with true by lia. replace (b + 1 - a - 1) with (b - a) by ring.
  destruct (Z.ltb_spec a (b + 1)).
  - pose proof (Z.div_pos (b - a) s). lia.
  - pose proof (Z.div_lt_upper_bound (b - a) s 0). lia.
Qed.

Lemma py_range_len_opp a e s : s <> 0 -> py_range_len (- a) (- e) (- s) = py_range_len a e s.
Proof.
  intros Hs. unfold py_range_len. rewrite Z.opp_involutive.
  replace (- e - - a - 1) with (a - e - 1) by ring. replace (- a - - e - 1) with (e - a - 1) by ring.
  replace (- a <? - e) with (e <? a) by lia. replace (- e <? - a) with (a <? e) by lia.
  destruct (Z.ltb_spec 0 s), (Z.ltb_spec 0 (- s)); (reflexivity || lia).
Qed.

Lemma len_neg a b s : s < 0 -> py_range_len a (b - 1) s = trip_count a b s.
Proof.
  intros Hs. rewrite <- py_range_len_opp, <- trip_count_opp by lia.
  replace (- (b - 1)) with (- b + 1) by ring. apply len_pos. lia.
Qed.

Lemma pyrange_eq_trips a b s : s <> 0 -> get_pyrange a b s = do_trips a b s.
Proof.
  intros Hs. unfold get_pyrange, do_trips, py_range.
  destruct (0 <? s) eqn:E.
  - now rewrite len_pos by lia.
  - now rewrite len_neg by lia.
Qed.

(** [get_pyrange_old], the helper with the stop [b + 1] whatever the sign of the step, is wrong for descending loops (finding F5). *)
Lemma pyrange_old_refuted : exists a b s, s <> 0 /\ get_pyrange_old a b s <> do_trips a b s.
Proof. exists 10, 1, (-1). split; [lia|]. vm_compute. discriminate. Qed.


Lemma num_iterations_opp a b s : s <> 0 -> num_iterations (- a) (- b) (- s) = num_iterations a b s.
Proof.
  intros Hs. unfold num_iterations.
  replace (- b - - a) with (- (b - a)) by ring. now rewrite Z.quot_opp_opp.
Qed.

Lemma trip_count_nonempty a b s :
  s <> 0 -> 0 < trip_count a b s -> trip_count a b s = num_iterations a b s.
Proof.
  assert (Hpos : forall a b s, 0 < s -> 0 < trip_count a b s -> trip_count a b s = num_iterations a b s).
  { clear. intros a b s Hs. rewrite trip_count_pos by exact Hs. unfold num_iterations. intros Hne.
    destruct (Z.le_gt_cases 0 (b - a)) as [H|H].
    - rewrite Z.quot_div_nonneg by lia. lia.
    - pose proof (Z.div_lt_upper_bound (b - a) s 0). lia. }
  intros Hs Hne. assert (H : s < 0 \/ 0 < s) by lia. destruct H as [H|H]; [|now apply Hpos].
  rewrite <- trip_count_opp, <- num_iterations_opp in * by exact Hs. apply Hpos; lia.
Qed.

Lemma num_iterations_count a b s :
  s <> 0 -> nonempty a b s = true -> num_iterations a b s = Z.of_nat (length (do_trips a b s)).
Proof.
  intros Hs Hne. unfold nonempty in Hne. apply Z.ltb_lt in Hne.
  rewrite do_trips_length, Z2Nat.id by lia. symmetry. now apply trip_count_nonempty.
Qed.

Lemma normalized_same_count a b s :
  s <> 0 -> nonempty a b s = true ->
  length (normalized_trips a b s) = length (do_trips a b s) /\
  (forall k, (k < length (do_trips a b s))%nat -> nth k (normalized_trips a b s) 0 = Z.of_nat k + 1).
Proof.
  intros Hs Hne. unfold nonempty in Hne. apply Z.ltb_lt in Hne. unfold normalized_trips.
  assert (Hl : length (do_trips 1 (num_iterations a b s) 1) = length (do_trips a b s)).
  { now rewrite do_trips_unit, iota_steps_length, do_trips_length, trip_count_nonempty. }
  split; [exact Hl|]. intros k Hk. rewrite do_trips_nth by lia. lia.
Qed.


Lemma iteration_number_step a s k : s <> 0 -> iteration_number (a + k * s) a s = k + 1.
Proof.
  intros Hs. unfold iteration_number.
  replace (a + k * s - a) with (k * s) by ring. now rewrite Z.quot_mul.
Qed.

Lemma iteration_index_enumerates a b s k :
  (k < length (do_trips a b s))%nat ->
  iteration_index (Z.of_nat k + 1) a s = nth k (do_trips a b s) 0.
Proof. intros Hk. rewrite do_trips_nth by exact Hk. unfold iteration_index. lia. Qed.

Lemma iteration_number_of_trip a b s k :
  s <> 0 -> (k < length (do_trips a b s))%nat ->
  iteration_number (nth k (do_trips a b s) 0) a s = Z.of_nat k + 1.
Proof. intros Hs Hk. rewrite do_trips_nth by exact Hk. now apply iteration_number_step. Qed.

Lemma iter_number_index_inverse a s k : s <> 0 -> iteration_number (iteration_index k a s) a s = k.
Proof.
  intros Hs. unfold iteration_index. rewrite Z.add_comm, iteration_number_step by exact Hs. ring.
Qed.


Lemma trip_within_pos a b s k : 0 < s -> 0 <= k < trip_count a b s -> a <= a + k * s <= b.
Proof.
  intros Hs. rewrite trip_count_pos by exact Hs. intros Hk.
  pose proof (Z.mul_div_le (b - a) s Hs). nia.
Qed.

Lemma trips_within_bounds a b s x :
  s <> 0 -> In x (do_trips a b s) -> (0 < s -> a <= x <= b) /\ (s < 0 -> b <= x <= a).
Proof.
  intros Hs Hin. apply (In_nth _ _ 0) in Hin as [k [Hk <-]].
  rewrite do_trips_nth by exact Hk. rewrite do_trips_length in Hk.
  split; intros Hsg.
  - apply trip_within_pos; lia.
  - pose proof (trip_within_pos (- a) (- b) (- s) (Z.of_nat k)) as H.
    rewrite trip_count_opp in H by exact Hs. lia.
Qed.

Example c10_nonvacuous :
  nonempty 10 1 (-3) = true /\ do_trips 10 1 (-3) = [10; 7; 4; 1] /\
  get_pyrange 10 1 (-3) = [10; 7; 4; 1] /\ num_iterations 10 1 (-3) = 4 /\
  nonempty 3 11 2 = true /\ do_trips 3 11 2 = [3; 5; 7; 9; 11].
Proof. vm_compute. repeat split; reflexivity. Qed.
