(** C11 — lemmas about the view-level model: class table facts, fuel adequacy, symmetry,
    hash consistency, reflexivity and congruence under case-folding of the printed text. *)
From Coq Require Import ZArith List Bool String Ascii Arith Lia.
From LV Require Import Base.Strings models.M_C11.
Import ListNotations.
Open Scope string_scope.
Open Scope Z_scope.

Lemma cls_beq_true a b : cls_beq a b = true -> a = b.
Proof. apply internal_cls_dec_bl. Qed.
Lemma cls_beq_refl a : cls_beq a a = true.
Proof. now apply internal_cls_dec_lb. Qed.
Lemma cls_beq_false a b : cls_beq a b = false -> a <> b.
Proof. intros H E. subst. now rewrite cls_beq_refl in H. Qed.
Lemma cls_beq_sym a b : cls_beq a b = cls_beq b a.
Proof.
  destruct (cls_beq a b) eqn:E.
  - apply cls_beq_true in E. subst. now rewrite cls_beq_refl.
  - destruct (cls_beq b a) eqn:E'; [|reflexivity].
    apply cls_beq_true in E'. subst. now rewrite cls_beq_refl in E.
Qed.

Lemma all_cls_complete c : In c all_cls.
Proof.
  assert (H : existsb (cls_beq c) all_cls = true)
    by (destruct c as [[]| | | |[]|[]]; reflexivity).
  apply existsb_exists in H. destruct H as [x [Hin Hx]]. apply cls_beq_true in Hx. now subst.
Qed.

Lemma forall_cls (P : cls -> bool) : forallb P all_cls = true -> forall c, P c = true.
Proof. intros H c. rewrite forallb_forall in H. apply H, all_cls_complete. Qed.

Lemma forall_cls2 (P : cls -> cls -> bool) :
  forallb (fun a => forallb (P a) all_cls) all_cls = true -> forall a b, P a b = true.
Proof. intros H a b. apply (forall_cls (P a)). now apply (forall_cls (fun a => forallb (P a) all_cls)). Qed.

(** [forall_cls] and [forall_cls2] reduce a boolean statement about one or two classes to one evaluation over the class
    table; [psub_irrefl], [psub_asym], [sub_strlike] and [literal_isolated] are proved that way *)

Lemma psub_irrefl c : psub c c = false.
Proof.
  apply negb_true_iff. revert c. apply forall_cls. vm_compute. reflexivity.
Qed.

Lemma psub_asym a b : psub a b = true -> psub b a = false.
Proof.
  intro H. apply negb_true_iff. revert H. apply implb_true_iff. revert a b.
  apply forall_cls2. vm_compute. reflexivity.
Qed.

Lemma psub_neq a b : psub a b = true -> cls_beq a b = false.
Proof.
  intros H. destruct (cls_beq a b) eqn:E; [|reflexivity].
  apply cls_beq_true in E. subst. now rewrite psub_irrefl in H.
Qed.

(** the classes whose [__hash__] hashes the canonical string, and those whose [__eq__] compares it *)
Definition hash_strlike (h : hsrc) : bool :=
  match h with HStrCompare | HInlineCall | HRange | HRangeIndex => true | _ => false end.
Definition eq_strlike (e : esrc) : bool :=
  match e with EStrCompare | ERange | ERangeIndex => true | _ => false end.

(** every subclass (or the class itself) of a class compared through the canonical string is compared through it, too,
    and hashes it *)
Lemma sub_strlike cb ca :
  eq_strlike (eq_src ca) = true -> sub_or_eq cb ca = true ->
  hash_strlike (hash_src cb) = true /\ eq_strlike (eq_src cb) = true.
Proof.
  intros H1 H2. apply andb_true_iff. revert H2. apply implb_true_iff. revert H1. apply implb_true_iff. revert cb ca.
  apply forall_cls2. vm_compute. reflexivity.
Qed.

(** the literal classes stand alone: no sub- or superclasses among the node classes *)
Lemma literal_isolated c c' :
  eq_strlike (eq_src c) = false -> c <> c' -> psub c c' = false /\ psub c' c = false.
Proof.
  intros H1 H2.
  assert (N : negb (cls_beq c c') = true).
  { destruct (cls_beq c c') eqn:E; [apply cls_beq_true in E; contradiction|reflexivity]. }
  clear H2. apply negb_true_iff in H1. rewrite <- !negb_true_iff. apply andb_true_iff.
  revert N. apply implb_true_iff. revert H1. apply implb_true_iff. revert c c'.
  apply forall_cls2. vm_compute. reflexivity.
Qed.

Lemma hkey_eqb_refl k : hkey_eqb k k = true.
Proof.
  induction k; cbn; auto using Z.eqb_refl, String.eqb_refl.
  - now rewrite Z.eqb_refl.
  - now rewrite String.eqb_refl.
Qed.

Lemma hkey_eqb_eq k k' : hkey_eqb k k' = true -> k = k'.
Proof.
  revert k'. induction k; destruct k'; cbn; try discriminate; intros H; auto.
  - apply Z.eqb_eq in H. now subst.
  - apply String.eqb_eq in H. now subst.
  - apply andb_true_iff in H. destruct H as [A B]. apply Z.eqb_eq in A. apply IHk in B. now subst.
  - apply andb_true_iff in H. destruct H as [A B]. apply String.eqb_eq in A. apply IHk in B. now subst.
Qed.

Lemma hkey_eqb_sym k k' : hkey_eqb k k' = hkey_eqb k' k.
Proof.
  revert k'. induction k; destruct k'; cbn; auto.
  - apply Z.eqb_sym.
  - apply String.eqb_sym.
  - now rewrite Z.eqb_sym, IHk.
  - now rewrite String.eqb_sym, IHk.
Qed.

Lemma hkey_gen g s fl : hkey_of (VGen g s fl) = HStr (canon s).
Proof. destruct g; reflexivity. Qed.
Lemma hkey_range r a b c s : hkey_of (VRange r a b c s) = HStr (canon s).
Proof. destruct r; reflexivity. Qed.
Lemma hkey_quot p a b s : hkey_of (VQuot p a b s) = HStr (canon s).
Proof. destruct p; reflexivity. Qed.
Lemma hkey_int z k s : hkey_of (VInt z k s) = HTupI (normz z) (hkey_of k).
Proof. reflexivity. Qed.
Lemma hkey_float v k s : hkey_of (VFloat v k s) = HTupF v (hkey_of k).
Proof. reflexivity. Qed.
Lemma hkey_strlit v s : hkey_of (VStrLit v s) = HStr v.
Proof. reflexivity. Qed.

(** the shape of every view fits the class table: the error key is never produced *)
Lemma hkey_not_bad v : hkey_of v <> HBad.
Proof.
  destruct v; rewrite ?hkey_gen, ?hkey_range, ?hkey_quot; discriminate.
Qed.

Lemma hkey_strlike v :
  is_py v = false -> hash_strlike (hash_src (ncls v)) = true -> hkey_of v = HStr (canon (str_of v)).
Proof.
  destruct v; cbn [is_py]; try discriminate; intros _ H; try (cbn in H; discriminate);
    [apply hkey_gen | apply hkey_range | apply hkey_quot].
Qed.

Lemma meth_gen r g s fl b : meth r (VGen g s fl) b = strcmp r (VGen g s fl) b.
Proof. reflexivity. Qed.
Lemma meth_quot r p x y s b : meth r (VQuot p x y s) b = strcmp r (VQuot p x y s) b.
Proof. reflexivity. Qed.
Lemma meth_int r z k s b : meth r (VInt z k s) b = int_eq r (VInt z k s) b.
Proof. reflexivity. Qed.
Lemma meth_float r v k s b : meth r (VFloat v k s) b = float_eq r (VFloat v k s) b.
Proof. reflexivity. Qed.
Lemma meth_strlit r v s b : meth r (VStrLit v s) b = strlit_eq (VStrLit v s) b.
Proof. reflexivity. Qed.
Lemma meth_range r rc st sp step s b :
  meth r (VRange rc st sp step s) b =
  if r st (VPyInt 1) && is_none step then r sp b || strcmp r (VRange rc st sp step s) b
  else strcmp r (VRange rc st sp step s) b.
Proof.
  destruct rc; unfold meth; cbn [ncls eq_src]; unfold rangeindex_eq, range_eq; try reflexivity.
  destruct (r st (VPyInt 1) && is_none step); [|reflexivity].
  destruct (r sp b); reflexivity.
Qed.

(** * Fuel and congruence: the result depends neither on the fuel, once it exceeds the size of the operands,
      nor on the letter case / blanks of the printed text of the operands *)

Lemma vsize_pos v : (1 <= vsize v)%nat.
Proof. destruct v; cbn; lia. Qed.

Inductive vsim : view -> view -> Prop :=
| vsim_none : vsim VPyNone VPyNone
| vsim_pyint z : vsim (VPyInt z) (VPyInt z)
| vsim_pystr s : vsim (VPyStr s) (VPyStr s)
| vsim_gen g s s' fl : canon s = canon s' -> vsim (VGen g s fl) (VGen g s' fl)
| vsim_int z k k' s s' : vsim k k' -> canon s = canon s' -> vsim (VInt z k s) (VInt z k' s')
| vsim_float v k k' s s' : vsim k k' -> canon s = canon s' -> vsim (VFloat v k s) (VFloat v k' s')
| vsim_strlit v s s' : canon s = canon s' -> vsim (VStrLit v s) (VStrLit v s')
| vsim_range r a1 a2 a3 b1 b2 b3 s s' :
    vsim a1 b1 -> vsim a2 b2 -> vsim a3 b3 -> canon s = canon s' ->
    vsim (VRange r a1 a2 a3 s) (VRange r b1 b2 b3 s')
| vsim_quot p a1 a2 b1 b2 s s' :
    vsim a1 b1 -> vsim a2 b2 -> canon s = canon s' -> vsim (VQuot p a1 a2 s) (VQuot p b1 b2 s').

Lemma vsim_refl a : vsim a a.
Proof. induction a; constructor; auto. Qed.
Lemma vsim_sym a b : vsim a b -> vsim b a.
Proof. induction 1; constructor; auto. Qed.

Lemma vsim_is_py a b : vsim a b -> is_py a = is_py b.
Proof. now destruct 1. Qed.
Lemma vsim_is_none a b : vsim a b -> is_none a = is_none b.
Proof. now destruct 1. Qed.
Lemma vsim_ncls a b : vsim a b -> ncls a = ncls b.
Proof. now destruct 1. Qed.
Lemma vsim_canon a b : vsim a b -> canon (str_of a) = canon (str_of b).
Proof. now destruct 1. Qed.
Lemma vsim_py a b : vsim a b -> is_py a = true -> a = b.
Proof. destruct 1; try discriminate; reflexivity. Qed.
Lemma vsim_vsize a b : vsim a b -> vsize a = vsize b.
Proof. induction 1; cbn; congruence. Qed.
Lemma vsim_hkey a b : vsim a b -> hkey_of a = hkey_of b.
Proof.
  induction 1; rewrite ?hkey_gen, ?hkey_range, ?hkey_quot, ?hkey_int, ?hkey_float, ?hkey_strlit; congruence.
Qed.

Section Sim.
  Variables r1 r2 : view -> view -> bool.
  (** [r1] and [r2] answer alike on related operands smaller than [a] and [b] *)
  Definition below (a b : view) : Prop :=
    forall u u' v v', vsim u u' -> vsim v v' -> (vsize u + vsize v < vsize a + vsize b)%nat -> r1 u v = r2 u' v'.

  Lemma pmbl_eq_sim a a' b b' : below a b -> vsim a a' -> vsim b b' -> pmbl_eq r1 a b = pmbl_eq r2 a' b'.
  Proof.
    intros Hr Ha Hb. unfold pmbl_eq. rewrite (vsim_hkey _ _ Ha), (vsim_hkey _ _ Hb).
    destruct (negb _); [reflexivity|].
    destruct Ha as [| | | | | | | |? ? ? ? ? ? ? A1 A2 _]; try reflexivity.
    destruct Hb as [| | | | | | | |? ? ? ? ? ? ? B1 B2 _]; try reflexivity.
    rewrite (Hr _ _ _ _ A1 B1), (Hr _ _ _ _ A2 B2) by (cbn; lia). reflexivity.
  Qed.

  Lemma isinstance_sim a a' b b' : vsim a a' -> vsim b b' -> isinstance b (ncls a) = isinstance b' (ncls a').
  Proof. intros Ha Hb. unfold isinstance. now rewrite (vsim_is_py _ _ Hb), (vsim_ncls _ _ Hb), (vsim_ncls _ _ Ha). Qed.

  Lemma strcmp_sim a a' b b' : below a b -> vsim a a' -> vsim b b' -> strcmp r1 a b = strcmp r2 a' b'.
  Proof.
    intros Hr Ha Hb.
    assert (E : (if isinstance b (ncls a) then String.eqb (canon (str_of a)) (canon (str_of b)) else pmbl_eq r1 a b)
              = (if isinstance b' (ncls a') then String.eqb (canon (str_of a')) (canon (str_of b')) else pmbl_eq r2 a' b')).
    { now rewrite (isinstance_sim _ _ _ _ Ha Hb), (vsim_canon _ _ Ha), (vsim_canon _ _ Hb), (pmbl_eq_sim _ _ _ _ Hr Ha Hb). }
    (* unless [b] is a Python str, [strcmp] is the expression in [E] *)
    destruct Hb; try exact E. cbn [strcmp]. now rewrite (vsim_canon _ _ Ha).
  Qed.

  Lemma meth_sim a a' b b' : below a b -> vsim a a' -> vsim b b' -> meth r1 a b = meth r2 a' b'.
  Proof.
    intros Hr Ha Hb. pose proof (strcmp_sim _ _ _ _ Hr Ha Hb) as S. pose proof (vsize_pos b) as Pb.
    destruct Ha as [| | | |z k k' s s' Hk _|v k k' s s' Hk _|v s s' _|rc a1 a2 a3 b1 b2 b3 s s' H1 H2 H3 _| ];
      try reflexivity; try exact S.
    - rewrite !meth_int. destruct Hb as [| | | |? ? ? ? ? Hk' _| | | | ]; cbn [int_eq]; try reflexivity.
      now rewrite (Hr _ _ _ _ Hk Hk') by (cbn; lia).
    - rewrite !meth_float. destruct Hb as [| | | | |? ? ? ? ? Hk' _| | | ]; cbn [float_eq]; try reflexivity.
      now rewrite (Hr _ _ _ _ Hk Hk') by (cbn; lia).
    - rewrite !meth_strlit. now destruct Hb.
    - rewrite !meth_range.
      rewrite (Hr _ _ _ _ H1 (vsim_refl (VPyInt 1))), (Hr _ _ _ _ H2 Hb) by (cbn; lia).
      now rewrite (vsim_is_none _ _ H3), S.
  Qed.

  Lemma dispatch_sim a a' b b' : below a b -> vsim a a' -> vsim b b' -> dispatch r1 a b = dispatch r2 a' b'.
  Proof.
    intros Hr Ha Hb. unfold dispatch.
    assert (Hr' : below b a) by (intros u u' v v' Hu Hv Hlt; apply Hr; auto; lia).
    rewrite (meth_sim _ _ _ _ Hr Ha Hb), (meth_sim _ _ _ _ Hr' Hb Ha).
    rewrite <- (vsim_is_py _ _ Ha), <- (vsim_is_py _ _ Hb), <- (vsim_ncls _ _ Ha), <- (vsim_ncls _ _ Hb).
    destruct (is_py a) eqn:Pa; [|reflexivity]. destruct (is_py b) eqn:Pb; [|reflexivity].
    now rewrite <- (vsim_py _ _ Ha Pa), <- (vsim_py _ _ Hb Pb).
  Qed.
End Sim.

Lemma py_eq_f_sim n : forall m a a' b b', vsim a a' -> vsim b b' ->
  (vsize a + vsize b < n)%nat -> (vsize a + vsize b < m)%nat -> py_eq_f n a b = py_eq_f m a' b'.
Proof.
  induction n as [|n IH]; intros m a a' b b' Ha Hb Hn Hm; [lia|]. destruct m as [|m]; [lia|].
  cbn [py_eq_f]. apply dispatch_sim; [|exact Ha|exact Hb].
  intros u u' v v' Hu Hv Hlt. apply IH; auto; lia.
Qed.

Lemma py_eq_f_node_eq n a b : (vsize a + vsize b < n)%nat -> py_eq_f n a b = node_eq a b.
Proof. intros H. unfold node_eq. apply py_eq_f_sim; auto using vsim_refl; lia. Qed.

Theorem node_eq_cong a a' b b' : vsim a a' -> vsim b b' -> node_eq a b = node_eq a' b'.
Proof.
  intros Ha Hb. unfold node_eq. rewrite <- (vsim_vsize _ _ Ha), <- (vsim_vsize _ _ Hb). apply py_eq_f_sim; auto; lia.
Qed.

Lemma builtin_eq_sym a b : builtin_eq a b = builtin_eq b a.
Proof. destruct a, b; cbn; auto using Z.eqb_sym, String.eqb_sym. Qed.

Definition lit_shape (v : view) : bool :=
  match v with VInt _ _ _ | VFloat _ _ _ | VStrLit _ _ => true | _ => false end.
Definition str_shape (v : view) : bool :=
  match v with VGen _ _ _ | VRange _ _ _ _ _ | VQuot _ _ _ _ => true | _ => false end.
Definition is_quot (v : view) : bool := match v with VQuot _ _ _ _ => true | _ => false end.
Definition same_ctor (a b : view) : bool :=
  match a, b with
  | VInt _ _ _, VInt _ _ _ | VFloat _ _ _, VFloat _ _ _ | VStrLit _ _, VStrLit _ _ => true
  | _, _ => false
  end.
(** the shortcut test as evaluated with the recursive comparison [r] *)
Definition range_test (r : view -> view -> bool) (a : view) : bool :=
  match a with VRange _ st _ step _ => r st (VPyInt 1) && is_none step | _ => false end.

Lemma shape_cases v : is_py v = false -> lit_shape v = true \/ str_shape v = true.
Proof. destruct v; cbn; auto; discriminate. Qed.
Lemma lit_shape_node v : lit_shape v = true -> is_py v = false.
Proof. destruct v; try discriminate; reflexivity. Qed.
Lemma str_shape_node v : str_shape v = true -> is_py v = false.
Proof. destruct v; try discriminate; reflexivity. Qed.
Lemma same_ctor_sym a b : same_ctor a b = same_ctor b a.
Proof. destruct a, b; reflexivity. Qed.
Lemma same_ctor_str a b : str_shape b = true -> same_ctor a b = false.
Proof. destruct b; try discriminate; destruct a; reflexivity. Qed.

Lemma pmbl_eq_notquot r a b : is_quot a && is_quot b = false -> pmbl_eq r a b = false.
Proof.
  unfold pmbl_eq. destruct (negb _); [reflexivity|].
  destruct a; try reflexivity. destruct b; try reflexivity. discriminate.
Qed.

Lemma strcmp_node r a b :
  is_py b = false ->
  strcmp r a b = if isinstance b (ncls a) then String.eqb (canon (str_of a)) (canon (str_of b)) else pmbl_eq r a b.
Proof. destruct b; try discriminate; reflexivity. Qed.

Lemma meth_str_shape r a b :
  str_shape a = true -> range_test r a = false -> meth r a b = strcmp r a b.
Proof.
  destruct a; try discriminate; intros _ H; try reflexivity.
  rewrite meth_range. cbn in H. now rewrite H.
Qed.

(** a literal against a node of another class *)
Lemma meth_lit_other r a b :
  lit_shape a = true -> is_py b = false -> same_ctor a b = false -> meth r a b = false.
Proof.
  destruct a; try discriminate; intros _; destruct b; try discriminate; intros _ _; reflexivity.
Qed.

(** a string-compared node against a literal: not an instance, and pymbolic's fallback only knows quotients *)
Lemma meth_str_lit r a b :
  str_shape a = true -> range_test r a = false -> lit_shape b = true -> meth r a b = false.
Proof.
  intros Ha Ht Hb. rewrite meth_str_shape by assumption.
  rewrite strcmp_node by now apply lit_shape_node.
  assert (I : isinstance b (ncls a) = false).
  { destruct a; try discriminate; destruct b; try discriminate; reflexivity. }
  rewrite I. apply pmbl_eq_notquot. destruct b; try discriminate; apply andb_false_r.
Qed.

Lemma strcmp_sym r a b :
  str_shape a = true -> str_shape b = true ->
  psub (ncls b) (ncls a) = false -> psub (ncls a) (ncls b) = false ->
  strcmp r a b = strcmp r b a.
Proof.
  intros Ha Hb P1 P2.
  pose proof (str_shape_node a Ha) as Pa. pose proof (str_shape_node b Hb) as Pb.
  rewrite !strcmp_node by assumption.
  unfold isinstance, sub_or_eq. rewrite Pa, Pb, P1, P2. cbn [negb andb]. rewrite !orb_false_r.
  rewrite (cls_beq_sym (ncls a) (ncls b)).
  destruct (cls_beq (ncls b) (ncls a)) eqn:E; [apply String.eqb_sym|].
  destruct (is_quot a && is_quot b) eqn:Q.
  - (* Quotient and ParenthesisedDiv are subclasses of one another's base: excluded by P1, P2 *)
    destruct a; try discriminate; destruct b; try discriminate.
    destruct par, par0; cbn in *; discriminate.
  - rewrite !pmbl_eq_notquot; auto. now rewrite andb_comm.
Qed.

Lemma pair_ok_unfold a b :
  pair_ok a b = true ->
  shortcut a = false /\ shortcut b = false
  /\ match a with
     | VInt _ k _ => match b with VInt _ k' _ => pair_ok k k' = true | _ => True end
     | VFloat _ k _ => match b with VFloat _ k' _ => pair_ok k k' = true | _ => True end
     | _ => True
     end.
Proof.
  intros H. destruct a; cbn [pair_ok] in H;
  repeat (apply andb_true_iff in H; destruct H as [H ?]);
  rewrite ?negb_true_iff in *; repeat split; auto; destruct b; auto.
Qed.

Lemma range_test_shortcut m a b :
  (vsize a + vsize b < S m)%nat -> shortcut a = false -> range_test (py_eq_f m) a = false.
Proof.
  destruct a; try reflexivity. cbn [range_test shortcut vsize]. intros H S.
  pose proof (vsize_pos b). rewrite py_eq_f_node_eq by (cbn; lia). exact S.
Qed.

Lemma py_eq_f_sym n : forall a b,
  (vsize a + vsize b < n)%nat -> pair_ok a b = true -> py_eq_f n a b = py_eq_f n b a.
Proof.
  induction n as [|m IH]; intros a b Hn Hok; [reflexivity|].
  cbn [py_eq_f]. unfold dispatch.
  destruct (is_py a) eqn:Pa, (is_py b) eqn:Pb; try reflexivity.
  - apply builtin_eq_sym.
  - destruct (pair_ok_unfold _ _ Hok) as (Sa & Sb & Hk).
    pose proof (range_test_shortcut m a b Hn Sa) as Ta.
    assert (Hn' : (vsize b + vsize a < S m)%nat) by lia.
    pose proof (range_test_shortcut m b a Hn' Sb) as Tb.
    destruct (psub (ncls b) (ncls a)) eqn:P1.
    + now rewrite (psub_asym _ _ P1).
    + destruct (psub (ncls a) (ncls b)) eqn:P2; [reflexivity|].
      destruct (shape_cases a Pa) as [La|Sa'], (shape_cases b Pb) as [Lb|Sb'].
      * destruct (same_ctor a b) eqn:SC.
        -- destruct a; try discriminate; destruct b; try discriminate.
           ++ rewrite !meth_int. cbn. rewrite Z.eqb_sym. f_equal. apply IH; [cbn in Hn; lia|exact Hk].
           ++ rewrite !meth_float. cbn. rewrite String.eqb_sym. f_equal. apply IH; [cbn in Hn; lia|exact Hk].
           ++ rewrite !meth_strlit. cbn. apply String.eqb_sym.
        -- rewrite (meth_lit_other _ a b), (meth_lit_other _ b a); auto. now rewrite same_ctor_sym.
      * rewrite (meth_lit_other _ a b), (meth_str_lit _ b a); auto using same_ctor_str.
      * rewrite (meth_str_lit _ a b), (meth_lit_other _ b a); auto using same_ctor_str.
      * rewrite !meth_str_shape by assumption. now apply strcmp_sym.
Qed.

Theorem node_eq_sym a b : pair_ok a b = true -> node_eq a b = node_eq b a.
Proof.
  intros H. unfold node_eq. rewrite (Nat.add_comm (vsize b)). apply py_eq_f_sym; [lia|exact H].
Qed.

(** the class of [node_eq_hash], closed under swapping the operands (the right operand's method may be the one that runs) *)
Definition hash_pair_ok (x y : view) : Prop :=
  (pair_ok x y = true /\ homog x y = true) \/ (pair_ok y x = true /\ homog y x = true).

Lemma hash_pair_ok_sym x y : hash_pair_ok x y -> hash_pair_ok y x.
Proof. unfold hash_pair_ok. tauto. Qed.

Lemma homog_unfold a b :
  homog a b = true ->
  is_py a = is_py b
  /\ match a with
     | VInt _ k _ => match b with VInt _ k' _ => homog k k' = true | _ => True end
     | VFloat _ k _ => match b with VFloat _ k' _ => homog k k' = true | _ => True end
     | _ => True
     end.
Proof.
  intros H. destruct a; cbn [homog] in H; apply andb_true_iff in H; destruct H as [H1 H2];
    apply eqb_prop in H1; split; auto; destruct b; auto.
Qed.

Lemma hash_pair_ok_unfold x y :
  hash_pair_ok x y ->
  shortcut x = false /\ shortcut y = false
  /\ is_py x = is_py y
  /\ match x, y with
     | VInt _ k _, VInt _ k' _ => hash_pair_ok k k'
     | VFloat _ k _, VFloat _ k' _ => hash_pair_ok k k'
     | _, _ => True
     end.
Proof.
  intros [[P H]|[P H]]; destruct (pair_ok_unfold _ _ P) as (A & B & E);
    destruct (homog_unfold _ _ H) as (F & G); repeat split; auto.
  - destruct x; auto; destruct y; auto; left; auto.
  - destruct x; auto; destruct y; auto; right; auto.
Qed.

Lemma str_shape_strlike x : str_shape x = true -> eq_strlike (eq_src (ncls x)) = true.
Proof. destruct x; try discriminate; intros _; try reflexivity. destruct r; reflexivity. Qed.

Lemma sub_or_eq_refl c : sub_or_eq c c = true.
Proof. unfold sub_or_eq. now rewrite cls_beq_refl. Qed.

Lemma meth_true_hkey m x y :
  (forall k k', (vsize k + vsize k' < m)%nat -> hash_pair_ok k k' -> py_eq_f m k k' = true -> hkey_of k = hkey_of k') ->
  (vsize x + vsize y < S m)%nat -> hash_pair_ok x y -> is_py x = false -> is_py y = false ->
  meth (py_eq_f m) x y = true -> hkey_of x = hkey_of y.
Proof.
  intros IH Hn Hok Px Py Hm.
  destruct (hash_pair_ok_unfold _ _ Hok) as (Sx & Sy & _ & Hk).
  pose proof (range_test_shortcut m x y Hn Sx) as Tx.
  destruct (shape_cases x Px) as [Lx|Sx'].
  - destruct (same_ctor x y) eqn:SC.
    + destruct x; try discriminate; destruct y; try discriminate.
      * rewrite meth_int in Hm. cbn in Hm. apply andb_true_iff in Hm. destruct Hm as [Hz Hr].
        apply Z.eqb_eq in Hz. subst. rewrite !hkey_int. f_equal.
        apply IH; [cbn in Hn; lia|exact Hk|exact Hr].
      * rewrite meth_float in Hm. cbn in Hm. apply andb_true_iff in Hm. destruct Hm as [Hz Hr].
        apply String.eqb_eq in Hz. subst. rewrite !hkey_float. f_equal.
        apply IH; [cbn in Hn; lia|exact Hk|exact Hr].
      * rewrite meth_strlit in Hm. cbn in Hm. apply String.eqb_eq in Hm. subst. reflexivity.
    + rewrite meth_lit_other in Hm by assumption. discriminate.
  - rewrite meth_str_shape in Hm by assumption.
    rewrite strcmp_node in Hm by assumption.
    pose proof (str_shape_strlike x Sx') as Ex.
    destruct (isinstance y (ncls x)) eqn:I.
    + (* both hash the canonical string, which the comparison found equal *)
      apply String.eqb_eq in Hm.
      unfold isinstance in I. rewrite Py in I. cbn in I.
      rewrite (hkey_strlike x Px (proj1 (sub_strlike _ _ Ex (sub_or_eq_refl _)))).
      rewrite (hkey_strlike y Py (proj1 (sub_strlike _ _ Ex I))).
      now rewrite Hm.
    + (* pymbolic's fallback compares the hashes first *)
      unfold pmbl_eq in Hm. destruct (hkey_eqb (hkey_of x) (hkey_of y)) eqn:K; [|discriminate].
      now apply hkey_eqb_eq.
Qed.

Lemma py_eq_f_hash n : forall a b,
  (vsize a + vsize b < n)%nat -> hash_pair_ok a b -> py_eq_f n a b = true -> hkey_of a = hkey_of b.
Proof.
  induction n as [|m IH]; intros a b Hn Hok He; [discriminate|].
  cbn [py_eq_f] in He. unfold dispatch in He.
  destruct (hash_pair_ok_unfold _ _ Hok) as (_ & _ & Hpy & _).
  destruct (is_py a) eqn:Pa, (is_py b) eqn:Pb; try discriminate.
  - destruct a; try discriminate; destruct b; try discriminate; cbn in He.
    + reflexivity.
    + apply Z.eqb_eq in He. now subst.
    + apply String.eqb_eq in He. now subst.
  - destruct (psub (ncls b) (ncls a)).
    + symmetry. apply (meth_true_hkey m b a); auto; [lia|now apply hash_pair_ok_sym].
    + apply (meth_true_hkey m a b); auto.
Qed.

Theorem node_eq_hash a b :
  pair_ok a b = true -> homog a b = true -> node_eq a b = true -> hkey_of a = hkey_of b.
Proof.
  intros P H E. apply (py_eq_f_hash (S (vsize a + vsize b))); [lia|left; auto|exact E].
Qed.

Lemma py_eq_f_refl n : forall a, (vsize a + vsize a < n)%nat -> py_eq_f n a a = true.
Proof.
  induction n as [|m IH]; intros a Hn; [lia|].
  cbn [py_eq_f]. unfold dispatch.
  destruct (is_py a) eqn:Pa.
  - destruct a; try discriminate; cbn; auto using Z.eqb_refl, String.eqb_refl.
  - rewrite psub_irrefl.
    assert (S : strcmp (py_eq_f m) a a = true).
    { rewrite strcmp_node by assumption. unfold isinstance. rewrite Pa, sub_or_eq_refl. cbn.
      apply String.eqb_refl. }
    destruct a; try discriminate.
    + exact S.
    + rewrite meth_int. cbn. rewrite Z.eqb_refl. apply IH. cbn in Hn. lia.
    + rewrite meth_float. cbn. rewrite String.eqb_refl. apply IH. cbn in Hn. lia.
    + rewrite meth_strlit. cbn. apply String.eqb_refl.
    + rewrite meth_range. rewrite S. rewrite orb_true_r. now destruct (_ && _).
    + exact S.
Qed.

Theorem node_eq_refl a : node_eq a a = true.
Proof. apply py_eq_f_refl. lia. Qed.

Corollary node_eq_vsim a a' : vsim a a' -> node_eq a a' = true.
Proof. intros H. rewrite <- (node_eq_cong a a a a' (vsim_refl a) H). apply node_eq_refl. Qed.
