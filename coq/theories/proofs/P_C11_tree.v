(** C11 — lemmas about trees: the printer is insensitive to the letter case of identifiers, hence so is the view. *)
From Coq Require Import ZArith List Bool String Ascii Arith Lia.
From LV Require Import Base.Strings Base.ListFacts models.M_C11 proofs.P_C11.
Import ListNotations.
Open Scope string_scope.
Open Scope Z_scope.

Section TreeInd.
  Variable P : tree -> Prop.
  Hypothesis H : forall k name z lit kws ch, Forall P ch -> P (TN k name z lit kws ch).
  Fixpoint tree_ind' (t : tree) : P t :=
    match t with
    | TN k name z lit kws ch =>
        H k name z lit kws ch
          ((fix go (l : list tree) : Forall P l :=
              match l with
              | [] => Forall_nil P
              | x :: r => Forall_cons x (tree_ind' x) (go r)
              end) ch)
    end.
End TreeInd.

Lemma tsim_unfold k name z lit kws ch k' name' z' lit' kws' ch' :
  tsim (TN k name z lit kws ch) (TN k' name' z' lit' kws' ch') ->
  k = k' /\ lower name = lower name' /\ z = z' /\ lit = lit'
  /\ Forall2 (fun a b => lower a = lower b) kws kws' /\ Forall2 tsim ch ch'.
Proof.
  cbn [tsim]. intros (H1 & H2 & H3 & H4 & H5 & H6). repeat split; try assumption. clear - H6.
  revert ch' H6. induction ch as [|a r IH]; intros [|b r'] H; try contradiction; constructor.
  - apply H.
  - apply IH, H.
Qed.

Definition csim (s s' : string) : Prop := canon s = canon s'.

Lemma strip_blanks_app a b : strip_blanks (a ++ b) = strip_blanks a ++ strip_blanks b.
Proof. induction a as [|c r IH]; cbn; [reflexivity|]. destruct (Ascii.eqb c " "); cbn; now rewrite IH. Qed.
Lemma canon_app a b : canon (a ++ b) = canon a ++ canon b.
Proof. unfold canon. now rewrite lower_app, strip_blanks_app. Qed.

Lemma csim_refl s : csim s s. Proof. reflexivity. Qed.
Lemma csim_app a a' b b' : csim a a' -> csim b b' -> csim (a ++ b) (a' ++ b').
Proof. unfold csim. intros H1 H2. now rewrite !canon_app, H1, H2. Qed.
Lemma csim_name n n' : lower n = lower n' -> csim n n'.
Proof. unfold csim, canon. now intros ->. Qed.
Lemma csim_paren s s' : csim s s' -> csim (paren s) (paren s').
Proof. intros H. unfold paren. repeat apply csim_app; auto using csim_refl. Qed.
Lemma csim_paren_if s s' e m : csim s s' -> csim (paren_if s e m) (paren_if s' e m).
Proof. intros H. unfold paren_if. destruct (_ <? _)%nat; auto using csim_paren. Qed.
Lemma csim_join sep l l' : Forall2 csim l l' -> csim (join sep l) (join sep l').
Proof.
  induction 1 as [|x y r r' Hxy Hr IH]; [apply csim_refl|].
  cbn [join]. destruct Hr as [|x2 y2 r2 r2' Hxy2 Hr2]; [exact Hxy|].
  repeat apply csim_app; auto using csim_refl.
Qed.

Definition psim (p p' : pinfo) : Prop :=
  (forall e, csim (p_at p e) (p_at p' e)) /\ p_neg p = p_neg p' /\ csim (p_term p) (p_term p').

Lemma psim_refl p : psim p p.
Proof. repeat split. Qed.
Lemma psim_mk_plain f f' : (forall e, csim (f e) (f' e)) -> psim (mk_plain f) (mk_plain f').
Proof. intros H. repeat split; cbn; auto. Qed.
Lemma psim_at p p' e : psim p p' -> csim (p_at p e) (p_at p' e).
Proof. intros H. apply H. Qed.

Lemma Forall2_nth {A} (R : A -> A -> Prop) l l' d i : R d d -> Forall2 R l l' -> R (nth i l d) (nth i l' d).
Proof. intros Hd H. revert i. induction H; intros [|i]; cbn; auto. Qed.
Lemma Forall2_firstn {A} (R : A -> A -> Prop) n l l' : Forall2 R l l' -> Forall2 R (firstn n l) (firstn n l').
Proof. intros H. revert n. induction H; intros [|n]; cbn; auto. Qed.
Lemma Forall2_skipn {A} (R : A -> A -> Prop) n l l' : Forall2 R l l' -> Forall2 R (skipn n l) (skipn n l').
Proof. intros H. revert n. induction H; intros [|n]; cbn; auto. Qed.
Lemma Forall2_tl {A} (R : A -> A -> Prop) l l' : Forall2 R l l' -> Forall2 R (tl l) (tl l').
Proof. intros H. destruct H; cbn; auto. Qed.
Lemma Forall2_map2 {A B} (R : A -> A -> Prop) (S : B -> B -> Prop) (f : A -> B) l l' :
  (forall a b, R a b -> S (f a) (f b)) -> Forall2 R l l' -> Forall2 S (map f l) (map f l').
Proof. intros Hf H. induction H; cbn; auto. Qed.

Lemma Forall_Forall2 {A} (P : A -> A -> Prop) (R : A -> A -> Prop) l l' :
  Forall (fun a => forall b, R a b -> P a b) l -> Forall2 R l l' -> Forall2 P l l'.
Proof.
  intros H H2. induction H2; constructor; inversion H; subst; auto.
Qed.
Lemma Forall2_map_eq {A B} (R : A -> A -> Prop) (f : A -> B) l l' :
  (forall a b, R a b -> f a = f b) -> Forall2 R l l' -> map f l = map f l'.
Proof. intros Hf H. induction H; cbn; [reflexivity|]. now rewrite (Hf _ _ H), IHForall2. Qed.

Section PrNode.
  Variables cs cs' : list pinfo.
  Hypothesis Hcs : Forall2 psim cs cs'.

  Lemma nthp_sim i : psim (nthp cs i) (nthp cs' i).
  Proof. unfold nthp. apply Forall2_nth; [apply psim_refl|exact Hcs]. Qed.
  Lemma nthp_at i e : csim (p_at (nthp cs i) e) (p_at (nthp cs' i) e).
  Proof. apply psim_at, nthp_sim. Qed.
  Lemma len_cs : List.length cs = List.length cs'.
  Proof. exact (Forall2_length _ _ _ Hcs). Qed.
End PrNode.

Lemma map_at_sim cs cs' e : Forall2 psim cs cs' -> Forall2 csim (map (fun p => p_at p e) cs) (map (fun p => p_at p e) cs').
Proof. apply Forall2_map2. intros a b H. now apply psim_at. Qed.
Lemma args_at0_sim cs cs' : Forall2 psim cs cs' -> Forall2 csim (args_at0 cs) (args_at0 cs').
Proof. apply map_at_sim. Qed.

Lemma product_body_sim tags cs cs' : Forall2 psim cs cs' -> csim (product_body tags cs) (product_body tags cs').
Proof.
  intros H. unfold product_body. rewrite (Forall2_length _ _ _ H).
  destruct (_ && _).
  - apply csim_app; [apply csim_refl|]. apply csim_join, Forall2_tl, map_at_sim, H.
  - apply csim_join, map_at_sim, H.
Qed.

Lemma sum_terms_sim cs cs' : Forall2 psim cs cs' -> forall first, csim (sum_terms first cs) (sum_terms first cs').
Proof.
  induction 1 as [|p p' r r' Hp Hr IH]; intros first; [apply csim_refl|].
  cbn [sum_terms]. destruct Hp as (_ & Hn & Ht). rewrite Hn.
  repeat apply csim_app; auto using csim_refl.
Qed.

Lemma quotient_body_sim tags cs cs' : Forall2 psim cs cs' -> csim (quotient_body tags cs) (quotient_body tags cs').
Proof.
  intros H. unfold quotient_body.
  repeat apply csim_app; auto using csim_refl, nthp_at.
  destruct (fst (nthk tags 1)); auto using csim_paren, nthp_at.
Qed.

Lemma power_body_sim cs cs' : Forall2 psim cs cs' -> csim (power_body cs) (power_body cs').
Proof. intros H. unfold power_body. repeat apply csim_app; auto using csim_refl, nthp_at. Qed.

Lemma sym_text_sim n n' cs cs' : lower n = lower n' -> Forall2 psim cs cs' -> csim (sym_text n cs) (sym_text n' cs').
Proof.
  intros Hn H. unfold sym_text. destruct H as [|p p' r r' Hp Hr]; [now apply csim_name|].
  repeat apply csim_app; auto using csim_refl, csim_name, psim_at.
Qed.

Lemma kw_strings_sim kws kws' : Forall2 (fun a b => lower a = lower b) kws kws' ->
  forall cs cs', Forall2 psim cs cs' -> Forall2 csim (kw_strings kws cs) (kw_strings kws' cs').
Proof.
  induction 1 as [|k k' r r' Hk Hr IH]; intros cs cs' H; [constructor|].
  destruct H as [|p p' q q' Hp Hq]; cbn [kw_strings]; constructor; auto.
  repeat apply csim_app; auto using csim_refl, csim_name, psim_at.
Qed.

Lemma range_text_sim tags cs cs' : Forall2 psim cs cs' -> csim (range_text tags cs) (range_text tags cs').
Proof.
  intros H. unfold range_text.
  destruct (fst (nthk tags 2)); apply csim_join; auto using Forall2_firstn, args_at0_sim.
Qed.

(** the shape of the texts that depend on a child only through "is it None": the kind of a FloatLiteral or a cast,
    the step of a range *)
Lemma csim_unless_none (k0 : kind) a a' b b' :
  csim a a' -> csim b b' ->
  csim (match k0 with KPyNone => a | _ => b end) (match k0 with KPyNone => a' | _ => b' end).
Proof. intros. now destruct k0. Qed.

(** the printer's combinators respect [csim]: one congruence lemma each, collected for [auto] *)
Local Hint Resolve csim_unless_none csim_refl csim_paren_if csim_paren csim_app csim_join csim_name nthp_at
  sum_terms_sim product_body_sim quotient_body_sim power_body_sim range_text_sim sym_text_sim
  args_at0_sim map_at_sim kw_strings_sim Forall2_tl Forall2_firstn Forall2_skipn Forall2_app : csim.

Lemma pr_node_sim k name name' z lit kws kws' tags cs cs' :
  lower name = lower name' -> Forall2 (fun a b => lower a = lower b) kws kws' -> Forall2 psim cs cs' ->
  psim (pr_node k name z lit kws tags cs) (pr_node k name' z lit kws' tags cs').
Proof.
  intros Hn Hk H.
  destruct k; cbn [pr_node];
    try solve [apply psim_mk_plain; intros e; auto 12 with csim].
  - (* KArray: parent and dimensions are cut out of the children by [firstn]/[skipn] *)
    destruct (z =? 1); apply psim_mk_plain; intros e.
    + pose proof (Forall2_skipn _ 1%nat _ _ H) as Hd. destruct Hd; auto 12 with csim.
    + destruct H; auto 12 with csim.
  - (* KProduct: with a leading Python -1 the node is not [mk_plain] but carries its negated form *)
    destruct (is_pyneg1 (nthk tags 0)); [|apply psim_mk_plain; intros e; auto 12 with csim].
    repeat split; cbn [p_at p_neg p_term fst snd]; [intros e; auto 12 with csim|].
    rewrite (Forall2_length _ _ _ H). destruct (_ =? _)%nat; auto 12 with csim.
Qed.

(** what the induction of [tsim_good] carries for a pair of related trees *)
Definition tgood (t u : tree) : Prop :=
  ttag t = ttag u /\ psim (pr t) (pr u) /\ pyconst t = pyconst u /\ vsim (view_of t) (view_of u).

Lemma view_node_sim k z lit s s' fl vs vs' :
  csim s s' -> Forall2 vsim vs vs' -> vsim (view_node k z lit s fl vs) (view_node k z lit s' fl vs').
Proof.
  intros Hs Hv.
  assert (N : forall i, vsim (nthv vs i) (nthv vs' i))
    by (intros i; unfold nthv; apply Forall2_nth; [constructor|exact Hv]).
  destruct k; cbn [view_node]; constructor; auto.
Qed.

Lemma tsim_good : forall t u, tsim t u -> tgood t u.
Proof.
  induction t as [k name z lit kws ch IH] using tree_ind'.
  intros [k' name' z' lit' kws' ch'] Hs.
  apply tsim_unfold in Hs. destruct Hs as (<- & Hn & <- & <- & Hk & Hc).
  pose proof (Forall_Forall2 tgood tsim _ _ IH Hc) as G.
  assert (Ht : map ttag ch = map ttag ch') by (apply (Forall2_map_eq tgood); [intros a b H; apply H|exact G]).
  assert (Hy : map pyconst ch = map pyconst ch') by (apply (Forall2_map_eq tgood); [intros a b H; apply H|exact G]).
  assert (P : psim (pr (TN k name z lit kws ch)) (pr (TN k name' z lit kws' ch'))).
  { cbn [pr]. rewrite Ht. apply pr_node_sim; [exact Hn|exact Hk|].
    apply (Forall2_map2 tgood); [intros a b H; apply H|exact G]. }
  assert (Y : pyconst (TN k name z lit kws ch) = pyconst (TN k name' z lit kws' ch')).
  { cbn [pyconst]. rewrite Hy. destruct G; reflexivity. }
  split; [reflexivity|]. split; [exact P|]. split; [exact Y|].
  cbn [view_of]. rewrite Y. apply view_node_sim; [apply P|].
  apply (Forall2_map2 tgood); [intros a b H; apply H|exact G].
Qed.

Theorem tsim_view t u : tsim t u -> vsim (view_of t) (view_of u).
Proof. intros H. apply tsim_good in H. apply H. Qed.

Theorem tsim_canon t u : tsim t u -> canon (tstr t) = canon (tstr u).
Proof. intros H. apply tsim_good in H. destruct H as (_ & P & _). apply P. Qed.
