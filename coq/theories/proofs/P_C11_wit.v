(** C11 — concrete witnesses (computed with vm_compute) and the assembled statements. *)
From Coq Require Import ZArith List Bool String Ascii Arith Lia.
From LV Require Import Base.Strings models.M_C11 proofs.P_C11 proofs.P_C11_tree.
Import ListNotations.
Open Scope string_scope.
Open Scope Z_scope.

Definition tNone := TN KPyNone "" 0 "" [] [].
Definition tScalar (n : string) := TN KScalar n 0 "" [] [].
Definition tInt (z : Z) (k : tree) := TN KInt "" z "" [] [k].
Definition tFloat (v : string) (k : tree) := TN KFloat "" 0 v [] [k].
Definition tPyInt (z : Z) := TN KPyInt "" z "" [] [].
Definition tPyStr (s : string) := TN KPyStr "" 0 s [] [].
Definition tRangeIndex (a b c : tree) := TN KRangeIndex "" 0 "" [] [a; b; c].
Definition tArray (n : string) (dims : list tree) := TN KArray n 0 "" [] dims.
Definition tMember (n : string) (parent : tree) (dims : list tree) := TN KArray n 1 "" [] (parent :: dims).

(** RangeIndex((IntLiteral(1), n)) vs Scalar n *)
Lemma range_shortcut_witness :
  exists ta tb : tree,
    shortcut (view_of ta) = true
    /\ node_eq (view_of ta) (view_of tb) = true /\ node_eq (view_of tb) (view_of ta) = false
    /\ hkey_of (view_of ta) <> hkey_of (view_of tb).
Proof.
  exists (tRangeIndex (tInt 1 tNone) (tScalar "n") tNone), (tScalar "n").
  repeat split; try (vm_compute; reflexivity).
  vm_compute. discriminate.
Qed.

(** FloatLiteral('3.0') vs Sum((1, 2)): the __eq__ body before d84a976 answered True, the reflected comparison False;
    [node_eq] is False both ways *)
Lemma float_eval_old_witness :
  exists ta tb : tree,
    shortcut (view_of ta) = false /\ shortcut (view_of tb) = false
    /\ float_eq_old node_eq (view_of ta) (view_of tb) = true
    /\ node_eq (view_of tb) (view_of ta) = false
    /\ node_eq (view_of ta) (view_of tb) = false.
Proof.
  exists (tFloat "3.0" tNone), (TN KSum "" 0 "" [] [tPyInt 1; tPyInt 2]).
  repeat split; vm_compute; reflexivity.
Qed.

(** IntLiteral(1, kind=Scalar('jpim')) vs IntLiteral(1, kind='JPIM') *)
Lemma str_kind_witness :
  exists ta tb : tree,
    pair_ok (view_of ta) (view_of tb) = true /\ homog (view_of ta) (view_of tb) = false
    /\ node_eq (view_of ta) (view_of tb) = true /\ hkey_of (view_of ta) <> hkey_of (view_of tb).
Proof.
  exists (tInt 1 (tScalar "jpim")), (tInt 1 (tPyStr "JPIM")).
  repeat split; try (vm_compute; reflexivity).
  vm_compute. discriminate.
Qed.

Lemma dict_lookup a b :
  pair_ok a b = true -> homog a b = true -> node_eq a b = true ->
  hkey_eqb (hkey_of a) (hkey_of b) && node_eq a b = true.
Proof.
  intros P H E. rewrite (node_eq_hash a b P H E), hkey_eqb_refl, E. reflexivity.
Qed.

Lemma case_insensitive t u :
  tsim t u ->
  node_eq (view_of t) (view_of u) = true /\ node_eq (view_of u) (view_of t) = true
  /\ hkey_of (view_of t) = hkey_of (view_of u)
  /\ canon (tstr t) = canon (tstr u)
  /\ forall x : view, node_eq (view_of t) x = node_eq (view_of u) x /\ node_eq x (view_of t) = node_eq x (view_of u).
Proof.
  intros H. pose proof (tsim_view _ _ H) as V.
  repeat split.
  - now apply node_eq_vsim.
  - now apply node_eq_vsim, vsim_sym.
  - now apply vsim_hkey.
  - now apply tsim_canon.
  - apply node_eq_cong; [exact V|apply vsim_refl].
  - apply node_eq_cong; [apply vsim_refl|exact V].
Qed.

Lemma class_table_facts :
  (forall a b : cls, psub a b = true -> psub b a = false)
  /\ (forall cb ca : cls, eq_strlike (eq_src ca) = true -> sub_or_eq cb ca = true ->
        hash_strlike (hash_src cb) = true /\ eq_strlike (eq_src cb) = true)
  /\ (forall c c' : cls, eq_strlike (eq_src c) = false -> c <> c' -> psub c c' = false /\ psub c' c = false).
Proof.
  exact (conj psub_asym (conj sub_strlike literal_isolated)).
Qed.

(** a(i)%b(1:n, f(x, k=1.0_jprb)) in two spellings, and a neighbour with another subscript *)
Definition ex_t : tree :=
  tMember "b" (tArray "a" [tScalar "i"])
    [tRangeIndex (tInt 1 tNone) (tScalar "n") tNone;
     TN KCall "" 1 "" ["k"] [TN KProcSym "f" 0 "" [] []; tScalar "x"; tFloat "1.0" (tScalar "jprb")]].
Definition ex_u : tree :=
  tMember "B" (tArray "A" [tScalar "I"])
    [tRangeIndex (tInt 1 tNone) (tScalar "N") tNone;
     TN KCall "" 1 "" ["K"] [TN KProcSym "F" 0 "" [] []; tScalar "X"; tFloat "1.0" (tScalar "JPRB")]].
Definition ex_v : tree :=
  tMember "b" (tArray "a" [tScalar "j"])
    [tRangeIndex (tInt 1 tNone) (tScalar "n") tNone;
     TN KCall "" 1 "" ["k"] [TN KProcSym "f" 0 "" [] []; tScalar "x"; tFloat "1.0" (tScalar "jprb")]].

Lemma class_inhabited :
  exists t u v : tree,
    tsim t u /\ pair_ok (view_of t) (view_of u) = true /\ homog (view_of t) (view_of u) = true
    /\ node_eq (view_of t) (view_of u) = true
    /\ pair_ok (view_of t) (view_of v) = true /\ homog (view_of t) (view_of v) = true
    /\ node_eq (view_of t) (view_of v) = false.
Proof.
  exists ex_t, ex_u, ex_v.
  split; [|repeat split; vm_compute; reflexivity].
  cbn. repeat split; try reflexivity; repeat constructor.
Qed.
