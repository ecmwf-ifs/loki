(** C12 — proofs: the association-list model refines the function specification
    (forward simulation, generic in the table representation), and the corollaries. *)
From Coq Require Import ZArith String Ascii List Bool Arith Lia.
From LV Require Import Base.Strings Base.ListFacts models.M_C12.
Import ListNotations.
Open Scope string_scope.
Open Scope list_scope.

Section AListFacts.
  Context {K V : Type}.
  Variable eqb : K -> K -> bool.
  Hypothesis eqb_ok : forall a b, eqb a b = true <-> a = b.

  Lemma eqb_refl' a : eqb a a = true.
  Proof. now apply eqb_ok. Qed.

  Lemma eqb_sym' a b : eqb a b = eqb b a.
  Proof.
    destruct (eqb a b) eqn:E1, (eqb b a) eqn:E2; try reflexivity.
    - apply eqb_ok in E1; subst. now rewrite eqb_refl' in E2.
    - apply eqb_ok in E2; subst. now rewrite eqb_refl' in E1.
  Qed.

  Lemma al_get_set k k' (v : V) l :
    al_get eqb k' (al_set eqb k v l) = if eqb k' k then Some v else al_get eqb k' l.
  Proof.
    induction l as [|[k0 v0] r IH]; cbn.
    - reflexivity.
    - destruct (eqb k k0) eqn:E; cbn.
      + apply eqb_ok in E; subst k0. now destruct (eqb k' k).
      + rewrite IH. destruct (eqb k' k0) eqn:E0; [|reflexivity].
        apply eqb_ok in E0; subst k0. rewrite eqb_sym' in E. now rewrite E.
  Qed.

  Lemma al_get_del k k' (l : list (K * V)) :
    al_get eqb k' (al_del eqb k l) = if eqb k' k then None else al_get eqb k' l.
  Proof.
    unfold al_del. induction l as [|[k0 v0] r IH]; cbn.
    - now destruct (eqb k' k).
    - destruct (eqb k k0) eqn:E; cbn.
      + rewrite IH. apply eqb_ok in E; subst k0. now destruct (eqb k' k).
      + rewrite IH. destruct (eqb k' k0) eqn:E0; [|reflexivity].
        apply eqb_ok in E0; subst k0. rewrite eqb_sym' in E. now rewrite E.
  Qed.
End AListFacts.

(** simulation between two table representations *)
Record tsim {K V T1 T2} (O1 : tops K V T1) (O2 : tops K V T2) (RT : T1 -> T2 -> Prop) : Prop := mkTsim {
  sim_get : forall k a b, RT a b -> tget O1 k a = tget O2 k b;
  sim_set : forall k v a b, RT a b -> RT (tset O1 k v a) (tset O2 k v b);
  sim_del : forall k a b, RT a b -> RT (tdel O1 k a) (tdel O2 k b);
  sim_new : RT (tnew O1) (tnew O2)
}.

(** abstraction: an association list denotes the function "first binding of the key" *)
Definition al_abs {K V} (eqb : K -> K -> bool) (l : list (K * V)) (f : K -> option V) : Prop :=
  forall k, al_get eqb k l = f k.

Lemma al_fn_sim {K V} (eqb : K -> K -> bool) :
  (forall a b, eqb a b = true <-> a = b) ->
  tsim (al_ops (V := V) eqb) (fn_ops eqb) (al_abs eqb).
Proof.
  intros Hok. constructor; cbn.
  - intros k a b H. apply H.
  - intros k v a b H k'. rewrite (al_get_set eqb Hok). now rewrite H.
  - intros k a b H k'. rewrite (al_get_del eqb Hok). now rewrite H.
  - intros k. reflexivity.
Qed.

Lemma string_eqb_ok a b : String.eqb a b = true <-> a = b.
Proof. apply String.eqb_eq. Qed.

Lemma dkey_eqb_ok a b : dkey_eqb a b = true <-> a = b.
Proof.
  destruct a, b; cbn; split; intros H; try discriminate; try congruence.
  - apply String.eqb_eq in H. now subst.
  - inversion H. apply String.eqb_refl.
  - apply Z.eqb_eq in H. now subst.
  - inversion H. apply Z.eqb_refl.
  - apply String.eqb_eq in H. now subst.
  - inversion H. apply String.eqb_refl.
Qed.

Lemma nth_rel {A B} (R : A -> B -> Prop) l1 l2 i :
  Forall2 R l1 l2 ->
  match nth_error l1 i, nth_error l2 i with
  | Some x, Some y => R x y
  | None, None => True
  | _, _ => False
  end.
Proof.
  intros H. revert i. induction H; intros [|i]; cbn; auto. apply IHForall2.
Qed.

Lemma Forall2_upd_nth {A B} (R : A -> B -> Prop) l1 l2 i f g :
  Forall2 R l1 l2 -> (forall x y, R x y -> R (f x) (g y)) ->
  Forall2 R (upd_nth l1 i f) (upd_nth l2 i g).
Proof.
  intros H Hf. revert i. induction H; intros [|i]; cbn; constructor; auto.
Qed.

Lemma nth_error_upd_nth_same {A} (l : list A) i f x :
  nth_error l i = Some x -> nth_error (upd_nth l i f) i = Some (f x).
Proof.
  revert i. induction l as [|a r IH]; intros [|i]; cbn; try discriminate.
  - now intros [= ->].
  - apply IH.
Qed.

Lemma upd_nth_length {A} (l : list A) i f : length (upd_nth l i f) = length l.
Proof. revert i. induction l as [|a r IH]; intros [|i]; cbn; auto. Qed.

Section SymSim.
  Context {T1 T2 : Type}.
  Variable O1 : tops string val T1.
  Variable O2 : tops string val T2.
  Variable RT : T1 -> T2 -> Prop.
  Hypothesis HS : tsim O1 O2 RT.
  Variables q1 q2 : bool.

  Definition tabR (tb : @gtab T1) (ub : @gtab T2) : Prop :=
    RT (t_ents tb) (t_ents ub) /\ t_parent tb = t_parent ub /\ t_scoped tb = t_scoped ub.
  Definition stR (s : @gstate T1) (a : @gstate T2) : Prop :=
    st_objs s = st_objs a /\ Forall2 tabR (st_tabs s) (st_tabs a).
  Definition pairR (x : @gstate T1 * out) (y : @gstate T2 * out) : Prop :=
    stR (fst x) (fst y) /\ snd x = snd y.

  (** the two quirk flags make the same decision about this step; only [OClone t PKeep] consults them *)
  Definition clone_agree (s : @gstate T1) (a : @gstate T2) (o : op) : Prop :=
    match o with
    | OClone t PKeep =>
        match nth_error (st_tabs s) t with
        | Some tb => match t_parent tb with
                     | Some q => q1 && parent_empty O1 s q = q2 && parent_empty O2 a q
                     | None => True
                     end
        | None => True
        end
    | _ => True
    end.

  Lemma pairR_same s a o : stR s a -> pairR (s, o) (a, o).
  Proof. intros H. split; auto. Qed.

  Lemma pairR_give s a v : stR s a -> pairR (give s v) (give a v).
  Proof.
    intros [Ho Ht]. unfold give, alloc; split; cbn.
    - split; cbn; [now rewrite Ho|exact Ht].
    - now rewrite Ho.
  Qed.

  Lemma stR_with_ents s a t f g :
    stR s a -> (forall x y, RT x y -> RT (f x) (g y)) -> stR (with_ents s t f) (with_ents a t g).
  Proof.
    intros [Ho Ht] Hf. split; cbn; [exact Ho|].
    apply Forall2_upd_nth; [exact Ht|].
    intros x y (H1 & H2 & H3). repeat split; cbn; auto.
  Qed.

  Lemma stR_set s a t k v : stR s a -> stR (with_ents s t (tset O1 k v)) (with_ents a t (tset O2 k v)).
  Proof. intros H. apply stR_with_ents; [exact H|]. intros x y Hxy. now apply (sim_set _ _ _ HS). Qed.
  Lemma stR_del s a t k : stR s a -> stR (with_ents s t (tdel O1 k)) (with_ents a t (tdel O2 k)).
  Proof. intros H. apply stR_with_ents; [exact H|]. intros x y Hxy. now apply (sim_del _ _ _ HS). Qed.

  Lemma chain_find_sim fuel ts us t k :
    Forall2 tabR ts us -> chain_find O1 fuel ts t k = chain_find O2 fuel us t k.
  Proof.
    intros H. revert t. induction fuel as [|f IH]; intros t; cbn; [reflexivity|].
    pose proof (nth_rel tabR ts us t H) as Hn.
    destruct (nth_error ts t) as [tb|], (nth_error us t) as [ub|]; try contradiction; [|reflexivity].
    destruct Hn as (H1 & H2 & H3).
    rewrite (sim_get _ _ _ HS k _ _ H1), H2.
    destruct (tget O2 k (t_ents ub)); [reflexivity|].
    destruct (t_parent ub); [apply IH|reflexivity].
  Qed.

  Lemma find_in_sim s a t k rec : stR s a -> find_in O1 s t k rec = find_in O2 a t k rec.
  Proof.
    intros [Ho Ht]. unfold find_in. destruct rec.
    - rewrite (Forall2_length _ _ _ Ht). now apply chain_find_sim.
    - pose proof (nth_rel tabR _ _ t Ht) as Hn.
      destruct (nth_error (st_tabs s) t) as [tb|], (nth_error (st_tabs a) t) as [ub|]; try contradiction; [|reflexivity].
      destruct Hn as (H1 & _). now rewrite (sim_get _ _ _ HS k _ _ H1).
  Qed.

  Lemma is_scoped_sim s a t : stR s a -> is_scoped s t = is_scoped a t.
  Proof.
    intros [Ho Ht]. unfold is_scoped.
    pose proof (nth_rel tabR _ _ t Ht) as Hn.
    destruct (nth_error (st_tabs s) t) as [tb|], (nth_error (st_tabs a) t) as [ub|]; try contradiction; [|reflexivity].
    now destruct Hn as (_ & _ & H3).
  Qed.

  Lemma fold_set_sim (l : list (string * nat)) (objs : list val) x y :
    RT x y ->
    RT (fold_left (fun e p => tset O1 (fmt (fst p)) (nth (snd p) objs deferred) e) l x)
       (fold_left (fun e p => tset O2 (fmt (fst p)) (nth (snd p) objs deferred) e) l y).
  Proof.
    revert x y. induction l as [|p r IH]; intros x y H; cbn; [exact H|].
    apply IH. now apply (sim_set _ _ _ HS).
  Qed.

  Local Hint Resolve pairR_same pairR_give stR_set stR_del : sim.

  (** related states have related tables at every index. Both absent: both steps leave the state alone and answer alike.
      Both present: whatever the left step reads from its table (an entry, the parent, the scope flag) is replaced by what
      the right step reads. Left in the context: the tables [tb] and [ub], and [HRt], [HP], [HSc] relating their three fields *)
  Ltac tab_at s a t Ht :=
    let Hn := fresh "Hn" in let HRt := fresh "HRt" in let HP := fresh "HP" in let HSc := fresh "HSc" in
    pose proof (nth_rel tabR _ _ t Ht) as Hn;
    destruct (nth_error (st_tabs s) t) as [tb|], (nth_error (st_tabs a) t) as [ub|];
    try contradiction; [destruct Hn as (HRt & HP & HSc)|now apply pairR_same];
    rewrite ?(sim_get _ _ _ HS _ _ _ HRt), ?HP, ?HSc.

  Theorem step_sim s a o :
    stR s a -> clone_agree s a o -> pairR (step O1 q1 s o) (step O2 q2 a o).
  Proof.
    intros HR HC. pose proof HR as [Ho Ht].
    destruct o; cbn [step].
    - (* ONew *) auto with sim.
    - (* OMutate *) rewrite Ho. destruct (r <? length (st_objs a))%nat; auto with sim.
      split; [|reflexivity]. split; cbn; [reflexivity|exact Ht].
    - (* ONewScope *) assert (E : match p with None => true | Some q => is_scoped s q end
                  = match p with None => true | Some q => is_scoped a q end).
      { destruct p; [now apply is_scoped_sim|reflexivity]. }
      rewrite E. destruct (match p with None => true | Some q => is_scoped a q end); auto with sim.
      split; cbn; [|now rewrite (Forall2_length _ _ _ Ht)].
      split; cbn; [exact Ho|]. apply Forall2_app; [exact Ht|constructor; [|constructor]].
      repeat split; cbn. apply (sim_new _ _ _ HS).
    - (* OSet *) rewrite Ho. tab_at s a t Ht. destruct (nth_error (st_objs a) r); auto with sim.
    - (* OSetDefault *) rewrite Ho. tab_at s a t Ht.
      destruct (match r with None => Some deferred | Some r0 => nth_error (st_objs a) r0 end); auto with sim.
      destruct (tget O2 (fmt n) (t_ents ub)); auto with sim.
    - (* OUpdate *) rewrite Ho. tab_at s a t Ht. destruct (forallb _ l); auto with sim.
      apply pairR_same, stR_with_ents; [exact HR|]. intros x y Hxy. now apply fold_set_sim.
    - (* OGetItem *) tab_at s a t Ht. destruct (tget O2 (fmt n) (t_ents ub)); auto with sim.
    - (* OGet *) tab_at s a t Ht. destruct (tget O2 (fmt n) (t_ents ub)); auto with sim.
    - (* OLookup *) tab_at s a t Ht. rewrite (find_in_sim s a t (fmt n) rec HR).
      destruct (find_in O2 a t (fmt n) rec); auto with sim.
    - (* OContains *) tab_at s a t Ht. auto with sim.
    - (* ODel *) tab_at s a t Ht. destruct (tget O2 (fmt n) (t_ents ub)); auto with sim.
    - (* OPop *) tab_at s a t Ht. destruct (tget O2 (fmt n) (t_ents ub)); auto with sim.
    - (* OClone: the only step that reads the quirk flag *)
      cbn [clone_agree] in HC.
      tab_at s a t Ht. rewrite HP in HC.
      assert (Hmk : forall p, pairR
                (mkSt (st_objs s) (st_tabs s ++ [mkTab (t_ents tb) p false]), OutTab (length (st_tabs s)))
                (mkSt (st_objs a) (st_tabs a ++ [mkTab (t_ents ub) p false]), OutTab (length (st_tabs a)))).
      { intros p0. split; cbn; [|now rewrite (Forall2_length _ _ _ Ht)].
        split; cbn; [exact Ho|]. apply Forall2_app; [exact Ht|constructor; [|constructor]]. repeat split; cbn; auto. }
      destruct p as [|[p|]]; [| |apply Hmk].
      + destruct (t_parent ub) as [q|]; [rewrite HC|]; apply Hmk.
      + pose proof (Forall2_length _ _ _ Ht) as HL. rewrite HL in Hmk |- *.
        destruct (p <? length (st_tabs a))%nat; auto with sim.
    - (* OReparent *) rewrite (is_scoped_sim s a t HR), (is_scoped_sim s a p HR).
      destruct (is_scoped a t && is_scoped a p); auto with sim.
      split; [|reflexivity]. split; cbn; [exact Ho|].
      apply Forall2_upd_nth; [exact Ht|]. intros x y (H1 & H2 & H3). repeat split; cbn; auto.
    - (* ODeclare *) tab_at s a t Ht. destruct (t_scoped ub); auto with sim. destruct (fail && _); auto with sim.
    - (* OSUpdate *) tab_at s a t Ht. destruct (t_scoped ub); auto with sim.
      destruct (tget O2 (fmt n) (t_ents ub)); auto with sim.
      destruct fail; auto with sim. destruct dt; auto with sim.
    - (* OGetType *) rewrite (is_scoped_sim s a t HR), (find_in_sim s a t (fmt n) rec HR).
      destruct (is_scoped a t); auto with sim. destruct (find_in O2 a t (fmt n) rec); auto with sim.
    - (* OSymScope *) rewrite (is_scoped_sim s a t HR), (find_in_sim s a t (fmt n) true HR).
      destruct (is_scoped a t); auto with sim. destruct (find_in O2 a t (fmt n) true); auto with sim.
  Qed.
End SymSim.

Definition absR : mstate -> sstate -> Prop := stR (al_abs String.eqb).

Lemma absR_init : absR minit sinit.
Proof. split; cbn; [reflexivity|constructor]. Qed.

Lemma abs_tabs_rel (l : list (@gtab atab)) : Forall2 (tabR (al_abs String.eqb)) l (map abs_tab l).
Proof.
  induction l as [|tb r IH]; cbn; constructor; [|exact IH].
  split; [intros k; reflexivity|split; reflexivity].
Qed.

Lemma absR_abs_state s : absR s (abs_state s).
Proof. split; [reflexivity|]. apply abs_tabs_rel. Qed.

Lemma mstep_refines s a o :
  absR s a ->
  absR (fst (mstep s o)) (fst (sstep a o)) /\ snd (mstep s o) = snd (sstep a o).
Proof.
  intros HR.
  apply (step_sim m_ops s_ops (al_abs String.eqb) (al_fn_sim String.eqb string_eqb_ok) false false s a o HR).
  destruct o; cbn; auto. destruct p; auto.
  destruct (nth_error (st_tabs s) t) as [tb|]; auto.
  destruct (t_parent tb) as [q|]; auto.
Qed.

Lemma history_refines ops : forall s a,
  absR s a ->
  mouts s ops = souts a ops /\ absR (mexec s ops) (sexec a ops).
Proof.
  induction ops as [|o r IH]; intros s a HR.
  - split; [reflexivity|exact HR].
  - destruct (mstep_refines s a o HR) as [HR' Hout].
    destruct (IH _ _ HR') as [Houts Hfin].
    split.
    + unfold mouts, souts, mstep, sstep in *. cbn [outs].
      f_equal; [exact Hout|exact Houts].
    + unfold mexec, sexec, exec, mstep, sstep in *. cbn [fold_left]. exact Hfin.
Qed.

Lemma history_refines_from_init ops :
  mouts minit ops = souts sinit ops /\ absR (mexec minit ops) (sexec sinit ops).
Proof. apply history_refines, absR_init. Qed.

Lemma history_refines_abs ops s :
  mouts s ops = souts (abs_state s) ops /\ absR (mexec s ops) (sexec (abs_state s) ops).
Proof. apply history_refines, absR_abs_state. Qed.

(** F7c, repaired by 0d55598: with the old clone() (parent dropped below an EMPTY parent table) the refinement failed;
    on the same history [mouts] agrees with the specification *)
Definition clone_witness : list op :=
  [ONewScope None; ONewScope (Some 0%nat); OClone 1%nat PKeep; ONew (2%Z, Some 7%Z);
   OSet 0%nat "N" 0%nat; OLookup 2%nat "n" true].

Lemma clone_old_refuted :
  exists ops, mouts_old minit ops <> souts sinit ops /\ mouts minit ops = souts sinit ops.
Proof. exists clone_witness. split; [vm_compute; discriminate|vm_compute; reflexivity]. Qed.

(** a non-trivial history: scopes, clone below an empty and below a non-empty parent, caller mutation, re-spelled look-ups *)
Example history_example :
  let ops := [ONewScope None; ONewScope (Some 0%nat); OClone 1%nat PKeep; ONew (2%Z, Some 1%Z); OSet 0%nat "N" 0%nat;
              OClone 1%nat PKeep; OMutate 0%nat (3%Z, None); OLookup 2%nat "n(1)" true; OLookup 3%nat "N" true] in
  mouts minit ops = [OutTab 0; OutTab 1; OutTab 2; OutObj 0 (2%Z, Some 1%Z); OutNone; OutTab 3; OutNone;
                     OutObj 1 (2%Z, Some 1%Z); OutObj 2 (2%Z, Some 1%Z)]
  /\ mouts minit ops = souts sinit ops.
Proof. vm_compute. split; reflexivity. Qed.

Section SymFacts.
  Context {T : Type}.
  Variable P : tops string val T.
  Variable q : bool.

  Lemma chain_find_innermost fuel ts t k :
    match chain_find P fuel ts t k with
    | LFound i v => exists pre post, chain fuel ts t = pre ++ i :: post
                                     /\ (forall j, In j pre -> tab_has P ts j k = None)
                                     /\ tab_has P ts i k = Some v
    | LMissing => forall j, In j (chain fuel ts t) -> tab_has P ts j k = None
    | LDiverge => True
    end.
  Proof.
    revert t. induction fuel as [|f IH]; intros t; cbn [chain_find chain]; [exact I|].
    destruct (nth_error ts t) as [tb|] eqn:Et; [|intros j []].
    destruct (tget P k (t_ents tb)) as [v|] eqn:Eg.
    - exists [], (match t_parent tb with Some p => @chain T f ts p | None => [] end).
      split; [reflexivity|]. split; [intros j []|]. unfold tab_has. now rewrite Et.
    - assert (Ht : tab_has P ts t k = None) by (unfold tab_has; now rewrite Et).
      destruct (t_parent tb) as [p|].
      + specialize (IH p). destruct (chain_find P f ts p k) as [i v| |].
        * destruct IH as (pre & post & E & Hpre & Hi).
          exists (t :: pre), post. split; [cbn; now rewrite E|]. split; [|exact Hi].
          intros j [<-|Hj]; auto.
        * intros j [<-|Hj]; auto.
        * exact I.
      + intros j [<-|[]]. exact Ht.
  Qed.

  (** the chain starts at the table asked and follows the parent links *)
  Lemma chain_head fuel (ts : list (@gtab T)) t tb :
    nth_error ts t = Some tb ->
    chain (S fuel) ts t = t :: match t_parent tb with Some p => chain fuel ts p | None => [] end.
  Proof. intros E. cbn. now rewrite E. Qed.

  Lemma lookup_innermost s t n r v :
    snd (step P q s (OLookup t n true)) = OutObj r v ->
    exists pre i post,
      chain (S (length (st_tabs s))) (st_tabs s) t = pre ++ i :: post
      /\ (forall j, In j pre -> tab_has P (st_tabs s) j (fmt n) = None)
      /\ tab_has P (st_tabs s) i (fmt n) = Some v.
  Proof.
    cbn [step]. destruct (nth_error (st_tabs s) t); [|discriminate].
    unfold find_in.
    pose proof (chain_find_innermost (S (length (st_tabs s))) (st_tabs s) t (fmt n)) as H.
    destruct (chain_find P (S (length (st_tabs s))) (st_tabs s) t (fmt n)) as [i w| |]; cbn; try discriminate.
    intros [= _ ->]. destruct H as (pre & post & H). now exists pre, i, post.
  Qed.

  Lemma lookup_none_everywhere s t n :
    nth_error (st_tabs s) t <> None ->
    snd (step P q s (OLookup t n true)) = OutNone ->
    forall j, In j (chain (S (length (st_tabs s))) (st_tabs s) t) -> tab_has P (st_tabs s) j (fmt n) = None.
  Proof.
    cbn [step]. destruct (nth_error (st_tabs s) t); [intros _|congruence].
    unfold find_in.
    pose proof (chain_find_innermost (S (length (st_tabs s))) (st_tabs s) t (fmt n)) as H.
    destruct (chain_find P (S (length (st_tabs s))) (st_tabs s) t (fmt n)) as [i w| |]; cbn; try discriminate.
    intros _. exact H.
  Qed.

  Lemma update_same (l l' : list (string * nat)) :
    Forall2 (fun p q => same_key (fst p) (fst q) /\ snd p = snd q) l l' ->
    forall objs,
      forallb (fun p => (snd p <? length objs)%nat) l = forallb (fun p => (snd p <? length objs)%nat) l'
      /\ forall e : T,
          fold_left (fun e p => tset P (fmt (fst p)) (nth (snd p) objs deferred) e) l e
          = fold_left (fun e p => tset P (fmt (fst p)) (nth (snd p) objs deferred) e) l' e.
  Proof.
    induction 1 as [|p p' l l' [Hk Hr] _ IH]; intros objs; [split; reflexivity|].
    destruct (IH objs) as [IH1 IH2]. split.
    - cbn [forallb]. now rewrite Hr, IH1.
    - intros e. cbn [fold_left]. unfold same_key in Hk. rewrite Hk, Hr. apply IH2.
  Qed.

  Lemma with_ents_ext (s : @gstate T) t f g : (forall e, f e = g e) -> with_ents s t f = with_ents s t g.
  Proof.
    intros H. unfold with_ents. f_equal.
    generalize (st_tabs s) t. induction l as [|x r IH]; intros [|i]; cbn; auto.
    - now rewrite H.
    - now rewrite IH.
  Qed.

  Lemma step_same s o o' : op_same o o' -> step P q s o = step P q s o'.
  Proof.
    destruct 1; try reflexivity; cbn [step];
      try (match goal with H : same_key _ _ |- _ => unfold same_key in H; rewrite H end; reflexivity).
    destruct (update_same l l' H (st_objs s)) as [H1 H2].
    rewrite H1. destruct (nth_error (st_tabs s) t); [|reflexivity].
    destruct (forallb _ l'); [|reflexivity].
    f_equal. apply with_ents_ext. exact H2.
  Qed.

  Lemma history_same ops ops' :
    Forall2 op_same ops ops' ->
    forall s, outs P q s ops = outs P q s ops' /\ exec P q s ops = exec P q s ops'.
  Proof.
    induction 1 as [|o o' r r' Ho _ IH]; intros s; [split; reflexivity|].
    unfold exec in *. cbn [outs fold_left]. rewrite (step_same s o o' Ho).
    destruct (IH (fst (step P q s o'))) as [H1 H2]. now rewrite H1, H2.
  Qed.
End SymFacts.

Lemma same_fold_same_key a b : same_fold a b -> same_key a b.
Proof. unfold same_fold, same_key, fmt. now intros ->. Qed.

Lemma cut_paren_app_paren a d : cut_paren (a ++ String "("%char d) = cut_paren a.
Proof.
  induction a as [|c r IH]; cbn; [reflexivity|].
  destruct (Ascii.eqb c "("%char); [reflexivity|now rewrite IH].
Qed.

(** [name(dims)] is looked up as [name] *)
Lemma fmt_dims a d : same_key (a ++ "(" ++ d) a.
Proof.
  unfold same_key, fmt. cbn [append]. rewrite lower_app. cbn [lower].
  change (lower_ascii "("%char) with "("%char. apply cut_paren_app_paren.
Qed.

Lemma fmt_upper a : same_key (upper a) a.
Proof. apply same_fold_same_key, same_fold_upper. Qed.

Lemma m_get_del k (e : atab) : tget m_ops k (tdel m_ops k e) = None.
Proof. cbn. rewrite (al_get_del String.eqb string_eqb_ok). now rewrite String.eqb_refl. Qed.

Lemma m_get_set k v (e : atab) : tget m_ops k (tset m_ops k v e) = Some v.
Proof. cbn. rewrite (al_get_set String.eqb string_eqb_ok). now rewrite String.eqb_refl. Qed.

Lemma deletion_agrees_with_membership s t n n' :
  same_key n n' ->
  let present := snd (mstep s (OContains t n)) in
  (present = OutBool true <-> snd (mstep s (ODel t n')) = OutNone)
  /\ (present = OutBool false <-> snd (mstep s (ODel t n')) = OutErr EKey)
  /\ (present = OutBool true <-> exists r v, snd (mstep s (OPop t n' false)) = OutObj r v)
  /\ (present = OutBool false <-> snd (mstep s (OPop t n' false)) = OutErr EKey)
  /\ (present = OutBool true -> snd (mstep (fst (mstep s (ODel t n'))) (OContains t n)) = OutBool false)
  /\ (present = OutBool true -> snd (mstep (fst (mstep s (OPop t n' false))) (OContains t n)) = OutBool false).
Proof.
  intros H. unfold same_key in H. unfold mstep. cbn [step]. rewrite <- H.
  destruct (nth_error (st_tabs s) t) as [tb|] eqn:Et.
  - destruct (tget m_ops (fmt n) (t_ents tb)) as [v|] eqn:Eg; cbn [fst snd].
    + repeat split; try discriminate; try reflexivity; intros _.
      * now exists (length (st_objs s)), v.
      * cbn [step]. unfold with_ents; cbn [st_tabs].
        rewrite (nth_error_upd_nth_same _ _ _ _ Et). cbn [t_ents]. now rewrite m_get_del.
      * cbn [step]. unfold give, alloc, with_ents; cbn [st_tabs fst].
        rewrite (nth_error_upd_nth_same _ _ _ _ Et). cbn [t_ents]. now rewrite m_get_del.
    + repeat split; try discriminate; try reflexivity. intros (r & v & E). discriminate.
  - cbn [fst snd]. repeat split; try discriminate. intros (r & v & E). discriminate.
Qed.

Lemma give_fresh {T} (s : @gstate T) v r w :
  snd (give s v) = OutObj r w -> r = length (st_objs s) /\ st_objs (fst (give s v)) = st_objs s ++ [w].
Proof. cbn. intros [= <- <-]. split; reflexivity. Qed.

(** only [give] hands out an object: directly, or for pop after the entry has been removed from the table *)
Lemma returned_fresh s o r v :
  snd (mstep s o) = OutObj r v ->
  r = length (st_objs s) /\ st_objs (fst (mstep s o)) = st_objs s ++ [v].
Proof.
  unfold mstep.
  destruct o; cbn [step];
    repeat match goal with
           | |- context [match ?x with _ => _ end] => destruct x
           end;
    try (cbn; discriminate); try apply give_fresh.
  all: cbn; intros [= <- <-]; split; reflexivity.
Qed.

(** nothing the caller does to the objects it holds reaches a table *)
Lemma caller_ops_leave_tables s :
  (forall r v, st_tabs (fst (mstep s (OMutate r v))) = st_tabs s)
  /\ (forall v, st_tabs (fst (mstep s (ONew v))) = st_tabs s).
Proof.
  split; intros; unfold mstep; cbn [step].
  - destruct (r <? length (st_objs s))%nat; reflexivity.
  - reflexivity.
Qed.

Lemma nth_error_lt {A} (l : list A) i x : nth_error l i = Some x -> (i <? length l)%nat = true.
Proof. intros H. apply Nat.ltb_lt. exact (ListFacts.nth_error_lt l i x H). Qed.

Lemma mouts_cons s o r : mouts s (o :: r) = snd (mstep s o) :: mouts (fst (mstep s o)) r.
Proof. reflexivity. Qed.

Lemma step_set_ok (s : mstate) t n r tb v :
  nth_error (st_tabs s) t = Some tb -> nth_error (st_objs s) r = Some v ->
  mstep s (OSet t n r) = (with_ents s t (tset m_ops (fmt n) v), OutNone).
Proof. intros Et Er. unfold mstep; cbn [step]. now rewrite Et, Er. Qed.

Lemma step_mutate_ok (s : mstate) r w :
  (r < length (st_objs s))%nat ->
  mstep s (OMutate r w) = (mkSt (upd_nth (st_objs s) r (fun _ => w)) (st_tabs s), OutNone).
Proof. intros H. unfold mstep; cbn [step]. apply Nat.ltb_lt in H. now rewrite H. Qed.

Lemma step_getitem_ok (s : mstate) t n tb v :
  nth_error (st_tabs s) t = Some tb -> tget m_ops (fmt n) (t_ents tb) = Some v ->
  mstep s (OGetItem t n) = give s v.
Proof. intros Et Eg. unfold mstep; cbn [step]. now rewrite Et, Eg. Qed.

(** the table keeps its own copy of an inserted object ... *)
Lemma set_stores_copy s t n n' r tb v w :
  nth_error (st_tabs s) t = Some tb -> nth_error (st_objs s) r = Some v -> same_key n n' ->
  mouts s [OSet t n r; OMutate r w; OGetItem t n'] = [OutNone; OutNone; OutObj (length (st_objs s)) v].
Proof.
  intros Et Er H. unfold same_key in H.
  assert (Hlt : (r < length (st_objs s))%nat) by (apply nth_error_Some; congruence).
  rewrite mouts_cons, (step_set_ok s t n r tb v Et Er). cbn [fst snd].
  rewrite mouts_cons, step_mutate_ok by exact Hlt. cbn [fst snd].
  rewrite mouts_cons.
  erewrite step_getitem_ok.
  - cbn [fst snd give alloc st_objs]. now rewrite upd_nth_length.
  - cbn [st_tabs with_ents]. apply nth_error_upd_nth_same. exact Et.
  - cbn [t_ents]. rewrite <- H. apply m_get_set.
Qed.

(** ... and hands out copies: changing a returned object does not change what the next look-up returns *)
Lemma get_returns_copy (s : mstate) t n n' tb v w :
  nth_error (st_tabs s) t = Some tb -> tget m_ops (fmt n) (t_ents tb) = Some v -> same_key n n' ->
  mouts s [OGetItem t n; OMutate (length (st_objs s)) w; OGetItem t n']
  = [OutObj (length (st_objs s)) v; OutNone; OutObj (S (length (st_objs s))) v].
Proof.
  intros Et Eg H. unfold same_key in H.
  rewrite mouts_cons, (step_getitem_ok s t n tb v Et Eg). unfold give, alloc. cbn [fst snd].
  rewrite mouts_cons, step_mutate_ok by (cbn [st_objs]; rewrite app_length; cbn; lia). cbn [fst snd st_objs st_tabs].
  rewrite mouts_cons.
  erewrite step_getitem_ok.
  - cbn [fst snd give alloc st_objs]. rewrite upd_nth_length, app_length. cbn [length mouts outs].
    repeat f_equal. lia.
  - cbn [st_tabs]. exact Et.
  - rewrite <- H. exact Eg.
Qed.

(** after a declaration in table t, a look-up from t finds it under any spelling, whatever the outer scopes hold *)
Lemma lookup_after_set s t n n' r rec tb v :
  nth_error (st_tabs s) t = Some tb -> nth_error (st_objs s) r = Some v -> same_key n n' ->
  mouts s [OSet t n r; OLookup t n' rec] = [OutNone; OutObj (length (st_objs s)) v].
Proof.
  intros Et Er H. unfold same_key in H.
  rewrite mouts_cons, (step_set_ok s t n r tb v Et Er). cbn [fst snd].
  rewrite mouts_cons. unfold mstep. cbn [step mouts outs].
  assert (E : nth_error (st_tabs (with_ents s t (tset m_ops (fmt n) v))) t
              = Some (mkTab (tset m_ops (fmt n) v (t_ents tb)) (t_parent tb) (t_scoped tb))).
  { cbn [st_tabs with_ents].
    exact (nth_error_upd_nth_same (st_tabs s) t
             (fun tb => mkTab (tset m_ops (fmt n) v (t_ents tb)) (t_parent tb) (t_scoped tb)) tb Et). }
  rewrite E. unfold find_in. destruct rec.
  - cbn [chain_find]. rewrite E. cbn [t_ents]. rewrite <- H, m_get_set. reflexivity.
  - rewrite E. cbn [t_ents]. rewrite <- H, m_get_set. reflexivity.
Qed.

(** F7, repaired: with the inherited (unfolded) __delitem__ membership and deletion disagreed *)
Lemma del_unfolded_refuted :
  exists (tb : atab) n, al_get String.eqb (fmt n) tb <> None /\ del_unfolded tb n = None.
Proof. exists [("abc", (2%Z, None))], "ABC". split; [vm_compute; discriminate|vm_compute; reflexivity]. Qed.

Section DictSim.
  Context {T1 T2 : Type}.
  Variable O1 : tops dkey Z T1.
  Variable O2 : tops dkey Z T2.
  Variable RT : T1 -> T2 -> Prop.
  Hypothesis HS : tsim O1 O2 RT.
  Variables fl1 fl2 : flavour.
  Hypothesis Hfac : fl_factory fl1 = fl_factory fl2.

  Definition bulk_agree (o : dop) : Prop :=
    match o with
    | DSetDefault k _ => bulk_key fl1 k = bulk_key fl2 k
    | DUpdate l => Forall (fun p => bulk_key fl1 (fst p) = bulk_key fl2 (fst p)) l
    | _ => True
    end.

  Lemma dstep_pair (t' : T1) (u' : T2) (r : dout) :
    RT t' u' -> RT (fst (t', r)) (fst (u', r)) /\ snd (t', r) = snd (u', r).
  Proof. now split. Qed.
  Lemma RT_set k v a b : RT a b -> RT (tset O1 k v a) (tset O2 k v b).
  Proof. apply (sim_set _ _ _ HS). Qed.
  Lemma RT_del k a b : RT a b -> RT (tdel O1 k a) (tdel O2 k b).
  Proof. apply (sim_del _ _ _ HS). Qed.
  Local Hint Resolve dstep_pair RT_set RT_del : dsim.

  Lemma dstep_sim t u o :
    RT t u -> bulk_agree o ->
    RT (fst (dstep O1 fl1 t o)) (fst (dstep O2 fl2 u o)) /\ snd (dstep O1 fl1 t o) = snd (dstep O2 fl2 u o).
  Proof.
    intros HR HB. destruct o; cbn [dstep]; rewrite ?(sim_get _ _ _ HS _ _ _ HR), ?Hfac.
    - auto with dsim.
    - destruct (tget O2 (dfold k) u); auto with dsim. destruct (fl_factory fl2); auto with dsim.
    - auto with dsim.
    - auto with dsim.
    - destruct (tget O2 (dfold k) u); auto with dsim.
    - destruct (tget O2 (dfold k) u); auto with dsim.
    - cbn in HB. rewrite HB. destruct (tget O2 (bulk_key fl2 k) u); auto with dsim.
    - apply dstep_pair. cbn in HB.
      revert t u HR. induction HB as [|p r Hp _ IH]; intros t u HR; cbn; [exact HR|].
      apply IH. rewrite Hp. auto with dsim.
  Qed.
End DictSim.

Lemma key_folded_fold k : key_folded k = true -> dfold k = k.
Proof. unfold key_folded. intros H. now apply dkey_eqb_ok in H. Qed.

Lemma dop_ok_agree fl o : dop_ok fl o = true -> bulk_agree fl (spec_fl fl) o.
Proof.
  unfold dop_ok. destruct (fl_bulk_folds fl) eqn:E; cbn [orb]; intros H.
  - destruct o; cbn; auto.
    + unfold bulk_key. now rewrite E.
    + induction l; constructor; auto. unfold bulk_key. now rewrite E.
  - destruct o; cbn; auto.
    + unfold bulk_key. rewrite E. cbn. symmetry. now apply key_folded_fold.
    + induction l as [|p r IH]; constructor.
      * cbn in H. apply andb_prop in H as [H1 _]. unfold bulk_key. rewrite E. cbn. symmetry. now apply key_folded_fold.
      * apply IH. cbn in H. now apply andb_prop in H as [_ H2].
Qed.

Definition dabsR : dtab -> (dkey -> option Z) -> Prop := al_abs dkey_eqb.

Lemma dict_history_refines fl ops : forall t f,
  dabsR t f -> forallb (dop_ok fl) ops = true ->
  douts dm_ops fl t ops = douts ds_ops (spec_fl fl) f ops
  /\ dabsR (dexec dm_ops fl t ops) (dexec ds_ops (spec_fl fl) f ops).
Proof.
  induction ops as [|o r IH]; intros t f HR Hok; [split; [reflexivity|exact HR]|].
  cbn in Hok. apply andb_prop in Hok as [Ho Hr].
  destruct (dstep_sim dm_ops ds_ops (al_abs dkey_eqb) (al_fn_sim dkey_eqb dkey_eqb_ok) fl (spec_fl fl) eq_refl t f o HR
              (dop_ok_agree fl o Ho)) as [HR' Hout].
  destruct (IH _ _ HR' Hr) as [H1 H2].
  split.
  - cbn [douts]. rewrite Hout. f_equal. exact H1.
  - unfold dexec in *. cbn [fold_left]. exact H2.
Qed.

Lemma dop_ok_ordered ops : forallb (dop_ok fl_ordered) ops = true.
Proof. induction ops; cbn; auto. Qed.

Lemma dict_ordered_refines ops :
  douts dm_ops fl_ordered [] ops = douts ds_ops fl_ordered (fun _ => None) ops
  /\ dabsR (dexec dm_ops fl_ordered [] ops) (dexec ds_ops fl_ordered (fun _ => None) ops).
Proof.
  apply (dict_history_refines fl_ordered ops [] (fun _ => None)); [intros k; reflexivity|apply dop_ok_ordered].
Qed.

Lemma defaultdict_update_refuted :
  exists ops, douts dm_ops (fl_default None) [] ops <> douts ds_ops (spec_fl (fl_default None)) (fun _ => None) ops.
Proof. exists [DUpdate [(KStr "ABC", 1%Z)]; DContains (KStr "abc")]. vm_compute. discriminate. Qed.

Lemma dkey_same_fold a b : dkey_same a b -> dfold a = dfold b.
Proof. destruct 1; [reflexivity|]. cbn. unfold same_fold in H. now rewrite H. Qed.

Lemma dstep_same {T} (P : tops dkey Z T) fl t o o' : dop_same o o' -> dstep P fl t o = dstep P fl t o'.
Proof. destruct 1; try reflexivity; cbn [dstep]; now rewrite (dkey_same_fold _ _ H). Qed.

Lemma dict_deletion_agrees_with_membership fl (t : dtab) k k' :
  dkey_same k k' ->
  let present := snd (dstep dm_ops fl t (DContains k)) in
  (present = RBool true <-> snd (dstep dm_ops fl t (DDel k')) = RNone)
  /\ (present = RBool false <-> snd (dstep dm_ops fl t (DDel k')) = RKeyError)
  /\ (present = RBool true <-> exists v, snd (dstep dm_ops fl t (DPop k' false)) = RVal v)
  /\ (present = RBool true -> snd (dstep dm_ops fl (fst (dstep dm_ops fl t (DDel k'))) (DContains k)) = RBool false)
  /\ (present = RBool true -> snd (dstep dm_ops fl (fst (dstep dm_ops fl t (DPop k' false))) (DContains k)) = RBool false).
Proof.
  intros H. apply dkey_same_fold in H. cbn [dstep]. rewrite <- H.
  assert (Hd : forall e : dtab, tget dm_ops (dfold k) (tdel dm_ops (dfold k) e) = None).
  { intros e. cbn. rewrite (al_get_del dkey_eqb dkey_eqb_ok).
    now rewrite (proj2 (dkey_eqb_ok _ _) eq_refl). }
  destruct (tget dm_ops (dfold k) t) as [v|] eqn:Eg; cbn [fst snd].
  - repeat split; try discriminate; try reflexivity; intros _.
    + now exists v.
    + now rewrite Hd.
    + now rewrite Hd.
  - repeat split; try discriminate. intros (v & E). discriminate.
Qed.
