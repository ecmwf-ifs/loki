(** C13 — scoped type tables: classification of a declared type, what a write into one scope changes for which
    reader, symbols attached to a scope versus detached ones, rescoping.  Generic facts about [update_nth] come first. *)
From Coq Require Import ZArith List Bool String Lia.
From LV Require Import Base.Strings models.M_C13.
Import ListNotations.

Lemma skipn_update_nth {A} (l : list A) i f :
  (i < List.length l)%nat -> exists t rest, skipn i l = t :: rest /\ skipn i (update_nth l i f) = f t :: rest.
Proof.
  revert i. induction l as [|x r IH]; intros i Hi; cbn in Hi; [lia|].
  destruct i as [|i]; cbn.
  - now exists x, r.
  - apply IH. lia.
Qed.

Lemma skipn_update_nth_after {A} (l : list A) i j f :
  (i < j)%nat -> skipn j (update_nth l i f) = skipn j l.
Proof.
  revert i j. induction l as [|x r IH]; intros i j Hij.
  - destruct i; reflexivity.
  - destruct i as [|i]; destruct j as [|j]; try lia; cbn; [reflexivity|]. apply IH. lia.
Qed.

Lemma length_update_nth {A} (l : list A) i f : List.length (update_nth l i f) = List.length l.
Proof. revert i. induction l as [|x r IH]; intros [|i]; cbn; auto. Qed.

Lemma nth_error_update_nth_same {A} (l : list A) j f y :
  nth_error l j = Some y -> nth_error (update_nth l j f) j = Some (f y).
Proof. revert j. induction l as [|x r IH]; intros [|j]; cbn; try discriminate; [congruence|apply IH]. Qed.

Lemma nth_error_update_nth_other {A} (l : list A) i j f :
  i <> j -> nth_error (update_nth l i f) j = nth_error l j.
Proof.
  revert i j. induction l as [|x r IH]; intros i j Hne.
  - destruct i; reflexivity.
  - destruct i as [|i], j as [|j]; cbn; try congruence; try reflexivity. apply IH. congruence.
Qed.

Lemma nth_error_app_l {A} (l r : list A) j y : nth_error l j = Some y -> nth_error (l ++ r) j = Some y.
Proof. intros H. rewrite nth_error_app1; [exact H|]. apply nth_error_Some. congruence. Qed.

Lemma skipn_nth {A} (l : list A) i t rest d : skipn i l = t :: rest -> nth i l d = t.
Proof. revert i. induction l as [|x r IH]; intros [|i] E; cbn in *; try discriminate; [congruence|now apply IH]. Qed.

Lemma tier_spec n t d : classify n t d = tier_doc n t d.
Proof.
  unfold classify, tier_doc, dtype_truthy.
  destruct t as [[k sh tg]|]; cbn.
  - destruct k as [|m| |]; cbn; try reflexivity.
  - destruct d; reflexivity.
Qed.

Lemma classify_case_insensitive n n' t d : lower n = lower n' -> classify n t d = classify n' t d.
Proof. intros H. unfold classify. now rewrite H. Qed.

Lemma key_fold a b : lower a = lower b -> key a = key b.
Proof. unfold key. now intros ->. Qed.

Lemma tget_tset_same t k v : tget (tset t k v) k = Some v.
Proof.
  induction t as [|[k' v'] r IH]; cbn.
  - now rewrite String.eqb_refl.
  - destruct (String.eqb k' k) eqn:E; cbn.
    + now rewrite String.eqb_refl.
    + now rewrite E.
Qed.

Lemma tget_tset_other t k k' v : k' <> k -> tget (tset t k v) k' = tget t k'.
Proof.
  intros Hne. induction t as [|[k0 v0] r IH]; cbn.
  - destruct (String.eqb k k') eqn:E; [apply String.eqb_eq in E; congruence|reflexivity].
  - destruct (String.eqb k0 k) eqn:E; cbn.
    + apply String.eqb_eq in E. subst k0.
      destruct (String.eqb k k') eqn:E2; [apply String.eqb_eq in E2; congruence|reflexivity].
    + destruct (String.eqb k0 k'); [reflexivity|exact IH].
Qed.

(** a type written into scope [i] is what scope [i] resolves for any spelling of the name *)
Lemma resolve_set_entry_same ss i n n' v :
  (i < List.length ss)%nat -> key n' = key n -> resolve (set_entry ss i n v) i n' = Some v.
Proof.
  intros Hi Hk. unfold resolve, set_entry.
  destruct (skipn_update_nth ss i (fun t => tset t (key n) v) Hi) as [t [rest [E1 E2]]].
  rewrite E2. cbn. rewrite Hk. now rewrite tget_tset_same.
Qed.

Lemma resolve_from_ext l1 l2 k :
  Forall2 (fun a b => tget a k = tget b k) l1 l2 -> resolve_from l1 k = resolve_from l2 k.
Proof. induction 1 as [|a b r q Hab _ IH]; cbn; [reflexivity|]. rewrite Hab. destruct (tget b k); [reflexivity|exact IH]. Qed.

Lemma Forall2_refl_tget (l : list table) k : Forall2 (fun a b => tget a k = tget b k) l l.
Proof. induction l; constructor; auto. Qed.

Lemma Forall2_skipn_update (ss : scopes) i j k k0 v :
  k <> k0 -> Forall2 (fun a b => tget a k = tget b k) (skipn j (update_nth ss i (fun t => tset t k0 v))) (skipn j ss).
Proof.
  intros Hne. revert i j. induction ss as [|t r IH]; intros i j.
  - destruct i, j; cbn; constructor.
  - destruct i as [|i], j as [|j]; cbn.
    + constructor; [now apply tget_tset_other|apply Forall2_refl_tget].
    + apply Forall2_refl_tget.
    + constructor; [reflexivity|]. apply (IH i 0%nat).
    + apply IH.
Qed.

(** a write of a type for one name changes what no scope resolves for a different name *)
Lemma resolve_set_entry_other ss i j n n' v :
  key n' <> key n -> resolve (set_entry ss i n v) j n' = resolve ss j n'.
Proof.
  intros Hk. unfold resolve, set_entry. apply resolve_from_ext. now apply Forall2_skipn_update.
Qed.

(** scopes outside (enclosing) the updated one never see it *)
Lemma resolve_set_entry_outer ss i j n n' v :
  (i < j)%nat -> resolve (set_entry ss i n v) j n' = resolve ss j n'.
Proof. intros Hij. unfold resolve, set_entry. now rewrite skipn_update_nth_after. Qed.

Lemma attached_share ss y1 y2 i :
  s_scope y1 = Some i -> s_scope y2 = Some i -> key (s_name y1) = key (s_name y2) ->
  read_type ss y1 = read_type ss y2.
Proof. intros H1 H2 Hk. unfold read_type. rewrite H1, H2. unfold resolve. now rewrite Hk. Qed.

Lemma attached_sees_table_update st i n t y :
  (i < List.length (st_scopes st))%nat -> In y (st_syms st) -> s_scope y = Some i -> key (s_name y) = key n ->
  read_type (st_scopes (step st (OSetTable i n t))) y = Some t /\ In y (st_syms (step st (OSetTable i n t))).
Proof.
  intros Hi Hin Hs Hk. cbn. split; [|exact Hin].
  unfold read_type. rewrite Hs. now apply resolve_set_entry_same.
Qed.

(** the setter on one attached symbol is seen by every symbol of that name attached to the same scope *)
Lemma attached_sees_setter st j t yj y i :
  (i < List.length (st_scopes st))%nat -> nth_error (st_syms st) j = Some yj -> s_scope yj = Some i ->
  In y (st_syms st) -> s_scope y = Some i -> key (s_name y) = key (s_name yj) ->
  read_type (st_scopes (step st (OSetType j (Some t)))) y = Some t.
Proof.
  intros Hi Hj Hsj Hin Hs Hk. cbn. unfold set_type. rewrite Hj, Hsj. cbn.
  unfold read_type. rewrite Hs. now apply resolve_set_entry_same.
Qed.

Definition not_setter_of (j : nat) (o : op) : Prop := match o with OSetType j' _ => j' <> j | _ => True end.

Lemma detached_step st o j y :
  nth_error (st_syms st) j = Some y -> s_scope y = None -> not_setter_of j o ->
  nth_error (st_syms (step st o)) j = Some y.
Proof.
  intros Hj Hs Hns. destruct o as [n sc t dims|i n t|j' t|j' cn csc ct|j' i]; cbn.
  - destruct (create (st_scopes st) n sc t dims) as [ss z]. cbn. now apply nth_error_app_l.
  - exact Hj.
  - cbn in Hns. unfold set_type. destruct (nth_error (st_syms st) j') as [y'|] eqn:E; [|exact Hj].
    destruct (s_scope y'); cbn; [exact Hj|]. now rewrite nth_error_update_nth_other.
  - destruct (nth_error (st_syms st) j') as [y'|]; [|exact Hj].
    destruct (clone (st_scopes st) y' cn csc ct false) as [ss z]. cbn. now apply nth_error_app_l.
  - destruct (nth_error (st_syms st) j') as [y'|]; [|exact Hj].
    destruct (rescope (st_scopes st) y' i (is_array y')) as [ss z]. cbn. now apply nth_error_app_l.
Qed.

Lemma read_detached ss y : s_scope y = None -> read_type ss y = s_local y.
Proof. intros H. unfold read_type. now rewrite H. Qed.

(** whatever happens to any scope or any other symbol, a detached symbol reports the type it holds *)
Lemma detached_keeps_type ops : forall st j y,
  nth_error (st_syms st) j = Some y -> s_scope y = None -> Forall (not_setter_of j) ops ->
  let st' := fold_left step ops st in
  nth_error (st_syms st') j = Some y /\ read_type (st_scopes st') y = s_local y.
Proof.
  induction ops as [|o ops IH]; intros st j y Hj Hs Hall; cbn.
  - split; [exact Hj|now apply read_detached].
  - inversion Hall as [|? ? Ho Hrest]; subst. apply IH; [now apply detached_step|exact Hs|exact Hrest].
Qed.

Lemma create_attached_resolves ss n i t dims :
  (i < List.length ss)%nat ->
  resolve (fst (create ss n (Some i) (Some t) dims)) i n = Some t.
Proof. intros Hi. cbn. now apply resolve_set_entry_same. Qed.

Lemma rescope_keeps_existing_entry ss y i e d :
  (i < List.length ss)%nat -> read_type ss y <> None -> resolve ss i (s_name y) = Some e ->
  resolve (fst (rescope ss y i d)) i (s_name y) = Some e /\
  read_type (fst (rescope ss y i d)) (snd (rescope ss y i d)) = Some e.
Proof.
  intros Hi Hr He. unfold rescope.
  destruct (read_type ss y) as [ty0|] eqn:E0; [|congruence].
  rewrite He.
  assert (Hc : clone ss y None (Some (Some i)) (Some e) d = create ss (s_name y) (Some i) (Some e) d) by reflexivity.
  destruct (dtype_truthy e); rewrite Hc; cbn; (split; [now apply resolve_set_entry_same|]);
    unfold read_type; cbn; now apply resolve_set_entry_same.
Qed.

(** a symbol rescoped into a scope where its name is unknown brings its own type along *)
Lemma rescope_inserts_when_absent ss y i t d :
  (i < List.length ss)%nat -> read_type ss y = Some t -> resolve ss i (s_name y) = None ->
  read_type (fst (rescope ss y i d)) (snd (rescope ss y i d)) = Some t.
Proof.
  intros Hi Hr He. unfold rescope. rewrite Hr, He.
  unfold clone. cbn [orb].
  assert (Hg : tget (nth i ss []) (key (s_name y)) = None).
  { (* the identity update is only there to name the table at index [i]: [skipn i ss = t0 :: rest] *)
    unfold resolve in He. destruct (skipn_update_nth ss i (fun x => x) Hi) as [t0 [rest [E1 _]]].
    rewrite E1 in He. cbn in He.
    assert (Hn : nth i ss [] = t0) by exact (skipn_nth _ _ _ _ _ E1). rewrite Hn.
    destruct (tget t0 (key (s_name y))); [discriminate|reflexivity]. }
  rewrite Hg, Hr. cbn. unfold read_type. cbn. now apply resolve_set_entry_same.
Qed.

(** non-vacuity: a concrete history with nested scopes, an update seen by two attached spellings, a detached copy unaffected *)
Example c13_nonvacuous :
  let t1 := {| dk := DBasic; has_shape := false; tag := 1 |} in
  let t2 := {| dk := DBasic; has_shape := true; tag := 2 |} in
  let st := run 2 [OCreate "x" (Some 0%nat) (Some t1) false; OCreate "X" (Some 0%nat) None false;
                   OClone 0 None (Some None) None; OSetTable 0 "X" t2] in
  map snd (observe_syms st) = [Some t2; Some t2; Some t1].
Proof. vm_compute. reflexivity. Qed.
