(** C14 — infrastructure: induction principle for the nested item type, the two equalities, small facts about
    the node constructor and the result types; [scope_first], the first step of visit_ScopedNode, which the
    files on the specification, the masked transformer and [rebuilt] all go through. *)
From Coq Require Import ZArith List Bool Lia Arith.
From LV Require Import models.M_C14.
Import ListNotations.
Open Scope Z_scope.

(** the list-of-trees nesting needs its own induction principle *)
Section ItemInd.
  Variable P : item -> Prop.
  Hypothesis HObj : forall v, P (Obj v).
  Hypothesis HNone : P NoneI.
  Hypothesis HTup : forall l, Forall P l -> P (Tup l).
  Hypothesis HNd : forall i k s p ch, Forall P ch -> P (Nd i k s p ch).

  Fixpoint item_ind' (o : item) : P o :=
    let fix go (l : list item) : Forall P l :=
      match l with
      | [] => Forall_nil P
      | x :: r => Forall_cons x (item_ind' x) (go r)
      end in
    match o with
    | Obj v => HObj v
    | NoneI => HNone
    | Tup l => HTup l (go l)
    | Nd i k s p ch => HNd i k s p ch (go ch)
    end.
End ItemInd.

Lemma ieqb_Tup l m : ieqb (Tup l) (Tup m) = list_eqb ieqb l m.
Proof.
  cbn [ieqb]. revert m. induction l as [|x l IH]; intros [|y m]; cbn [list_eqb]; try reflexivity.
  now rewrite IH.
Qed.

Lemma ieqb_Nd i k s p c i' k' s' p' c' :
  ieqb (Nd i k s p c) (Nd i' k' s' p' c') = (k =? k') && (s =? s') && (p =? p') && list_eqb ieqb c c'.
Proof.
  cbn [ieqb]. f_equal. revert c'. induction c as [|x l IH]; intros [|y m]; cbn [list_eqb]; try reflexivity.
  now rewrite IH.
Qed.

Lemma ideqb_Tup l m : ideqb (Tup l) (Tup m) = list_eqb ideqb l m.
Proof.
  cbn [ideqb]. revert m. induction l as [|x l IH]; intros [|y m]; cbn [list_eqb]; try reflexivity.
  now rewrite IH.
Qed.

Lemma ideqb_Nd i k s p c i' k' s' p' c' :
  ideqb (Nd i k s p c) (Nd i' k' s' p' c') =
  (i =? i') && (k =? k') && (s =? s') && (p =? p') && list_eqb ideqb c c'.
Proof.
  cbn [ideqb]. f_equal. revert c'. induction c as [|x l IH]; intros [|y m]; cbn [list_eqb]; try reflexivity.
  now rewrite IH.
Qed.

(** [list_eqb] here is the model's own; the lemmas carry an m to keep them apart from those of Base.ListFacts *)
Lemma mlist_eqb_refl {A} (f : A -> A -> bool) l : Forall (fun x => f x x = true) l -> list_eqb f l l = true.
Proof. induction 1; cbn; [reflexivity|]. now rewrite H, IHForall. Qed.

Lemma ieqb_refl : forall a, ieqb a a = true.
Proof.
  induction a using item_ind'.
  - cbn. apply Z.eqb_refl.
  - reflexivity.
  - rewrite ieqb_Tup. now apply mlist_eqb_refl.
  - rewrite ieqb_Nd, !Z.eqb_refl. cbn. now apply mlist_eqb_refl.
Qed.

Lemma mlist_eqb_sym {A} (f : A -> A -> bool) l :
  Forall (fun x => forall y, f x y = f y x) l -> forall m, list_eqb f l m = list_eqb f m l.
Proof.
  induction 1 as [|x l Hx Hl IH]; intros [|y m]; cbn; try reflexivity.
  now rewrite Hx, IH.
Qed.

Lemma ieqb_sym : forall a b, ieqb a b = ieqb b a.
Proof.
  induction a using item_ind'; intros b; destruct b; try reflexivity.
  - cbn. apply Z.eqb_sym.
  - rewrite !ieqb_Tup. now apply mlist_eqb_sym.
  - rewrite !ieqb_Nd. rewrite (Z.eqb_sym k), (Z.eqb_sym s), (Z.eqb_sym p). f_equal. now apply mlist_eqb_sym.
Qed.

Lemma mlist_eqb_trans {A} (f : A -> A -> bool) l :
  Forall (fun x => forall y z, f x y = true -> f y z = true -> f x z = true) l ->
  forall m n, list_eqb f l m = true -> list_eqb f m n = true -> list_eqb f l n = true.
Proof.
  induction 1 as [|x l Hx Hl IH]; intros [|y m] [|z n]; cbn; try congruence.
  intros H1 H2. apply andb_true_iff in H1 as [A1 B1]. apply andb_true_iff in H2 as [A2 B2].
  rewrite (Hx _ _ A1 A2), (IH _ _ B1 B2). reflexivity.
Qed.

Lemma ieqb_trans : forall a b c, ieqb a b = true -> ieqb b c = true -> ieqb a c = true.
Proof.
  induction a using item_ind'; intros b c; destruct b; try (cbn; congruence); destruct c; try (cbn; congruence).
  - cbn. intros A B. apply Z.eqb_eq in A, B. apply Z.eqb_eq. congruence.
  - rewrite !ieqb_Tup. now apply mlist_eqb_trans.
  - rewrite !ieqb_Nd. intros A B.
    apply andb_true_iff in A as [A A4]. apply andb_true_iff in A as [A A3]. apply andb_true_iff in A as [A1 A2].
    apply andb_true_iff in B as [B B4]. apply andb_true_iff in B as [B B3]. apply andb_true_iff in B as [B1 B2].
    apply Z.eqb_eq in A1, A2, A3, B1, B2, B3. subst.
    rewrite !Z.eqb_refl. cbn. eapply mlist_eqb_trans; eauto.
Qed.

Lemma mlist_eqb_eq {A} (f : A -> A -> bool) l :
  Forall (fun x => forall y, f x y = true -> x = y) l -> forall m, list_eqb f l m = true -> l = m.
Proof.
  induction 1 as [|x l Hx Hl IH]; intros [|y m]; cbn; try congruence.
  intros H. apply andb_true_iff in H as [H1 H2]. f_equal; auto.
Qed.

Lemma ideqb_eq : forall a b, ideqb a b = true -> a = b.
Proof.
  induction a using item_ind'; intros b; destruct b; try (cbn; congruence).
  - cbn. intros A. apply Z.eqb_eq in A. congruence.
  - rewrite ideqb_Tup. intros A. f_equal. eapply mlist_eqb_eq; eauto.
  - rewrite ideqb_Nd. intros A.
    apply andb_true_iff in A as [A A5]. apply andb_true_iff in A as [A A4]. apply andb_true_iff in A as [A A3].
    apply andb_true_iff in A as [A1 A2].
    apply Z.eqb_eq in A1, A2, A3, A4. subst. f_equal. eapply mlist_eqb_eq; eauto.
Qed.

Lemma ideqb_refl : forall a, ideqb a a = true.
Proof.
  induction a using item_ind'.
  - cbn. apply Z.eqb_refl.
  - reflexivity.
  - rewrite ideqb_Tup. now apply mlist_eqb_refl.
  - rewrite ideqb_Nd, !Z.eqb_refl. cbn. now apply mlist_eqb_refl.
Qed.

Lemma list_ideqb_eq l m : list_eqb ideqb l m = true -> l = m.
Proof. apply mlist_eqb_eq. apply Forall_forall. intros x _ y. apply ideqb_eq. Qed.

Lemma visit_list_length rec l ms vs ms' lg rb :
  visit_list rec l ms = OkL vs ms' lg rb -> length vs = length l.
Proof.
  revert ms vs ms' lg rb. induction l as [|x l IH]; intros ms vs ms' lg rb; cbn.
  - intros H. now inversion H.
  - destruct (rec x ms) as [y sm ms1 lg1 rb1|e]; [|discriminate].
    destruct (visit_list rec l ms1) as [ys ms2 lg2 rb2|e] eqn:E; [|discriminate].
    intros H. inversion H; subst. cbn. f_equal. eauto.
Qed.

Lemma zip_children_same old new : length new = length old -> zip_children old new = new.
Proof.
  intros H. unfold zip_children. rewrite <- H, firstn_all, skipn_all2 by lia. apply app_nil_r.
Qed.

Lemma do_rebuild_fresh c o p ch ms r same ms' lg rb : c_inplace c = false ->
  do_rebuild c o p ch ms = Ok r same ms' lg rb -> same = false /\ lg = [] /\ rb = [].
Proof.
  intros Hin. unfold do_rebuild. destruct o; try discriminate. rewrite Hin.
  destruct (mk_node _ _ _ _); [|discriminate]. intros H. now inversion H.
Qed.

Lemma mk_node_inv k s p ch n : mk_node k s p ch = Some n ->
  exists ch', norm_children (kind_slots k) ch = Some ch' /\ post_init_ok k p ch' = true /\ n = Nd 0 k s p ch'.
Proof.
  unfold mk_node. destruct (norm_children _ ch) as [ch'|]; [|discriminate].
  destruct (post_init_ok _ _ _) eqn:E; [|discriminate]. intros H. inversion H. eauto.
Qed.

Lemma norm_children_length : forall ch ns ch', norm_children ns ch = Some ch' -> length ch' = length ch.
Proof.
  induction ch as [|x ch IH]; intros ns ch'; cbn; [intros H; now inversion H|].
  destruct (norm_slot _ x); [|discriminate]. destruct (norm_children (tl ns) ch) eqn:E; [|discriminate].
  intros H. inversion H. cbn. f_equal. eauto.
Qed.

Lemma sequence_length {A} (l : list (option A)) r : sequence l = Some r -> length r = length l.
Proof.
  revert r. induction l as [|[x|] l IH]; intros r; cbn; try congruence.
  - intros H. now inversion H.
  - destruct (sequence l); [|discriminate]. intros H. inversion H. cbn. f_equal. auto.
Qed.

(** the first step of [visit_ScopedNode]: the scope object itself, rebuilt with its own children *)
Definition scope_first (c : cfg) (o : item) (ms : mstate) : res :=
  if c_rebuild_scopes c then do_rebuild c o None (children_of o) ms else Ok o true ms [] [].

(** the children are what the constructor makes of them *)
Definition self_normal (k : Z) (ch : list item) : Prop :=
  forall ch', norm_children (kind_slots k) ch = Some ch' -> ch' = ch.

Lemma normalized_self_normal i k s p ch :
  normalized (Nd i k s p ch) = true -> kind_scoped k = true -> self_normal k ch.
Proof.
  cbn [normalized]. intros Hn Hsc ch' En. rewrite Hsc, En in Hn. apply andb_true_iff in Hn as [Hn _].
  now apply list_ideqb_eq.
Qed.

(** on such a node [scope_first] keeps class, payload and children, and fixes identity and source status of the
    result: whatever the children become afterwards, [spec_node] puts them under this node *)
Lemma scope_first_spec c i k s p ch ms : kind_scoped k = true -> self_normal k ch ->
  match scope_first c (Nd i k s p ch) ms with
  | Ok o1 _ ms1 _ rb1 =>
      ms1 = ms /\ rb1 = [] /\
      exists i1 s1, o1 = Nd i1 k s1 p ch /\ forall chs, spec_node c (Nd i k s p ch) chs = Some (Nd i1 k s1 p chs)
  | Err _ => forall chs, spec_node c (Nd i k s p ch) chs = None
  end.
Proof.
  intros Hsc Hself. unfold scope_first, spec_node, src_after. cbn [kind_of src_of children_of]. rewrite Hsc.
  destruct (c_rebuild_scopes c); [|repeat split; eauto].
  unfold do_rebuild. rewrite (zip_children_same ch ch eq_refl).
  destruct (c_inplace c); cbn [andb negb]; [repeat split; eauto|].
  destruct (mk_node k (inv_src c s ch) p ch) as [o1|] eqn:Emk; [|reflexivity].
  apply mk_node_inv in Emk as (ch' & En & _ & ->). rewrite (Hself ch' En). repeat split; eauto.
Qed.
