(** C14 — effects on the original objects: none when inplace = false and rebuild_scopes = true (all four
    transformer classes); witness for the documented exception (scoped nodes without rebuild_scopes);
    what happens to a node that is not mapped. *)
From Coq Require Import ZArith List Bool Lia Arith.
From LV Require Import models.M_C14 proofs.P_C14.
Import ListNotations.
Open Scope Z_scope.

Definition quiet (r : res) : Prop := res_log r = [].

Lemma visit_list_quiet f l : (forall x ms, quiet (f x ms)) ->
  forall ms vs ms' lg rb, visit_list f l ms = OkL vs ms' lg rb -> lg = [].
Proof.
  intros Hf. induction l as [|x l IH]; intros ms vs ms' lg rb; cbn.
  - intros H. now inversion H.
  - pose proof (Hf x ms) as Hx. destruct (f x ms) as [y sm ms1 lg1 rb1|e]; [|discriminate].
    destruct (visit_list f l ms1) as [ys ms2 lg2 rb2|e] eqn:E; [|discriminate].
    intros H. inversion H; subst. apply IH in E. unfold quiet in Hx. cbn in Hx. now subst.
Qed.

Section Quiet.
  Variable c : cfg.
  Hypothesis Hin : c_inplace c = false.
  Hypothesis Hrs : c_rebuild_scopes c = true.
  Variable rec : option bool -> item -> mstate -> res.
  Hypothesis Hrec : forall pa o ms, quiet (rec pa o ms).

  Lemma copy_handle_quiet h ms : quiet (copy_handle h ms).
  Proof. unfold copy_handle. destruct h; try reflexivity. destruct (mk_node _ _ _ _); reflexivity. Qed.

  (** the steps every handler is made of (visit the children, rebuild, one recursive visit, the pairs of a
      multi-conditional): if what follows is quiet on empty logs, the whole is *)
  Lemma quiet_after_visit_list pa l ms k :
    (forall vs ms1 rb, quiet (k vs ms1 [] rb)) ->
    quiet (match visit_list (rec pa) l ms with ErrL e => Err e | OkL vs ms1 lg rb => k vs ms1 lg rb end).
  Proof.
    intros Hk. destruct (visit_list (rec pa) l ms) as [vs ms1 lg rb|e] eqn:E; [|reflexivity].
    apply visit_list_quiet in E; [subst; apply Hk|intros; apply Hrec].
  Qed.

  Lemma quiet_after_rebuild o p ch ms k :
    (forall r ms1 rb, quiet (k r false ms1 [] rb)) ->
    quiet (match do_rebuild c o p ch ms with Ok r same ms1 lg rb => k r same ms1 lg rb | Err e => Err e end).
  Proof.
    intros Hk. destruct (do_rebuild c o p ch ms) as [r same ms1 lg rb|e] eqn:E; [|reflexivity].
    apply (do_rebuild_fresh _ _ _ _ _ _ _ _ _ _ Hin) in E as (-> & -> & _). apply Hk.
  Qed.

  Lemma h_tuple_quiet pa l ms : quiet (h_tuple c rec pa l ms).
  Proof. unfold h_tuple. destruct (c_cls c); apply quiet_after_visit_list; reflexivity. Qed.

  Lemma h_generic_quiet pa o ms : quiet (h_generic c rec pa o ms).
  Proof. unfold h_generic. apply quiet_after_visit_list. intros. apply quiet_after_rebuild. reflexivity. Qed.

  Lemma h_scoped_tail_quiet m pa o ms : quiet (h_scoped_tail c rec m pa o ms).
  Proof.
    unfold h_scoped_tail. rewrite Hrs. cbv zeta. apply quiet_after_rebuild. intros. apply quiet_after_visit_list. intros.
    destruct (m && negb (m_active _)); reflexivity.
  Qed.

  Lemma h_plain_node_quiet pa o ms : quiet (h_plain_node c rec pa o ms).
  Proof.
    unfold h_plain_node.
    assert (T : quiet (if kind_scoped (kind_of o) then h_scoped_tail c rec false pa o ms else h_generic c rec pa o ms)).
    { destruct (kind_scoped _); [apply h_scoped_tail_quiet | apply h_generic_quiet]. }
    destruct (mfind (c_map c) o) as [[k [|h|hs]]|]; try exact T.
    - reflexivity.
    - apply copy_handle_quiet.
    - destruct (mem o hs); [exact T | reflexivity].
  Qed.

  Lemma h_nested_node_quiet pa o ms : quiet (h_nested_node c rec pa o ms).
  Proof.
    unfold h_nested_node. rewrite Hrs.
    destruct (mfind (c_map c) o) as [[k [|h|hs]]|]; [reflexivity| | |].
    2:{ rewrite andb_true_r. destruct (kind_scoped (kind_of o)); [reflexivity|]. cbn [andb].
        apply quiet_after_visit_list. intros. destruct (children_of o); [reflexivity|]. destruct (extend_first hs _); [|reflexivity].
        destruct (c_invsrc c); [reflexivity|]. destruct (mk_node _ _ _ _); reflexivity. }
    (* a node that is not mapped and a node mapped to a node run the same code, on [o] resp. on the handle *)
    all: destruct (negb (is_nd _)); [reflexivity|]; destruct (kind_scoped (kind_of o));
      [apply quiet_after_rebuild; intros; apply quiet_after_visit_list; reflexivity | apply quiet_after_visit_list; intros; apply quiet_after_rebuild; reflexivity].
  Qed.

  Lemma h_masked_node_quiet pa o ms : quiet (h_masked_node c rec pa o ms).
  Proof.
    unfold h_masked_node. destruct (mfind (c_map c) o) eqn:F.
    - apply h_plain_node_quiet.
    - destruct (kind_scoped _); [apply h_scoped_tail_quiet|].
      apply quiet_after_visit_list. intros. destruct (m_active ms); [|reflexivity]. apply quiet_after_rebuild. reflexivity.
  Qed.

  Lemma visit_pairs_quiet pa vs : forall bs ms ps ms' lg rb,
    visit_pairs rec pa vs bs ms = inl (ps, ms', lg, rb) -> lg = [].
  Proof.
    induction vs as [|v vs IH]; intros [|b bs] ms ps ms' lg rb; cbn; try (intros H; now inversion H).
    pose proof (Hrec pa v ms) as Hv. destruct (rec pa v ms) as [v1 s1 ms1 lg1 rb1|e]; [|discriminate].
    pose proof (Hrec pa b ms1) as Hb. destruct (rec pa b ms1) as [b1 s2 ms2 lg2 rb2|e]; [|discriminate].
    destruct (visit_pairs rec pa vs bs ms2) as [[[[ps3 ms3] lg3] rb3]|e] eqn:E; [|discriminate].
    intros H. inversion H; subst. apply IH in E. unfold quiet in Hv, Hb. cbn in Hv, Hb. now subst.
  Qed.

  Lemma quiet_after_visit pa x ms k :
    (forall v s ms1 rb, quiet (k v s ms1 [] rb)) ->
    quiet (match rec pa x ms with Ok v s ms1 lg rb => k v s ms1 lg rb | Err e => Err e end).
  Proof.
    intros Hk. pose proof (Hrec pa x ms) as H. destruct (rec pa x ms) as [v s ms1 lg rb|e]; [|reflexivity].
    unfold quiet in H. cbn in H. subst lg. apply Hk.
  Qed.

  Lemma quiet_after_visit_pairs pa vs bs ms k :
    (forall ps ms1 rb, quiet (k (ps, ms1, [], rb))) ->
    quiet (match visit_pairs rec pa vs bs ms with inl x => k x | inr e => Err e end).
  Proof.
    intros Hk. destruct (visit_pairs rec pa vs bs ms) as [[[[ps ms1] lg] rb]|e] eqn:E; [|reflexivity].
    apply visit_pairs_quiet in E. subst lg. apply Hk.
  Qed.

  Lemma h_nm_node_quiet pa o ms : quiet (h_nm_node c rec pa o ms).
  Proof.
    unfold h_nm_node. destruct (kind_scoped _); [apply h_masked_node_quiet|].
    destruct (kind_disp _).
    - destruct (mfind _ _); [apply h_plain_node_quiet|].
      destruct (negb (m_active ms)); [reflexivity | apply h_generic_quiet].
    - destruct (mfind _ _); [apply h_plain_node_quiet|].
      apply quiet_after_visit_list. intros. destruct (negb (truthy _)); [reflexivity|]. apply quiet_after_rebuild. reflexivity.
    - destruct (mfind _ _); [reflexivity|].
      destruct (negb _); [reflexivity|]. apply quiet_after_visit_list. intros.
      destruct (flatten (as_tuple (nth 1 _ NoneI))); [reflexivity|]. apply quiet_after_rebuild. reflexivity.
    - destruct (mfind _ _); [reflexivity|].
      destruct (negb _); [reflexivity|].
      apply quiet_after_visit. intros. apply quiet_after_visit_pairs. intros. apply quiet_after_visit. intros.
      destruct (filter _ ps); [reflexivity|]. apply quiet_after_rebuild. reflexivity.
  Qed.

  Lemma visit_body_quiet pa o ms : quiet (visit_body c rec pa o ms).
  Proof.
    unfold visit_body.
    set (ms1 := if is_masked c then mask_pre c o ms else ms). clearbody ms1.
    destruct o.
    - destruct (c_cls c); try reflexivity. destruct pa as [[|]|]; reflexivity.
    - destruct (c_cls c); try reflexivity. destruct pa as [[|]|]; reflexivity.
    - apply h_tuple_quiet.
    - assert (W : forall r, quiet r ->
                 quiet (match r with
                        | Ok it same ms2 lg rb => Ok it same ms2 lg (if same then rb else rb ++ [(Nd id kind src pay ch, it)])
                        | Err e => Err e
                        end)) by (intros [? ? ? ? ?|?] Hq; exact Hq).
      apply W. destruct (c_cls c).
      + apply h_plain_node_quiet.
      + apply h_nested_node_quiet.
      + apply h_masked_node_quiet.
      + apply h_nm_node_quiet.
  Qed.
End Quiet.

Theorem no_effect_on_original : forall n c pa o ms,
  c_inplace c = false -> c_rebuild_scopes c = true -> res_log (visit n c pa o ms) = [].
Proof.
  intros n c pa o ms Hin Hrs. revert pa o ms. induction n as [|n IH]; intros pa o ms.
  - reflexivity.
  - cbn [visit]. apply visit_body_quiet; assumption.
Qed.

(** F15: a scoped node is updated in place although inplace = false *)
Definition f15_tree : item :=
  Nd 1 K_Section 0 0 [Tup [Nd 2 K_Associate 0 0 [Tup [Nd 3 K_Comment 0 1 []; Nd 4 K_Comment 0 2 []]; Tup []]]].
Definition f15_cfg : cfg :=
  Build_cfg TPlain [(Nd 3 K_Comment 0 1 [], HNone)] false false true [] false false.

Lemma scoped_effect_refuted :
  exists c t, c_cls c = TPlain /\ c_inplace c = false /\
    res_log (visit 10 c None t (init_ms false [])) = [EUpd 2 0 [Tup [Nd 0 K_Comment 0 2 []]; Tup []]].
Proof. exists f15_cfg, f15_tree. repeat split. Qed.

Lemma zip_children_length old new : length (zip_children old new) = length old.
Proof.
  unfold zip_children. rewrite app_length, firstn_length, skipn_length. lia.
Qed.

Lemma do_rebuild_shape c i k s p ch vs ms r same ms' lg rb :
  do_rebuild c (Nd i k s p ch) None vs ms = Ok r same ms' lg rb ->
  exists i' s' ch', r = Nd i' k s' p ch' /\ length ch' = length ch /\ (i' = i \/ i' = 0).
Proof.
  unfold do_rebuild. destruct (c_inplace c).
  - intros H. inversion H; subst. do 3 eexists. split; [reflexivity|]. split; [apply zip_children_length|now left].
  - destruct (mk_node _ _ _ _) eqn:E; [|discriminate]. intros H. inversion H; subst.
    apply mk_node_inv in E as (ch' & En & _ & ->). do 3 eexists. split; [reflexivity|].
    split; [now rewrite (norm_children_length _ _ _ En), zip_children_length | now right].
Qed.

(** A node that is not mapped keeps its class, its payload and its number of child slots; its identity is the
    old one or that of a new object *)
Lemma unmapped_preserved : forall n c pa i k s p ch ms r same ms' lg rb,
  c_cls c = TPlain -> mfind (c_map c) (Nd i k s p ch) = None ->
  visit n c pa (Nd i k s p ch) ms = Ok r same ms' lg rb ->
  exists i' s' ch', r = Nd i' k s' p ch' /\ length ch' = length ch /\ (i' = i \/ i' = 0).
Proof.
  intros n c pa i k s p ch ms r same ms' lg rb Hc Hm. destruct n as [|n]; [discriminate|].
  cbn [visit]. unfold visit_body, is_masked. rewrite Hc. unfold h_plain_node. rewrite Hm.
  cbn [kind_of].
  match goal with |- match ?X with _ => _ end = _ -> _ => destruct X as [r0 same0 ms0 lg0 rb0|e] eqn:E end; [|discriminate].
  intros H. inversion H; subst. clear H.
  destruct (kind_scoped k).
  - unfold h_scoped_tail in E. cbn [children_of] in E.
    destruct (c_rebuild_scopes c).
    + destruct (do_rebuild c (Nd i k s p ch) None ch ms) as [o1 same1 ms1 lg1 rb1|e] eqn:E1; [|discriminate].
      apply do_rebuild_shape in E1 as (i1 & s1 & ch1 & -> & L1 & Hi).
      cbn [children_of andb] in E.
      destruct (visit_list _ ch1 ms1) as [vs ms2 lg2 rb2|e]; [|discriminate].
      inversion E; subst. cbn [set_children]. do 3 eexists. split; [reflexivity|].
      split; [now rewrite zip_children_length|exact Hi].
    + cbn [children_of andb] in E.
      destruct (visit_list _ ch ms) as [vs ms2 lg2 rb2|e]; [|discriminate].
      inversion E; subst. cbn [set_children]. do 3 eexists. split; [reflexivity|].
      split; [now rewrite zip_children_length|now left].
  - unfold h_generic in E. cbn [children_of] in E.
    destruct (visit_list _ ch ms) as [vs ms1 lg1 rb1|e]; [|discriminate].
    destruct (do_rebuild c (Nd i k s p ch) None vs ms1) as [r1 same1 ms2 lg2 rb2|e] eqn:E1; [|discriminate].
    inversion E; subst. eapply do_rebuild_shape; eauto.
Qed.
