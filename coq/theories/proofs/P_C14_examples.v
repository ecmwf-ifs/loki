(** C14 — non-trivial instances of the class [spec_class] of the specification theorem and of the masked theorem. *)
From Coq Require Import ZArith List Bool Lia Arith.
From LV Require Import models.M_C14 proofs.P_C14_inject proofs.P_C14_spec.
Import ListNotations.
Open Scope Z_scope.

(** Section[ c1, Loop[c2, c3], Associate[c4] ] with  c2 -> (new5, c2),  c3 -> None,  Loop... unmapped,
    c4 -> new6, c1 -> (new7, new8)  — inside [spec_class]; the result is the spliced tree. *)
Definition ex_c2 := Nd 3 K_Comment 0 2 [].
Definition ex_tree : item :=
  Nd 1 K_Section 0 0 [Tup [Nd 2 K_Comment 0 1 [];
                           Nd 5 K_Loop 1 0 [Obj 0; Obj 1; Tup [ex_c2; Nd 4 K_Comment 0 3 []]];
                           Nd 6 K_Associate 0 0 [Tup [Nd 7 K_Comment 0 4 []]; Tup [Tup [Obj 2; Obj 3]]]]].
Definition ex_map : mapper :=
  [(ex_c2, HTup [Nd 8 K_Comment 0 5 []; ex_c2]); (Nd 4 K_Comment 0 3 [], HNone);
   (Nd 7 K_Comment 0 4 [], HNode (Nd 9 K_Pragma 0 6 [])); (Nd 2 K_Comment 0 1 [], HTup [Nd 10 K_Comment 0 7 []; Nd 11 K_Comment 0 8 []])].
Definition ex_cfg : cfg := Build_cfg TPlain ex_map false true true [] false false.

Example ex_in_class : spec_class ex_map ex_tree = true.
Proof. reflexivity. Qed.

Example ex_result :
  res_item (visit 20 ex_cfg None ex_tree (init_ms false [])) =
  Some (Nd 0 K_Section 0 0 [Tup [Nd 0 K_Comment 0 7 []; Nd 0 K_Comment 0 8 [];
                                 Nd 0 K_Loop 3 0 [Obj 0; Obj 1; Tup [Nd 0 K_Comment 0 5 []; Nd 0 K_Comment 0 2 []]];
                                 Nd 0 K_Associate 0 0 [Tup [Nd 0 K_Pragma 0 6 []]; Tup [Tup [Obj 2; Obj 3]]]]]).
Proof. reflexivity. Qed.

Example ex_spec_agrees : spec ex_cfg ex_tree = res_item (visit 20 ex_cfg None ex_tree (init_ms false [])).
Proof. reflexivity. Qed.

(** masked: Section[c1, Loop[c2, c3], c4] with start = {c2}, stop = {c4}: the loop is dropped, c2 and c3 stay *)
Definition ex_mtree : item :=
  Nd 1 K_Section 0 0 [Tup [Nd 2 K_Comment 0 1 [];
                           Nd 5 K_Loop 0 0 [Obj 0; Obj 1; Tup [Nd 3 K_Comment 0 2 []; Nd 4 K_Comment 0 3 []]];
                           Nd 6 K_Comment 0 4 []]].
Definition ex_mcfg : cfg := Build_cfg TMasked [] false true true [Nd 6 K_Comment 0 4 []] false false.
Example ex_masked :
  option_map preorder (res_item (visit 20 ex_mcfg None ex_mtree (init_ms false [Nd 3 K_Comment 0 2 []]))) =
  Some [(K_Comment, 2); (K_Comment, 3)] /\
  selected (fst (scan ex_mcfg ex_mtree (init_ms false [Nd 3 K_Comment 0 2 []]))) = [(K_Comment, 2); (K_Comment, 3)].
Proof. split; reflexivity. Qed.
