(** C14 — the empty mapping: [Transformer()] returns an equal tree (for trees without empty entries inside
    tuples), and a witness that it does not for a multi-conditional with an empty case body.
    Defines [reid] (the expected result: the tree with the identities the transformer leaves) and [id_cfg]. *)
From Coq Require Import ZArith List Bool Lia Arith.
From LV Require Import Base.ListFacts models.M_C14 proofs.P_C14 proofs.P_C14_inject proofs.P_C14_spec.
Import ListNotations.
Open Scope Z_scope.

(** the same tree with the identities the transformer leaves: kept where nodes are updated in place *)
Fixpoint reid (c : cfg) (o : item) : item :=
  match o with
  | Tup l => Tup (map (reid c) l)
  | Nd i k s p ch =>
      Nd (if c_inplace c || (kind_scoped k && negb (c_rebuild_scopes c)) then i else 0) k s p (map (reid c) ch)
  | _ => o
  end.

Lemma reid_ieqb c : forall o, ieqb (reid c o) o = true.
Proof.
  induction o as [v| |l IH|i k s p ch IH] using item_ind'; try apply ieqb_refl.
  - cbn [reid]. rewrite ieqb_Tup. induction IH as [|y r Hy _ IHr]; cbn; [reflexivity|]. now rewrite Hy, IHr.
  - cbn [reid]. rewrite ieqb_Nd, !Z.eqb_refl. cbn. induction IH as [|y r Hy _ IHr]; cbn; [reflexivity|]. now rewrite Hy, IHr.
Qed.

Section Reid.
  Variable c : cfg.
  Let f := reid c.

  Lemma is_none_reid x : is_none (f x) = is_none x. Proof. destruct x; reflexivity. Qed.
  Lemma is_nd_reid x : is_nd (f x) = is_nd x. Proof. destruct x; reflexivity. Qed.
  Lemma is_tup_reid x : is_tup (f x) = is_tup x. Proof. destruct x; reflexivity. Qed.
  Lemma keep_reid x : keep (f x) = keep x. Proof. destruct x as [| |[|]|]; reflexivity. Qed.
  Lemma as_tuple_reid x : as_tuple (f x) = map f (as_tuple x). Proof. destruct x; reflexivity. Qed.

  Lemma flatten_item_reid : forall x, flatten_item (f x) = map f (flatten_item x).
  Proof.
    induction x as [v| |l IH|i k s p ch IH] using item_ind'; try reflexivity.
    cbn [f reid flatten_item]. induction IH as [|y r Hy _ IHr]; cbn; [reflexivity|]. rewrite map_app. f_equal; assumption.
  Qed.

  Lemma flatten_reid l : flatten (map f l) = map f (flatten l).
  Proof.
    unfold flatten. induction l as [|x l IH]; cbn; [reflexivity|].
    now rewrite map_app, flatten_item_reid, IH.
  Qed.

  Lemma sanitize_reid x : sanitize (f x) = map f (sanitize x).
  Proof.
    unfold sanitize. rewrite as_tuple_reid, flatten_reid. apply filter_map_comm.
    intros y. now rewrite is_none_reid.
  Qed.

  Lemma norm_slot_reid n x : norm_slot n (f x) = option_map f (norm_slot n x).
  Proof.
    destruct n; cbn [norm_slot option_map].
    - reflexivity.
    - rewrite sanitize_reid, forallb_map, (forallb_ext _ _ _ is_nd_reid).
      destruct (forallb is_nd (sanitize x)); reflexivity.
    - now rewrite sanitize_reid.
    - rewrite as_tuple_reid. f_equal.
      change (Tup (map (fun p => Tup (sanitize p)) (map f (as_tuple x))) =
              Tup (map f (map (fun p => Tup (sanitize p)) (as_tuple x)))).
      f_equal. rewrite !map_map. apply map_ext. intros y. rewrite sanitize_reid. reflexivity.
    - rewrite is_none_reid. destruct (is_none x); reflexivity.
    - destruct x; try reflexivity. cbn [f reid]. rewrite forallb_map, (forallb_ext _ _ _ is_nd_reid).
      destruct (forallb is_nd l); reflexivity.
    - destruct x; try reflexivity. cbn [f reid].
      rewrite forallb_map, (forallb_ext _ (fun b => match b with Tup m => forallb is_nd m | _ => false end)).
      + destruct (forallb _ l); reflexivity.
      + intros y. destruct y; try reflexivity. cbn [f reid]. rewrite forallb_map. apply forallb_ext, is_nd_reid.
  Qed.

  Lemma norm_children_reid : forall ch ns,
    norm_children ns (map f ch) = option_map (map f) (norm_children ns ch).
  Proof.
    induction ch as [|x ch IH]; intros ns; cbn [map norm_children option_map]; [reflexivity|].
    rewrite norm_slot_reid, IH. destruct (norm_slot _ x); [|reflexivity]. cbn [option_map].
    destruct (norm_children (tl ns) ch); reflexivity.
  Qed.

  Lemma nth_reid n ch : nth n (map f ch) NoneI = f (nth n ch NoneI).
  Proof. change NoneI with (f NoneI) at 1. apply map_nth. Qed.

  Lemma post_init_reid k p ch : post_init_ok k p (map f ch) = post_init_ok k p ch.
  Proof.
    unfold post_init_ok. rewrite !nth_reid, map_length.
    destruct (k =? K_Conditional).
    - destruct (Z.odd p); [|reflexivity]. destruct (nth 2 ch NoneI) as [| |els|]; try reflexivity.
      cbn [f reid]. rewrite map_length. destruct els as [|e els]; [reflexivity|]. cbn [map hd]. destruct e; reflexivity.
    - destruct (k =? K_MaskedStatement); [|reflexivity].
      rewrite !is_tup_reid, !as_tuple_reid, !map_length. reflexivity.
  Qed.

  Lemma mk_node_reid k s p ch ch' :
    mk_node k s p ch = Some (Nd 0 k s p ch') -> mk_node k s p (map f ch) = Some (Nd 0 k s p (map f ch')).
  Proof.
    unfold mk_node. rewrite norm_children_reid. destruct (norm_children (kind_slots k) ch) as [c1|]; [|discriminate].
    cbn [option_map]. rewrite post_init_reid. destruct (post_init_ok k p c1); [|discriminate].
    intros H. inversion H. reflexivity.
  Qed.
End Reid.

Lemma constructed_inv i k s p ch : constructed (Nd i k s p ch) = true ->
  mk_node k s p ch = Some (Nd 0 k s p ch) /\ forall x, In x ch -> constructed x = true.
Proof.
  cbn [constructed]. intros H. apply andb_true_iff in H as [H1 H2]. split.
  - destruct (mk_node k s p ch) as [[| | |i' k' s' p' ch']|] eqn:E; try discriminate.
    apply list_ideqb_eq in H1. subst ch'.
    apply mk_node_inv in E as (c1 & _ & _ & E). now inversion E.
  - rewrite forallb_forall in H2. exact H2.
Qed.

Lemma mk_node_src k s s' p ch ch' : mk_node k s p ch = Some (Nd 0 k s p ch') -> mk_node k s' p ch = Some (Nd 0 k s' p ch').
Proof.
  unfold mk_node. destruct (norm_children _ ch); [|discriminate]. destruct (post_init_ok _ _ _); [|discriminate].
  intros H. inversion H. reflexivity.
Qed.

Lemma constructed_normalized : forall o, constructed o = true -> normalized o = true.
Proof.
  induction o as [v| |l IH|i k s p ch IH] using item_ind'; intros Hc; try reflexivity.
  - cbn [normalized]. cbn [constructed] in Hc. rewrite forallb_forall in *. rewrite Forall_forall in IH. auto.
  - pose proof (constructed_inv _ _ _ _ _ Hc) as [Hm Hch]. cbn [normalized].
    apply andb_true_iff. split.
    + destruct (kind_scoped k); [|reflexivity].
      apply mk_node_inv in Hm as (c1 & En & _ & E). rewrite En. inversion E. subst.
      apply mlist_eqb_refl. apply Forall_forall. intros x _. apply ideqb_refl.
    + apply forallb_forall. intros x Hx. rewrite Forall_forall in IH. auto.
Qed.

Lemma sequence_map_total {A B} (g : A -> B) (h : A -> option B) l :
  (forall x, In x l -> h x = Some (g x)) -> sequence (map h l) = Some (map g l).
Proof.
  induction l as [|x l IH]; intros H; cbn; [reflexivity|].
  rewrite (H x (or_introl eq_refl)), IH; [reflexivity|]. intros y Hy. apply H. now right.
Qed.

Lemma inv_src_stable c s l : c_invsrc c = false \/ (s =? 1) = false -> inv_src c s l = s.
Proof. unfold inv_src. intros [->| ->]; [reflexivity|]. now rewrite andb_false_r. Qed.

Lemma refresh_identity c : forall t,
  clean t = true -> constructed t = true -> (c_invsrc c = false \/ no_valid_src t = true) ->
  refresh c t = Some (reid c t).
Proof.
  unfold refresh. induction t as [v| |l IH|i k s p ch IH] using item_ind'; intros Hcl Hco Hsrc; try reflexivity.
  - rewrite spec_gen_Tup. cbn [clean constructed] in *. rewrite forallb_forall in Hcl, Hco. rewrite Forall_forall in IH.
    erewrite (sequence_map_total (fun x => [reid c x])).
    + cbn [reid]. f_equal. f_equal. rewrite <- flat_map_concat_map.
      assert (E : flat_map (fun x => [reid c x]) l = map (reid c) l) by (clear; induction l; cbn; congruence).
      rewrite E. unfold strip. apply filter_all. intros y Hy. apply in_map_iff in Hy as (x & <- & Hx).
      rewrite keep_reid. specialize (Hcl x Hx). now apply andb_true_iff in Hcl as [? _].
    + intros x Hx. cbv beta. specialize (Hcl x Hx). apply andb_true_iff in Hcl as [_ Hcl].
      rewrite (IH x Hx Hcl (Hco x Hx)); [reflexivity|].
      destruct Hsrc as [Hs|Hs]; [now left|right]. cbn [no_valid_src] in Hs. rewrite forallb_forall in Hs. auto.
  - rewrite spec_gen_Nd. cbv zeta. pose proof (constructed_inv _ _ _ _ _ Hco) as [Hm Hch].
    cbn [clean] in Hcl. rewrite forallb_forall in Hcl. rewrite Forall_forall in IH.
    assert (Hs : c_invsrc c = false \/ (s =? 1) = false).
    { destruct Hsrc as [Hs|Hs]; [now left|right]. cbn [no_valid_src] in Hs. apply andb_true_iff in Hs as [Hs _].
      now apply negb_true_iff in Hs. }
    rewrite (sequence_map_total (reid c)).
    + unfold spec_node, src_after. cbn [kind_of src_of children_of reid]. rewrite !(inv_src_stable c s _ Hs).
      destruct (kind_scoped k) eqn:Hsc.
      * destruct (c_rebuild_scopes c); cbn [andb negb].
        -- destruct (c_inplace c); cbn [negb orb]; [reflexivity|]. now rewrite Hm.
        -- rewrite orb_true_r. reflexivity.
      * cbn [andb]. rewrite orb_false_r. destruct (c_inplace c); [reflexivity|].
        now apply mk_node_reid.
    + intros x Hx. apply IH; auto.
      destruct Hsrc as [Hs'|Hs']; [now left|right]. cbn [no_valid_src] in Hs'. apply andb_true_iff in Hs' as [_ Hs'].
      rewrite forallb_forall in Hs'. auto.
Qed.

Theorem empty_mapping_identity : forall c t n pa ms,
  c_cls c = TPlain -> c_map c = [] ->
  clean t = true -> constructed t = true -> (c_invsrc c = false \/ no_valid_src t = true) ->
  (height t <= n)%nat ->
  res_item (visit n c pa t ms) = Some (reid c t) /\ ieqb (reid c t) t = true.
Proof.
  intros c t n pa ms Hc HM Hcl Hco Hsrc Hn. split; [|apply reid_ieqb].
  pose proof (keyfree_nil t) as G.
  rewrite transform_spec; try assumption.
  - rewrite <- (refresh_identity c t Hcl Hco Hsrc). apply spec_keyfree; rewrite HM; [reflexivity|exact G].
  - rewrite HM. unfold spec_class. cbn. now rewrite (constructed_normalized t Hco), (keyfree_exact [] t G).
  - rewrite HM. cbn. lia.
Qed.

(** the tree [SELECT CASE (x); CASE (1); CASE (2); <comment>; END SELECT]: the empty body of the first case is
    dropped, the remaining body moves under the first case value *)
Definition mc_tree : item :=
  Nd 1 K_MultiConditional 0 0
     [Obj 0; Tup [Tup [Obj 1]; Tup [Obj 2]]; Tup [Tup []; Tup [Nd 2 K_Comment 0 0 []]]; Tup []].
Definition id_cfg : cfg := Build_cfg TPlain [] false true false [] false false.

Lemma empty_mapping_identity_refuted :
  exists t, constructed t = true /\ clean t = false /\
    res_item (visit 10 id_cfg None t (init_ms false [])) =
      Some (Nd 0 K_MultiConditional 0 0
               [Obj 0; Tup [Tup [Obj 1]; Tup [Obj 2]]; Tup [Tup [Nd 0 K_Comment 0 0 []]]; Tup []]) /\
    (forall r, res_item (visit 10 id_cfg None t (init_ms false [])) = Some r -> ieqb r t = false).
Proof.
  exists mc_tree. repeat split; try reflexivity. intros r H. vm_compute in H. inversion H. reflexivity.
Qed.
