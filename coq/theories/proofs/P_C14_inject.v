(** C14 — [_inject_tuple_mapping]: the index-based loops of the code equal a one-pass splice on the class
    "keys are nodes, pairwise different, and the members of a one-to-many replacement are the replaced node
    itself or no key at all".  Defines [splice] and [inj_ok], in which the theorem is stated. *)
From Coq Require Import ZArith List Bool Lia Arith.
From LV Require Import Base.ListFacts models.M_C14 proofs.P_C14.
Import ListNotations.
Open Scope Z_scope.

Definition splice1 (k : item) (new : list item) (x : item) : list item := if ieqb x k then new else [x].

Lemma mem_false k l : mem k l = false -> forall x, In x l -> ieqb x k = false.
Proof.
  unfold mem. intros H x Hx. destruct (ieqb x k) eqn:E; [|reflexivity].
  assert (existsb (ieqb k) l = true) by (apply existsb_exists; exists x; split; [exact Hx|now rewrite ieqb_sym]).
  congruence.
Qed.

Lemma index_from_app k a : forall t, index_from k (a ++ t) (length a) = option_map (fun j => (length a + j)%nat) (index_from k t O).
Proof.
  induction a as [|y a IH]; intros t; cbn [app length].
  - destruct (index_from k t 0); reflexivity.
  - cbn [index_from]. rewrite IH. destruct (index_from k t 0); reflexivity.
Qed.

Lemma index_from_0 k t :
  match index_from k t O with
  | Some j => exists pre x post, t = pre ++ x :: post /\ length pre = j /\ ieqb x k = true /\
                                 (forall y, In y pre -> ieqb y k = false)
  | None => forall y, In y t -> ieqb y k = false
  end.
Proof.
  induction t as [|x t IH]; cbn [index_from].
  - intros y [].
  - destruct (ieqb x k) eqn:E.
    + exists [], x, t. repeat split; auto. intros y [].
    + destruct (index_from k t 0) as [j|]; cbn [option_map].
      * destruct IH as (pre & x' & post & -> & L & Hx & Hp). exists (x :: pre), x', post.
        repeat split; cbn; auto. intros y [<-|Hy]; auto.
      * intros y [<-|Hy]; auto.
Qed.

Lemma inject_loop_spec k new : forall fuel a t, (length t <= fuel)%nat ->
  inject_loop fuel (a ++ t) (length a) k new = a ++ flat_map (splice1 k new) t.
Proof.
  induction fuel as [|f IH]; intros a t Hl.
  - destruct t; [|cbn in Hl; lia]. cbn. reflexivity.
  - cbn [inject_loop]. rewrite skipn_len_app.
    destruct (mem k t) eqn:Hm.
    + unfold inject_handle. rewrite index_from_app.
      pose proof (index_from_0 k t) as H0. destruct (index_from k t 0) as [j0|].
      * destruct H0 as (pre & x & post & -> & L & Hx & Hp). cbn [option_map].
        assert (E1 : firstn (length a + j0) (a ++ pre ++ x :: post) = a ++ pre).
        { rewrite <- L, <- app_length, app_assoc. apply firstn_len_app. }
        assert (E2 : skipn (S (length a + j0)) (a ++ pre ++ x :: post) = post).
        { replace (a ++ pre ++ x :: post) with ((a ++ pre ++ [x]) ++ post) by (now rewrite <- !app_assoc).
          replace (S (length a + j0)) with (length (a ++ pre ++ [x])) by (rewrite !app_length; cbn; lia).
          apply skipn_len_app. }
        rewrite E1, E2.
        replace ((a ++ pre) ++ new ++ post) with ((a ++ pre ++ new) ++ post) by (now rewrite <- !app_assoc).
        replace (length a + j0 + length new)%nat with (length (a ++ pre ++ new)) by (rewrite !app_length; lia).
        rewrite IH by (rewrite app_length in Hl; cbn in Hl; lia).
        rewrite flat_map_app. cbn [flat_map]. unfold splice1 at 3. rewrite Hx.
        rewrite (flat_map_id (splice1 k new) pre) by (intros y Hy; unfold splice1; now rewrite (Hp y Hy)).
        now rewrite <- !app_assoc.
      * exfalso. unfold mem in Hm. apply existsb_exists in Hm as (y & Hy & E). rewrite ieqb_sym in E.
        rewrite (H0 y Hy) in E. discriminate.
    + rewrite flat_map_id; [reflexivity|]. intros y Hy. unfold splice1. now rewrite (mem_false _ _ Hm y Hy).
Qed.

Lemma inject_all_spec o k new : inject_all o k new = flat_map (splice1 k new) o.
Proof. unfold inject_all. apply (inject_loop_spec k new (length o) [] o). lia. Qed.

Lemma inject_step_nd o k h : is_nd k = true ->
  inject_step o (k, h) = match h with HTup new => flat_map (splice1 k new) o | _ => o end.
Proof.
  intros Hk. unfold inject_step. destruct k; try discriminate. destruct h as [|h|new]; try reflexivity.
  destruct (mem _ o) eqn:Hm.
  - apply inject_all_spec.
  - symmetry. apply flat_map_id. intros y Hy. unfold splice1. now rewrite (mem_false _ _ Hm y Hy).
Qed.

Definition splice (M : mapper) (x : item) : list item :=
  match mfind M x with Some (_, HTup hs) => hs | _ => [x] end.

Definition inj_ok (M : mapper) (x : item) : Prop :=
  forall k hs, mfind M x = Some (k, HTup hs) -> forall h, In h hs -> h = x \/ mfind M h = None.

Lemma mfind_some M x k h : mfind M x = Some (k, h) -> ieqb k x = true /\ In (k, h) M.
Proof.
  induction M as [|[k' h'] M IH]; cbn; [discriminate|].
  destruct (ieqb k' x) eqn:E.
  - intros H. inversion H; subst. split; [exact E|now left].
  - intros H. destruct (IH H). split; [assumption|now right].
Qed.

Lemma mfind_none M x : mfind M x = None -> forall k h, In (k, h) M -> ieqb k x = false.
Proof.
  induction M as [|[k' h'] M IH]; cbn; [intros _ k h []|].
  destruct (ieqb k' x) eqn:E; [discriminate|]. intros H k h [Heq|Hin].
  - inversion Heq; subst. exact E.
  - eapply IH; eauto.
Qed.

Lemma keys_ok_cons k h M : keys_ok ((k, h) :: M) = true ->
  is_nd k = true /\ (forall k2 h2, In (k2, h2) M -> ieqb k2 k = false) /\ keys_ok M = true.
Proof.
  cbn. intros H. apply andb_true_iff in H as [H H3]. apply andb_true_iff in H as [H1 H2].
  repeat split; auto. intros k2 h2 Hin. apply negb_true_iff in H2.
  destruct (ieqb k2 k) eqn:E; [|reflexivity].
  assert (existsb (fun e => ieqb (fst e) k) M = true) by (apply existsb_exists; exists (k2, h2); auto).
  congruence.
Qed.

Lemma unique_first k h M y : keys_ok ((k, h) :: M) = true -> ieqb k y = true -> mfind M y = None.
Proof.
  intros HK Hy. apply keys_ok_cons in HK as (_ & HU & _).
  destruct (mfind M y) as [[k2 h2]|] eqn:E; [|reflexivity].
  apply mfind_some in E as [E1 E2]. specialize (HU _ _ E2).
  assert (ieqb k2 k = true).
  { eapply ieqb_trans; [exact E1|]. now rewrite ieqb_sym. }
  congruence.
Qed.

Lemma splice_cons_other k h M x : keys_ok ((k, h) :: M) = true -> match h with HTup _ => False | _ => True end ->
  splice ((k, h) :: M) x = splice M x.
Proof.
  intros HK Hh. unfold splice. cbn [mfind]. destruct (ieqb k x) eqn:E; [|reflexivity].
  rewrite (unique_first _ _ _ _ HK E). destruct h; [reflexivity|reflexivity|destruct Hh].
Qed.

(** by induction on the mapper: the first entry is applied to the whole list ([inject_step_nd]); since keys are
    pairwise different no later entry matches what it replaced, and what it inserted holds no key ([inj_ok]), so
    the rest of the mapper acts on the result as on the original list *)
Lemma inject_spec : forall M l, keys_ok M = true -> (forall x, In x l -> inj_ok M x) ->
  inject M l = flat_map (splice M) l.
Proof.
  induction M as [|[k h] M IH]; intros l HK HL.
  - cbn. symmetry. apply flat_map_id. reflexivity.
  - unfold inject. cbn [fold_left]. fold (inject M (inject_step l (k, h))).
    pose proof (keys_ok_cons _ _ _ HK) as (Hnd & HU & HK').
    rewrite (inject_step_nd _ _ _ Hnd).
    assert (Hne : forall x, ieqb k x = false -> mfind ((k, h) :: M) x = mfind M x) by (intros x E; cbn; now rewrite E).
    assert (Hok : forall x, In x l -> ieqb k x = false -> inj_ok M x).
    { intros x Hx E k2 hs F h' Hh'. rewrite <- (Hne x E) in F. destruct (HL x Hx _ _ F h' Hh') as [->|N]; [now left|right].
      cbn in N. destruct (ieqb k h'); [discriminate|exact N]. }
    assert (Hvac : forall y, mfind M y = None -> inj_ok M y) by (intros y N k2 hs F; congruence).
    assert (Hrest : forall x, In x l -> inj_ok M x).
    { intros x Hx. destruct (ieqb k x) eqn:E; [apply Hvac; eapply unique_first; eauto | now apply Hok]. }
    destruct h as [|h|new].
    + rewrite (IH l HK' Hrest). apply flat_map_ext_Forall, Forall_forall. intros x _.
      symmetry. now apply (splice_cons_other _ _ _ _ HK).
    + rewrite (IH l HK' Hrest). apply flat_map_ext_Forall, Forall_forall. intros x _.
      symmetry. now apply (splice_cons_other _ _ _ _ HK).
    + assert (Hnew : forall x, In x l -> ieqb k x = true -> forall h', In h' new -> mfind M h' = None).
      { intros x Hx E h' Hh'. assert (F : mfind ((k, HTup new) :: M) x = Some (k, HTup new)) by (cbn; now rewrite E).
        destruct (HL x Hx _ _ F h' Hh') as [->|N]; [eapply unique_first; eauto|].
        cbn in N. destruct (ieqb k h'); [discriminate|exact N]. }
      rewrite IH; [|exact HK'|].
      * rewrite flat_map_flat_map. apply flat_map_ext_Forall, Forall_forall. intros x Hx. unfold splice1, splice at 2.
        rewrite (ieqb_sym x k). destruct (ieqb k x) eqn:E.
        -- cbn [mfind]. rewrite E. apply flat_map_id. intros h' Hh'. unfold splice. now rewrite (Hnew x Hx E h' Hh').
        -- rewrite Hne by exact E. cbn. apply app_nil_r.
      * intros y Hy. apply in_flat_map in Hy as (x & Hx & Hy). unfold splice1 in Hy. rewrite (ieqb_sym x k) in Hy.
        destruct (ieqb k x) eqn:E.
        -- apply Hvac. eapply Hnew; eauto.
        -- destruct Hy as [<-|[]]. now apply Hok.
Qed.
