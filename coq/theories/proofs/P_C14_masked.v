(** C14 — [MaskedTransformer] without mapper: the pre-order node sequence of the result is the sub-sequence of
    the pre-order node sequence of the input made of the nodes visited while the transformer is switched on. *)
From Coq Require Import ZArith List Bool Lia Arith.
From LV Require Import models.M_C14 proofs.P_C14 proofs.P_C14_spec.
Import ListNotations.
Open Scope Z_scope.

Fixpoint scan_list (c : cfg) (l : list item) (ms : mstate) : list (Z * Z * bool) * mstate :=
  match l with
  | [] => ([], ms)
  | x :: r => let '(a, ms1) := scan c x ms in let '(b, ms2) := scan_list c r ms1 in (a ++ b, ms2)
  end.

Lemma scan_Tup c l ms : scan c (Tup l) ms = scan_list c l (mask_pre c (Tup l) ms).
Proof.
  cbn [scan]. generalize (mask_pre c (Tup l) ms). induction l as [|x l IH]; intros m; cbn [scan_list]; [reflexivity|].
  destruct (scan c x m) as [a ms1]. rewrite IH. reflexivity.
Qed.

Lemma scan_Nd c i k s p ch ms :
  scan c (Nd i k s p ch) ms =
  let ms1 := mask_pre c (Nd i k s p ch) ms in
  let '(r, ms2) := scan_list c ch ms1 in ((k, p, m_active ms1) :: r, ms2).
Proof.
  cbn [scan]. cbv zeta. generalize (mask_pre c (Nd i k s p ch) ms). intros m.
  assert (E : forall l m0, (fix go (l : list item) (ms : mstate) {struct l} : list (Z * Z * bool) * mstate :=
             match l with
             | [] => ([], ms)
             | x :: r => let '(a, ms1) := scan c x ms in let '(b, ms2) := go r ms1 in (a ++ b, ms2)
             end) l m0 = scan_list c l m0).
  { induction l as [|x l IH]; intros m0; cbn [scan_list]; [reflexivity|].
    destruct (scan c x m0) as [a ms1]. rewrite IH. reflexivity. }
  rewrite E. reflexivity.
Qed.

Lemma selected_app a b : selected (a ++ b) = selected a ++ selected b.
Proof. unfold selected. now rewrite filter_app, map_app. Qed.

Lemma preorder_strip vs : flat_map preorder (strip vs) = flat_map preorder vs.
Proof.
  unfold strip. induction vs as [|x vs IH]; cbn; [reflexivity|].
  destruct x as [v| |[|y l]|i k s p ch]; cbn; rewrite ?IH; reflexivity.
Qed.

Lemma preorder_inactive vs : preorder (inactive_result vs) = flat_map preorder vs.
Proof.
  unfold inactive_result.
  assert (E : flat_map preorder (filter (fun i => negb (is_none i)) vs) = flat_map preorder vs).
  { induction vs as [|x vs IH]; cbn; [reflexivity|]. destruct x; cbn; rewrite ?IH; reflexivity. }
  destruct (filter _ vs) eqn:F; rewrite <- E; reflexivity.
Qed.

Lemma preorder_flatten_item : forall x, flat_map preorder (flatten_item x) = preorder x.
Proof.
  induction x as [v| |l IH|i k s p ch IH] using item_ind'; try (cbn; now rewrite ?app_nil_r).
  cbn [flatten_item preorder]. induction IH as [|y r Hy _ IHr]; cbn; [reflexivity|]. now rewrite flat_map_app, Hy, IHr.
Qed.

Lemma preorder_flatten l : flat_map preorder (flatten l) = flat_map preorder l.
Proof.
  unfold flatten. induction l as [|x l IH]; cbn; [reflexivity|].
  now rewrite flat_map_app, preorder_flatten_item, IH.
Qed.

Lemma preorder_as_tuple x : flat_map preorder (as_tuple x) = preorder x.
Proof. destruct x; cbn; rewrite ?app_nil_r; reflexivity. Qed.

Lemma preorder_sanitize x : flat_map preorder (sanitize x) = preorder x.
Proof.
  unfold sanitize. rewrite <- (preorder_as_tuple x), <- (preorder_flatten (as_tuple x)).
  induction (flatten (as_tuple x)) as [|y l IH]; cbn; [reflexivity|]. destruct y; cbn; rewrite ?IH; reflexivity.
Qed.

Lemma preorder_norm_slot n x y : norm_slot n x = Some y -> preorder y = preorder x.
Proof.
  destruct n; cbn [norm_slot].
  - intros H. now inversion H.
  - destruct (forallb is_nd (sanitize x)); [|discriminate]. intros H. inversion H. cbn [preorder]. apply preorder_sanitize.
  - intros H. inversion H. cbn [preorder]. apply preorder_sanitize.
  - intros H. inversion H. clear. cbn [preorder]. rewrite <- (preorder_as_tuple x).
    induction (as_tuple x) as [|z l IH]; cbn [map flat_map preorder]; [reflexivity|]. now rewrite IH, preorder_sanitize.
  - destruct (is_none x); [discriminate|]. intros H. now inversion H.
  - destruct x; try discriminate; try (intros H; now inversion H).
    destruct (forallb is_nd l); [|discriminate]. intros H. now inversion H.
  - destruct x; try discriminate. destruct (forallb _ l); [|discriminate]. intros H. now inversion H.
Qed.

Lemma preorder_norm_children : forall ch ns ch', norm_children ns ch = Some ch' ->
  flat_map preorder ch' = flat_map preorder ch.
Proof.
  induction ch as [|x ch IH]; intros ns ch'; cbn [norm_children].
  - intros H. now inversion H.
  - destruct (norm_slot _ x) eqn:E1; [|discriminate]. destruct (norm_children (tl ns) ch) eqn:E2; [|discriminate].
    intros H. inversion H. cbn. now rewrite (preorder_norm_slot _ _ _ E1), (IH _ _ E2).
Qed.

Lemma preorder_mk_node k s p ch n : mk_node k s p ch = Some n -> preorder n = (k, p) :: flat_map preorder ch.
Proof.
  intros H. apply mk_node_inv in H as (ch' & En & _ & ->). cbn. now rewrite (preorder_norm_children _ _ _ En).
Qed.

Lemma preorder_do_rebuild c i k s p ch vs ms r same ms' lg rb :
  length vs = length ch ->
  do_rebuild c (Nd i k s p ch) None vs ms = Ok r same ms' lg rb ->
  preorder r = (k, p) :: flat_map preorder vs /\ ms' = ms.
Proof.
  intros L. unfold do_rebuild. rewrite (zip_children_same _ _ L). destruct (c_inplace c).
  - intros H. inversion H. auto.
  - destruct (mk_node _ _ _ _) eqn:E; [|discriminate]. intros H. inversion H; subst. split; [|reflexivity].
    now apply preorder_mk_node in E.
Qed.

(** [f] on [x] does what [scan] predicts: the pre-order of the result is the scanned triples whose flag is on,
    the final state is the scan's state *)
Definition scans (c : cfg) (f : item -> mstate -> res) (x : item) : Prop :=
  forall ms r same ms' lg rb, f x ms = Ok r same ms' lg rb ->
    preorder r = selected (fst (scan c x ms)) /\ ms' = snd (scan c x ms).

Lemma visit_list_scan c f l : (forall x, In x l -> scans c f x) ->
  forall ms vs ms' lg rb, visit_list f l ms = OkL vs ms' lg rb ->
    flat_map preorder vs = selected (fst (scan_list c l ms)) /\ ms' = snd (scan_list c l ms).
Proof.
  induction l as [|x l IH]; intros H ms vs ms' lg rb; cbn [visit_list scan_list].
  - intros E. inversion E. auto.
  - destruct (f x ms) as [y sm ms1 lg1 rb1|e] eqn:E1; [|discriminate].
    destruct (visit_list f l ms1) as [ys ms2 lg2 rb2|e] eqn:E2; [|discriminate].
    intros E. inversion E; subst.
    destruct (H x (or_introl eq_refl) _ _ _ _ _ _ E1) as [P1 S1].
    destruct (IH (fun y Hy => H y (or_intror Hy)) _ _ _ _ _ E2) as [P2 S2].
    destruct (scan c x ms) as [a m1]. cbn [fst snd] in *. subst ms1.
    destruct (scan_list c l m1) as [b m2]. cbn [fst snd] in *.
    cbn. now rewrite selected_app, P1, P2.
Qed.

Section Masked.
  Variable c : cfg.
  Hypothesis Hc : c_cls c = TMasked.
  Hypothesis HM : c_map c = [].

  Lemma masked_scan : forall n o pa, normalized o = true -> scans c (visit n c pa) o.
  Proof.
    induction n as [|n IH]; intros o pa Hn ms0 r same ms' lg rb; [discriminate|].
    cbn [visit]. unfold visit_body, is_masked. rewrite Hc.
    set (ms := mask_pre c o ms0).
    destruct o as [v| |l|i k s p ch].
    - cbn [scan fst snd]. fold ms. destruct pa as [[|]|]; try discriminate; intros E; inversion E; auto.
    - cbn [scan fst snd]. fold ms. destruct pa as [[|]|]; try discriminate; intros E; inversion E; auto.
    - unfold h_tuple. rewrite Hc, HM. cbn [inject fold_left].
      destruct (visit_list (visit n c pa) l ms) as [vs ms1 lg1 rb1|e] eqn:EV; [|discriminate].
      intros E. inversion E; subst. rewrite scan_Tup. fold ms. cbn [preorder]. rewrite preorder_strip.
      eapply visit_list_scan; [|exact EV].
      intros x Hx. apply IH. cbn [normalized] in Hn. rewrite forallb_forall in Hn. auto.
    - rewrite scan_Nd. cbv zeta. fold ms.
      assert (Hch : forall pa' x, In x ch -> scans c (visit n c pa') x).
      { intros pa' x Hx. apply IH. cbn [normalized] in Hn. apply andb_true_iff in Hn as [_ Hn].
        rewrite forallb_forall in Hn. auto. }
      unfold h_masked_node. rewrite HM. cbn [mfind kind_of].
      match goal with |- match ?X with _ => _ end = _ -> _ => destruct X as [r0 same0 ms1 lg0 rb0|e] eqn:E0 end; [|discriminate].
      intros E. inversion E; subst r0 same0 ms1 lg0. clear E.
      destruct (kind_scoped k) eqn:Hsc.
      + unfold h_scoped_tail in E0. fold (scope_first c (Nd i k s p ch) ms) in E0. cbv zeta in E0. cbn [andb] in E0.
        pose proof (scope_first_spec c i k s p ch ms Hsc (normalized_self_normal _ _ _ _ _ Hn Hsc)) as F.
        destruct (scope_first c _ ms) as [o1 same1 ms1 lg1 rb1|e]; [|discriminate].
        (* of [scope_first_spec]: the state is unchanged, the result is the node itself up to identity and source status *)
        destruct F as (-> & _ & i1 & s1 & -> & _). cbn [children_of] in E0.
        destruct (visit_list (visit n c (Some (m_active ms))) ch ms) as [vs ms2 lg2 rb2|e] eqn:EV; [|discriminate].
        pose proof (visit_list_scan c _ ch (Hch (Some (m_active ms))) _ _ _ _ _ EV) as [P S].
        destruct (scan_list c ch ms) as [b m2]. cbn [fst snd] in *.
        destruct (m_active ms) eqn:Ha; cbn [negb] in E0; inversion E0; subst.
        * cbn [set_children preorder]. rewrite zip_children_same by (eapply visit_list_length; eauto).
          unfold selected. cbn. fold (selected b). now rewrite P.
        * rewrite preorder_inactive. unfold selected. cbn. fold (selected b). auto.
      + cbn [children_of] in E0.
        destruct (visit_list (visit n c (Some (m_active ms))) ch ms) as [vs ms2 lg2 rb2|e] eqn:EV; [|discriminate].
        pose proof (visit_list_scan c _ ch (Hch (Some (m_active ms))) _ _ _ _ _ EV) as [P S].
        destruct (scan_list c ch ms) as [b m2]. cbn [fst snd] in *.
        destruct (m_active ms) eqn:Ha.
        * destruct (do_rebuild c (Nd i k s p ch) None vs ms2) as [r1 same1 ms3 lg3 rb3|e] eqn:ED; [|discriminate].
          inversion E0; subst.
          apply preorder_do_rebuild in ED as [PD ->]; [|eapply visit_list_length; eauto].
          unfold selected. cbn. fold (selected b). now rewrite PD, P.
        * inversion E0; subst. rewrite preorder_inactive. unfold selected. cbn. fold (selected b). auto.
  Qed.
End Masked.

Theorem masked_preorder_spec : forall c n t pa ms r same ms' lg rb,
  c_cls c = TMasked -> c_map c = [] -> normalized t = true ->
  visit n c pa t ms = Ok r same ms' lg rb ->
  preorder r = selected (fst (scan c t ms)) /\ ms' = snd (scan c t ms).
Proof.
  intros c n t pa ms r same ms' lg rb Hc HM Hn E.
  exact (masked_scan c Hc HM n t pa Hn ms r same ms' lg rb E).
Qed.
