(** C14 — [Transformer.rebuilt]: without in-place mode and with scope rebuilding, every node the traversal
    visits is recorded; a witness shows that a node spliced away by a one-to-many replacement is not. *)
From Coq Require Import ZArith List Bool Lia Arith.
From LV Require Import models.M_C14 proofs.P_C14 proofs.P_C14_spec.
Import ListNotations.
Open Scope Z_scope.

Lemma visit_list_rb f : forall L x ms vs ms' lg rb, In x L -> visit_list f L ms = OkL vs ms' lg rb ->
  exists ms1 r1 s1 ms2 lg1 rb1, f x ms1 = Ok r1 s1 ms2 lg1 rb1 /\ incl rb1 rb.
Proof.
  induction L as [|y L IH]; intros x ms vs ms' lg rb Hx; [destruct Hx|]. cbn [visit_list].
  destruct (f y ms) as [r1 s1 ms1 lg1 rb1|e] eqn:E1; [|discriminate].
  destruct (visit_list f L ms1) as [ys ms2 lg2 rb2|e] eqn:E2; [|discriminate].
  intros E. inversion E; subst. destruct Hx as [<-|Hx].
  - do 6 eexists. split; [exact E1|]. apply incl_appl, incl_refl.
  - destruct (IH _ _ _ _ _ _ Hx E2) as (m1 & r & s & m2 & l1 & b1 & F & I).
    do 6 eexists. split; [exact F|]. apply incl_appr. exact I.
Qed.

Section Rebuilt.
  Variable c : cfg.
  Hypothesis Hc : c_cls c = TPlain.
  Hypothesis Hin : c_inplace c = false.
  Hypothesis Hrs : c_rebuild_scopes c = true.
  Let M := c_map c.

  Lemma plain_node_new rec pa o ms r same ms' lg rb :
    h_plain_node c rec pa o ms = Ok r same ms' lg rb -> same = false.
  Proof.
    unfold h_plain_node.
    assert (T : (if kind_scoped (kind_of o) then h_scoped_tail c rec false pa o ms else h_generic c rec pa o ms)
                = Ok r same ms' lg rb -> same = false).
    { destruct (kind_scoped (kind_of o)).
      - unfold h_scoped_tail. rewrite Hrs.
        destruct (do_rebuild c o None (children_of o) ms) as [o1 s1 ms1 lg1 rb1|e] eqn:E1; [|discriminate].
        apply (do_rebuild_fresh _ _ _ _ _ _ _ _ _ _ Hin) in E1 as [-> _]. cbn [andb].
        destruct (visit_list _ _ ms1); [|discriminate]. intros H. now inversion H.
      - unfold h_generic. destruct (visit_list _ _ ms) as [vs ms1 lg1 rb1|e]; [|discriminate].
        destruct (do_rebuild c o None vs ms1) as [r1 s1 ms2 lg2 rb2|e] eqn:E1; [|discriminate].
        apply (do_rebuild_fresh _ _ _ _ _ _ _ _ _ _ Hin) in E1 as [-> _]. intros H. now inversion H. }
    destruct (mfind (c_map c) o) as [[k [|h|hs]]|]; try exact T.
    - intros H. now inversion H.
    - unfold copy_handle. destruct h; try discriminate. destruct (mk_node _ _ _ _); [|discriminate].
      intros H. now inversion H.
    - destruct (mem o hs); [exact T|discriminate].
  Qed.

  Lemma rebuilt_covers_visited : forall t x, reached M t x -> is_nd x = true ->
    forall n pa ms r same ms' lg rb, visit n c pa t ms = Ok r same ms' lg rb -> exists v, In (x, v) rb.
  Proof.
    induction 1 as [t|l x y Hx Hr IH|o x y Hsn Hp Hx Hr IH]; intros Hnd n pa ms r same ms' lg rb.
    - destruct n as [|n]; [discriminate|]. rewrite (visit_plain_S n c pa t ms Hc).
      destruct t; try discriminate.
      destruct (h_plain_node c (visit n c) pa _ ms) as [it s1 ms1 lg1 rb1|e] eqn:E; [|discriminate].
      apply plain_node_new in E as ->. intros H. inversion H; subst. eexists. apply in_or_app. right. now left.
    - destruct n as [|n]; [discriminate|]. rewrite (visit_plain_S n c pa (Tup l) ms Hc).
      destruct (visit_list (visit n c pa) (inject (c_map c) l) ms) as [vs ms1 lg1 rb1|e] eqn:EV; [|discriminate].
      intros H. inversion H; subst.
      destruct (visit_list_rb _ _ _ _ _ _ _ _ Hx EV) as (m1 & r1 & s1 & m2 & l1 & b1 & F & I).
      destruct (IH Hnd _ _ _ _ _ _ _ _ F) as [v Hv]. exists v. apply I, Hv.
    - destruct n as [|n]; [discriminate|]. rewrite (visit_plain_S n c pa o ms Hc).
      destruct o as [| | |i k s p ch]; try discriminate.
      destruct (h_plain_node c (visit n c) pa _ ms) as [it s1 ms1 lg1 rb1|e] eqn:E; [|discriminate].
      intros H.
      assert (G : exists v, In (y, v) rb1);
        [|destruct G as [v Hv]; exists v; destruct s1; inversion H; subst; [exact Hv|apply in_or_app; now left]].
      clear H. unfold h_plain_node in E. unfold passes in Hp. fold M in E.
      assert (T : (if kind_scoped (kind_of (Nd i k s p ch)) then h_scoped_tail c (visit n c) false pa (Nd i k s p ch) ms
                   else h_generic c (visit n c) pa (Nd i k s p ch) ms) = Ok it s1 ms1 lg1 rb1 -> exists v, In (y, v) rb1).
      { cbn [kind_of]. cbn [children_of] in Hx. destruct (kind_scoped k) eqn:Hsc.
        - unfold h_scoped_tail. fold (scope_first c (Nd i k s p ch) ms). cbv zeta. cbn [andb].
          assert (Hself : self_normal k ch).
          { intros ch' En. cbn [scoped_norm] in Hsn. rewrite Hsc, En in Hsn. now apply list_ideqb_eq. }
          pose proof (scope_first_spec c i k s p ch ms Hsc Hself) as F0.
          destruct (scope_first c _ ms) as [o1 same1 ms0 lg0 rb0|e]; [|discriminate].
          destruct F0 as (-> & _ & i1 & s0 & -> & _). cbn [children_of].
          destruct (visit_list (visit n c pa) ch ms) as [vs m2 l2 b2|e] eqn:EV; [|discriminate].
          intros H. inversion H; subst.
          destruct (visit_list_rb _ _ _ _ _ _ _ _ Hx EV) as (m1 & r1 & s2 & m3 & l1 & b1 & F & I).
          destruct (IH Hnd _ _ _ _ _ _ _ _ F) as [v Hv]. exists v. apply I, Hv.
        - unfold h_generic. cbn [children_of].
          destruct (visit_list (visit n c pa) ch ms) as [vs m2 l2 b2|e] eqn:EV; [|discriminate].
          destruct (do_rebuild c (Nd i k s p ch) None vs m2) as [r2 s2 m3 l3 b3|e] eqn:ED; [|discriminate].
          apply (do_rebuild_fresh _ _ _ _ _ _ _ _ _ _ Hin) in ED as (_ & _ & ->). intros H. inversion H; subst. rewrite app_nil_r.
          destruct (visit_list_rb _ _ _ _ _ _ _ _ Hx EV) as (m1 & r1 & s3 & m4 & l1 & b1 & F & I).
          destruct (IH Hnd _ _ _ _ _ _ _ _ F) as [v Hv]. exists v. apply I, Hv. }
      destruct (mfind M (Nd i k s p ch)) as [[k0 [|h|hs]]|]; try discriminate; [|exact (T E)].
      rewrite Hp in E. exact (T E).
  Qed.
End Rebuilt.

(** nodes that are spliced away by a one-to-many replacement never reach [visit] and are not recorded
    (a node mapped to [None] or to a node is) *)
Definition rb_tree : item := Nd 1 K_Section 0 0 [Tup [Nd 2 K_Comment 0 1 []; Nd 3 K_Comment 0 2 []]].
Definition rb_cfg : cfg :=
  Build_cfg TPlain [(Nd 2 K_Comment 0 1 [], HTup [Nd 4 K_Comment 0 3 []]); (Nd 3 K_Comment 0 2 [], HNone)]
            false true false [] false false.
Lemma rebuilt_not_all_refuted :
  map (fun kv => id_of (fst kv)) (res_reb (visit 10 rb_cfg None rb_tree (init_ms false []))) = [4; 3; 1].
Proof. reflexivity. Qed.
