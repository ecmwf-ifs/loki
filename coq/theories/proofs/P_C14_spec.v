(** C14 — [Transformer] (class TPlain) computes the declarative substitution [spec] on the class [spec_class]. *)
From Coq Require Import ZArith List Bool Lia Arith.
From LV Require Import models.M_C14 proofs.P_C14 proofs.P_C14_inject.
Import ListNotations.
Open Scope Z_scope.

Lemma sequence_app {A} (a b : list (option A)) :
  sequence (a ++ b) = match sequence a, sequence b with Some x, Some y => Some (x ++ y) | _, _ => None end.
Proof.
  induction a as [|[x|] a IH]; cbn.
  - destruct (sequence b); reflexivity.
  - rewrite IH. destruct (sequence a), (sequence b); reflexivity.
  - reflexivity.
Qed.

Lemma sequence_map_ext {A B} (f g : A -> option B) l :
  (forall x, In x l -> f x = g x) -> sequence (map f l) = sequence (map g l).
Proof.
  induction l as [|x l IH]; intros H; cbn; [reflexivity|].
  rewrite (H x (or_introl eq_refl)), IH; [reflexivity|]. intros y Hy. apply H. now right.
Qed.

Lemma sequence_flat_map {A B C} (g : B -> option A) (s : C -> list B) l :
  sequence (map g (flat_map s l)) =
  match sequence (map (fun x => sequence (map g (s x))) l) with Some parts => Some (concat parts) | None => None end.
Proof.
  induction l as [|x l IH]; cbn; [reflexivity|].
  rewrite map_app, sequence_app, IH.
  destruct (sequence (map g (s x))); [|reflexivity].
  destruct (sequence (map (fun x0 => sequence (map g (s x0))) l)); reflexivity.
Qed.

Lemma fold_max_ge {A} (f : A -> nat) l x : In x l -> (f x <= fold_right (fun y m => Nat.max (f y) m) O l)%nat.
Proof. induction l as [|y l IH]; intros []; cbn; [subst; lia|]. specialize (IH H). lia. Qed.

Lemma height_pos o : (1 <= height o)%nat.
Proof. destruct o; cbn; lia. Qed.

Lemma height_Tup_child l x : In x l -> (height x < height (Tup l))%nat.
Proof. intros H. cbn [height]. pose proof (fold_max_ge height l x H). lia. Qed.

Lemma height_Nd_child i k s p ch x : In x ch -> (height x < height (Nd i k s p ch))%nat.
Proof. intros H. cbn [height]. pose proof (fold_max_ge height ch x H). lia. Qed.

Lemma hmax_ge M k hs h : In (k, HTup hs) M -> In h hs -> (height h <= hmax M)%nat.
Proof.
  intros HM Hh. unfold hmax.
  pose proof (fold_max_ge (fun e => fold_right (fun h m' => Nat.max (height h) m') O (handle_as_tuple (snd e))) M _ HM) as H1.
  cbn [snd handle_as_tuple] in H1. pose proof (fold_max_ge height hs h Hh). lia.
Qed.

(** the fuel a visit needs: the height of the tree, plus the height of the tallest replacement while the tree
    still holds a key (a member of a one-to-many replacement is visited in place of its key; members hold no
    keys, so this is paid once) *)
Definition need (M : mapper) (o : item) : nat := (height o + (if keyfree M o then 0 else hmax M))%nat.

Lemma keyfree_Tup_child M l x : keyfree M (Tup l) = true -> In x l -> keyfree M x = true.
Proof. cbn [keyfree]. intros H Hx. rewrite forallb_forall in H. auto. Qed.

Lemma keyfree_Nd_inv M i k s p ch : keyfree M (Nd i k s p ch) = true ->
  mfind M (Nd i k s p ch) = None /\ forall x, In x ch -> keyfree M x = true.
Proof.
  cbn [keyfree]. destruct (mfind M _); [discriminate|]. intros H. split; [reflexivity|].
  rewrite forallb_forall in H. auto.
Qed.

Lemma need_Tup_child M l x : In x l -> (need M x < need M (Tup l))%nat.
Proof.
  intros Hx. unfold need. pose proof (height_Tup_child l x Hx).
  destruct (keyfree M (Tup l)) eqn:E.
  - rewrite (keyfree_Tup_child _ _ _ E Hx). lia.
  - destruct (keyfree M x); lia.
Qed.

Lemma need_Nd_child M i k s p ch x : In x ch -> (need M x < need M (Nd i k s p ch))%nat.
Proof.
  intros Hx. unfold need. pose proof (height_Nd_child i k s p ch x Hx).
  destruct (keyfree M (Nd i k s p ch)) eqn:E.
  - apply keyfree_Nd_inv in E as [_ E]. rewrite (E x Hx). lia.
  - destruct (keyfree M x); lia.
Qed.

Lemma mfind_non_nd M x : keys_ok M = true -> is_nd x = false -> mfind M x = None.
Proof.
  induction M as [|[k h] M IH]; intros HK Hx; [reflexivity|].
  apply keys_ok_cons in HK as (Hk & _ & HK). cbn.
  assert (ieqb k x = false) by (destruct k; try discriminate; destruct x; try reflexivity; discriminate).
  rewrite H. auto.
Qed.

Lemma keyfree_mfind M h : keys_ok M = true -> keyfree M h = true -> mfind M h = None.
Proof.
  intros HK H. destruct h; try (apply mfind_non_nd; [exact HK|reflexivity]).
  now apply keyfree_Nd_inv in H.
Qed.

Lemma keyfree_exact M : forall h, keyfree M h = true -> exact_keys M h = true.
Proof.
  induction h as [v| |l IH|i k s p ch IH] using item_ind'; intros Hk; try reflexivity.
  - cbn [exact_keys]. apply forallb_forall. intros x Hx. rewrite Forall_forall in IH.
    apply IH; [exact Hx|]. eapply keyfree_Tup_child; eauto.
  - apply keyfree_Nd_inv in Hk as [Hm Hc]. cbn [exact_keys]. rewrite Hm. cbn.
    apply forallb_forall. intros x Hx. rewrite Forall_forall in IH. auto.
Qed.

Lemma keyfree_nil : forall t, keyfree [] t = true.
Proof.
  induction t as [v| |l IH|i k s p ch IH] using item_ind'; try reflexivity; cbn [keyfree mfind];
    apply forallb_forall; rewrite Forall_forall in IH; exact IH.
Qed.

Lemma keyfree_not_key M h x e : keys_ok M = true -> keyfree M h = true -> mfind M x = Some e -> ieqb h x = false.
Proof.
  intros HK Hh Hx. destruct (ieqb h x) eqn:E; [|reflexivity]. exfalso.
  destruct e as [k hd]. apply mfind_some in Hx as [Hk Hin].
  pose proof (keyfree_mfind _ _ HK Hh) as Hn.
  pose proof (mfind_none _ _ Hn _ _ Hin) as Hf.
  assert (ieqb k h = true) by (eapply ieqb_trans; [exact Hk|now rewrite ieqb_sym]).
  congruence.
Qed.

Lemma spec_gen_Tup c lk rf l :
  spec_gen c lk rf (Tup l) =
  match sequence (map (fun x =>
           match lk x with
           | Some (_, HTup hs) => sequence (map (fun h => if ieqb h x then spec_gen c lk rf x else rf h) hs)
           | _ => match spec_gen c lk rf x with Some y => Some [y] | None => None end
           end) l) with
  | Some parts => Some (Tup (strip (concat parts)))
  | None => None
  end.
Proof. reflexivity. Qed.

Lemma spec_gen_Nd c lk rf i k s p ch :
  spec_gen c lk rf (Nd i k s p ch) =
  let through := match sequence (map (spec_gen c lk rf) ch) with
                 | Some chs => spec_node c (Nd i k s p ch) chs
                 | None => None
                 end in
  match lk (Nd i k s p ch) with
  | Some (_, HNone) => Some NoneI
  | Some (_, HNode h) => match h with Nd _ hk hs hp hc => mk_node hk hs hp hc | _ => None end
  | Some (_, HTup hs) => if mem (Nd i k s p ch) hs then through else None
  | None => through
  end.
Proof. reflexivity. Qed.

Lemma spec_keyfree c : keys_ok (c_map c) = true ->
  forall h, keyfree (c_map c) h = true -> spec c h = refresh c h.
Proof.
  intros HK. unfold spec, refresh. induction h as [v| |l IH|i k s p ch IH] using item_ind'; intros Hk; try reflexivity.
  - rewrite !spec_gen_Tup. rewrite Forall_forall in IH.
    erewrite sequence_map_ext; [reflexivity|]. intros x Hx. cbv beta.
    pose proof (keyfree_Tup_child _ _ _ Hk Hx) as Hkx.
    rewrite (keyfree_mfind _ _ HK Hkx). now rewrite (IH x Hx Hkx).
  - rewrite !spec_gen_Nd. cbv zeta. apply keyfree_Nd_inv in Hk as [Hm Hc]. rewrite Hm.
    rewrite Forall_forall in IH. erewrite sequence_map_ext; [reflexivity|]. intros x Hx. auto.
Qed.

Definition agrees (r : res) (v : option item) (ms : mstate) : Prop :=
  match r with Ok it _ ms' _ _ => v = Some it /\ ms' = ms | Err _ => v = None end.

Lemma visit_list_agrees f (g : item -> option item) l :
  forall ms, (forall x, In x l -> forall ms, agrees (f x ms) (g x) ms) ->
  match visit_list f l ms with
  | OkL vs ms' _ _ => sequence (map g l) = Some vs /\ ms' = ms
  | ErrL _ => sequence (map g l) = None
  end.
Proof.
  induction l as [|x l IH]; intros ms H; cbn; [auto|].
  pose proof (H x (or_introl eq_refl) ms) as Hx. unfold agrees in Hx.
  destruct (f x ms) as [y sm ms1 lg1 rb1|e].
  - destruct Hx as [-> ->]. specialize (IH ms (fun y Hy => H y (or_intror Hy))).
    destruct (visit_list f l ms) as [ys ms2 lg2 rb2|e].
    + destruct IH as [-> ->]. auto.
    + now rewrite IH.
  - now rewrite Hx.
Qed.

Lemma visit_plain_S n c pa o ms : c_cls c = TPlain ->
  visit (S n) c pa o ms =
  match o with
  | Obj _ | NoneI => Ok o true ms [] []
  | Tup l => match visit_list (visit n c pa) (inject (c_map c) l) ms with
             | ErrL e => Err e
             | OkL vs ms1 lg rb => Ok (Tup (strip vs)) false ms1 lg rb
             end
  | Nd _ _ _ _ _ =>
      match h_plain_node c (visit n c) pa o ms with
      | Ok it same ms1 lg rb => Ok it same ms1 lg (if same then rb else rb ++ [(o, it)])
      | Err e => Err e
      end
  end.
Proof.
  intros H. cbn [visit]. unfold visit_body, is_masked, h_tuple. rewrite H. destruct o; reflexivity.
Qed.

Section Spec.
  Variable c : cfg.
  Hypothesis Hc : c_cls c = TPlain.
  Let M := c_map c.
  Hypothesis HK : keys_ok M = true.
  Hypothesis HH : handles_ok M = true.
  Hypothesis HN : forall e, In e M -> forallb normalized (handle_as_tuple (snd e)) = true.

  (** members of the replacement of a node of the tree: the node itself, or trees without keys *)
  Lemma class_members x k hs h : exact_keys M x = true -> mfind M x = Some (k, HTup hs) -> In h hs ->
    h = x \/ keyfree M h = true.
  Proof.
    intros Hx F Hh. pose proof (mfind_some _ _ _ _ F) as [Hk Hin].
    unfold handles_ok in HH. rewrite forallb_forall in HH. specialize (HH _ Hin). cbn [snd fst] in HH.
    rewrite forallb_forall in HH. specialize (HH _ Hh).
    assert (k = x).
    { destruct x; try (rewrite (mfind_non_nd M _ HK) in F; [discriminate|reflexivity]).
      cbn [exact_keys] in Hx. fold M in Hx. rewrite F in Hx. apply andb_true_iff in Hx as [Hx _]. now apply ideqb_eq. }
    subst k. apply orb_true_iff in HH as [E|E]; [left; now apply ideqb_eq|right; exact E].
  Qed.

  Lemma class_inj_ok x : exact_keys M x = true -> inj_ok M x.
  Proof.
    intros Hx k hs F h Hh. destruct (class_members x k hs h Hx F Hh) as [E|E]; [now left|right; now apply keyfree_mfind].
  Qed.

  Lemma exact_Tup_child l x : exact_keys M (Tup l) = true -> In x l -> exact_keys M x = true.
  Proof. cbn [exact_keys]. intros H Hx. rewrite forallb_forall in H. auto. Qed.
  Lemma normalized_Tup_child l x : normalized (Tup l) = true -> In x l -> normalized x = true.
  Proof. cbn [normalized]. intros H Hx. rewrite forallb_forall in H. auto. Qed.
  Lemma exact_Nd_child i k s p ch x : exact_keys M (Nd i k s p ch) = true -> In x ch -> exact_keys M x = true.
  Proof. cbn [exact_keys]. intros H Hx. apply andb_true_iff in H as [_ H]. rewrite forallb_forall in H. auto. Qed.
  Lemma normalized_Nd_child i k s p ch x : normalized (Nd i k s p ch) = true -> In x ch -> normalized x = true.
  Proof. cbn [normalized]. intros H Hx. apply andb_true_iff in H as [_ H]. rewrite forallb_forall in H. auto. Qed.

  Lemma agrees_wrap r v ms (o : item) :
    agrees r v ms ->
    agrees (match r with
            | Ok it same ms1 lg rb => Ok it same ms1 lg (if same then rb else rb ++ [(o, it)])
            | Err e => Err e
            end) v ms.
  Proof. destruct r; auto. Qed.

  Lemma plain_spec : forall n o pa ms,
    exact_keys M o = true -> normalized o = true -> (need M o <= n)%nat ->
    agrees (visit n c pa o ms) (spec c o) ms.
  Proof.
    induction n as [|n IH]; intros o pa ms He Hn Hf.
    { exfalso. unfold need in Hf. pose proof (height_pos o). lia. }
    rewrite (visit_plain_S n c pa o ms Hc). destruct o as [v| |l|i k s p ch].
    - cbn. auto.
    - cbn. auto.
    - (* tuples: splice, visit, strip *)
      fold M. rewrite (inject_spec M l HK) by (intros x Hx; apply class_inj_ok; eapply exact_Tup_child; eauto).
      assert (Hel : forall y, In y (flat_map (splice M) l) -> forall ms, agrees (visit n c pa y ms) (spec c y) ms).
      { intros y Hy ms0. apply in_flat_map in Hy as (x & Hx & Hy).
        pose proof (need_Tup_child M l x Hx) as Hnx.
        unfold splice in Hy. destruct (mfind M x) as [[k [|h|hs]]|] eqn:F;
          try (destruct Hy as [<-|[]]; apply IH; [eapply exact_Tup_child; eauto|eapply normalized_Tup_child; eauto|lia]).
        destruct (class_members x _ _ y (exact_Tup_child _ _ He Hx) F Hy) as [->|Hkf].
        - apply IH; [eapply exact_Tup_child; eauto|eapply normalized_Tup_child; eauto|lia].
        - pose proof (mfind_some _ _ _ _ F) as [_ Hin].
          apply IH.
          + now apply keyfree_exact.
          + specialize (HN _ Hin). cbn [snd handle_as_tuple] in HN. rewrite forallb_forall in HN. auto.
          + unfold need. rewrite Hkf. pose proof (hmax_ge _ _ _ _ Hin Hy).
            assert (Hkt : keyfree M (Tup l) = false).
            { destruct (keyfree M (Tup l)) eqn:E; [|reflexivity].
              pose proof (keyfree_Tup_child _ _ _ E Hx) as E2. rewrite (keyfree_mfind _ _ HK E2) in F. discriminate. }
            unfold need in Hf. rewrite Hkt in Hf. pose proof (height_pos (Tup l)). lia. }
      pose proof (visit_list_agrees (visit n c pa) (spec c) (flat_map (splice M) l) ms Hel) as HV.
      assert (Hs : spec c (Tup l) =
                   match sequence (map (spec c) (flat_map (splice M) l)) with
                   | Some vs => Some (Tup (strip vs)) | None => None end).
      { unfold spec at 1. rewrite spec_gen_Tup. fold (spec c). rewrite sequence_flat_map.
        match goal with |- match sequence (map ?F l) with _ => _ end = _ =>
          assert (EF : sequence (map F l) = sequence (map (fun x => sequence (map (spec c) (splice M x))) l)) end;
          [|rewrite EF; destruct (sequence (map (fun x => sequence (map (spec c) (splice M x))) l)); reflexivity].
        apply sequence_map_ext. intros x Hx. cbv beta. fold M. unfold splice.
        destruct (mfind M x) as [[k [|h|hs]]|] eqn:F; try (cbn; destruct (spec c x); reflexivity).
        apply sequence_map_ext. intros h Hh.
        destruct (class_members x _ _ h (exact_Tup_child _ _ He Hx) F Hh) as [->|Hkf].
        - now rewrite ieqb_refl.
        - rewrite (keyfree_not_key M h x _ HK Hkf F). symmetry. now apply spec_keyfree. }
      rewrite Hs. destruct (visit_list _ _ ms) as [vs ms' lg rb|e].
      + destruct HV as [-> ->]. cbn. auto.
      + rewrite HV. cbn. reflexivity.
    - (* nodes: [T] is the unmapped path (visit the children, rebuild), shared by the unmapped case and the
         one-to-many case in which the node is its own member; the other mapper cases do not visit the children *)
      apply agrees_wrap.
      assert (Hch : forall x, In x ch -> forall ms, agrees (visit n c pa x ms) (spec c x) ms).
      { intros x Hx ms0. pose proof (need_Nd_child M i k s p ch x Hx).
        apply IH; [eapply exact_Nd_child; eauto|eapply normalized_Nd_child; eauto|lia]. }
      set (through := match sequence (map (spec c) ch) with Some chs => spec_node c (Nd i k s p ch) chs | None => None end).
      assert (T : agrees (if kind_scoped (kind_of (Nd i k s p ch)) then h_scoped_tail c (visit n c) false pa (Nd i k s p ch) ms
                          else h_generic c (visit n c) pa (Nd i k s p ch) ms) through ms).
      { subst through. cbn [kind_of]. destruct (kind_scoped k) eqn:Hsc.
        - unfold h_scoped_tail. fold (scope_first c (Nd i k s p ch) ms). cbv zeta. cbn [andb].
          pose proof (scope_first_spec c i k s p ch ms Hsc (normalized_self_normal _ _ _ _ _ Hn Hsc)) as F.
          destruct (scope_first c _ ms) as [o1 same1 ms1 lg1 rb1|e].
          + destruct F as (-> & _ & i1 & s1 & -> & Hsp). cbn [children_of].
            pose proof (visit_list_agrees _ _ ch ms Hch) as HV.
            destruct (visit_list _ ch ms) as [vs ms' lg rb|e] eqn:EV.
            * destruct HV as [-> ->]. cbn [set_children agrees].
              rewrite zip_children_same by (eapply visit_list_length; eauto). rewrite Hsp. auto.
            * rewrite HV. reflexivity.
          + cbn [agrees]. destruct (sequence (map (spec c) ch)); [apply F|reflexivity].
        - unfold h_generic. cbn [children_of]. pose proof (visit_list_agrees _ _ ch ms Hch) as HV.
          destruct (visit_list _ ch ms) as [vs ms' lg rb|e] eqn:EV.
          + destruct HV as [-> ->]. unfold do_rebuild.
            rewrite zip_children_same by (eapply visit_list_length; eauto).
            unfold spec_node, src_after. cbn [kind_of src_of children_of]. rewrite Hsc.
            destruct (c_inplace c).
            * cbn. auto.
            * destruct (mk_node k (inv_src c s vs) p vs); cbn; auto.
          + rewrite HV. reflexivity. }
      unfold spec. rewrite spec_gen_Nd. fold (spec c). cbv zeta. fold through. fold M.
      unfold h_plain_node. fold M.
      destruct (mfind M (Nd i k s p ch)) as [[k0 [|h|hs]]|].
      + cbn. auto.
      + unfold copy_handle. destruct h; try reflexivity. destruct (mk_node _ _ _ _); cbn; auto.
      + destruct (mem (Nd i k s p ch) hs); [exact T|reflexivity].
      + exact T.
  Qed.
End Spec.

Lemma spec_class_inv M t : spec_class M t = true ->
  keys_ok M = true /\ handles_ok M = true /\ exact_keys M t = true /\ normalized t = true /\
  (forall e, In e M -> forallb normalized (handle_as_tuple (snd e)) = true).
Proof.
  unfold spec_class. intros H.
  apply andb_true_iff in H as [H H5]. apply andb_true_iff in H as [H H4].
  apply andb_true_iff in H as [H H3]. apply andb_true_iff in H as [H1 H2].
  repeat split; auto. rewrite forallb_forall in H5. exact H5.
Qed.

Theorem transform_spec : forall c t n pa ms,
  c_cls c = TPlain -> spec_class (c_map c) t = true -> (height t + hmax (c_map c) <= n)%nat ->
  res_item (visit n c pa t ms) = spec c t.
Proof.
  intros c t n pa ms Hc Hcl Hn. apply spec_class_inv in Hcl as (HK & HH & He & Hnm & HN).
  pose proof (plain_spec c Hc HK HH HN n t pa ms He Hnm) as H.
  assert (Hfuel : (need (c_map c) t <= n)%nat) by (unfold need; destruct (keyfree _ _); lia).
  specialize (H Hfuel). unfold agrees in H. destruct (visit n c pa t ms); cbn.
  - now destruct H as [-> _].
  - now rewrite H.
Qed.
