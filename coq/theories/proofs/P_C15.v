(** C15 -- finders: induction principles, FindNodes, the expression walk, flat mode.
    Defines the vocabulary of the theorems that is not in the model: [outer] (no matching ancestor), [subexpr],
    [in_slot] (an expression sits in a traversed slot of the tree). *)
From Coq Require Import ZArith List Bool String Ascii.
From LV Require Import Base.Strings Base.ListFacts models.M_C15.
Import ListNotations.
Open Scope Z_scope.
Open Scope list_scope.

Section ExprInd.
  Variable P : expr -> Prop.
  Hypothesis H : forall l c n s kids, Forall P kids -> P (EN l c n s kids).
  Fixpoint expr_ind' (e : expr) : P e :=
    match e with
    | EN l c n s kids =>
        H l c n s kids
          ((fix go (ks : list expr) : Forall P ks :=
              match ks with
              | [] => Forall_nil P
              | k :: r => Forall_cons k (expr_ind' k) (go r)
              end) kids)
    end.
End ExprInd.

Section ItemInd.
  Variable P : item -> Prop.
  Hypothesis Hn : forall l k q ch ex, Forall P ch -> P (INode l k q ch ex).
  Hypothesis Ht : forall els, Forall P els -> P (ITuple els).
  Hypothesis He : forall e, P (IExpr e).
  Hypothesis Ho : P IOther.
  Fixpoint item_ind' (it : item) : P it :=
    match it with
    | INode l k q ch ex =>
        Hn l k q ch ex
          ((fix go (cs : list item) : Forall P cs :=
              match cs with [] => Forall_nil P | c :: r => Forall_cons c (item_ind' c) (go r) end) ch)
    | ITuple els =>
        Ht els
          ((fix go (cs : list item) : Forall P cs :=
              match cs with [] => Forall_nil P | c :: r => Forall_cons c (item_ind' c) (go r) end) els)
    | IExpr e => He e
    | IOther => Ho
    end.
End ItemInd.

Lemma fold_left_acc {A B} (f : B -> list A -> list A) (g : B -> list A) l :
  Forall (fun c => forall acc, f c acc = acc ++ g c) l ->
  forall acc, fold_left (fun a c => f c a) l acc = acc ++ flat_map g l.
Proof.
  induction 1 as [|c l Hc _ IH]; intros acc; cbn; [now rewrite app_nil_r|].
  now rewrite Hc, IH, app_assoc.
Qed.

Lemma fn_visit_filter rule it :
  forall ret, fn_visit rule false it ret = ret ++ filter rule (preorder it).
Proof.
  induction it as [l k q ch ex IH|els IH|e|] using item_ind'; intros ret.
  - cbn [fn_visit preorder]. rewrite andb_false_r.
    set (me := INode l k q ch ex).
    assert (E1 : (if rule me then ret ++ [me] else ret) = ret ++ (if rule me then [me] else [])).
    { destruct (rule me); [reflexivity|now rewrite app_nil_r]. }
    rewrite E1. cbn [filter]. fold me.
    destruct (k =? K_TYPEDEF).
    + cbn. destruct (rule me); reflexivity.
    + rewrite (fold_left_acc (fun c acc => fn_visit rule false c acc) (fun c => filter rule (preorder c))) by exact IH.
      rewrite filter_flat_map, <- app_assoc. destruct (rule me); reflexivity.
  - cbn [fn_visit preorder].
    rewrite (fold_left_acc (fun c acc => fn_visit rule false c acc) (fun c => filter rule (preorder c))) by exact IH.
    now rewrite filter_flat_map.
  - cbn. now rewrite app_nil_r.
  - cbn. now rewrite app_nil_r.
Qed.

Lemma findnodes_is_filter_preorder rule it :
  find_nodes rule false it = filter rule (preorder it).
Proof. unfold find_nodes. now rewrite fn_visit_filter. Qed.

(** the result repeats a label only if the pre-order does (an object that sits in the tree twice) *)
Lemma findnodes_nodup rule it :
  NoDup (map ilbl (preorder it)) -> NoDup (map ilbl (find_nodes rule false it)).
Proof.
  rewrite findnodes_is_filter_preorder. generalize (preorder it) as l.
  induction l as [|a l IH]; cbn; intros Hn; [constructor|].
  inversion Hn as [|? ? Hnin Hn']; subst.
  destruct (rule a); cbn; [constructor|]; auto.
  intros Hin. apply Hnin. apply in_map_iff in Hin as (x & Hx & Hin). apply filter_In in Hin as [Hin _].
  apply in_map_iff. eauto.
Qed.

(** [preorder_anc] is [preorder] with the ancestors attached *)
Lemma preorder_anc_snd anc it : map snd (preorder_anc anc it) = preorder it.
Proof.
  revert anc. induction it as [l k q ch ex IH|els IH|e|] using item_ind'; intros anc; cbn; try reflexivity.
  - f_equal. destruct (k =? K_TYPEDEF); [reflexivity|].
    rewrite map_flat_map. apply flat_map_ext_Forall. eapply Forall_impl; [|exact IH]. intros c Hc. apply Hc.
  - rewrite map_flat_map. apply flat_map_ext_Forall. eapply Forall_impl; [|exact IH]. intros c Hc. apply Hc.
Qed.

Definition outer (rule : item -> bool) (p : list item * item) : bool :=
  rule (snd p) && forallb (fun a => negb (rule a)) (fst p).

Lemma blocked_below rule it :
  forall anc, forallb (fun a => negb (rule a)) anc = false -> filter (outer rule) (preorder_anc anc it) = [].
Proof.
  induction it as [l k q ch ex IH|els IH|e|] using item_ind'; intros anc Hb; cbn; try reflexivity.
  - unfold outer at 1. cbn [fst snd]. rewrite Hb, andb_false_r.
    destruct (k =? K_TYPEDEF); [reflexivity|].
    rewrite filter_flat_map. apply flat_map_nil.
    eapply Forall_impl; [|exact IH]. intros c Hc. apply Hc. now rewrite forallb_app, Hb.
  - rewrite filter_flat_map. apply flat_map_nil.
    eapply Forall_impl; [|exact IH]. intros c Hc. now apply Hc.
Qed.

Lemma fn_visit_greedy rule it :
  forall anc ret, forallb (fun a => negb (rule a)) anc = true ->
    fn_visit rule true it ret = ret ++ map snd (filter (outer rule) (preorder_anc anc it)).
Proof.
  induction it as [l k q ch ex IH|els IH|e|] using item_ind'; intros anc ret Ha.
  - cbn [fn_visit preorder_anc]. rewrite andb_true_r.
    set (me := INode l k q ch ex). cbn [filter]. unfold outer at 1. cbn [fst snd]. fold me. rewrite Ha, andb_true_r.
    destruct (rule me) eqn:Er.
    + cbn [map snd]. 
      assert (Hb : forallb (fun a => negb (rule a)) (anc ++ [me]) = false).
      { rewrite forallb_app. cbn. rewrite Er. cbn. now rewrite andb_false_r. }
      destruct (k =? K_TYPEDEF); [reflexivity|].
      rewrite filter_flat_map.
      assert (E : flat_map (fun x => filter (outer rule) (preorder_anc (anc ++ [me]) x)) ch = []).
      { apply flat_map_nil. apply Forall_forall. intros c _. now apply blocked_below. }
      now rewrite E.
    + destruct (k =? K_TYPEDEF); [cbn; now rewrite app_nil_r|].
      assert (Hb : forallb (fun a => negb (rule a)) (anc ++ [me]) = true).
      { rewrite forallb_app, Ha. cbn. now rewrite Er. }
      rewrite (fold_left_acc (fun c acc => fn_visit rule true c acc)
                 (fun c => map snd (filter (outer rule) (preorder_anc (anc ++ [me]) c)))).
      * now rewrite filter_flat_map, map_flat_map.
      * eapply Forall_impl; [|exact IH]. intros c Hc acc. now apply Hc.
  - cbn [fn_visit preorder_anc].
    rewrite (fold_left_acc (fun c acc => fn_visit rule true c acc)
               (fun c => map snd (filter (outer rule) (preorder_anc anc c)))).
    + now rewrite filter_flat_map, map_flat_map.
    + eapply Forall_impl; [|exact IH]. intros c Hc acc. now apply Hc.
  - cbn. now rewrite app_nil_r.
  - cbn. now rewrite app_nil_r.
Qed.

Lemma greedy_is_outermost rule it :
  find_nodes rule true it = map snd (filter (outer rule) (preorder_anc [] it)).
Proof. unfold find_nodes. now rewrite (fn_visit_greedy rule it [] []). Qed.

Lemma retrieve_is_filter_postorder q e : retrieve q rtrue e = filter q (postorder e).
Proof.
  induction e as [l c n s kids IH] using expr_ind'.
  cbn [retrieve postorder]. unfold rtrue at 1.
  rewrite filter_app, filter_flat_map. cbn [filter].
  f_equal. apply flat_map_ext_Forall. exact IH.
Qed.

Inductive subexpr : expr -> expr -> Prop :=
  | sub_refl e : subexpr e e
  | sub_kid x k e : In k (ekids e) -> subexpr x k -> subexpr x e.

Lemma in_postorder_iff x e : In x (postorder e) <-> subexpr x e.
Proof.
  induction e as [l c n s kids IH] using expr_ind'. cbn [postorder]. rewrite in_app_iff, in_flat_map. split.
  - intros [(k & Hk & Hx)|[<-|[]]]; [|constructor].
    rewrite Forall_forall in IH. apply (sub_kid x k); [exact Hk|]. now apply IH.
  - intros Hs. inversion Hs as [|? k ? Hk Hx]; subst; [right; now left|].
    left. exists k. split; [exact Hk|]. rewrite Forall_forall in IH. now apply IH.
Qed.

(** with a recurse_query: nothing new is found, and a pruned node hides its whole subtree
    (unless its handler is one of the constant-like ones) *)
Lemma retrieve_rq_sound q rq e : incl (retrieve q rq e) (filter q (postorder e)).
Proof.
  induction e as [l c n s kids IH] using expr_ind'. cbn [retrieve postorder].
  set (me := EN l c n s kids). rewrite filter_app. cbn [filter].
  destruct (rq me).
  - apply incl_app; [|apply incl_appr, incl_refl].
    apply incl_appl. rewrite filter_flat_map. intros x Hx. apply in_flat_map in Hx as (k & Hk & Hx).
    apply in_flat_map. exists k. split; [exact Hk|]. rewrite Forall_forall in IH. now apply (IH k Hk).
  - destruct (const_like c); [apply incl_appr, incl_refl|]. intros x [].
Qed.

Lemma retrieve_pruned q rq e :
  rq e = false -> const_like (ecl e) = false -> retrieve q rq e = [].
Proof. destruct e as [l c n s kids]. cbn. intros -> ->. reflexivity. Qed.

Lemma flatg_nonunique q it : forall lv, List.concat (flatg false q lv it) = all_matches q it.
Proof.
  unfold all_matches.
  induction it as [l k qq ch ex IH|els IH|e|] using item_ind'; intros lv.
  - cbn [flatg slots uniq_if]. cbn [List.concat]. rewrite app_nil_r.
    destruct (k =? K_TYPEDEF); [reflexivity|].
    assert (E : forall b, List.concat (flat_map (flatg false q b) ch) = filter q (flat_map postorder (flat_map slots ch))).
    { intros b. rewrite concat_flat_map, flat_map_flat_map, filter_flat_map.
      apply flat_map_ext_Forall. eapply Forall_impl; [|exact IH]. intros c Hc. apply Hc. }
    destruct (k =? K_VARDECL).
    + rewrite E, flat_map_app, filter_app. f_equal. rewrite filter_flat_map.
      apply flat_map_ext_Forall. apply Forall_forall. intros x _. apply retrieve_is_filter_postorder.
    + rewrite E, app_nil_r. reflexivity.
  - cbn [flatg slots uniq_if].
    assert (E : forall b, List.concat (flat_map (flatg false q b) els) = filter q (flat_map postorder (flat_map slots els))).
    { intros b. rewrite concat_flat_map, flat_map_flat_map, filter_flat_map.
      apply flat_map_ext_Forall. eapply Forall_impl; [|exact IH]. intros c Hc. apply Hc. }
    destruct lv; [apply E|]. cbn [List.concat]. rewrite app_nil_r. apply E.
  - cbn. rewrite !app_nil_r. apply retrieve_is_filter_postorder.
  - reflexivity.
Qed.

Lemma ef_flat_nonunique q it : ef_flat false q it = all_matches q it.
Proof. apply flatg_nonunique. Qed.

Inductive in_slot (r : expr) : item -> Prop :=
  | slot_expr : in_slot r (IExpr r)
  | slot_tuple els c : In c els -> in_slot r c -> in_slot r (ITuple els)
  | slot_child l k q ch ex c : k <> K_TYPEDEF -> In c ch -> in_slot r c -> in_slot r (INode l k q ch ex)
  | slot_init l q ch ex : In r ex -> in_slot r (INode l K_VARDECL q ch ex).

Lemma in_slots_iff r it : In r (slots it) <-> in_slot r it.
Proof.
  induction it as [l k q ch ex IH|els IH|e|] using item_ind'; cbn [slots].
  - rewrite Forall_forall in IH. destruct (k =? K_TYPEDEF) eqn:Ek.
    + split; [intros []|]. intros Hs. apply Z.eqb_eq in Ek. inversion Hs; subst; [contradiction|discriminate].
    + apply Z.eqb_neq in Ek. rewrite in_app_iff, in_flat_map. split.
      * intros [(c & Hc & Hr)|Hr].
        -- eapply slot_child; eauto. now apply IH.
        -- destruct (k =? K_VARDECL) eqn:Ev; [|destruct Hr]. apply Z.eqb_eq in Ev. subst k. now apply slot_init.
      * intros Hs. inversion Hs; subst.
        -- left. eexists. split; [eassumption|]. now apply IH.
        -- right. assumption.
  - rewrite Forall_forall in IH. rewrite in_flat_map. split.
    + intros (c & Hc & Hr). eapply slot_tuple; eauto. now apply IH.
    + intros Hs. inversion Hs; subst. eexists. split; [eassumption|]. now apply IH.
  - split; [intros [<-|[]]; constructor|]. intros Hs. inversion Hs; subst. now left.
  - split; [intros []|]. intros Hs. inversion Hs.
Qed.

Lemma findvars_complete q it v :
  In v (ef_flat false q it) <-> q v = true /\ exists r, in_slot r it /\ subexpr v r.
Proof.
  rewrite ef_flat_nonunique. unfold all_matches. rewrite filter_In, in_flat_map. split.
  - intros [(r & Hr & Hv) Hq]. split; [exact Hq|]. exists r. split; [now apply in_slots_iff|now apply in_postorder_iff].
  - intros [Hq (r & Hr & Hv)]. split; [|exact Hq]. exists r. split; [now apply in_slots_iff|now apply in_postorder_iff].
Qed.

Lemma sequence_map_Some_of {A B} (g : A -> B) (l : list A) :
  sequence (map (fun x => Some (g x)) l) = Some (map g l).
Proof. induction l as [|a l IH]; cbn; [reflexivity|]. now rewrite IH. Qed.

Lemma flatten_atoms b (l : list expr) : flatten_py b (map PE l) = map PE l.
Proof. unfold flatten_py. induction l as [|a l IH]; cbn; [reflexivity|]. now rewrite IH. Qed.

Lemma flatten_tuples (ll : list (list expr)) :
  flatten_py false (map PT (map (map PE) ll)) = map PE (List.concat ll).
Proof.
  unfold flatten_py. induction ll as [|l ll IH]; [reflexivity|].
  cbn [map flat_map List.concat]. rewrite IH, map_app. f_equal. apply (flatten_atoms false).
Qed.

Lemma find_uniques_atoms u (l : list expr) : find_uniques u (map PE l) = Some (map PE (uniq_if u l)).
Proof.
  unfold find_uniques, uniq_if. destruct u; [|reflexivity].
  rewrite map_map. cbn [pe_of]. rewrite (sequence_map_Some_of (fun x => x)), map_id. reflexivity.
Qed.

Lemma uniq_nil : uniq [] = [].
Proof. reflexivity. Qed.

Lemma ret_flat_atoms u o (l : list expr) : ret u false o (map PE l) = Some (map PE (uniq_if u l)).
Proof.
  destruct l as [|a l]; [destruct u; reflexivity|].
  unfold ret. cbn [map]. change (PE a :: map PE l) with (map PE (a :: l)).
  rewrite flatten_atoms. apply find_uniques_atoms.
Qed.

Lemma ret_flat_tuples u o (ll : list (list expr)) :
  ret u false o (map PT (map (map PE) ll)) = Some (map PE (uniq_if u (List.concat ll))).
Proof.
  destruct ll as [|l ll]; [destruct u; reflexivity|].
  unfold ret. cbn [map]. change (PT (map PE l) :: map PT (map (map PE) ll)) with (map PT (map (map PE) (l :: ll))).
  rewrite flatten_tuples. apply find_uniques_atoms.
Qed.

Definition somes (ll : list (list expr)) : list (option (list pyv)) := map (fun l => Some (map PE l)) ll.

Lemma somes_flat_map {A} (f : A -> list (list expr)) l :
  flat_map (fun c => somes (f c)) l = somes (flat_map f l).
Proof. unfold somes. now rewrite map_flat_map. Qed.

Lemma sequence_somes ll : sequence (somes ll) = Some (map (map PE) ll).
Proof. unfold somes. apply (sequence_map_Some_of (map PE)). Qed.

Lemma efg_flat u q it : forall lv, efg u false q lv it = somes (flatg u q lv it).
Proof.
  induction it as [l k qq ch ex IH|els IH|e|] using item_ind'; intros lv.
  - cbn [efg flatg somes map].
    assert (E : forall b, flat_map (efg u false q b) ch = somes (flat_map (flatg u q b) ch)).
    { intros b. rewrite <- somes_flat_map. apply flat_map_ext_Forall. eapply Forall_impl; [|exact IH]. intros c Hc. apply Hc. }
    destruct (k =? K_TYPEDEF); [reflexivity|].
    destruct (k =? K_VARDECL).
    + rewrite E, sequence_somes, ret_flat_tuples. rewrite <- map_app, ret_flat_atoms. reflexivity.
    + rewrite E, sequence_somes, ret_flat_tuples. reflexivity.
  - cbn [efg flatg].
    assert (E : forall b, flat_map (efg u false q b) els = somes (flat_map (flatg u q b) els)).
    { intros b. rewrite <- somes_flat_map. apply flat_map_ext_Forall. eapply Forall_impl; [|exact IH]. intros c Hc. apply Hc. }
    destruct lv; [apply E|].
    rewrite E, sequence_somes, ret_flat_tuples. reflexivity.
  - reflexivity.
  - reflexivity.
Qed.

Lemma flatg_singleton u q it : exists l, flatg u q false it = [l].
Proof. destruct it; cbn; eauto. Qed.

Lemma ef_flat_correct u q it : ef u false q it = Some (map PE (ef_flat u q it)).
Proof.
  unfold ef, ef_flat. rewrite efg_flat. destruct (flatg_singleton u q it) as [l ->].
  cbn. now rewrite app_nil_r.
Qed.
