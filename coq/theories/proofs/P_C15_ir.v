(** C15 -- with_ir_node (after facts on [flatten_py]/[is_leaf] for lists of pairs and of atoms), FindScopes, scope mode.
    Defines [sres_of], [ieqk], [ichildren], [holds] and the class [eq_is_identity], in which the theorems are stated. *)
From Coq Require Import ZArith List Bool String Ascii Permutation.
From LV Require Import Base.Strings Base.ListFacts models.M_C15 proofs.P_C15 proofs.P_C15_uniq.
Import ListNotations.
Open Scope Z_scope.
Open Scope list_scope.

Lemma is_leaf_mkpair g : is_leaf (mkpair g) = true.
Proof. reflexivity. Qed.

Lemma flat1_mkpair g : flat1 true (mkpair g) = [mkpair g].
Proof. reflexivity. Qed.

Lemma flatten_pairs gs : flatten_py true (map mkpair gs) = map mkpair gs.
Proof. unfold flatten_py. induction gs as [|g gs IH]; [reflexivity|]. cbn [map flat_map]. rewrite IH. reflexivity. Qed.

Lemma flat1_tuple_of_atoms es : flat1 true (PT (map PE es)) = map PE es.
Proof.
  assert (E : is_leaf (PT (map PE es)) = false) by (destruct es as [|a [|b r]]; reflexivity).
  cbn [flat1]. rewrite E. cbn [andb]. apply (flatten_atoms true).
Qed.

Lemma flat1_tuple_of_pairs gs : flat1 true (PT (map mkpair gs)) = map mkpair gs.
Proof.
  assert (E : is_leaf (PT (map mkpair gs)) = false) by (destruct gs as [|a [|b r]]; reflexivity).
  cbn [flat1]. rewrite E. cbn [andb]. apply flatten_pairs.
Qed.

Lemma filter_leaf_pairs gs : filter is_leaf (map mkpair gs) = map mkpair gs.
Proof. induction gs as [|g gs IH]; [reflexivity|]. cbn [map filter]. rewrite is_leaf_mkpair, IH. reflexivity. Qed.
Lemma filter_nleaf_pairs gs : filter (fun v => negb (is_leaf v)) (map mkpair gs) = [].
Proof. induction gs as [|g gs IH]; [reflexivity|]. cbn [map filter]. rewrite is_leaf_mkpair. exact IH. Qed.
Lemma filter_leaf_atoms es : filter is_leaf (map PE es) = [].
Proof. induction es as [|e es IH]; [reflexivity|]. cbn. exact IH. Qed.
Lemma filter_nleaf_atoms es : filter (fun v => negb (is_leaf v)) (map PE es) = map PE es.
Proof. induction es as [|e es IH]; [reflexivity|]. cbn. now rewrite IH. Qed.

Lemma sequence_map_Some {A} (l : list A) : sequence (map Some l) = Some l.
Proof. induction l as [|a l IH]; cbn; [reflexivity|]. now rewrite IH. Qed.

Lemma flatten_py_app b x y : flatten_py b (x ++ y) = flatten_py b x ++ flatten_py b y.
Proof. unfold flatten_py. apply flat_map_app. Qed.

Lemma ret_ir u owner rs gs ds :
  filter is_leaf (flatten_py true (map PT rs)) = map mkpair gs ->
  filter (fun v => negb (is_leaf v)) (flatten_py true (map PT rs)) = map PE ds ->
  ret u true owner (map PT rs) =
    Some (map mkpair gs ++ match ds with [] => [] | _ => [PT [owner; PT (map PE (uniq_if u ds))]] end).
Proof.
  intros H1 H2. destruct rs as [|r rs].
  - cbn in H1, H2. destruct gs; [|discriminate]. destruct ds; [|discriminate]. reflexivity.
  - unfold ret. destruct (map PT (r :: rs)) eqn:E; [discriminate|]. cbv beta iota zeta.
    rewrite H1, H2. destruct ds as [|d ds]; [cbn; now rewrite app_nil_r|].
    cbn [map]. change (PE d :: map PE ds) with (map PE (d :: ds)). rewrite find_uniques_atoms. reflexivity.
Qed.

(** what [efg_ir] shows of an item, by the way it is reached: [part1] when visit/visit_tuple is called on it (one
    result, its groups); [part2] when it sits inside node.children and is flattened by visit_Node (its results
    split into the groups below it and the expressions directly in it) *)
Definition part1 u q (c : item) : Prop :=
  efg u true q false c = [Some (map mkpair (fst (grp u q c)))] /\ snd (grp u q c) = [].
Definition part2 u q (c : item) : Prop :=
  exists rs, efg u true q true c = map Some rs /\
    filter is_leaf (flatten_py true (map PT rs)) = map mkpair (fst (grp u q c)) /\
    filter (fun v => negb (is_leaf v)) (flatten_py true (map PT rs)) = map PE (snd (grp u q c)).

Lemma children_ir u q ch :
  Forall (part2 u q) ch ->
  exists rs, flat_map (efg u true q true) ch = map Some rs /\
    filter is_leaf (flatten_py true (map PT rs)) = map mkpair (flat_map (fun c => fst (grp u q c)) ch) /\
    filter (fun v => negb (is_leaf v)) (flatten_py true (map PT rs)) = map PE (flat_map (fun c => snd (grp u q c)) ch).
Proof.
  induction 1 as [|c ch (rs1 & E1 & F1 & G1) _ (rs2 & E2 & F2 & G2)].
  - exists []. repeat split; reflexivity.
  - exists (rs1 ++ rs2). cbn [flat_map]. rewrite E1, E2, !map_app, flatten_py_app, !filter_app, F1, F2, G1, G2.
    repeat split; reflexivity.
Qed.

Lemma toplevel_ir u q els :
  Forall (part1 u q) els ->
  flat_map (efg u true q false) els = map Some (map (fun c => map mkpair (fst (grp u q c))) els) /\
  flat_map (fun c => snd (grp u q c)) els = [].
Proof.
  induction 1 as [|c els [E1 E2] _ [IH1 IH2]]; [split; reflexivity|].
  cbn [flat_map map]. rewrite E1, E2, IH1, IH2. split; reflexivity.
Qed.

Lemma flatten_tuples_of_pairs {A} (f : A -> list (Z * list expr)) (l : list A) :
  flatten_py true (map PT (map (fun c => map mkpair (f c)) l)) = map mkpair (flat_map f l).
Proof.
  unfold flatten_py. induction l as [|a l IH]; [reflexivity|].
  cbn [map flat_map]. rewrite IH, flat1_tuple_of_pairs, map_app. reflexivity.
Qed.

Lemma node_grp u q l k qq ch ex :
  (k =? K_TYPEDEF) = false ->
  grp u q (INode l k qq ch ex) =
    (flat_map (fun c => fst (grp u q c)) ch ++
       match flat_map (fun c => snd (grp u q c)) ch with [] => [] | _ => [(l, uniq_if u (flat_map (fun c => snd (grp u q c)) ch))] end, []).
Proof. intros E. cbn [grp]. now rewrite E. Qed.

Lemma efg_ir u q it :
  (wi_ok true it = true -> part1 u q it) /\ (wi_ok false it = true -> part2 u q it).
Proof.
  induction it as [l k qq ch ex IH|els IH|e|] using item_ind'.
  - (* a node: its own handling does not depend on how it is reached *)
    assert (Core : (k =? K_TYPEDEF) || (negb (k =? K_VARDECL) && forallb (wi_ok false) ch) = true ->
              efg u true q false (INode l k qq ch ex) = [Some (map mkpair (fst (grp u q (INode l k qq ch ex))))]
              /\ snd (grp u q (INode l k qq ch ex)) = []).
    { intros Hok. destruct (k =? K_TYPEDEF) eqn:Et.
      - cbn [efg grp]. rewrite Et. split; reflexivity.
      - cbn [orb] in Hok. apply andb_true_iff in Hok as [Hv Hch]. apply negb_true_iff in Hv.
        rewrite node_grp by exact Et. cbn [fst snd]. split; [|reflexivity].
        cbn [efg]. rewrite Et, Hv.
        assert (Hp : Forall (part2 u q) ch).
        { rewrite forallb_forall in Hch. rewrite Forall_forall in *. intros c Hc. now apply (IH c Hc), Hch. }
        destruct (children_ir u q ch Hp) as (rs & E & F & G).
        rewrite E, sequence_map_Some, (ret_ir u (PN l) rs _ _ F G).
        f_equal. f_equal. rewrite map_app. f_equal.
        destruct (flat_map (fun c => snd (grp u q c)) ch); reflexivity. }
    split; intros Hok; cbn [wi_ok] in Hok; destruct (Core Hok) as [C1 C2].
    + split; assumption.
    + exists [map mkpair (fst (grp u q (INode l k qq ch ex)))]. split; [exact C1|].
      unfold flatten_py. cbn [map flat_map]. rewrite flat1_tuple_of_pairs, app_nil_r, C2.
      split; [apply filter_leaf_pairs|apply filter_nleaf_pairs].
  - split; intros Hok; cbn [wi_ok] in Hok; rewrite forallb_forall in Hok.
    + assert (Hp : Forall (part1 u q) els).
      { rewrite Forall_forall in *. intros c Hc. now apply (IH c Hc), Hok. }
      destruct (toplevel_ir u q els Hp) as [E1 E2].
      split; [|cbn [grp snd]; exact E2].
      cbn [efg grp fst]. rewrite E1, sequence_map_Some.
      rewrite (ret_ir u _ _ (flat_map (fun c => fst (grp u q c)) els) []).
      * now rewrite app_nil_r.
      * rewrite flatten_tuples_of_pairs. apply filter_leaf_pairs.
      * rewrite flatten_tuples_of_pairs. apply filter_nleaf_pairs.
    + assert (Hp : Forall (part2 u q) els).
      { rewrite Forall_forall in *. intros c Hc. now apply (IH c Hc), Hok. }
      destruct (children_ir u q els Hp) as (rs & E & F & G).
      exists rs. cbn [efg grp fst snd]. repeat split; assumption.
  - split; intros Hok; [discriminate|].
    exists [map PE (retrieve q rtrue e)]. cbn [efg grp fst snd map]. split; [reflexivity|].
    unfold flatten_py. cbn [flat_map]. rewrite flat1_tuple_of_atoms, app_nil_r.
    split; [apply filter_leaf_atoms|apply filter_nleaf_atoms].
  - split; intros _.
    + split; reflexivity.
    + exists [[]]. repeat split; reflexivity.
Qed.

Lemma with_ir_node_correct u q it :
  wi_ok true it = true -> ef u true q it = Some (map mkpair (groups u q it)).
Proof.
  intros H. destruct (proj1 (efg_ir u q it) H) as [E _]. unfold ef, groups. now rewrite E.
Qed.

Lemma perm_flat_map_split {A B} (f g h : A -> list B) l :
  Forall (fun c => Permutation (f c ++ g c) (h c)) l ->
  Permutation (flat_map f l ++ flat_map g l) (flat_map h l).
Proof.
  induction 1 as [|c l Hc _ IH]; cbn; [constructor|].
  rewrite <- app_assoc.
  apply Permutation_trans with ((f c ++ g c) ++ (flat_map f l ++ flat_map g l)).
  - rewrite <- !app_assoc. apply Permutation_app_head.
    rewrite !app_assoc. apply Permutation_app_tail. apply Permutation_app_comm.
  - now apply Permutation_app.
Qed.

Lemma all_matches_children q (l : list item) :
  filter q (flat_map postorder (flat_map slots l)) = flat_map (all_matches q) l.
Proof.
  unfold all_matches. rewrite flat_map_flat_map, filter_flat_map. reflexivity.
Qed.

Lemma grp_partition q it : forall tv, wi_ok tv it = true ->
  Permutation (flat_map snd (fst (grp false q it)) ++ snd (grp false q it)) (all_matches q it).
Proof.
  induction it as [l k qq ch ex IH|els IH|e|] using item_ind'; intros tv Hok.
  - cbn [wi_ok] in Hok. destruct (k =? K_TYPEDEF) eqn:Et.
    + unfold all_matches. cbn [grp slots]. rewrite Et. constructor.
    + cbn [orb] in Hok. apply andb_true_iff in Hok as [Hv Hch]. apply negb_true_iff in Hv.
      rewrite node_grp by exact Et. cbn [fst snd uniq_if]. rewrite app_nil_r.
      assert (Ea : all_matches q (INode l k qq ch ex) = flat_map (all_matches q) ch).
      { unfold all_matches at 1. cbn [slots]. rewrite Et, Hv, app_nil_r. apply all_matches_children. }
      rewrite Ea, flat_map_app.
      assert (Ed : flat_map snd (match flat_map (fun c => snd (grp false q c)) ch with
                                 | [] => []
                                 | _ :: _ => [(l, flat_map (fun c => snd (grp false q c)) ch)]
                                 end) = flat_map (fun c => snd (grp false q c)) ch).
      { destruct (flat_map (fun c => snd (grp false q c)) ch); [reflexivity|]. cbn. now rewrite app_nil_r. }
      rewrite Ed, flat_map_flat_map.
      apply (perm_flat_map_split (fun c => flat_map snd (fst (grp false q c))) (fun c => snd (grp false q c))).
      rewrite forallb_forall in Hch. rewrite Forall_forall in *. intros c Hc. apply (IH c Hc false). now apply Hch.
  - cbn [wi_ok] in Hok. rewrite forallb_forall in Hok.
    assert (Ea : all_matches q (ITuple els) = flat_map (all_matches q) els).
    { unfold all_matches at 1. cbn [slots]. apply all_matches_children. }
    rewrite Ea. cbn [grp fst snd]. rewrite flat_map_flat_map.
    apply (perm_flat_map_split (fun c => flat_map snd (fst (grp false q c))) (fun c => snd (grp false q c))).
    rewrite Forall_forall in *. intros c Hc. apply (IH c Hc tv). now apply Hok.
  - unfold all_matches. cbn [grp fst snd slots flat_map]. rewrite !app_nil_r. cbn [app].
    rewrite retrieve_is_filter_postorder. apply Permutation_refl.
  - constructor.
Qed.

Lemma with_ir_node_partition q it :
  wi_ok true it = true ->
  Permutation (flat_map snd (groups false q it)) (ef_flat false q it).
Proof.
  intros H. rewrite ef_flat_nonunique. unfold groups.
  destruct (proj1 (efg_ir false q it) H) as [_ E].
  generalize (grp_partition q it true H). now rewrite E, app_nil_r.
Qed.

Lemma groups_nonempty q it : forall g, In g (fst (grp false q it)) -> snd g <> [].
Proof.
  induction it as [l k qq ch ex IH|els IH|e|] using item_ind'; intros g Hg; cbn [grp] in Hg.
  - destruct (k =? K_TYPEDEF); [destruct Hg|]. cbn [fst] in Hg. apply in_app_or in Hg as [Hg|Hg].
    + apply in_flat_map in Hg as (c & Hc & Hg). rewrite Forall_forall in IH. now apply (IH c Hc).
    + destruct (flat_map (fun c => snd (grp false q c)) ch) eqn:E; [destruct Hg|].
      destruct Hg as [<-|[]]. cbn. discriminate.
  - cbn [fst] in Hg. apply in_flat_map in Hg as (c & Hc & Hg). rewrite Forall_forall in IH. now apply (IH c Hc).
  - destruct Hg.
  - destruct Hg.
Qed.

Definition sres_of (p : list item * item) : sres :=
  if is_typedef (snd p) then SNode (snd p) else SAnc (fst p ++ [snd p]).

Lemma fold_left_acc2 {A B} (f : B -> list A -> list A) (g : B -> list A) l :
  Forall (fun c => forall acc, f c acc = acc ++ g c) l ->
  forall acc, fold_left (fun a c => f c a) l acc = acc ++ flat_map g l.
Proof. apply fold_left_acc. Qed.

Lemma fs_visit_spec m it :
  forall anc ret,
    fs_visit m false it anc ret =
    ret ++ map sres_of (filter (fun p => ilbl (snd p) =? m) (preorder_anc anc it)).
Proof.
  induction it as [l k q ch ex IH|els IH|e|] using item_ind'; intros anc ret.
  - cbn [fs_visit preorder_anc filter snd ilbl]. destruct (k =? K_TYPEDEF) eqn:Et.
    + destruct (l =? m); [|now rewrite app_nil_r].
      cbn [map]. unfold sres_of. cbn [snd fst is_typedef]. now rewrite Et.
    + rewrite andb_false_r.
      rewrite (fold_left_acc (fun c acc => fs_visit m false c (anc ++ [INode l k q ch ex]) acc)
                 (fun c => map sres_of (filter (fun p => ilbl (snd p) =? m) (preorder_anc (anc ++ [INode l k q ch ex]) c)))).
      * assert (Es : sres_of (anc, INode l k q ch ex) = SAnc (anc ++ [INode l k q ch ex])).
        { unfold sres_of. cbn [snd fst is_typedef]. now rewrite Et. }
        destruct (l =? m); cbn [map]; rewrite filter_flat_map, map_flat_map; [|reflexivity].
        rewrite Es, <- app_assoc. reflexivity.
      * eapply Forall_impl; [|exact IH]. intros c Hc acc. apply Hc.
  - cbn [fs_visit preorder_anc].
    rewrite (fold_left_acc (fun c acc => fs_visit m false c anc acc)
               (fun c => map sres_of (filter (fun p => ilbl (snd p) =? m) (preorder_anc anc c)))).
    + now rewrite filter_flat_map, map_flat_map.
    + eapply Forall_impl; [|exact IH]. intros c Hc acc. apply Hc.
  - cbn. now rewrite app_nil_r.
  - cbn. now rewrite app_nil_r.
Qed.

Lemma findscopes_spec m it :
  find_scopes m false it = map sres_of (filter (fun p => ilbl (snd p) =? m) (preorder_anc [] it)).
Proof. unfold find_scopes. now rewrite fs_visit_spec. Qed.

Definition ieqk (it : item) : Z := match it with INode _ _ q _ _ => q | _ => -1 end.
Definition ichildren (it : item) : list item := match it with INode _ _ _ ch _ => ch | _ => [] end.

(** the nodes that hold the object with label [m] among their (flattened) children *)
Definition holds (m : Z) (it : item) : bool :=
  existsb (fun c => is_node c && (ilbl c =? m)) (flatten_items (ichildren it)).

Lemma fold_left_ext_in {A B} (F G : A -> B -> A) l :
  (forall b, In b l -> forall a, F a b = G a b) -> forall a, fold_left F l a = fold_left G l a.
Proof.
  induction l as [|b l IH]; intros H a; cbn; [reflexivity|].
  rewrite (H b (or_introl eq_refl)). apply IH. intros c Hc. apply H. now right.
Qed.

Lemma fn_visit_ext r1 r2 g it :
  (forall n, In n (all_nodes it) -> r1 n = r2 n) ->
  forall ret, fn_visit r1 g it ret = fn_visit r2 g it ret.
Proof.
  induction it as [l k q ch ex IH|els IH|e|] using item_ind'; intros Hr ret; cbn [fn_visit]; try reflexivity;
    rewrite Forall_forall in IH.
  - rewrite (Hr (INode l k q ch ex)) by (cbn; now left).
    destruct (r2 (INode l k q ch ex) && g); [reflexivity|]. destruct (k =? K_TYPEDEF); [reflexivity|].
    apply fold_left_ext_in. intros c Hc acc. apply (IH c Hc). intros n Hn. apply Hr. cbn. right. apply in_flat_map. eauto.
  - apply fold_left_ext_in. intros c Hc acc. apply (IH c Hc). intros n Hn. apply Hr. cbn. apply in_flat_map. eauto.
Qed.

Lemma flat_item_nodes c x : In x (flat_item c) -> is_node x = true -> In x (all_nodes c).
Proof.
  induction c as [l k q ch ex IH|els IH|e|] using item_ind'; cbn [flat_item all_nodes].
  - intros [<-|[]] _. now left.
  - intros Hx Hn. apply in_flat_map in Hx as (c & Hc & Hx). apply in_flat_map. exists c. split; [exact Hc|].
    rewrite Forall_forall in IH. now apply (IH c Hc).
  - intros [<-|[]]. discriminate.
  - intros [<-|[]]. discriminate.
Qed.

Lemma all_nodes_trans n it : In n (all_nodes it) -> forall x, In x (all_nodes n) -> In x (all_nodes it).
Proof.
  induction it as [l k q ch ex IH|els IH|e|] using item_ind'; cbn [all_nodes].
  - intros [<-|Hn] x Hx; [exact Hx|]. right. apply in_flat_map in Hn as (c & Hc & Hn). apply in_flat_map.
    exists c. split; [exact Hc|]. rewrite Forall_forall in IH. now apply (IH c Hc Hn).
  - intros Hn x Hx. apply in_flat_map in Hn as (c & Hc & Hn). apply in_flat_map.
    exists c. split; [exact Hc|]. rewrite Forall_forall in IH. now apply (IH c Hc Hn).
  - intros [].
  - intros [].
Qed.

(** class: nodes that are equal under Python == are the same object *)
Definition eq_is_identity (it : item) : Prop :=
  forall a b, In a (all_nodes it) -> In b (all_nodes it) -> (ieqk a = ieqk b <-> ilbl a = ilbl b).

Lemma scope_rule_holds it m :
  eq_is_identity it -> In m (all_nodes it) ->
  forall n, In n (all_nodes it) -> scope_rule (ieqk m) n = holds (ilbl m) n.
Proof.
  intros Hid Hm n Hn. destruct n as [l k q ch ex| | |]; try reflexivity.
  unfold scope_rule, holds. cbn [ichildren].
  assert (Hsub : forall c, In c (flatten_items ch) -> is_node c = true -> In c (all_nodes it)).
  { intros c Hc Hnode. apply (all_nodes_trans _ _ Hn). cbn [all_nodes]. right.
    unfold flatten_items in Hc. apply in_flat_map in Hc as (c0 & Hc0 & Hc). apply in_flat_map.
    exists c0. split; [exact Hc0|]. now apply flat_item_nodes. }
  revert Hsub. generalize (flatten_items ch) as L. induction L as [|c L IHL]; intros Hsub; [reflexivity|].
  cbn [existsb]. rewrite IHL by (intros c' Hc'; apply Hsub; now right). f_equal.
  destruct c as [l' k' q' ch' ex'| | |]; try reflexivity. cbn [is_node ilbl andb].
  assert (Hc : In (INode l' k' q' ch' ex') (all_nodes it)) by (apply Hsub; [now left|reflexivity]).
  destruct (q' =? ieqk m) eqn:E1, (l' =? ilbl m) eqn:E2; try reflexivity.
  - apply Z.eqb_eq in E1. apply Z.eqb_neq in E2. exfalso. apply E2. now apply (Hid _ _ Hc Hm).
  - apply Z.eqb_neq in E1. apply Z.eqb_eq in E2. exfalso. apply E1. now apply (Hid _ _ Hc Hm).
Qed.

Lemma scope_mode_on_class it m g :
  eq_is_identity it -> In m (all_nodes it) ->
  find_nodes (scope_rule (ieqk m)) g it = find_nodes (holds (ilbl m)) g it.
Proof.
  intros Hid Hm. unfold find_nodes. apply fn_visit_ext. intros n Hn. now apply (scope_rule_holds it m).
Qed.
