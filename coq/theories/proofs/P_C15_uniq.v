(** C15 -- the unique reduction [uniq] = dict by documented key, then ordered set by ==.  Defines [sim] (what the
    reduction identifies), the two loop invariants [DInv], [OInv], their common consequence [R], and the class
    [eq_class] (with its decision procedure [eq_classb]) on which [sim] is plain ==. *)
From Coq Require Import ZArith List Bool String Ascii Relations.
From LV Require Import Base.Strings Base.ListFacts models.M_C15 proofs.P_C15.
Import ListNotations.
Open Scope Z_scope.
Open Scope list_scope.

Definition key_eq (a b : expr) : Prop := key_eqb (dict_key a) (dict_key b) = true.

(** one identification step inside the carrier list [L]: same documented key or Python-equal *)
Definition ustep (L : list expr) (a b : expr) : Prop :=
  In a L /\ In b L /\ (key_eq a b \/ expr_eqb a b = true).
Definition sim (L : list expr) : expr -> expr -> Prop := clos_refl_sym_trans expr (ustep L).

Lemma sim_refl L a : sim L a a. Proof. apply rst_refl. Qed.
Lemma sim_sym L a b : sim L a b -> sim L b a. Proof. apply rst_sym. Qed.
Lemma sim_trans L a b c : sim L a b -> sim L b c -> sim L a c. Proof. apply rst_trans. Qed.
Lemma sim_step L a b : ustep L a b -> sim L a b. Proof. apply rst_step. Qed.

(** [dict_set]: where an entry of the new dict comes from, what becomes of an old entry, and that the new value is in *)
Lemma ds_in d k v k0 u0 :
  In (k0, u0) (dict_set d k v) ->
  In (k0, u0) d \/ (u0 = v /\ (k0 = k \/ (key_eqb k0 k = true /\ exists u', In (k0, u') d))).
Proof.
  induction d as [|[k' v'] r IH]; cbn.
  - intros [E|[]]. inversion E; subst. right. split; [reflexivity|now left].
  - destruct (key_eqb k' k) eqn:Ek; cbn.
    + intros [E|H]; [|left; now right]. inversion E; subst. right. split; [reflexivity|].
      right. split; [exact Ek|]. exists v'. now left.
    + intros [E|H]; [left; now left|]. destruct (IH H) as [H1|(E1 & [E2|(E2 & u' & H2)])].
      * left. now right.
      * right. split; [exact E1|now left].
      * right. split; [exact E1|]. right. split; [exact E2|]. exists u'. now right.
Qed.

Lemma ds_keep d k v k0 u0 :
  In (k0, u0) d -> In (k0, u0) (dict_set d k v) \/ (key_eqb k0 k = true /\ In (k0, v) (dict_set d k v)).
Proof.
  induction d as [|[k' v'] r IH]; cbn; [intros []|].
  destruct (key_eqb k' k) eqn:Ek; cbn.
  - intros [E|H]; [|left; now right]. inversion E; subst. right. split; [exact Ek|now left].
  - intros [E|H]; [left; now left|]. destruct (IH H) as [H1|(E1 & H1)]; [left; now right|].
    right. split; [exact E1|now right].
Qed.

Lemma ds_new d k v : exists k0, In (k0, v) (dict_set d k v).
Proof.
  induction d as [|[k' v'] r IH]; cbn; [exists k; now left|].
  destruct (key_eqb k' k); cbn; [exists k'; now left|]. destruct IH as (k0 & H). exists k0. now right.
Qed.

(** invariant of [dict_build] after the prefix [P]: every value is an element of [P], stored under the key of an
    element it is [sim] to; every element of [P] is [sim] to some value *)
Definition DInv (L : list expr) (d : list (dkey * expr)) (P : list expr) : Prop :=
  (forall k u, In (k, u) d -> In u P /\ exists w, In w P /\ k = dict_key w /\ sim L w u) /\
  (forall x, In x P -> exists k u, In (k, u) d /\ sim L u x).

Lemma DInv_step L d P v :
  incl (P ++ [v]) L -> DInv L d P -> DInv L (dict_set d (dict_key v) v) (P ++ [v]).
Proof.
  intros HL [H1 H2].
  assert (HvL : In v L) by (apply HL, in_or_app; right; now left).
  assert (HPL : forall x, In x P -> In x L) by (intros x Hx; apply HL, in_or_app; now left).
  split.
  - intros k u Hin. apply ds_in in Hin as [Hold|(-> & Hk)].
    + destruct (H1 _ _ Hold) as (Hu & w & Hw & Ek & Hs). split; [apply in_or_app; now left|].
      exists w. split; [apply in_or_app; now left|]. now split.
    + split; [apply in_or_app; right; now left|].
      destruct Hk as [->|(Ek & u' & Hu')].
      * exists v. split; [apply in_or_app; right; now left|]. split; [reflexivity|apply sim_refl].
      * destruct (H1 _ _ Hu') as (_ & w & Hw & -> & _).
        exists w. split; [apply in_or_app; now left|]. split; [reflexivity|].
        apply sim_step. split; [now apply HPL|]. split; [exact HvL|]. left. exact Ek.
  - intros x Hx. apply in_app_or in Hx as [Hx|[<-|[]]].
    + destruct (H2 x Hx) as (k & u & Hin & Hs).
      destruct (ds_keep d (dict_key v) v k u Hin) as [Hk|(Ek & Hk)].
      * exists k, u. now split.
      * exists k, v. split; [exact Hk|].
        destruct (H1 _ _ Hin) as (_ & w & Hw & -> & Hwu).
        apply sim_trans with w.
        -- apply sim_sym, sim_step. split; [now apply HPL|]. split; [exact HvL|]. left. exact Ek.
        -- now apply sim_trans with u.
    + destruct (ds_new d (dict_key v) v) as (k0 & Hk0). exists k0, v. split; [exact Hk0|apply sim_refl].
Qed.

Lemma DInv_fold L l : forall d P,
  incl (P ++ l) L -> DInv L d P ->
  DInv L (fold_left (fun d v => dict_set d (dict_key v) v) l d) (P ++ l).
Proof.
  induction l as [|v l IH]; intros d P HL HI; cbn [fold_left]; [now rewrite app_nil_r|].
  replace (P ++ v :: l) with ((P ++ [v]) ++ l) in * by (now rewrite <- app_assoc).
  apply IH; [exact HL|]. apply DInv_step; [|exact HI].
  intros x Hx. apply HL, in_or_app. now left.
Qed.

Lemma dict_build_spec L l : incl l L -> DInv L (dict_build l) l.
Proof.
  intros HL. unfold dict_build. apply (DInv_fold L l [] []); [exact HL|].
  split; [intros k u []|intros x []].
Qed.

Definition pairwise_ne (s : list expr) : Prop := ForallOrdPairs (fun a b => expr_eqb a b = false) s.

Lemma FOP_snoc {A} (R : A -> A -> Prop) s v :
  ForallOrdPairs R s -> Forall (fun a => R a v) s -> ForallOrdPairs R (s ++ [v]).
Proof.
  induction 1 as [|a s Ha Hs IH]; intros Hv; cbn; [repeat constructor|].
  inversion Hv; subst. constructor; [|now apply IH].
  apply Forall_app. split; [exact Ha|]. now constructor.
Qed.

(** invariant of [oset] after the prefix [P]: the set is drawn from [P], represents all of [P] up to [sim], and no
    earlier element is == to a later one *)
Definition OInv (L : list expr) (s P : list expr) : Prop :=
  incl s P /\ (forall x, In x P -> exists u, In u s /\ sim L u x) /\ pairwise_ne s.

Lemma OInv_step L s P v : incl (P ++ [v]) L -> OInv L s P -> OInv L (oset_add s v) (P ++ [v]).
Proof.
  intros HL (H1 & H2 & H3). unfold oset_add.
  assert (HvL : In v L) by (apply HL, in_or_app; right; now left).
  destruct (existsb (fun u => expr_eqb u v) s) eqn:Ex.
  - apply existsb_exists in Ex as (u & Hu & Euv). split; [|split; [|exact H3]].
    + intros x Hx. apply in_or_app. left. now apply H1.
    + intros x Hx. apply in_app_or in Hx as [Hx|[<-|[]]]; [now apply H2|].
      exists u. split; [exact Hu|]. apply sim_step. split; [|split; [exact HvL|now right]].
      apply HL, in_or_app. left. now apply H1.
  - split; [|split].
    + intros x Hx. apply in_app_or in Hx as [Hx|Hx]; apply in_or_app; [left; now apply H1|now right].
    + intros x Hx. apply in_app_or in Hx as [Hx|[<-|[]]].
      * destruct (H2 x Hx) as (u & Hu & Hs). exists u. split; [apply in_or_app; now left|exact Hs].
      * exists v. split; [apply in_or_app; right; now left|apply sim_refl].
    + apply FOP_snoc; [exact H3|]. apply Forall_forall. intros a Ha.
      destruct (expr_eqb a v) eqn:E; [|reflexivity].
      assert (existsb (fun u => expr_eqb u v) s = true) by (apply existsb_exists; eauto). congruence.
Qed.

Lemma OInv_fold L l : forall s P, incl (P ++ l) L -> OInv L s P -> OInv L (fold_left oset_add l s) (P ++ l).
Proof.
  induction l as [|v l IH]; intros s P HL HI; cbn [fold_left]; [now rewrite app_nil_r|].
  replace (P ++ v :: l) with ((P ++ [v]) ++ l) in * by (now rewrite <- app_assoc).
  apply IH; [exact HL|]. apply OInv_step; [|exact HI]. intros x Hx. apply HL, in_or_app. now left.
Qed.

Lemma oset_spec L l : incl l L -> OInv L (oset l) l.
Proof.
  intros HL. apply (OInv_fold L l [] []); [exact HL|].
  split; [intros x []|split; [intros x []|constructor]].
Qed.

Lemma uniq_spec L l :
  incl l L ->
  incl (uniq l) l /\ (forall v, In v l -> exists u, In u (uniq l) /\ sim L u v) /\ pairwise_ne (uniq l).
Proof.
  intros HL. destruct (dict_build_spec L l HL) as [D1 D2]. unfold uniq.
  set (vals := map snd (dict_build l)).
  assert (Hv : incl vals l).
  { intros u Hu. apply in_map_iff in Hu as ([k u'] & <- & Hin). now apply (D1 k u'). }
  destruct (oset_spec L vals) as (O1 & O2 & O3); [intros x Hx; now apply HL, Hv|].
  split; [|split; [|exact O3]].
  - intros x Hx. now apply Hv, O1.
  - intros v Hvl. destruct (D2 v Hvl) as (k & u & Hin & Hs).
    destruct (O2 u) as (u' & Hu' & Hs'); [apply in_map_iff; exists (k, u); now split|].
    exists u'. split; [exact Hu'|]. now apply sim_trans with u.
Qed.

(** [lu] represents [ln]: it is drawn from it and holds a [sim]-representative of each element *)
Definition R (L lu ln : list expr) : Prop := incl lu ln /\ forall v, In v ln -> exists u, In u lu /\ sim L u v.

Lemma R_refl L l : R L l l.
Proof. split; [apply incl_refl|]. intros v Hv. exists v. split; [exact Hv|apply sim_refl]. Qed.

Lemma R_uniq L lu ln : incl ln L -> R L lu ln -> R L (uniq lu) ln.
Proof.
  intros HL [H1 H2]. destruct (uniq_spec L lu) as (U1 & U2 & _); [intros x Hx; now apply HL, H1|].
  split; [intros x Hx; now apply H1, U1|].
  intros v Hv. destruct (H2 v Hv) as (u & Hu & Hs). destruct (U2 u Hu) as (u' & Hu' & Hs').
  exists u'. split; [exact Hu'|]. now apply sim_trans with u.
Qed.

Lemma R_uniq_if L b lu ln : incl ln L -> R L lu ln -> R L (uniq_if b lu) ln.
Proof. destruct b; [apply R_uniq|auto]. Qed.

Lemma R_app L a a' b b' : R L a a' -> R L b b' -> R L (a ++ b) (a' ++ b').
Proof.
  intros [A1 A2] [B1 B2]. split.
  - intros x Hx. apply in_app_or in Hx as [Hx|Hx]; apply in_or_app; [left; now apply A1|right; now apply B1].
  - intros v Hv. apply in_app_or in Hv as [Hv|Hv].
    + destruct (A2 v Hv) as (u & Hu & Hs). exists u. split; [apply in_or_app; now left|exact Hs].
    + destruct (B2 v Hv) as (u & Hu & Hs). exists u. split; [apply in_or_app; now right|exact Hs].
Qed.

Lemma R_concat L A B : Forall2 (R L) A B -> R L (List.concat A) (List.concat B).
Proof. induction 1; cbn; [apply R_refl|now apply R_app]. Qed.

Lemma incl_concat_flat_map {A} (f : A -> list (list expr)) l L c :
  incl (List.concat (flat_map f l)) L -> In c l -> incl (List.concat (f c)) L.
Proof.
  intros H Hc x Hx. apply H. rewrite concat_flat_map. apply in_flat_map. eauto.
Qed.

Lemma flatg_R L q it : forall lv,
  incl (List.concat (flatg false q lv it)) L -> Forall2 (R L) (flatg true q lv it) (flatg false q lv it).
Proof.
  induction it as [l k qq ch ex IH|els IH|e|] using item_ind'; intros lv HL.
  - cbn [flatg] in *. cbn [List.concat] in HL. rewrite app_nil_r in HL.
    constructor; [|constructor].
    destruct (k =? K_TYPEDEF); [apply R_refl|].
    assert (E : forall b, incl (List.concat (flat_map (flatg false q b) ch)) L ->
                Forall2 (R L) (flat_map (flatg true q b) ch) (flat_map (flatg false q b) ch)).
    { intros b Hb. apply Forall2_flat_map. rewrite Forall_forall in *. intros c Hc. apply IH; [exact Hc|].
      eapply incl_concat_flat_map; eauto. }
    destruct (k =? K_VARDECL).
    + cbn [uniq_if] in *.
      assert (HA : incl (List.concat (flat_map (flatg false q false) ch)) L) by (intros x Hx; apply HL, in_or_app; now left).
      apply R_uniq; [exact HL|]. apply R_app; [|apply R_refl].
      apply R_uniq; [exact HA|]. apply R_concat. now apply E.
    + cbn [uniq_if] in *. apply R_uniq; [exact HL|]. apply R_concat. now apply E.
  - cbn [flatg] in *.
    assert (E : forall b, incl (List.concat (flat_map (flatg false q b) els)) L ->
                Forall2 (R L) (flat_map (flatg true q b) els) (flat_map (flatg false q b) els)).
    { intros b Hb. apply Forall2_flat_map. rewrite Forall_forall in *. intros c Hc. apply IH; [exact Hc|].
      eapply incl_concat_flat_map; eauto. }
    destruct lv; [now apply E|].
    cbn [uniq_if List.concat] in *. rewrite app_nil_r in HL.
    constructor; [|constructor]. apply R_uniq; [exact HL|]. apply R_concat. now apply E.
  - cbn. constructor; [apply R_refl|constructor].
  - cbn. constructor; [apply R_refl|constructor].
Qed.

(** every occurrence found without [unique] is represented in the unique result, and the unique
    result contains nothing else *)
Lemma unique_is_dedup q it :
  let ln := ef_flat false q it in
  let lu := ef_flat true q it in
  incl lu ln /\ (forall v, In v ln -> exists u, In u lu /\ sim ln u v).
Proof.
  cbn zeta. unfold ef_flat.
  assert (H := flatg_R (List.concat (flatg false q false it)) q it false (incl_refl _)).
  apply R_concat in H. exact H.
Qed.

Lemma unique_pairwise_ne q it :
  (exists l k qq ch ex, it = INode l k qq ch ex) \/ (exists els, it = ITuple els) ->
  pairwise_ne (ef_flat true q it).
Proof.
  unfold ef_flat.
  intros [(l & k & qq & ch & ex & ->)|(els & ->)]; cbn [flatg List.concat]; rewrite app_nil_r.
  - destruct (k =? K_TYPEDEF); [constructor|].
    destruct (k =? K_VARDECL); cbn [uniq_if]; apply (proj2 (proj2 (uniq_spec _ _ (incl_refl _)))).
  - cbn [uniq_if]. apply (proj2 (proj2 (uniq_spec _ _ (incl_refl _)))).
Qed.

Definition eq_class (L : list expr) : Prop :=
  (forall a b, In a L -> In b L -> key_eq a b -> expr_eqb a b = true) /\
  (forall a b, In a L -> In b L -> expr_eqb a b = true -> expr_eqb b a = true) /\
  (forall a b c, In a L -> In b L -> In c L -> expr_eqb a b = true -> expr_eqb b c = true -> expr_eqb a c = true).

(** each [expr_eqb a b] is evaluated once; transitivity is only looked at below a pair that is equal *)
Definition eq_classb (L : list expr) : bool :=
  forallb (fun a => forallb (fun b =>
     let e := expr_eqb a b in
     implb (key_eqb (dict_key a) (dict_key b)) e &&
     (negb e || (expr_eqb b a && forallb (fun c => implb (expr_eqb b c) (expr_eqb a c)) L))) L) L.

Lemma eq_classb_sound L : eq_classb L = true -> eq_class L.
Proof.
  unfold eq_classb. intros H. rewrite forallb_forall in H.
  assert (H' : forall a b, In a L -> In b L ->
     implb (key_eqb (dict_key a) (dict_key b)) (expr_eqb a b) = true /\
     (expr_eqb a b = true -> expr_eqb b a = true /\
        forall c, In c L -> implb (expr_eqb b c) (expr_eqb a c) = true)).
  { intros a b Ha Hb. specialize (H a Ha). rewrite forallb_forall in H. specialize (H b Hb). cbv zeta in H.
    apply andb_true_iff in H as [H1 H2]. split; [exact H1|]. intros E. rewrite E in H2.
    apply andb_true_iff in H2 as [H2 H3]. rewrite forallb_forall in H3. auto. }
  split; [|split].
  - intros a b Ha Hb Hk. destruct (H' a b Ha Hb) as (I & _). unfold key_eq in Hk. rewrite Hk in I. exact I.
  - intros a b Ha Hb E. now apply (H' a b Ha Hb).
  - intros a b c Ha Hb Hc E1 E2. destruct (H' a b Ha Hb) as (_ & I). destruct (I E1) as [_ I2].
    specialize (I2 c Hc). rewrite E2 in I2. exact I2.
Qed.

Lemma sim_on_class L a b :
  eq_class L -> sim L a b -> a = b \/ (In a L /\ In b L /\ expr_eqb a b = true).
Proof.
  intros (C1 & C2 & C3). induction 1 as [a b (Ha & Hb & [Hk|He])|a|a b _ IH|a b c _ IH1 _ IH2].
  - right. split; [exact Ha|]. split; [exact Hb|]. now apply C1.
  - right. auto.
  - now left.
  - destruct IH as [->|(Ha & Hb & E)]; [now left|]. right. split; [exact Hb|]. split; [exact Ha|]. now apply C2.
  - destruct IH1 as [->|(Ha & Hb & E1)]; [exact IH2|].
    destruct IH2 as [<-|(_ & Hc & E2)]; [right; auto|]. right. split; [exact Ha|]. split; [exact Hc|]. now apply (C3 a b c).
Qed.

Lemma unique_is_dedup_on_class q it :
  eq_class (ef_flat false q it) ->
  forall v, In v (ef_flat false q it) ->
    exists u, In u (ef_flat true q it) /\ (u = v \/ expr_eqb u v = true).
Proof.
  intros HC v Hv. destruct (unique_is_dedup q it) as [_ H]. destruct (H v Hv) as (u & Hu & Hs).
  exists u. split; [exact Hu|]. destruct (sim_on_class _ _ _ HC Hs) as [E|(_ & _ & E)]; auto.
Qed.
