(** C15 -- witnesses of the known findings and instances of the class hypotheses. *)
From Coq Require Import ZArith List Bool String Ascii.
From LV Require Import Base.Strings models.M_C15 proofs.P_C15 proofs.P_C15_uniq proofs.P_C15_ir.
Import ListNotations.
Open Scope Z_scope.
Open Scope list_scope.
Open Scope string_scope.

Definition vsym (l : Z) (n : string) : expr := EN l CVarSym n n [].
Definition scal (l : Z) (n : string) : expr := EN l CScalar n n [vsym (l + 1) n].
Definition ilit (l : Z) (v : string) : expr := EN l CInt v v [].
Definition arr1 (l : Z) (n : string) (d : expr) : expr :=
  EN l CArray n (n ++ "(" ++ eskey d ++ ")")
     [EN (l + 1) CSubscript "" (n ++ "(" ++ eskey d ++ ")") [vsym (l + 2) n; EN (l + 3) CTuple "" "" [d]]].

(** F1: [integer :: n] -- VariableDeclaration(symbols=(n,), dimensions=None) *)
Definition decl_n : item := INode 1 K_VARDECL 1 [ITuple [IExpr (scal 10 "n")]; IOther] [].
(** [real :: a(10)] *)
Definition decl_a10 : item := INode 1 K_VARDECL 1 [ITuple [IExpr (arr1 10 "a" (ilit 20 "10"))]; IOther] [].

Lemma with_ir_node_refuted :
  (* unique=True, with_ir_node=True raises AssertionError on a plain declaration *)
  ef true true (qof FVars) decl_n = None /\
  (* unique=False: the declared symbol three times and a None *)
  ef false true (qof FVars) decl_n =
    Some [PT [PN 1; PT [PE (scal 10 "n"); PNone; PE (scal 10 "n"); PE (scal 10 "n")]]] /\
  (* FindLiterals returns the declared array, which is not a literal *)
  ef false true (qof FLits) decl_a10 =
    Some [PT [PN 1; PT [PE (arr1 10 "a" (ilit 20 "10")); PNone; PE (arr1 10 "a" (ilit 20 "10")); PE (ilit 20 "10")]]] /\
  qof FLits (arr1 10 "a" (ilit 20 "10")) = false /\
  (* whereas the flat mode is right on the same trees *)
  ef false false (qof FVars) decl_n = Some [PE (scal 10 "n")] /\
  ef false false (qof FLits) decl_a10 = Some [PE (ilit 20 "10")] /\
  wi_ok true decl_n = false.
Proof. repeat split; vm_compute; reflexivity. Qed.

(** F3: two structurally equal comments (same [eqk]) in two sections *)
Definition cmt (l q : Z) : item := INode l 17 q [] [].
Definition sec (l q : Z) (body : list item) : item := INode l 3 q [ITuple body] [].
Definition two_equal_comments : item := sec 1 1 [sec 2 2 [cmt 3 9]; sec 4 4 [cmt 5 9]].

Lemma scope_mode_refuted :
  In (cmt 3 9) (all_nodes two_equal_comments) /\
  map ilbl (find_nodes (scope_rule (ieqk (cmt 3 9))) false two_equal_comments) = [2; 4] /\
  map ilbl (find_nodes (holds (ilbl (cmt 3 9))) false two_equal_comments) = [2].
Proof. split; [cbn; tauto|]. split; vm_compute; reflexivity. Qed.

Definition eq_is_identityb (it : item) : bool :=
  forallb (fun a => forallb (fun b => Bool.eqb (ieqk a =? ieqk b)%Z (ilbl a =? ilbl b)%Z) (all_nodes it)) (all_nodes it).

Lemma eq_is_identityb_sound it : eq_is_identityb it = true -> eq_is_identity it.
Proof.
  unfold eq_is_identityb, eq_is_identity. intros H a b Ha Hb.
  rewrite forallb_forall in H. specialize (H a Ha). rewrite forallb_forall in H. specialize (H b Hb).
  apply eqb_prop in H. split; intros E.
  - apply Z.eqb_eq. rewrite <- H. now apply Z.eqb_eq.
  - apply Z.eqb_eq. rewrite H. now apply Z.eqb_eq.
Qed.

Definition loop_tree : item :=
  sec 1 1 [INode 2 5 2 [IExpr (scal 10 "i"); IExpr (EN 12 CLoopRange "" "1:n" [ilit 13 "1"; scal 14 "n"]);
                        ITuple [INode 3 11 3 [IExpr (arr1 20 "x" (scal 24 "i")); IExpr (scal 26 "N")] []; cmt 4 4]] []].

Example scope_class_instance :
  eq_is_identity loop_tree /\
  map ilbl (find_nodes (scope_rule 3) false loop_tree) = [2].
Proof. split; [apply eq_is_identityb_sound; vm_compute; reflexivity|vm_compute; reflexivity]. Qed.

(** F4: FindScopes with a TypeDef node as match returns the node, not its ancestors *)
Definition typedef_tree : item := sec 1 1 [INode 2 K_TYPEDEF 2 [ITuple [cmt 3 3]] []; cmt 4 4].

Lemma findscopes_typedef_refuted :
  find_scopes 2 true typedef_tree = [SNode (INode 2 K_TYPEDEF 2 [ITuple [cmt 3 3]] [])] /\
  find_scopes 4 true typedef_tree = [SAnc [typedef_tree; cmt 4 4]] /\
  find_scopes 3 true typedef_tree = [].
Proof. repeat split; vm_compute; reflexivity. Qed.

(** F5: recurse_query = "not a LogicLiteral": the literal itself is still reported
    (map_constant ignores the result of visit), an IntLiteral would not be *)
Definition tlit : expr := EN 1 CLogic "True" "True" [].
Lemma retrieve_prune_refuted :
  rq_block [CLogic] tlit = false /\ retrieve (qof FLits) (rq_block [CLogic]) tlit = [tlit] /\
  rq_block [CInt] (ilit 2 "1") = false /\ retrieve (qof FLits) (rq_block [CInt]) (ilit 2 "1") = [].
Proof. repeat split. Qed.

(** why [unique_is_dedup] speaks of the documented key and not only of ==:
    a loop range and a subscript range with the same text are identified by the key [str],
    although neither is == to the other *)
Definition lr : expr := EN 1 CLoopRange "" "1:n" [ilit 2 "1"; scal 3 "n"].
Definition ri : expr := EN 5 CRangeIndex "" "1:n" [ilit 6 "1"; scal 7 "n"].
Lemma unique_eq_refuted :
  uniq [lr; ri] = [ri] /\ expr_eqb ri lr = false /\ expr_eqb lr ri = false /\ key_eq lr ri.
Proof. repeat split. Qed.

(** F6: on a bare expression root unique=True does not reduce anything *)
Definition a_plus_a : expr := EN 1 CSum "" "a + a" [scal 2 "a"; scal 4 "a"].
Lemma unique_exprroot_refuted :
  ef true false (qof FVars) (IExpr a_plus_a) = Some [PE (scal 2 "a"); PE (scal 4 "a")] /\
  expr_eqb (scal 2 "a") (scal 4 "a") = true /\
  ef true false (qof FVars) (ITuple [IExpr a_plus_a]) = Some [PE (scal 4 "a")].
Proof. repeat split. Qed.

Example eq_class_instance :
  let l := [scal 1 "a"; scal 3 "A"; arr1 5 "a" (scal 9 "i"); arr1 11 "A" (scal 15 "I"); scal 17 "b"] in
  eq_class l /\ map elbl (uniq l) = [1; 5; 17].
Proof. split; [apply eq_classb_sound; vm_compute; reflexivity|vm_compute; reflexivity]. Qed.

Example with_ir_instance :
  wi_ok true loop_tree = true /\
  groups false (qof FVars) loop_tree =
    [(3, [scal 24 "i"; arr1 20 "x" (scal 24 "i"); scal 26 "N"]); (2, [scal 10 "i"; scal 14 "n"])] /\
  map elbl (ef_flat false (qof FVars) loop_tree) = [10; 14; 24; 20; 26] /\
  map elbl (ef_flat true (qof FVars) loop_tree) = [24; 14; 20].
Proof. repeat split; vm_compute; reflexivity. Qed.
