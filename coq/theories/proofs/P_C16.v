(** C16 — induction over the rose tree and over a [deep] class; the PragmaAttacher / PragmaDetacher part:
    the tuple pass under an element-wise reading, detach-after-attach on trees (identity / up to [up]),
    invariance of the skeleton, and the witnesses for pre-attached pragmas and classes without the fields.
    Holds the witnesses [p_], [preattached_witness], [call_witness] that T_C16 names. *)
From Coq Require Import ZArith List Bool String Ascii Arith Lia.
From LV Require Import Base.Strings Base.ListFacts models.M_C16.
Import ListNotations.
Open Scope list_scope.

Section TreeInd.
  Variable P : tree -> Prop.
  Hypothesis HP : forall p, P (TP p).
  Hypothesis HN : forall i k a b d ss ms,
      Forall (Forall P) ss -> Forall (Forall P) ms -> P (TN i k a b d ss ms).
  Hypothesis HR : forall s e d b, Forall P b -> P (TR s e d b).

  Fixpoint tree_ind' (t : tree) : P t :=
    let go2 := fix go2 (l : list tree) : Forall P l :=
                 match l with
                 | [] => Forall_nil _
                 | x :: r => Forall_cons x (tree_ind' x) (go2 r)
                 end in
    let go := fix go (l : list (list tree)) : Forall (Forall P) l :=
                match l with
                | [] => Forall_nil _
                | s :: r => Forall_cons s (go2 s) (go r)
                end in
    match t with
    | TP p => HP p
    | TN i k a b d ss ms => HN i k a b d ss ms (go ss) (go ms)
    | TR s e d b => HR s e d b (go2 b)
    end.
End TreeInd.

Lemma map_map_id_Forall {A} (f : A -> A) ll : Forall (Forall (fun x => f x = x)) ll -> map (map f) ll = ll.
Proof. intros H. apply map_id_Forall. eapply Forall_impl; [|exact H]. apply map_id_Forall. Qed.

Lemma Forall_Forall_mp {A} (P Q : A -> Prop) ll :
  Forall (Forall (fun x => P x -> Q x)) ll -> Forall (Forall P) ll -> Forall (Forall Q) ll.
Proof. intros H. apply Forall_mp. eapply Forall_impl; [|exact H]. intros l. apply Forall_mp. Qed.

Lemma deep_unfold f t :
  deep f t = f t && match t with
                    | TP _ => true
                    | TN _ _ _ _ _ ss ms => forallb (forallb (deep f)) ss && forallb (forallb (deep f)) ms
                    | TR _ _ _ b => forallb (deep f) b
                    end.
Proof. destruct t; reflexivity. Qed.

Lemma deep_true c t :
  deep c t = true <->
  c t = true /\ match t with
                | TP _ => True
                | TN _ _ _ _ _ ss ms => Forall (Forall (fun x => deep c x = true)) ss
                                        /\ Forall (Forall (fun x => deep c x = true)) ms
                | TR _ _ _ b => Forall (fun x => deep c x = true) b
                end.
Proof.
  assert (E : forall ll, forallb (forallb (deep c)) ll = true <-> Forall (Forall (fun x => deep c x = true)) ll).
  { intros ll. rewrite forallb_Forall. split; intros H; (eapply Forall_impl; [|exact H]); intros l; apply forallb_Forall. }
  rewrite deep_unfold, andb_true_iff. destruct t; rewrite ?andb_true_iff, ?E, ?forallb_Forall; tauto.
Qed.

Lemma deep_top c t : deep c t = true -> c t = true.
Proof. intros H. now apply deep_true in H. Qed.

(** Induction over a tree in the class: every node comes with its own condition, the children with theirs
    and with the induction hypothesis. *)
Lemma deep_ind c (P : tree -> Prop) :
  (forall p, c (TP p) = true -> P (TP p)) ->
  (forall i k a b d ss ms, c (TN i k a b d ss ms) = true ->
     Forall (Forall (fun t => c t = true)) ss -> Forall (Forall P) ss ->
     Forall (Forall (fun t => c t = true)) ms -> Forall (Forall P) ms -> P (TN i k a b d ss ms)) ->
  (forall s e d b, c (TR s e d b) = true ->
     Forall (fun t => c t = true) b -> Forall P b -> P (TR s e d b)) ->
  forall t, deep c t = true -> P t.
Proof.
  intros HP HN HR.
  assert (tops : forall ll, Forall (Forall (fun x => deep c x = true)) ll -> Forall (Forall (fun x => c x = true)) ll).
  { intros ll. apply Forall_impl. intros l. apply Forall_impl. apply deep_top. }
  induction t as [p|i k a b d ss ms IHs IHm|s e d b IHb] using tree_ind'; intros H; apply deep_true in H.
  - now apply HP.
  - destruct H as (H & Hs & Hm).
    apply HN; [exact H|now apply tops|exact (Forall_Forall_mp _ _ _ IHs Hs)|now apply tops|exact (Forall_Forall_mp _ _ _ IHm Hm)].
  - destruct H as (H & Hb).
    apply HR; [exact H|exact (Forall_impl _ (deep_top c) Hb)|exact (Forall_mp _ _ _ IHb Hb)].
Qed.

Lemma deep_and f g t : deep f t = true -> deep g t = true -> deep (fun x => f x && g x) t = true.
Proof.
  intros H. revert t H. apply (deep_ind f (fun t => deep g t = true -> deep (fun x => f x && g x) t = true)).
  - intros p Hf Hg. apply deep_top in Hg. apply deep_true. now rewrite Hf, Hg.
  - intros i k a b d ss ms Hf _ IHs _ IHm Hg. apply deep_true in Hg as (Hg & Gs & Gm). apply deep_true.
    rewrite Hf, Hg. split; [reflexivity|]. split; [exact (Forall_Forall_mp _ _ _ IHs Gs)|exact (Forall_Forall_mp _ _ _ IHm Gm)].
  - intros s e d b Hf _ IHb Hg. apply deep_true in Hg as (Hg & Gb). apply deep_true.
    rewrite Hf, Hg. split; [reflexivity|]. exact (Forall_mp _ _ _ IHb Gb).
Qed.

Definition fTP (p : prag) : tree := TP p.

Lemma attr_free_up a : attr_free a = true -> up_attr a = ANone.
Proof. destruct a; cbn; congruence. Qed.

Lemma attr_is_none_eq a : attr_is_none a = true -> a = ANone.
Proof. destruct a; cbn; congruence. Qed.

(** what [det1] leaves in an attribute after taking [attr_prags] out of it *)
Definition kept (a : attr) : attr := match a with ATup (_ :: _) => ANone | _ => a end.

Lemma kept_free a : attr_free a = true -> kept a = a /\ attr_prags a = [].
Proof. destruct a; [auto|auto|discriminate]. Qed.

Lemma kept_tup l : l <> [] -> kept (ATup l) = ANone.
Proof. destruct l; [congruence|reflexivity]. Qed.

Section PragmaPass.
  Variable nt : kind -> bool.
  Variable pf : bool.

  Lemma det_pass_TP l : det_pass nt pf (map TP l) = map TP l.
  Proof. induction l; cbn; [reflexivity|]. unfold det_pass in IHl. now rewrite IHl. Qed.

  Lemma det_pass_app a b : det_pass nt pf (a ++ b) = det_pass nt pf a ++ det_pass nt pf b.
  Proof. unfold det_pass. apply flat_map_app. Qed.

  Lemma det1_nt i k a b d ss ms :
    nt k = true ->
    det1 nt pf (TN i k a b d ss ms)
    = map TP (attr_prags a) ++ [TN i k (kept a) (if pf then kept b else b) d ss ms]
      ++ (if pf then map TP (attr_prags b) else []).
  Proof.
    intros Hk. cbn [det1]. rewrite Hk.
    assert (E : forall c, match c with ATup (p :: l) => (map TP (p :: l), ANone) | _ => ([], c) end
                          = (map TP (attr_prags c), kept c)) by (intros [| |[|]]; reflexivity).
    rewrite !E. case pf; reflexivity.
  Qed.

  Lemma att_step_nonpragma s x :
    not_pragma x = true ->
    att_step nt pf s x =
    match pend s with
    | [] => push s x
    | _ :: _ =>
      if is_nt nt x then push s (set_pre x (pend s))
      else match last s with
           | Some y => if pf && is_nt nt y && has_post y
                       then push (mkSt (done s) (Some (set_post y (pend s))) []) x
                       else push (mkSt (done s ++ [y] ++ map TP (pend s)) None []) x
           | None => push (mkSt (done s ++ map TP (pend s)) None []) x
           end
    end.
  Proof.
    destruct x; cbn; [discriminate| |]; intros _; [reflexivity|].
    destruct (pend s); reflexivity.
  Qed.

  (** ** the tuple pass under an element-wise reading [e] of the tuple: attaching is invisible to [e] when
      [set_pre] / [set_post] read as putting the pragmas in front of / behind the element *)
  Section Reading.
    Variable B : Type.
    Variable e : tree -> list B.

    (** the element in the [last] position can still receive a [pragma_post] *)
    Definition post_ok (y : tree) : Prop :=
      pf = true -> is_nt nt y = true -> forall l, l <> [] ->
      e (set_post y l) = e y ++ flat_map e (map TP l).

    (** [set_pre x l] lands in the [last] position, so it has to be [post_ok] as well *)
    Definition attach_ok (x : tree) : Prop :=
      post_ok x /\ (is_nt nt x = true -> forall l, l <> [] ->
                e (set_pre x l) = flat_map e (map TP l) ++ e x /\ post_ok (set_pre x l)).

    Definition reading (s : pst) : list B :=
      flat_map e (done s ++ olist (last s)) ++ flat_map e (map TP (pend s)).

    (* normal form of a goal about [reading]: [reading]/[push] unfolded, [flat_map e] distributed over
       appends and conses, appends associated to the right *)
    Ltac nrm :=
      unfold reading, push; cbn [done last pend olist];
      rewrite ?flat_map_app, ?map_app; cbn [flat_map map]; rewrite ?flat_map_app, ?app_nil_r, <- ?app_assoc.

    Lemma att_step_rd s x :
      attach_ok x -> (forall y, last s = Some y -> post_ok y) ->
      reading (att_step nt pf s x) = reading s ++ e x /\ (forall y, last (att_step nt pf s x) = Some y -> post_ok y).
    Proof.
      intros [G2 G3] Hl.
      destruct (not_pragma x) eqn:Enp.
      - rewrite (att_step_nonpragma s x Enp). unfold reading.
        destruct (pend s) as [|p ps] eqn:Ep.
        + split; [now nrm|]. cbn [push last]. intros y [= <-]. exact G2.
        + destruct (is_nt nt x) eqn:Ent.
          * destruct (G3 eq_refl (p :: ps)) as [G3a G3b]; [discriminate|]. split.
            -- nrm. rewrite G3a. cbn [flat_map map]. now rewrite <- ?app_assoc.
            -- cbn [push last]. intros y [= <-]. exact G3b.
          * assert (Hx : forall s', last (push s' x) = Some x -> forall y, last (push s' x) = Some y -> post_ok y)
              by (cbn [push last]; intros s' _ y [= <-]; exact G2).
            destruct (last s) as [y0|] eqn:El; [destruct (pf && is_nt nt y0 && has_post y0) eqn:Ec|];
              (split; [|now apply Hx]).
            -- apply andb_true_iff in Ec as [Ec _]. apply andb_true_iff in Ec as [E1 E2].
               nrm. rewrite (Hl y0 eq_refl E1 E2) by discriminate. cbn [flat_map map]. now rewrite <- ?app_assoc.
            -- now nrm.
            -- now nrm.
      - destruct x as [p| |]; try discriminate. split; [|exact Hl].
        cbn [att_step]. nrm. cbn [flat_map]. now rewrite app_nil_r.
    Qed.

    Lemma att_finish_rd s :
      (forall y, last s = Some y -> post_ok y) -> flat_map e (att_finish nt pf s) = reading s.
    Proof.
      intros Hl. unfold att_finish, reading.
      destruct (pend s) as [|p ps] eqn:Ep; [now nrm|].
      destruct (last s) as [y|] eqn:El; [destruct (pf && is_nt nt y) eqn:Ec|]; try (now nrm).
      apply andb_true_iff in Ec as [E1 E2]. nrm.
      rewrite (Hl y eq_refl E1 E2) by discriminate. cbn [flat_map map]. now rewrite <- ?app_assoc.
    Qed.

    Lemma att_run_rd rest : forall s,
        Forall attach_ok rest -> (forall y, last s = Some y -> post_ok y) ->
        flat_map e (att_run nt pf rest s) = reading s ++ flat_map e rest.
    Proof.
      induction rest as [|x r IH]; intros s HG Hl.
      - cbn [att_run flat_map]. rewrite app_nil_r. now apply att_finish_rd.
      - inversion HG as [|? ? Gx Gr]; subst.
        destruct (att_step_rd s x Gx Hl) as [E1 E2].
        cbn [att_run flat_map]. rewrite IH by assumption. rewrite E1. now rewrite <- app_assoc.
    Qed.

    Lemma att_pass_rd l : Forall attach_ok l -> flat_map e (att_pass nt pf l) = flat_map e l.
    Proof. intros H. unfold att_pass. rewrite att_run_rd; [reflexivity|assumption|]. cbn. discriminate. Qed.
  End Reading.

  (** ** detaching after the tuple pass, seen through a view [v] of the two attributes
      ([up_attr], or the identity) *)
  Section View.
    Variable v : attr -> attr.
    Hypothesis v_None : v ANone = ANone.

    Definition vtop (t : tree) : tree :=
      match t with TN i k a b d ss ms => TN i k (v a) (v b) d ss ms | _ => t end.

    Definition vdet (x : tree) : list tree := map vtop (det1 nt pf x).

    Lemma vdet_pass l : flat_map vdet l = map vtop (det_pass nt pf l).
    Proof. unfold det_pass. now rewrite map_flat_map. Qed.

    Lemma map_vtop_TP l : map vtop (map TP l) = map TP l.
    Proof. induction l; cbn; congruence. Qed.

    Lemma vdet_TP l : flat_map vdet (map TP l) = map TP l.
    Proof. now rewrite vdet_pass, det_pass_TP, map_vtop_TP. Qed.

    (** nothing is attached, and what is there reads as None *)
    Definition vfree (a : attr) : Prop := attr_free a = true /\ v a = ANone.

    Definition vclean (x : tree) : Prop :=
      match x with
      | TN _ k a b _ _ _ => nt k = true -> vfree a /\ (pf = true -> vfree b)
      | _ => True
      end.

    Lemma vclean_det1 x : vclean x -> vdet x = [vtop x].
    Proof.
      unfold vdet. destruct x as [p|i k a b d ss ms|s e d b]; try reflexivity.
      cbn [vclean]. intros H. destruct (nt k) eqn:Hk; [|cbn [det1]; now rewrite Hk].
      destruct (H eq_refl) as [[Fa _] Hb]. rewrite det1_nt by exact Hk.
      destruct (kept_free a Fa) as [-> ->].
      destruct pf; [|reflexivity].
      destruct (Hb eq_refl) as [Fb _]. now destruct (kept_free b Fb) as [-> ->].
    Qed.

    Lemma post_ok_TN i k a b d ss ms : (pf = true -> vfree b) -> post_ok _ vdet (TN i k a b d ss ms).
    Proof.
      intros Hb Hpf Hk l Hl. rewrite vdet_TP. unfold vdet. cbn [is_nt] in Hk. cbn [set_post].
      rewrite !det1_nt by exact Hk.
      destruct (Hb Hpf) as [Fb Vb]. destruct (kept_free b Fb) as [-> ->].
      rewrite Hpf, (kept_tup l Hl). cbn [attr_prags].
      rewrite !map_app, !map_vtop_TP. cbn [map vtop]. rewrite Vb, v_None.
      now rewrite <- !app_assoc.
    Qed.

    Lemma vclean_attach_ok x : vclean x -> attach_ok _ vdet x.
    Proof.
      destruct x as [p|i k a b d ss ms|s e d b]; try (intros _; split; [intros _ H|intros H]; discriminate H).
      cbn [vclean is_nt]. intros H. split.
      - intros Hpf Hk. apply post_ok_TN; [|exact Hpf|exact Hk]. now apply H.
      - intros Hk l Hl. cbn [set_pre]. destruct (H Hk) as [[_ Va] Hb].
        split; [|now apply post_ok_TN].
        rewrite vdet_TP, (vclean_det1 (TN i k a b d ss ms) H). unfold vdet.
        rewrite det1_nt, (kept_tup l Hl) by exact Hk. cbn [attr_prags].
        rewrite !map_app, map_vtop_TP. cbn [map vtop]. rewrite v_None, Va.
        destruct pf; [|reflexivity].
        destruct (Hb eq_refl) as [Fb _]. now destruct (kept_free b Fb) as [-> ->].
    Qed.

    Lemma att_pass_view l : Forall vclean l -> map vtop (det_pass nt pf (att_pass nt pf l)) = map vtop l.
    Proof.
      intros H. rewrite <- vdet_pass, (att_pass_rd _ vdet l (Forall_impl _ vclean_attach_ok H)).
      induction H as [|x l Hx _ IH]; [reflexivity|]. cbn [flat_map map]. now rewrite (vclean_det1 x Hx), IH.
    Qed.
  End View.

  Lemma vclean_up x : npa_top nt pf x = true -> vclean up_attr x.
  Proof.
    destruct x as [p|i k a b d ss ms|s e d b]; try exact (fun _ => I).
    cbn [npa_top vclean]. intros H Hk. rewrite Hk in H. apply andb_true_iff in H as [Ha Hb]. split.
    - split; [exact Ha|now apply attr_free_up].
    - intros Hpf. rewrite Hpf in Hb. split; [exact Hb|now apply attr_free_up].
  Qed.

  Lemma vclean_id x : clean_top nt pf x = true -> vclean (fun a => a) x.
  Proof.
    destruct x as [p|i k a b d ss ms|s e d b]; try exact (fun _ => I).
    cbn [clean_top vclean]. intros H Hk. rewrite Hk in H. apply andb_true_iff in H as [Ha Hb].
    apply attr_is_none_eq in Ha as ->. split; [now split|].
    intros Hpf. rewrite Hpf in Hb. apply attr_is_none_eq in Hb as ->. now split.
  Qed.

  Lemma det_att_pass_up l :
    Forall (fun x => npa_top nt pf x = true) l ->
    map up_top (det_pass nt pf (att_pass nt pf l)) = map up_top l.
  Proof. intros H. apply (att_pass_view up_attr eq_refl). eapply Forall_impl; [|exact H]. apply vclean_up. Qed.

  Lemma det_att_pass_id l :
    Forall (fun x => clean_top nt pf x = true) l ->
    det_pass nt pf (att_pass nt pf l) = l.
  Proof.
    intros H. pose proof (att_pass_view (fun a => a) eq_refl l (Forall_impl _ vclean_id H)) as E.
    assert (Hid : forall x, vtop (fun a => a) x = x) by (now intros []).
    now rewrite !(map_ext _ _ Hid), !map_id in E.
  Qed.
End PragmaPass.

(** ** what [attP] and [detP] have in common: a pass over every tuple of the tree, children first *)
Definition lifts (pass : list tree -> list tree) (F : tree -> tree) : Prop :=
  (forall p, F (TP p) = TP p) /\
  (forall i k a b d ss ms,
      F (TN i k a b d ss ms)
      = TN i k a b d (map (fun s => pass (map F s)) ss) (map (fun s => pass (map F s)) ms)) /\
  (forall s e d b, F (TR s e d b) = TR s e d (pass (map F b))).

Lemma attP_lifts nt pf : lifts (att_pass nt pf) (attP nt pf).
Proof. split; [|split]; reflexivity. Qed.

Lemma detP_lifts nt df : lifts (det_pass nt df) (detP nt df).
Proof. split; [|split]; reflexivity. Qed.

Definition top_preserving (g : tree -> tree) : Prop :=
  (forall p, g (TP p) = TP p) /\
  (forall i k a b d ss ms, exists ss' ms', g (TN i k a b d ss ms) = TN i k a b d ss' ms') /\
  (forall s e d b, exists b', g (TR s e d b) = TR s e d b') /\
  (forall x l, g (set_pre x l) = set_pre (g x) l) /\
  (forall x l, g (set_post x l) = set_post (g x) l).

Lemma lifts_top_preserving pass F : lifts pass F -> top_preserving F.
Proof.
  intros (H1 & H2 & H3).
  split; [exact H1|]. split; [intros; rewrite H2; eauto|]. split; [intros; rewrite H3; eauto|].
  split; intros [] l; cbn [set_pre set_post]; rewrite ?H1, ?H2, ?H3; reflexivity.
Qed.

Lemma attP_top_preserving nt pf : top_preserving (attP nt pf).
Proof. exact (lifts_top_preserving _ _ (attP_lifts nt pf)). Qed.

(** [det1] looks at the top of an element only, [detP] at its children only *)
Lemma det_pass_detP nt df l : det_pass nt df (map (detP nt df) l) = map (detP nt df) (det_pass nt df l).
Proof.
  unfold det_pass. rewrite flat_map_map, map_flat_map. apply flat_map_ext.
  intros [p|i k a b d ss ms|s e d b]; try reflexivity.
  cbn [detP]. destruct (nt k) eqn:Hk; [|cbn [det1]; rewrite Hk; reflexivity].
  rewrite !det1_nt, !map_app, map_map by exact Hk. case df; rewrite ?map_map; reflexivity.
Qed.

Lemma up_detP_top nt df x : up (detP nt df (up_top x)) = up (detP nt df x).
Proof. destruct x as [|i k [] [] d ss ms|]; reflexivity. Qed.

Lemma slot_roundtrip_up nt pf s :
  Forall (fun t => up (detP nt pf (attP nt pf t)) = up t) s ->
  Forall (fun t => npa_top nt pf t = true) s ->
  map up (det_pass nt pf (map (detP nt pf) (att_pass nt pf (map (attP nt pf) s)))) = map up s.
Proof.
  intros IH Hs.
  assert (R : forall l, map up (map (detP nt pf) l) = map (fun x => up (detP nt pf x)) (map up_top l)).
  { intros l. rewrite !map_map. apply map_ext. intros x. symmetry. apply up_detP_top. }
  rewrite det_pass_detP, R, det_att_pass_up, <- R.
  - rewrite !map_map. now apply map_ext_Forall.
  - rewrite Forall_map. eapply Forall_impl; [|exact Hs]. now intros [].
Qed.

Lemma detach_attach_up nt pf t :
  no_preattached nt pf t = true -> up (detP nt pf (attP nt pf t)) = up t.
Proof.
  revert t. apply deep_ind.
  - reflexivity.
  - intros i k a b d ss ms _ Cs IHs Cm IHm. cbn. f_equal; rewrite !map_map; apply map_ext_Forall.
    + eapply Forall_mp; [|exact Cs]. eapply Forall_impl; [|exact IHs]. apply slot_roundtrip_up.
    + eapply Forall_mp; [|exact Cm]. eapply Forall_impl; [|exact IHm]. apply slot_roundtrip_up.
  - intros s e d b _ Cb IHb. cbn. f_equal. now apply slot_roundtrip_up.
Qed.

Lemma slot_roundtrip_id nt pf s :
  Forall (fun t => detP nt pf (attP nt pf t) = t) s ->
  Forall (fun t => clean_top nt pf t = true) s ->
  det_pass nt pf (map (detP nt pf) (att_pass nt pf (map (attP nt pf) s))) = s.
Proof.
  intros IH Hs. rewrite det_pass_detP, det_att_pass_id.
  - rewrite map_map. now apply map_id_Forall.
  - rewrite Forall_map. eapply Forall_impl; [|exact Hs]. now intros [].
Qed.

Lemma detach_attach_strict nt pf t :
  clean nt pf t = true -> detP nt pf (attP nt pf t) = t.
Proof.
  revert t. apply deep_ind.
  - reflexivity.
  - intros i k a b d ss ms _ Cs IHs Cm IHm. cbn. f_equal; rewrite map_map; apply map_id_Forall.
    + eapply Forall_mp; [|exact Cs]. eapply Forall_impl; [|exact IHs]. apply slot_roundtrip_id.
    + eapply Forall_mp; [|exact Cm]. eapply Forall_impl; [|exact IHm]. apply slot_roundtrip_id.
  - intros s e d b _ Cb IHb. cbn. f_equal. now apply slot_roundtrip_id.
Qed.

(** ** attaching / detaching pragmas never touches another node: the skeleton is invariant (no hypothesis) *)
Definition sk (x : tree) : list tree := if not_pragma x then [skel x] else [].

Lemma sk_set_pre x l : sk (set_pre x l) = sk x.
Proof. destruct x; reflexivity. Qed.
Lemma sk_set_post x l : sk (set_post x l) = sk x.
Proof. destruct x; reflexivity. Qed.
Lemma sk_TPs l : flat_map sk (map TP l) = [].
Proof. induction l; cbn; auto. Qed.

Section Skeleton.
  Variable nt : kind -> bool.
  Variable pf : bool.

  Lemma sk_att_pass l : flat_map sk (att_pass nt pf l) = flat_map sk l.
  Proof.
    apply att_pass_rd, Forall_all. intros x.
    split; [intros _ _ l' _|intros _ l' _; split; [|intros _ _ l'' _]];
      now rewrite ?sk_set_post, ?sk_set_pre, sk_TPs, ?app_nil_r.
  Qed.

  Lemma sk_det1 x : flat_map sk (det1 nt pf x) = sk x.
  Proof.
    destruct x as [p|i k a b d ss ms|s e d b]; try reflexivity.
    destruct (nt k) eqn:Hk; [|cbn [det1]; now rewrite Hk].
    rewrite det1_nt, !flat_map_app, sk_TPs by exact Hk.
    case pf; cbn [flat_map]; now rewrite ?sk_TPs, ?app_nil_r.
  Qed.

  Lemma sk_det_pass l : flat_map sk (det_pass nt pf l) = flat_map sk l.
  Proof.
    unfold det_pass. induction l as [|x r IH]; [reflexivity|].
    cbn [flat_map]. now rewrite flat_map_app, sk_det1, IH.
  Qed.
End Skeleton.

Lemma skel_lifts pass F :
  lifts pass F -> (forall l, flat_map sk (pass l) = flat_map sk l) -> forall t, skel (F t) = skel t.
Proof.
  intros (H1 & H2 & H3) Hp.
  assert (Hn : forall x, not_pragma (F x) = not_pragma x) by (intros []; now rewrite ?H1, ?H2, ?H3).
  assert (slot : forall s, Forall (fun t => skel (F t) = skel t) s -> flat_map sk (pass (map F s)) = flat_map sk s).
  { intros s IH. rewrite Hp, flat_map_map. apply flat_map_ext_Forall.
    eapply Forall_impl; [|exact IH]. intros x Hx. unfold sk. now rewrite Hn, Hx. }
  induction t as [p|i k a b d ss ms IHs IHm|s e d b IHb] using tree_ind'.
  - now rewrite H1.
  - rewrite H2. cbn [skel]. f_equal; rewrite map_map; apply map_ext_Forall;
      (eapply Forall_impl; [|eassumption]); exact slot.
  - rewrite H3. cbn [skel]. f_equal. now apply slot.
Qed.

Lemma attach_preserves_skeleton nt pf t : skel (attP nt pf t) = skel t.
Proof. apply (skel_lifts _ _ (attP_lifts nt pf)), sk_att_pass. Qed.

Lemma detach_preserves_skeleton nt df t : skel (detP nt df t) = skel t.
Proof. apply (skel_lifts _ _ (detP_lifts nt df)), sk_det_pass. Qed.

Lemma attach_detach_on_image nt pf t0 :
  clean nt pf t0 = true ->
  attP nt pf (detP nt pf (attP nt pf t0)) = attP nt pf t0.
Proof. intros H. now rewrite detach_attach_strict. Qed.

Definition p_ (n : Z) : prag := mkP n n "loki" "foo" false.
(** a loop that already carries a pragma and has another one in front of it *)
Definition preattached_witness : tree :=
  TN 1 KSection NoAttr NoAttr false [[TP (p_ 2); TN 3 KLoop (ATup [p_ 4]) ANone false [[]] []]] [].

Lemma attach_detach_refuted :
  attP (nt_of [KLoop]) true (detP (nt_of [KLoop]) true preattached_witness) <> preattached_witness.
Proof. vm_compute. discriminate. Qed.

(** attaching on top of an attached pragma loses it (the attribute is overwritten) *)
Lemma detach_attach_preattached_refuted :
  up (detP (nt_of [KLoop]) true (attP (nt_of [KLoop]) true preattached_witness)) <> up preattached_witness
  /\ doc_prags (attP (nt_of [KLoop]) true preattached_witness) = [p_ 2].
Proof. vm_compute. split; [discriminate|reflexivity]. Qed.

(** a class without the field: the round trip leaves a dangling [pragma_post = None] attribute *)
Definition call_witness : tree :=
  TN 1 KSection NoAttr NoAttr false [[TN 2 KCall ANone NoAttr false [] []; TP (p_ 3)]] [].
Lemma strict_needs_fields :
  no_preattached (nt_of [KCall]) true call_witness = true /\
  detP (nt_of [KCall]) true (attP (nt_of [KCall]) true call_witness)
  = TN 1 KSection NoAttr NoAttr false [[TN 2 KCall ANone ANone false [] []; TP (p_ 3)]] [].
Proof. vm_compute. split; reflexivity. Qed.

Example clean_nontrivial :
  let t := TN 1 KSection NoAttr NoAttr false
              [[TP (p_ 2); TP (p_ 3); TN 4 KLoop ANone ANone false [[TP (p_ 5); TN 6 KAssign NoAttr NoAttr false [] []]] [];
                TP (p_ 7); TN 8 KComment NoAttr NoAttr false [] []; TN 9 KLoop ANone ANone false [[]] []; TP (p_ 10)]] [] in
  clean (nt_of [KLoop]) true t = true /\ attP (nt_of [KLoop]) true t <> t.
Proof. vm_compute. split; [reflexivity|discriminate]. Qed.
