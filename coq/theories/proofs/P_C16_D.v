(** C16 — lemmas for the dataflow attach/detach and for the context managers. *)
From Coq Require Import ZArith List Bool String Ascii Arith Lia.
From LV Require Import Base.Strings Base.ListFacts models.M_C16 proofs.P_C16 proofs.P_C16_R.
Import ListNotations.
Open Scope list_scope.

Lemma set_pdfa_roundtrip p : pdfa p = false -> set_pdfa false (set_pdfa true p) = p.
Proof. destruct p; cbn; intros ->; reflexivity. Qed.
Lemma set_pdfa_clear p : pdfa p = false -> set_pdfa false p = p.
Proof. destruct p; cbn; intros ->; reflexivity. Qed.

(** On the class both round trips hold: the second one is needed below Interface nodes, which the
    attacher does not enter. *)
Lemma dfa_both_roundtrips t :
  deep (fun x => dfa_clear_top x && dfa_reach_top x && multi_ok_top x) t = true ->
  dfaD (dfaA t) = t /\ dfaD t = t.
Proof.
  revert t. apply deep_ind.
  - intros p C. cbn in C. rewrite !andb_true_r in C. apply negb_true_iff in C.
    cbn. now rewrite set_pdfa_roundtrip, set_pdfa_clear.
  - intros i k a b d ss ms C _ IHs _ IHm. cbn [dfa_clear_top dfa_reach_top multi_ok_top] in C.
    apply andb_true_iff in C as [C Cm]. apply andb_true_iff in C as [Cd Ck].
    apply negb_true_iff in Cd. subst d.
    assert (E : forall ll, Forall (Forall (fun t => dfaD (dfaA t) = t /\ dfaD t = t)) ll ->
                           map (map dfaD) (map (map dfaA) ll) = ll /\ map (map dfaD) ll = ll).
    { intros ll IH. split.
      - rewrite map_map. apply map_id_Forall. eapply Forall_impl; [|exact IH]. intros l Hl.
        rewrite map_map. apply map_id_Forall. eapply Forall_impl; [|exact Hl]. now intros x [? _].
      - apply map_map_id_Forall. eapply Forall_impl; [|exact IH]. intros l. apply Forall_impl. now intros x [_ ?]. }
    destruct (E ss IHs) as [Es Es'], (E ms IHm) as [Em Em']. cbn [dfaA]. split.
    + destruct (dfa_descends k) eqn:Ed; cbn [dfaD].
      * rewrite Es, Em, strip_id by exact Cm. f_equal.
        revert Ck. now destruct (scoped k), (dfa_sets_self k).
      * (* Interface: set on the node itself, children not visited by the attacher *)
        rewrite Es', Em', strip_id by exact Cm. f_equal. destruct k; try discriminate; reflexivity.
    + cbn [dfaD]. rewrite Es', Em', strip_id by exact Cm. now destruct (scoped k).
  - intros s e d b C _ IHb. cbn in C. rewrite !andb_true_r in C. apply negb_true_iff in C. subst d.
    cbn. split; f_equal; [rewrite map_map|]; apply map_id_Forall;
      (eapply Forall_impl; [|exact IHb]); now intros x [? ?].
Qed.

Lemma dfa_detach_attach t : dfa_class t = true -> dfaD (dfaA t) = t.
Proof.
  unfold dfa_class. intros H. apply andb_true_iff in H as [H H3]. apply andb_true_iff in H as [H1 H2].
  exact (proj1 (dfa_both_roundtrips t (deep_and _ _ t (deep_and _ _ t H1 H2) H3))).
Qed.

(** F1: the Associate node keeps its dataflow attributes *)
Definition assoc_witness : tree :=
  sec 1 [TN 2 KAssoc NoAttr NoAttr false [[asg 3]] []].
Lemma dfa_detach_attach_refuted :
  deep dfa_clear_top assoc_witness = true /\ no_empty_bodies assoc_witness = true /\
  dfaD (dfaA assoc_witness) = sec 1 [TN 2 KAssoc NoAttr NoAttr true [[asg 3]] []].
Proof. vm_compute. repeat split; reflexivity. Qed.

Example dfa_class_nontrivial :
  let t := sec 1 [TP (p_ 2); TN 3 KLoop ANone ANone false [[asg 4; TN 5 KMulti NoAttr NoAttr false [[]] [[asg 6]; [asg 7]]]] []] in
  dfa_class t = true /\ dfaA t <> t.
Proof. vm_compute. split; [reflexivity|discriminate]. Qed.

Lemma ctx_finally enter leave u body :
  with_ctx enter leave u body =
  match enter u with
  | Err u' => Raised u'
  | Ok u1 => match body u1 with Returned u2 => Returned (leave u2) | Raised u2 => Raised (leave u2) end
  end.
Proof. reflexivity. Qed.

Lemma map_roundtrip {A} (f g : A -> A) (c : A -> bool) l :
  (forall x, c x = true -> g (f x) = x) -> forallb c l = true -> map g (map f l) = l.
Proof.
  intros H Hl. rewrite map_map. apply map_id_Forall.
  apply forallb_Forall in Hl. eapply Forall_impl; [|exact Hl]. exact H.
Qed.

(** a context whose [leave] undoes its [enter] restores the unit, whether a body that leaves the unit
    as it was entered raises or returns *)
Lemma ctx_restores enter leave u u1 body :
  enter u = Ok u1 -> leave u1 = u ->
  (body u1 = Raised u1 -> with_ctx enter leave u body = Raised u) /\
  (body u1 = Returned u1 -> with_ctx enter leave u body = Returned u).
Proof. intros He Hl. unfold with_ctx. rewrite He. split; intros ->; now rewrite Hl. Qed.

Lemma ctx_pragmas nt pf u body :
  forallb (clean (nt_of nt) pf) u = true ->
  (body (map (attP (nt_of nt) pf) u) = Raised (map (attP (nt_of nt) pf) u) ->
   pragmas_attached nt pf u body = Raised u) /\
  (body (map (attP (nt_of nt) pf) u) = Returned (map (attP (nt_of nt) pf) u) ->
   pragmas_attached nt pf u body = Returned u).
Proof.
  intros Hc. apply ctx_restores; [reflexivity|].
  eapply map_roundtrip; [|exact Hc]. intros x. apply detach_attach_strict.
Qed.

Lemma attR_unit_ok kw u : forall u1,
    attR_unit kw u = Ok u1 -> Forall2 (fun t t' => attach_regions kw t = Some t') u u1.
Proof.
  induction u as [|t r IH]; intros u1 H; cbn in H.
  - inversion H. constructor.
  - destruct (attach_regions kw t) as [t'|] eqn:E; [|discriminate].
    destruct (attR_unit kw r) as [r'|r'] eqn:Er; [|discriminate].
    inversion H; subst. constructor; auto.
Qed.

Lemma regions_unit_roundtrip kw u u1 :
  attR_unit kw u = Ok u1 -> forallb (in_region_class kw) u = true -> map detR u1 = u.
Proof.
  intros H Hc. apply attR_unit_ok in H. apply forallb_Forall in Hc.
  induction H as [|t t' r r' Ht Hr IH]; [reflexivity|].
  inversion Hc; subst. cbn. f_equal; [|now apply IH].
  eapply regions_detach_attach; eauto.
Qed.

Lemma ctx_regions kw u u1 body :
  forallb (in_region_class kw) u = true ->
  attR_unit kw u = Ok u1 ->
  (body u1 = Raised u1 -> pragma_regions_attached kw u body = Raised u) /\
  (body u1 = Returned u1 -> pragma_regions_attached kw u body = Returned u).
Proof. intros Hc He. apply ctx_restores; [exact He|]. now apply (regions_unit_roundtrip kw). Qed.

(** an IndexError while matching the second section leaves the first one with its regions *)
Lemma ctx_regions_enter_error_partial :
  let spec := sec 1 [TP (pa_ 2 "data"); asg 3; TP (pa_ 4 "end data")] in
  let body := sec 5 [TP (pa_ 6 "data"); asg 7; TP (pa_ 8 "end")] in
  pragma_regions_attached None [spec; body] (fun u => Returned u)
  = Raised [sec 1 [TR (pa_ 2 "data") (pa_ 4 "end data") false [asg 3]]; body].
Proof. vm_compute. reflexivity. Qed.

Lemma ctx_dfa u body :
  forallb dfa_class u = true ->
  (body (map dfaA u) = Raised (map dfaA u) -> dataflow_analysis_attached u body = Raised u) /\
  (body (map dfaA u) = Returned (map dfaA u) -> dataflow_analysis_attached u body = Returned u).
Proof.
  intros Hc. apply ctx_restores; [reflexivity|]. eapply map_roundtrip; [|exact Hc]. apply dfa_detach_attach.
Qed.
