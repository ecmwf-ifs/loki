(** C16 — the three detach operations commute with the "missing attribute reads as None" view [up];
    with that, properly nested contexts (all combinations of the three attach/detach pairs) and the
    pragma context for node types without the fields. *)
From Coq Require Import ZArith List Bool String Ascii Arith Lia.
From LV Require Import Base.Strings Base.ListFacts models.M_C16 proofs.P_C16 proofs.P_C16_R proofs.P_C16_D.
Import ListNotations.
Open Scope list_scope.

Lemma map_map_up_slot (g : tree -> tree) (h : list tree -> list tree) ss :
  (forall l, map up (h l) = h (map up l)) ->
  Forall (Forall (fun t => g (up t) = up (g t))) ss ->
  map (fun s => h (map g s)) (map (map up) ss) = map (map up) (map (fun s => h (map g s)) ss).
Proof.
  intros Hh IH. rewrite !map_map. apply map_ext_Forall.
  eapply Forall_impl; [|exact IH]. cbn. intros s Hs.
  rewrite Hh. f_equal. rewrite !map_map. now apply map_ext_Forall.
Qed.

Lemma det1_up nt df x : map up (det1 nt df x) = det1 nt df (up x).
Proof.
  destruct x as [p|i k a b d ss ms|s e d b]; try reflexivity.
  cbn [up]. destruct (nt k) eqn:Hk; [|cbn [det1]; rewrite Hk; reflexivity].
  assert (HTP : forall l, map up (map TP l) = map TP l) by (induction l; cbn; congruence).
  assert (Ek : forall c, kept (up_attr c) = up_attr (kept c) /\ attr_prags (up_attr c) = attr_prags c)
    by (now intros [| |[|]]).
  rewrite !det1_nt by exact Hk. destruct (Ek a) as [-> ->], (Ek b) as [-> ->].
  rewrite !map_app, HTP. case df; cbn [map up]; now rewrite ?HTP.
Qed.

Lemma det_pass_up nt df l : map up (det_pass nt df l) = det_pass nt df (map up l).
Proof.
  unfold det_pass. induction l as [|x r IH]; [reflexivity|].
  cbn [flat_map map]. now rewrite map_app, det1_up, IH.
Qed.

Lemma detP_up nt df t : detP nt df (up t) = up (detP nt df t).
Proof.
  induction t as [p|i k a b d ss ms IHs IHm|s e d b IHb] using tree_ind'.
  - reflexivity.
  - cbn. f_equal.
    + apply (map_map_up_slot (detP nt df) (det_pass nt df)); [apply det_pass_up|assumption].
    + apply (map_map_up_slot (detP nt df) (det_pass nt df)); [apply det_pass_up|assumption].
  - cbn. f_equal. rewrite det_pass_up. f_equal. rewrite !map_map. now apply map_ext_Forall.
Qed.

Lemma strip_map_up (l : list (list tree)) : strip (map (map up) l) = map (map up) (strip l).
Proof.
  unfold strip. induction l as [|x r IH]; [reflexivity|].
  destruct x; cbn; [exact IH|]. now rewrite IH.
Qed.

Lemma detR1_up t : detR1 (up t) = map up (detR1 t).
Proof.
  induction t as [p|i k a b d ss ms IHs IHm|s e d b IHb] using tree_ind'.
  - reflexivity.
  - assert (Hs : forall l, Forall (Forall (fun t => detR1 (up t) = map up (detR1 t))) l ->
                           map (flat_map detR1) (map (map up) l) = map (map up) (map (flat_map detR1) l)).
    { intros l IH. rewrite !map_map. apply map_ext_Forall.
      eapply Forall_impl; [|exact IH]. cbn. intros s0 H0.
      rewrite flat_map_map, map_flat_map. now apply flat_map_ext_Forall. }
    cbn. f_equal. f_equal; [now apply Hs|].
    rewrite (Hs ms) by assumption. apply strip_map_up.
  - cbn. f_equal. rewrite map_app. cbn. f_equal.
    rewrite flat_map_map, map_flat_map. now apply flat_map_ext_Forall.
Qed.

Lemma detR_up t : detR (up t) = up (detR t).
Proof.
  unfold detR. rewrite detR1_up. destruct (detR1 t); reflexivity.
Qed.

Lemma dfaD_up t : dfaD (up t) = up (dfaD t).
Proof.
  induction t as [p|i k a b d ss ms IHs IHm|s e d b IHb] using tree_ind'.
  - reflexivity.
  - assert (Hs : forall l, Forall (Forall (fun t => dfaD (up t) = up (dfaD t))) l ->
                           map (map dfaD) (map (map up) l) = map (map up) (map (map dfaD) l)).
    { intros l IH. rewrite !map_map. apply map_ext_Forall.
      eapply Forall_impl; [|exact IH]. cbn. intros s0 H0.
      rewrite !map_map. now apply map_ext_Forall. }
    cbn. f_equal; [now apply Hs|].
    rewrite (Hs ms) by assumption. apply strip_map_up.
  - cbn. f_equal. rewrite !map_map. now apply map_ext_Forall.
Qed.

Lemma respects_up (g : tree -> tree) :
  (forall t, g (up t) = up (g t)) ->
  forall u v, map up u = map up v -> map up (map g u) = map up (map g v).
Proof.
  intros Hg u v H.
  assert (E : forall w, map up (map g w) = map g (map up w)).
  { intros w. rewrite !map_map. apply map_ext. intros x. now rewrite Hg. }
  now rewrite !E, H.
Qed.

Lemma run_ops_app a : forall b u,
    run_ops (a ++ b) u = match run_ops a u with Ok v => run_ops b v | Err v => Err v end.
Proof.
  induction a as [|o r IH]; intros b u; [reflexivity|].
  cbn. destruct (run_op o u); [apply IH|reflexivity].
Qed.

Lemma leave_ops_cons c r : leave_ops (c :: r) = leave_ops r ++ [leave_op c].
Proof. reflexivity. Qed.

Lemma map_up_roundtrip (f : tree -> tree) (c : tree -> bool) u :
  (forall t, c t = true -> up (f t) = up t) -> forallb c u = true -> map up (map f u) = map up u.
Proof.
  intros H Hc. rewrite map_map. apply map_ext_Forall. apply forallb_Forall in Hc.
  eapply Forall_impl; [|exact Hc]. cbn. auto.
Qed.

(** for node types without the fields: restored up to "missing attribute reads as None" *)
Lemma ctx_pragmas_exception_up nt pf u body :
  forallb (no_preattached (nt_of nt) pf) u = true ->
  body (map (attP (nt_of nt) pf) u) = Raised (map (attP (nt_of nt) pf) u) ->
  exists u', pragmas_attached nt pf u body = Raised u' /\ map up u' = map up u.
Proof.
  intros Hc Hb. unfold pragmas_attached, with_ctx. cbn [run_op]. rewrite Hb.
  eexists. split; [reflexivity|]. rewrite (map_map (attP _ _) (detP _ _)).
  exact (map_up_roundtrip _ _ u (detach_attach_up _ _) Hc).
Qed.

Theorem nested_contexts_roundtrip fl : forall u,
    flow_in_class fl u = true ->
    exists u', run_ops (enter_ops fl ++ leave_ops fl) u = Ok u' /\ map up u' = map up u.
Proof.
  induction fl as [|c r IH]; intros u H.
  - exists u. split; reflexivity.
  - rewrite leave_ops_cons. unfold enter_ops. cbn [map]. fold (enter_ops r).
    cbn [app run_ops]. rewrite app_assoc.
    (* entered into [u1], the inner contexts come back to [u1] up to [up]; leaving by [g] then gives [u] *)
    assert (K : forall u1 g, flow_in_class r u1 = true ->
                (forall v, run_op (leave_op c) v = Ok (map g v)) -> (forall t, g (up t) = up (g t)) ->
                map up (map g u1) = map up u ->
                exists u', run_ops ((enter_ops r ++ leave_ops r) ++ [leave_op c]) u1 = Ok u' /\ map up u' = map up u).
    { intros u1 g Hr Eg Gup Eu. destruct (IH _ Hr) as (u1' & E1 & E2). exists (map g u1'). split.
      - rewrite run_ops_app, E1. cbn [run_ops]. now rewrite Eg.
      - now rewrite (respects_up g Gup _ _ E2). }
    destruct c as [nt pf|kw|]; cbn [flow_in_class] in H; apply andb_true_iff in H as [Hc Hr]; cbn [enter_op run_op].
    + apply (K _ (detP (nt_of nt) pf) Hr); [reflexivity|intros; apply detP_up|].
      rewrite (map_map (attP _ _) (detP _ _)). exact (map_up_roundtrip _ _ u (detach_attach_up _ _) Hc).
    + destruct (attR_unit kw u) as [u1|u1] eqn:Ea; [|discriminate].
      apply (K u1 detR Hr); [reflexivity|apply detR_up|]. now rewrite (regions_unit_roundtrip kw u u1 Ea Hc).
    + apply (K _ dfaD Hr); [reflexivity|apply dfaD_up|].
      f_equal. eapply map_roundtrip; [|exact Hc]. apply dfa_detach_attach.
Qed.

Example nested_nontrivial :
  let t := sec 1 [TP (pl_ 2 "acc" "data"); TP (pl_ 3 "loki" "foo"); TN 4 KLoop ANone ANone false [[asg 5]] [];
                  TP (pl_ 6 "loki" "bar"); TN 7 KCall ANone NoAttr false [] []; TP (pl_ 8 "acc" "end data");
                  TP (pl_ 9 "omp" "simd")] in
  flow_in_class [CR None; CP [KLoop; KCall] true; CD] [t] = true /\
  option_map (fun u => list_eqb tree_eqb u [t])
             (match run_ops (enter_ops [CR None; CP [KLoop; KCall] true; CD]) [t] with Ok u => Some u | Err _ => None end)
  = Some false.
Proof. vm_compute. split; reflexivity. Qed.
