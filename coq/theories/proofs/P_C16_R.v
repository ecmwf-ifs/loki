(** C16 — lemmas for the pragma-region attacher / detacher. *)
From Coq Require Import ZArith List Bool String Ascii Arith Lia.
From LV Require Import Base.Strings Base.ListFacts models.M_C16 proofs.P_C16.
Import ListNotations.
Open Scope list_scope.

Section MkInd.
  Variable P : mk -> Prop.
  Hypothesis HO : forall t, P (MO t).
  Hypothesis HM : forall s e b, Forall P b -> P (MR s e b).
  Fixpoint mk_ind' (m : mk) : P m :=
    match m with
    | MO t => HO t
    | MR s e b => HM s e b ((fix go (l : list mk) : Forall P l :=
                               match l with
                               | [] => Forall_nil _
                               | x :: r => Forall_cons x (mk_ind' x) (go r)
                               end) b)
    end.
End MkInd.

(** the marked elements of a tuple, with every region (new or old) unpacked again *)
Fixpoint detR1_mk (m : mk) : list tree :=
  match m with
  | MO t => detR1 t
  | MR s e b => TP s :: flat_map detR1_mk b ++ [TP e]
  end.

Lemma detR1_plain m : detR1 (plain m) = detR1_mk m.
Proof.
  induction m as [t|s e b IH] using mk_ind'; [reflexivity|].
  cbn. f_equal. f_equal. rewrite flat_map_map. now apply flat_map_ext_Forall.
Qed.

Lemma split_at {A} (l : list A) : forall n x, nth_error l n = Some x -> l = firstn n l ++ x :: skipn (S n) l.
Proof.
  induction l as [|y r IH]; intros [|n] x H; cbn in *; try discriminate.
  - now inversion H.
  - f_equal. now apply IH.
Qed.

Lemma skipn_add {A} (l : list A) : forall x y, skipn x (skipn y l) = skipn (y + x) l.
Proof.
  induction l as [|a r IH]; intros x [|y]; cbn; try reflexivity.
  - now destruct x.
  - apply IH.
Qed.

Lemma split_two {A} (l : list A) a b x y :
  (a < b)%nat -> nth_error l a = Some x -> nth_error l b = Some y ->
  l = firstn a l ++ x :: firstn (b - (a + 1)) (skipn (a + 1) l) ++ y :: skipn (b + 1) l.
Proof.
  intros Hab Ha Hb.
  rewrite (split_at l a x Ha) at 1. f_equal. f_equal.
  replace (a + 1)%nat with (S a) by lia.
  assert (Hb' : nth_error (skipn (S a) l) (b - S a) = Some y).
  { rewrite nth_error_skipn. now replace (S a + (b - S a))%nat with b by lia. }
  rewrite (split_at _ _ _ Hb') at 1. f_equal. f_equal.
  rewrite skipn_add. f_equal. lia.
Qed.

Lemma prag_eqb_eq p q : prag_eqb p q = true -> p = q.
Proof.
  destruct p, q. unfold prag_eqb. cbn.
  rewrite !andb_true_iff. intros [[[[H1 H2] H3] H4] H5].
  apply Z.eqb_eq in H1, H2. apply String.eqb_eq in H3, H4. apply Bool.eqb_prop in H5.
  congruence.
Qed.

Lemma mk_same_eq p m : mk_same p m = true -> m = MO (TP p).
Proof.
  destruct m as [[q| |]|]; cbn; try discriminate.
  intros H. apply prag_eqb_eq in H. now subst.
Qed.

Lemma rw_step_flat o pr :
  step_safe o pr = true -> flat_map detR1_mk (rw_step o pr) = flat_map detR1_mk o.
Proof.
  unfold step_safe, rw_step.
  destruct (find_idx (mk_is (fst pr)) o) as [a|]; [|reflexivity].
  destruct (find_idx (mk_is (snd pr)) o) as [b|]; [|reflexivity].
  intros H. apply andb_true_iff in H as [H Hb]. apply andb_true_iff in H as [Hab Ha].
  apply Nat.ltb_lt in Hab.
  destruct (nth_error o a) as [ma|] eqn:Ea; [|discriminate].
  destruct (nth_error o b) as [mb|] eqn:Eb; [|discriminate].
  apply mk_same_eq in Ha, Hb. subst ma mb.
  (* the tuple, cut at the two pragmas; [rw_step] packs the middle part into a region *)
  assert (Eo : o = firstn a o ++ MO (TP (fst pr)) :: firstn (b - (a + 1)) (skipn (a + 1) o)
                   ++ MO (TP (snd pr)) :: skipn (b + 1) o) by exact (split_two o a b _ _ Hab Ea Eb).
  transitivity (flat_map detR1_mk (firstn a o ++ MO (TP (fst pr)) :: firstn (b - (a + 1)) (skipn (a + 1) o)
                                   ++ MO (TP (snd pr)) :: skipn (b + 1) o)); [|now rewrite <- Eo].
  rewrite !flat_map_app. cbn [flat_map detR1_mk detR1 app].
  rewrite !flat_map_app. cbn [flat_map detR1_mk detR1 app].
  rewrite app_nil_r. rewrite <- !app_assoc. reflexivity.
Qed.

Lemma rewrite_flat pairs : forall o,
    rewrite_safe pairs o = true -> flat_map detR1_mk (rewrite pairs o) = flat_map detR1_mk o.
Proof.
  induction pairs as [|pr r IH]; intros o H; [reflexivity|].
  cbn in H. apply andb_true_iff in H as [H1 H2].
  unfold rewrite. cbn [fold_left]. fold (rewrite r (rw_step o pr)).
  rewrite IH by assumption. now apply rw_step_flat.
Qed.

Lemma rw_deep_flat pairs fuel : forall o,
    deep_safe fuel pairs o = true -> flat_map detR1 (rw_deep fuel pairs o) = flat_map detR1_mk o.
Proof.
  induction fuel as [|f IH]; intros o H.
  - cbn. rewrite flat_map_map. apply flat_map_ext. intros m. apply detR1_plain.
  - cbn in H. apply andb_true_iff in H as [H1 H2].
    cbn [rw_deep]. rewrite flat_map_map.
    rewrite <- (rewrite_flat pairs o H1).
    apply flat_map_ext_Forall. apply forallb_Forall in H2.
    eapply Forall_impl; [|exact H2]. intros m Hm.
    destruct m as [t|s e b]; [reflexivity|].
    cbn. now rewrite IH.
Qed.

Lemma rw_tuple_flat pairs o :
  tuple_safe pairs o = true -> flat_map detR1 (rw_tuple pairs o) = flat_map detR1 o.
Proof.
  intros H. unfold rw_tuple. rewrite rw_deep_flat by exact H.
  now rewrite flat_map_map.
Qed.

Lemma strip_map_strip {A B} (D : list A -> list B) (l : list (list A)) :
  D [] = [] -> strip (map D (strip l)) = strip (map D l).
Proof.
  intros HD. unfold strip. induction l as [|x r IH]; [reflexivity|].
  destruct x as [|a x]; cbn [filter map is_nil negb].
  - rewrite HD. cbn [filter is_nil negb]. exact IH.
  - destruct (D (a :: x)); cbn [filter is_nil negb]; now rewrite IH.
Qed.

Lemma slot_detR_attR pairs s :
  Forall (fun t => attR_safe pairs t = true -> detR1 (attR pairs t) = detR1 t) s ->
  forallb (attR_safe pairs) s && tuple_safe pairs (map (attR pairs) s) = true ->
  flat_map detR1 (rw_tuple pairs (map (attR pairs) s)) = flat_map detR1 s.
Proof.
  intros IH H. apply andb_true_iff in H as [H1 H2].
  rewrite rw_tuple_flat by assumption. rewrite flat_map_map.
  apply flat_map_ext_Forall. apply forallb_Forall in H1. exact (Forall_mp _ _ _ IH H1).
Qed.

Lemma detR1_attR pairs t : attR_safe pairs t = true -> detR1 (attR pairs t) = detR1 t.
Proof.
  induction t as [p|i k a b d ss ms IHs IHm|s e d b IHb] using tree_ind'; intros H.
  - reflexivity.
  - cbn in H. apply andb_true_iff in H as [Hss Hms].
    cbn. f_equal. f_equal.
    + rewrite map_map. apply map_ext_Forall. apply forallb_Forall in Hss.
      eapply Forall_mp; [|exact Hss]. eapply Forall_impl; [|exact IHs]. apply slot_detR_attR.
    + rewrite strip_map_strip by reflexivity. f_equal.
      rewrite map_map. apply map_ext_Forall. apply forallb_Forall in Hms.
      eapply Forall_mp; [|exact Hms]. eapply Forall_impl; [|exact IHm]. apply slot_detR_attR.
  - cbn in H. cbn. f_equal. f_equal. now apply slot_detR_attR.
Qed.

Lemma strip_id {A} (l : list (list A)) : forallb (fun b => negb (is_nil b)) l = true -> strip l = l.
Proof. intros H. apply filter_all. now apply forallb_forall. Qed.

Lemma detR1_region_free t :
  no_regions t = true -> no_empty_bodies t = true -> detR1 t = [t].
Proof.
  intros H1 H2. pose proof (deep_and _ _ t H1 H2) as H. clear H1 H2. revert t H. apply deep_ind.
  - reflexivity.
  - intros i k a b d ss ms C _ IHs _ IHm. cbn in C.
    assert (E : forall ll, Forall (Forall (fun t => detR1 t = [t])) ll -> map (flat_map detR1) ll = ll).
    { intros ll IH. apply map_id_Forall. eapply Forall_impl; [|exact IH]. intros l Hl. apply flat_map_id, Forall_forall, Hl. }
    cbn. now rewrite (E ss), (E ms), strip_id.
  - intros s e d b C. discriminate C.
Qed.

Lemma detR_attR_on_class pairs t : region_class pairs t = true -> detR (attR pairs t) = t.
Proof.
  unfold region_class. intros H. apply andb_true_iff in H as [H H3]. apply andb_true_iff in H as [H1 H2].
  unfold detR. rewrite detR1_attR by assumption. now rewrite detR1_region_free.
Qed.

Lemma regions_detach_attach kw t t' :
  attach_regions kw t = Some t' -> in_region_class kw t = true -> detR t' = t.
Proof.
  unfold attach_regions, in_region_class.
  destruct (matching_pairs (kw_filter kw (findp t))) as [pairs|]; [|discriminate].
  intros E H. inversion E; subst. now apply detR_attR_on_class.
Qed.

Definition pa_ (n : Z) (c : string) : prag := mkP n 0 "acc" c false.
Definition asg (n : Z) : tree := TN n KAssign NoAttr NoAttr false [] [].
Definition sec (n : Z) (l : list tree) : tree := TN n KSection NoAttr NoAttr false [l] [].

(** F2: pragmas without source; an unmatched [end data] in front of a matched pair *)
Definition dup_witness : tree :=
  sec 1 [TP (pa_ 2 "end data"); asg 3; TP (pa_ 4 "data"); asg 5; TP (pa_ 6 "end data")].

Lemma dup_witness_result :
  option_map detR (attach_regions None dup_witness)
  = Some (sec 1 [TP (pa_ 2 "end data"); asg 3; TP (pa_ 4 "data"); TP (pa_ 6 "end data"); asg 3;
                 TP (pa_ 4 "data"); asg 5; TP (pa_ 6 "end data")]).
Proof. vm_compute. reflexivity. Qed.

Lemma regions_roundtrip_refuted :
  exists t t', no_regions t = true /\ no_empty_bodies t = true /\
               attach_regions None t = Some t' /\ skel (detR t') <> skel t.
Proof.
  pose proof dup_witness_result as R.
  destruct (attach_regions None dup_witness) as [t'|] eqn:E; [|discriminate R].
  injection R as R. exists dup_witness, t'. rewrite R.
  split; [reflexivity|]. split; [reflexivity|]. split; [exact E|]. vm_compute. discriminate.
Qed.

(** F3: nested regions spelled identically, without source: same structure, other objects *)
Definition nested_same_witness : tree :=
  sec 1 [TP (pa_ 2 "data"); TP (pa_ 3 "data"); asg 4; TP (pa_ 5 "end data"); TP (pa_ 6 "end data")].

Lemma regions_identity_refuted :
  option_map detR (attach_regions None nested_same_witness)
  = Some (sec 1 [TP (pa_ 3 "data"); TP (pa_ 3 "data"); asg 4; TP (pa_ 5 "end data"); TP (pa_ 6 "end data")]).
Proof. vm_compute. reflexivity. Qed.

(** F5: a case body that is empty is dropped by the strip in Transformer.visit_tuple *)
Definition empty_body_witness : tree :=
  sec 1 [TN 2 KMulti NoAttr NoAttr false [[]] [[]; [asg 3]]].
Lemma regions_empty_body_refuted :
  option_map detR (attach_regions None empty_body_witness)
  = Some (sec 1 [TN 2 KMulti NoAttr NoAttr false [[]] [[asg 3]]]).
Proof. vm_compute. reflexivity. Qed.

(** matching raises IndexError for a bare [end] *)
Lemma matching_index_error :
  attach_regions None (sec 1 [TP (pa_ 2 "data"); asg 3; TP (pa_ 4 "end")]) = None.
Proof. vm_compute. reflexivity. Qed.

(** the class is inhabited by nested, unmatched and case-mixed pairs *)
Definition pl_ (n : Z) (k c : string) : prag := mkP n n k c false.
Example region_class_nontrivial :
  let t := sec 1 [TP (pl_ 2 "ACC" "DATA   present(a)"); TP (pl_ 3 "loki" "region-x"); asg 4;
                  TP (pl_ 6 "loki" "end region-x"); TP (pl_ 5 "omp" "parallel");
                  TN 7 KLoop ANone ANone false [[asg 8; TP (pl_ 9 "omp" "end parallel do")]] [];
                  TP (pl_ 10 "acc" "End Data"); TP (pl_ 11 "acc" "end kernels")] in
  in_region_class None t = true /\
  option_map (map (fun pr => (pid (fst pr), pid (snd pr)))) (matching_pairs (findp t)) = Some [(3, 6); (5, 9); (2, 10)]%Z /\
  option_map (fun t' => tree_eqb t' t) (attach_regions None t) = Some false.
Proof. vm_compute. repeat split; reflexivity. Qed.
