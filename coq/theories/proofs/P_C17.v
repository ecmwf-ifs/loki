(** C17 — lemmas: induction principle, freshness, clone = renaming on the class, closedness. *)
From Coq Require Import ZArith List Bool String Lia.
From LV Require Import Base.ListFacts models.M_C17.
Import ListNotations.
Open Scope Z_scope.

Lemma unit_ind' (P : unit -> Prop) :
  (forall i k nm par tab occs ch, Forall P ch -> P (Unit i k nm par tab occs ch)) -> forall u, P u.
Proof.
  intro H. fix IH 1. intros [i k nm par tab occs ch]. apply H.
  induction ch as [|c r IHr]; constructor; [apply IH | apply IHr].
Qed.

Lemma memZ_In : forall x l, memZ x l = true <-> In x l.
Proof.
  intros x l. unfold memZ. rewrite existsb_exists. split.
  - intros [y [Hy E]]. apply Z.eqb_eq in E. now subst.
  - intro H. exists x. split; [exact H | apply Z.eqb_refl].
Qed.
Lemma memZ_false : forall x l, memZ x l = false <-> ~ In x l.
Proof. intros x l. rewrite <- memZ_In. destruct (memZ x l); split; congruence. Qed.

Lemma opt_sid_eqb_eq : forall a b, opt_sid_eqb a b = true -> a = b.
Proof.
  intros [x|] [y|] H; simpl in H; try discriminate; [apply Z.eqb_eq in H; subst|]; reflexivity.
Qed.

Lemma ids_clone_u : forall d u above par, ids (clone_u d above par u) = map (fun i => i + d) (ids u).
Proof.
  intros d u. induction u as [i k nm p tab occs ch IH] using unit_ind'. intros above par.
  simpl. f_equal. rewrite flat_map_map, map_flat_map.
  apply flat_map_ext_Forall. eapply Forall_impl; [|exact IH]. intros c Hc. apply Hc.
Qed.

Lemma ids_clone : forall d ctx u, ids (clone d ctx u) = map (fun i => i + d) (ids u).
Proof. intros. apply ids_clone_u. Qed.

Lemma bounded_parts : forall d ctx u, bounded d ctx u = true ->
  (forall i, In i (ids u) -> 0 <= i < d) /\ (forall i, In i (refs u) -> 0 <= i < d) /\
  (forall i, In i (map fst ctx) -> 0 <= i < d) /\ nodupZ (ids u) = true /\
  (forall i, In i (map fst ctx) -> ~ In i (ids u)).
Proof.
  intros d ctx u H. unfold bounded in H. rewrite !andb_true_iff, !forallb_forall in H.
  destruct H as ((((H1 & H2) & H3) & H4) & H5).
  assert (R : forall l, (forall x, In x l -> in_range d x = true) -> forall i, In i l -> 0 <= i < d).
  { intros l Hl i Hi. apply Hl in Hi. unfold in_range in Hi.
    apply andb_true_iff in Hi as [A B]. apply Z.leb_le in A. apply Z.ltb_lt in B. lia. }
  split; [exact (R _ H1)|]. split; [exact (R _ H2)|]. split; [exact (R _ H3)|]. split; [exact H4|].
  intros i Hi. apply memZ_false, negb_true_iff, H5, Hi.
Qed.

(** the new scope objects are new: none of them is a scope of the original unit or of its context *)
Lemma clone_fresh : forall d ctx u, bounded d ctx u = true ->
  forall i, In i (ids (clone d ctx u)) -> ~ In i (ids u) /\ ~ In i (map fst ctx) /\ ~ In i (refs u).
Proof.
  intros d ctx u B i Hi. destruct (bounded_parts _ _ _ B) as [Hid [Hr [Hc _]]].
  rewrite ids_clone in Hi. apply in_map_iff in Hi. destruct Hi as [j [E Hj]]. subst i.
  pose proof (Hid j Hj) as Hjr.
  repeat split; intro H; [apply Hid in H | apply Hc in H | apply Hr in H]; lia.
Qed.

Definition ren_chain (f : sid -> sid) (c : chain) : chain := map (fun it => (f (fst it), snd it)) c.
Lemma ren_chain_cons : forall f i t c, ren_chain f ((i, t) :: c) = (f i, t) :: ren_chain f c.
Proof. reflexivity. Qed.

Lemma lookup_scope_ren : forall f c n, lookup_scope (ren_chain f c) n = option_map f (lookup_scope c n).
Proof.
  intros f c n. induction c as [|[i t] r IH]; simpl; [reflexivity|].
  destruct (thas t n); [reflexivity | exact IH].
Qed.
(* so that [simpl] leaves [ren_chain] folded and [ren_chain_cons] stays applicable *)
Arguments ren_chain : simpl never.

Lemma ren_in : forall d own i, In i own -> ren d own i = i + d.
Proof. intros. unfold ren. apply memZ_In in H. rewrite H. reflexivity. Qed.
Lemma ren_out : forall d own i, ~ In i own -> ren d own i = i.
Proof. intros. unfold ren. apply memZ_false in H. rewrite H. reflexivity. Qed.

Lemma outside_ren : forall d own r, outside own r = true -> option_map (ren d own) r = r.
Proof.
  intros d own [i|] H; simpl in *; [|reflexivity].
  apply negb_true_iff in H. apply memZ_false in H. rewrite ren_out by assumption. reflexivity.
Qed.

Lemma resc_ren : forall d own c n r,
  wf_ref own c n r = true ->
  resc (ren_chain (ren d own) c) n r = option_map (ren d own) r.
Proof.
  intros d own c n r H. unfold resc, wf_ref in *. rewrite lookup_scope_ren.
  destruct (lookup_scope c n) as [j|]; simpl.
  - apply opt_sid_eqb_eq in H. subst r. reflexivity.
  - symmetry. apply outside_ren. exact H.
Qed.

Lemma clone_occ_ren : forall d own c o,
  wf_ref own c (o_name o) (o_ref o) = true ->
  clone_occ (ren_chain (ren d own) c) o = map_occ (ren d own) o.
Proof. intros. unfold clone_occ, map_occ. rewrite resc_ren by assumption. reflexivity. Qed.

Lemma clone_tref_ren : forall d own c t,
  wf_tref own c t = true -> clean_tref own t = true ->
  clone_tref (ren_chain (ren d own) c) t = map_tref (ren d own) t.
Proof.
  intros d own c [n r b] W C. unfold clone_tref, map_tref, wf_tref, clean_tref in *. simpl in *.
  destruct b; simpl in *.
  - rewrite resc_ren by assumption. reflexivity.
  - rewrite outside_ren by assumption. reflexivity.
Qed.

Lemma member_id_In : forall ch n j, member_id ch n = Some j -> In j (flat_map ids ch).
Proof.
  induction ch as [|u r IH]; simpl; intros n j H; [discriminate|].
  destruct (is_proc_kind (u_kind u) && String.eqb (u_name u) n).
  - inversion H; subst. apply in_or_app. left. destruct u; simpl. left. reflexivity.
  - apply in_or_app. right. eapply IH. exact H.
Qed.

Lemma clone_link_ren : forall d own ch n l,
  (forall j, In j (flat_map ids ch) -> In j own) ->
  clean_link own ch n l = true ->
  clone_link d ch n l = map_link (ren d own) l.
Proof.
  intros d own ch n l Hsub C. destruct l as [|i|i]; simpl in *; [reflexivity| |].
  - destruct (member_id ch n) as [j|] eqn:E.
    + apply Z.eqb_eq in C. subst i. rewrite ren_in; [reflexivity|]. apply Hsub. eapply member_id_In. exact E.
    + apply negb_true_iff in C. apply memZ_false in C. rewrite ren_out by assumption. reflexivity.
  - apply negb_true_iff in C. apply memZ_false in C. rewrite ren_out by assumption. reflexivity.
Qed.

Lemma ren_chain_ctx : forall d own ctx, (forall i, In i (map fst ctx) -> ~ In i own) -> ren_chain (ren d own) ctx = ctx.
Proof.
  intros d own ctx H. induction ctx as [|[i t] r IH]; [reflexivity|]. rewrite ren_chain_cons.
  rewrite ren_out by (apply H; simpl; left; reflexivity). f_equal. apply IH. intros j Hj. apply H. simpl. right. exact Hj.
Qed.

(** * on well-scoped units, clone is the renaming of the unit's own scopes: always on the skeleton (ids, parents,
      table keys and tags, all symbol occurrences of the IR), and on the whole unit when it is clean *)
Lemma clone_u_rename : forall d own u above par,
  (forall i, In i (ids u) -> In i own) ->
  wf_u own above par u = true ->
  skeleton (clone_u d (ren_chain (ren d own) above) (option_map (ren d own) par) u) = skeleton (rename (ren d own) u) /\
  (clean_u own u = true ->
   clone_u d (ren_chain (ren d own) above) (option_map (ren d own) par) u = rename (ren d own) u).
Proof.
  intros d own u. induction u as [i k nm p tab occs ch IH] using unit_ind'.
  intros above par Hsub W. simpl in W.
  rewrite !andb_true_iff, !forallb_forall in W. destruct W as (((Wp & Wocc) & Wtab) & Wch).
  apply opt_sid_eqb_eq in Wp. subst p.
  assert (Hi : ren d own i = i + d) by (apply ren_in, Hsub; now left).
  assert (Hc : (i + d, tab) :: ren_chain (ren d own) above = ren_chain (ren d own) ((i, tab) :: above))
    by now rewrite ren_chain_cons, Hi.
  assert (Hocc : map (clone_occ (ren_chain (ren d own) ((i, tab) :: above))) occs = map (map_occ (ren d own)) occs).
  { apply map_ext_in. intros o Ho. apply clone_occ_ren, Wocc, Ho. }
  rewrite Forall_forall in IH.
  assert (Hch : forall c, In c ch ->
            skeleton (clone_u d (ren_chain (ren d own) ((i, tab) :: above)) (Some (i + d)) c) = skeleton (rename (ren d own) c) /\
            (clean_u own c = true ->
             clone_u d (ren_chain (ren d own) ((i, tab) :: above)) (Some (i + d)) c = rename (ren d own) c)).
  { intros c Hc'. rewrite <- Hi. apply (IH c Hc' ((i, tab) :: above) (Some i)); [|apply Wch, Hc'].
    intros j Hj. apply Hsub. right. apply in_flat_map. eauto. }
  simpl. rewrite Hc, Hi. split.
  - f_equal.
    + rewrite !map_map. apply map_ext. now intros [n e].
    + exact Hocc.
    + rewrite !map_map. apply map_ext_in. intros c Hc'. apply (Hch c Hc').
  - intros C. rewrite andb_true_iff, !forallb_forall in C. destruct C as [Ctab Cch]. f_equal.
    + apply map_ext_in. intros [n e] Hin. specialize (Wtab _ Hin). specialize (Ctab _ Hin). cbn [fst snd] in Wtab, Ctab.
      apply andb_true_iff in Ctab as [Cl Ct]. rewrite forallb_forall in Wtab, Ct.
      unfold clone_entry, map_entry. cbn [fst snd]. f_equal. f_equal.
      * apply clone_link_ren; [|exact Cl]. intros j Hj. apply Hsub. now right.
      * apply map_ext_in. intros t Ht. apply clone_tref_ren; [apply Wtab|apply Ct]; exact Ht.
    + exact Hocc.
    + apply map_ext_in. intros c Hc'. apply (Hch c Hc'), Cch, Hc'.
Qed.

Lemma clone_rename : forall d ctx u,
  bounded d ctx u = true -> wf ctx u = true ->
  skeleton (clone d ctx u) = skeleton (rename (ren d (ids u)) u) /\
  (clean u = true -> clone d ctx u = rename (ren d (ids u)) u).
Proof.
  intros d ctx u B W. destruct (bounded_parts _ _ _ B) as (_ & _ & _ & _ & Hctx).
  unfold wf in W. apply andb_true_iff in W as [Wp W].
  pose proof (clone_u_rename d (ids u) u ctx (u_par u) (fun i H => H) W) as R.
  now rewrite (ren_chain_ctx d (ids u) ctx Hctx), (outside_ren d (ids u) (u_par u) Wp) in R.
Qed.

Theorem clone_iso : forall d ctx u,
  bounded d ctx u = true -> wf ctx u = true -> clean u = true ->
  clone d ctx u = rename (ren d (ids u)) u.
Proof. intros d ctx u B W. exact (proj2 (clone_rename d ctx u B W)). Qed.

Theorem clone_skeleton_iso : forall d ctx u,
  bounded d ctx u = true -> wf ctx u = true ->
  skeleton (clone d ctx u) = skeleton (rename (ren d (ids u)) u).
Proof. intros d ctx u B W. exact (proj1 (clone_rename d ctx u B W)). Qed.

Lemma in_refs_cases (Q : Prop) r i k nm p tab occs ch :
  In r (refs (Unit i k nm p tab occs ch)) ->
  (In r (opt_list p) -> Q) -> (In r (table_refs tab) -> Q) -> (In r (occ_refs occs) -> Q) ->
  (In r (flat_map refs ch) -> Q) -> Q.
Proof.
  cbn [refs]. intros H Hp Ht Ho Hc.
  apply in_app_or in H as [H|H]; [auto|]. apply in_app_or in H as [H|H]; [auto|].
  apply in_app_or in H as [H|H]; auto.
Qed.

Lemma opt_list_map {A B} (f : A -> B) (o : option A) : opt_list (option_map f o) = map f (opt_list o).
Proof. destruct o; reflexivity. Qed.

Lemma entry_refs_map : forall f ne, entry_refs (snd (map_entry f ne)) = map f (entry_refs (snd ne)).
Proof.
  intros f [n [tg l ts]]. unfold entry_refs. simpl. rewrite map_app. f_equal.
  - destruct l; reflexivity.
  - rewrite flat_map_map, map_flat_map. apply flat_map_ext. intros t. simpl. apply opt_list_map.
Qed.

Lemma refs_rename : forall f u, refs (rename f u) = map f (refs u).
Proof.
  intros f u. induction u as [i k nm p tab occs ch IH] using unit_ind'. simpl.
  rewrite !map_app. f_equal; [apply opt_list_map|]. f_equal; [|f_equal].
  - unfold table_refs. rewrite flat_map_map, map_flat_map. apply flat_map_ext. intros ne. apply entry_refs_map.
  - unfold occ_refs. rewrite flat_map_map, map_flat_map. apply flat_map_ext. intros o. simpl. apply opt_list_map.
  - rewrite flat_map_map, map_flat_map. apply flat_map_ext_Forall. exact IH.
Qed.

Lemma ids_rename : forall f u, ids (rename f u) = map f (ids u).
Proof.
  intros f u. induction u as [i k nm p tab occs ch IH] using unit_ind'. simpl. f_equal.
  rewrite flat_map_map, map_flat_map. apply flat_map_ext_Forall. exact IH.
Qed.

(** no scope mentioned by the clone is a scope object of the original unit *)
Theorem clone_closed : forall d ctx u,
  bounded d ctx u = true -> wf ctx u = true -> clean u = true ->
  forall r, In r (refs (clone d ctx u)) -> ~ In r (ids u).
Proof.
  intros d ctx u B W C r Hr. rewrite (clone_iso _ _ _ B W C) in Hr.
  destruct (bounded_parts _ _ _ B) as [Hid _].
  rewrite refs_rename in Hr. apply in_map_iff in Hr. destruct Hr as [j [E Hj]]. subst r.
  unfold ren. destruct (memZ j (ids u)) eqn:M.
  - apply memZ_In in M. intro H. apply Hid in H. apply Hid in M. lia.
  - apply memZ_false in M. exact M.
Qed.

Lemma closed_wrt_spec : forall own u, closed_wrt own u = true <-> (forall r, In r (refs u) -> ~ In r own).
Proof.
  intros own u. unfold closed_wrt. rewrite forallb_forall. split; intros H r Hr.
  - specialize (H r Hr). apply negb_true_iff in H. apply memZ_false in H. exact H.
  - apply negb_true_iff. apply memZ_false. apply H. exact Hr.
Qed.
