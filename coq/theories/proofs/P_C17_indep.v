(** C17 — independence: edits made through one copy never touch a scope object of the other copy. *)
From Coq Require Import ZArith List Bool String Lia.
From LV Require Import Base.ListFacts models.M_C17 proofs.P_C17.
Import ListNotations.
Open Scope Z_scope.

(** an edit whose target is not a scope object of [u] leaves [u] as it is *)
Lemma apply_edit_notin : forall e u, ~ In (target e) (ids u) -> apply_edit e u = u.
Proof.
  intros e u. induction u as [i k nm p tab occs ch IH] using unit_ind'. intro H.
  cbn [ids In] in H. cbn [apply_edit].
  assert (Hch : map (apply_edit e) ch = ch).
  { apply map_id_Forall. rewrite Forall_forall in IH |- *.
    intros c Hc. apply IH; [exact Hc|]. intro Hin. apply H. right. apply in_flat_map. eauto. }
  rewrite Hch. destruct (i =? target e) eqn:E; [|reflexivity].
  apply Z.eqb_eq in E. tauto.
Qed.

Lemma in_remove_nth {A} : forall (l : list A) k x, In x (remove_nth l k) -> In x l.
Proof.
  induction l as [|y r IH]; intros k x H; simpl in *; [destruct k; exact H|].
  destruct k; [right; exact H|]. destruct H as [H|H]; [left; exact H | right; eapply IH; exact H].
Qed.
Lemma in_set_nth {A} : forall (l : list A) k v x, In x (set_nth l k v) -> In x l \/ x = v.
Proof.
  induction l as [|y r IH]; intros k v x H; simpl in *; [destruct k; contradiction|].
  destruct k; simpl in H.
  - destruct H as [H|H]; [right; symmetry; exact H | left; right; exact H].
  - destruct H as [H|H]; [left; left; exact H|]. apply IH in H. tauto.
Qed.

Lemma in_flat_map_remove_nth {A B} (f : A -> list B) l k x :
  In x (flat_map f (remove_nth l k)) -> In x (flat_map f l).
Proof. rewrite !in_flat_map. intros (c & Hc & Hx). apply in_remove_nth in Hc. eauto. Qed.
Lemma in_flat_map_set_nth {A B} (f : A -> list B) l k v x :
  In x (flat_map f (set_nth l k v)) -> In x (flat_map f l) \/ In x (f v).
Proof.
  rewrite !in_flat_map. intros (c & Hc & Hx). apply in_set_nth in Hc as [Hc| ->]; [left; eauto|now right].
Qed.

Lemma table_refs_tset : forall t n e x, In x (table_refs (tset t n e)) -> In x (table_refs t) \/ In x (entry_refs e).
Proof.
  induction t as [|[k v] r IH]; intros n e x H; simpl in *.
  - rewrite app_nil_r in H. now right.
  - destruct (String.eqb k n); simpl in H; apply in_app_or in H as [H|H].
    + now right.
    + left. apply in_or_app. now right.
    + left. apply in_or_app. now left.
    + apply IH in H as [H|H]; [left; apply in_or_app; now right|now right].
Qed.
Lemma table_refs_tdel : forall t n x, In x (table_refs (tdel t n)) -> In x (table_refs t).
Proof.
  induction t as [|[k v] r IH]; intros n x H; simpl in *; [exact H|]. apply in_or_app.
  destruct (String.eqb k n); [right; eapply IH; exact H|].
  simpl in H. apply in_app_or in H as [H|H]; [now left|right; eapply IH; exact H].
Qed.

Lemma ids_edit_here : forall e i k nm p tab occs ch x,
  In x (ids (edit_here e i k nm p tab occs ch)) -> In x (i :: flat_map ids ch) \/ In x (payload e).
Proof.
  intros e i k nm p tab occs ch x.
  destruct e as [j n en|j n|j o|j m|j m o|j c|j m]; cbn [edit_here ids payload]; try (now left).
  - intros [H|H]; [left; now left|]. apply in_flat_map_snoc in H as [H|H]; [left; now right|].
    right. apply in_or_app. now left.
  - intros [H|H]; [left; now left|]. apply in_flat_map_remove_nth in H. left. now right.
Qed.

(** a unit's references change component by component *)
Lemma refs_mono (P : Prop) x i k nm p tab tab' occs occs' ch ch' :
  (In x (table_refs tab') -> In x (table_refs tab) \/ P) ->
  (In x (occ_refs occs') -> In x (occ_refs occs) \/ P) ->
  (In x (flat_map refs ch') -> In x (flat_map refs ch) \/ P) ->
  In x (refs (Unit i k nm p tab' occs' ch')) -> In x (refs (Unit i k nm p tab occs ch)) \/ P.
Proof.
  intros Ht Ho Hc H. apply (in_refs_cases _ _ _ _ _ _ _ _ _ H); cbn [refs]; intros H1.
  - left. apply in_or_app. now left.
  - apply Ht in H1 as [H1|H1]; [left|now right]. apply in_or_app. right. apply in_or_app. now left.
  - apply Ho in H1 as [H1|H1]; [left|now right]. do 2 (apply in_or_app; right). apply in_or_app. now left.
  - apply Hc in H1 as [H1|H1]; [left|now right]. do 3 (apply in_or_app; right). exact H1.
Qed.

Lemma refs_edit_here : forall e i k nm p tab occs ch x,
  In x (refs (edit_here e i k nm p tab occs ch)) ->
  In x (refs (Unit i k nm p tab occs ch)) \/ In x (payload e).
Proof.
  intros e i k nm p tab occs ch x.
  destruct e as [j n en|j n|j o|j m|j m o|j c|j m]; cbn [edit_here payload]; apply refs_mono; auto.
  - apply table_refs_tset.
  - intros H. left. eapply table_refs_tdel, H.
  - apply (in_flat_map_snoc (fun o => opt_list (o_ref o))).
  - intros H. left. eapply in_flat_map_remove_nth, H.
  - apply (in_flat_map_set_nth (fun o => opt_list (o_ref o))).
  - intros H. apply in_flat_map_snoc in H as [H|H]; [now left|right; apply in_or_app; now right].
  - intros H. left. eapply in_flat_map_remove_nth, H.
Qed.

Lemma ids_apply_edit : forall e u x, In x (ids (apply_edit e u)) -> In x (ids u) \/ In x (payload e).
Proof.
  intros e u. induction u as [i k nm p tab occs ch IH] using unit_ind'. intros x H. cbn [apply_edit] in H.
  assert (Hch : In x (flat_map ids (map (apply_edit e) ch)) -> In x (flat_map ids ch) \/ In x (payload e)).
  { rewrite flat_map_map, !in_flat_map. intros (c & Hc & Hx). rewrite Forall_forall in IH.
    apply (IH c Hc) in Hx as [Hx|Hx]; [left; eauto|now right]. }
  destruct (i =? target e); [apply ids_edit_here in H as [H|H]; [|now right]|];
    (destruct H as [H|H]; [left; now left|]; apply Hch in H as [H|H]; [left; now right|now right]).
Qed.

Lemma refs_apply_edit : forall e u x, In x (refs (apply_edit e u)) -> In x (refs u) \/ In x (payload e).
Proof.
  intros e u. induction u as [i k nm p tab occs ch IH] using unit_ind'. intros x H. cbn [apply_edit] in H.
  assert (Hch : In x (flat_map refs (map (apply_edit e) ch)) -> In x (flat_map refs ch) \/ In x (payload e)).
  { rewrite flat_map_map, !in_flat_map. intros (c & Hc & Hx). rewrite Forall_forall in IH.
    apply (IH c Hc) in Hx as [Hx|Hx]; [left; eauto|now right]. }
  destruct (i =? target e); [apply refs_edit_here in H as [H|H]; [|now right]|]; revert H; apply refs_mono; auto.
Qed.

(** nothing that [a] owns or mentions is a scope object of [b]: the one invariant of this file, kept by every
    valid edit made through [a] ([sep_step]) *)
Definition sep (a b : unit) : Prop := forall x, In x (ids a ++ refs a) -> ~ In x (ids b).

Lemma sep_step : forall a b e,
  sep a b -> (forall r, In r (payload e) -> ~ In r (ids b)) -> sep (apply_edit e a) b.
Proof.
  intros a b e S P x Hx. apply in_app_or in Hx. destruct Hx as [Hx|Hx].
  - apply ids_apply_edit in Hx. destruct Hx; [apply S; apply in_or_app; left; assumption | apply P; assumption].
  - apply refs_apply_edit in Hx. destruct Hx; [apply S; apply in_or_app; right; assumption | apply P; assumption].
Qed.

(** arbitrary sequences of edits made through [a] leave [b] exactly as it was *)
Theorem independent : forall es a b,
  sep a b -> valid_edits b a es -> apply_edits es b = b /\ sep (apply_edits es a) b.
Proof.
  induction es as [|e es IH]; intros a b S V.
  - split; [reflexivity | exact S].
  - inversion V; subst. unfold apply_edits. simpl.
    rewrite (apply_edit_notin e b) by (apply S; assumption).
    apply IH; [apply sep_step; assumption | assumption].
Qed.

Lemma sep_clone_orig : forall d ctx u,
  bounded d ctx u = true -> wf ctx u = true -> clean u = true -> sep (clone d ctx u) u.
Proof.
  intros d ctx u B W C x Hx. apply in_app_or in Hx. destruct Hx as [Hx|Hx].
  - apply (clone_fresh _ _ _ B) in Hx. tauto.
  - eapply clone_closed; eassumption.
Qed.

Lemma sep_orig_clone : forall d ctx u, bounded d ctx u = true -> sep u (clone d ctx u).
Proof.
  intros d ctx u B x Hx Hin. destruct (clone_fresh _ _ _ B x Hin) as [A [_ R]].
  apply in_app_or in Hx. tauto.
Qed.

Theorem orig_unchanged_by_clone_edits : forall d ctx u es,
  bounded d ctx u = true -> wf ctx u = true -> clean u = true ->
  valid_edits u (clone d ctx u) es -> apply_edits es u = u.
Proof. intros. eapply independent; [eapply sep_clone_orig|]; eassumption. Qed.

Theorem clone_unchanged_by_orig_edits : forall d ctx u es,
  bounded d ctx u = true ->
  valid_edits (clone d ctx u) u es -> apply_edits es (clone d ctx u) = clone d ctx u.
Proof. intros. eapply independent; [eapply sep_orig_clone|]; eassumption. Qed.
