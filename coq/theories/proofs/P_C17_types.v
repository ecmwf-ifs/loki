(** C17 — the types read by the symbols are invariant under renaming of scope objects (and do not depend on
    links / symbols inside types), hence the symbols of the clone read the same types as those of the original. *)
From Coq Require Import ZArith List Bool String Lia.
From LV Require Import Base.ListFacts models.M_C17 proofs.P_C17.
Import ListNotations.
Open Scope Z_scope.

(** the common shape of [rename f] and [skeleton]: ids through [f], table entries through [g];
    one induction ([chain_at_gmap]) then serves both *)
Fixpoint gmap (f : sid -> sid) (g : string * entry -> string * entry) (u : unit) : unit :=
  match u with
  | Unit i k nm par tab occs ch =>
      Unit (f i) k nm (option_map f par) (map g tab) (map (map_occ f) occs) (map (gmap f g) ch)
  end.

Definition tag_preserving (g : string * entry -> string * entry) : Prop :=
  forall ne, fst (g ne) = fst ne /\ e_tag (snd (g ne)) = e_tag (snd ne).

Lemma rename_gmap : forall f u, rename f u = gmap f (map_entry f) u.
Proof.
  intros f u. induction u as [i k nm p tab occs ch IH] using unit_ind'. simpl. f_equal.
  apply map_ext_Forall. exact IH.
Qed.

Lemma map_occ_id : forall o, map_occ (fun x => x) o = o.
Proof. intros [n [r|]]; reflexivity. Qed.

Lemma skeleton_gmap : forall u, skeleton u = gmap (fun x => x) skel_entry u.
Proof.
  intros u. induction u as [i k nm p tab occs ch IH] using unit_ind'. simpl. f_equal.
  - destruct p; reflexivity.
  - rewrite <- (map_id occs) at 1. apply map_ext. intros o. symmetry. apply map_occ_id.
  - apply map_ext_Forall. exact IH.
Qed.

Lemma map_entry_tag : forall f, tag_preserving (map_entry f).
Proof. intros f [n e]. split; reflexivity. Qed.
Lemma skel_entry_tag : tag_preserving skel_entry.
Proof. intros [n e]. split; reflexivity. Qed.

Definition tab_sim (t t' : table) : Prop := forall n, option_map e_tag (tget t n) = option_map e_tag (tget t' n).
Definition chain_sim (c c' : chain) : Prop := Forall2 (fun x y => tab_sim (snd x) (snd y)) c c'.

Lemma tab_sim_map : forall g t, tag_preserving g -> tab_sim t (map g t).
Proof.
  intros g t Hg n. induction t as [|[k v] r IH]; simpl; [reflexivity|].
  destruct (Hg (k, v)) as [A B]. destruct (g (k, v)) as [k' v'] eqn:E. simpl in A, B. subst k'.
  destruct (String.eqb k n); simpl; [rewrite B; reflexivity | exact IH].
Qed.

Lemma lookup_entry_sim : forall c c' n, chain_sim c c' ->
  option_map e_tag (lookup_entry c n) = option_map e_tag (lookup_entry c' n).
Proof.
  intros c c' n H. induction H as [|[i t] [i' t'] r r' Ht Hr IH]; simpl; [reflexivity|].
  simpl in Ht. specialize (Ht n).
  destruct (tget t n) as [e|], (tget t' n) as [e'|]; simpl in *; try discriminate; [exact Ht | exact IH].
Qed.

Lemma chain_sim_refl : forall c, chain_sim c c.
Proof. induction c; constructor; [intro n; reflexivity | assumption]. Qed.

Definition opt_sim (a b : option chain) : Prop :=
  match a, b with Some c, Some c' => chain_sim c c' | None, None => True | _, _ => False end.

(** [chain_at] with its inner loop named *)
Fixpoint first_chain (cc : chain) (l : list unit) (i : sid) : option chain :=
  match l with
  | [] => None
  | x :: r => match chain_at cc x i with Some z => Some z | None => first_chain cc r i end
  end.
Lemma chain_at_unfold : forall above j k nm p tab occs ch i,
  chain_at above (Unit j k nm p tab occs ch) i =
  if j =? i then Some ((j, tab) :: above) else first_chain ((j, tab) :: above) ch i.
Proof.
  intros. simpl. destruct (j =? i); [reflexivity|].
  induction ch as [|c r IH]; [reflexivity|]. simpl. destruct (chain_at ((j, tab) :: above) c i); [reflexivity | exact IH].
Qed.

Lemma chain_at_gmap : forall f g i, tag_preserving g -> forall u above above',
  chain_sim above above' ->
  (forall j, In j (ids u) -> f j = f i -> j = i) ->
  opt_sim (chain_at above u i) (chain_at above' (gmap f g u) (f i)).
Proof.
  intros f g i Hg u. induction u as [j k nm p tab occs ch IH] using unit_ind'.
  intros above above' S Inj. cbn [gmap]. rewrite !chain_at_unfold.
  (* the list is spelled with explicit types: [chain] and [list (Z * table)] do not unify on their own here *)
  assert (Sc : chain_sim ((j, tab) :: above) (@cons (sid * table) (@pair sid table (f j) (map g tab)) above')).
  { constructor; [simpl; apply tab_sim_map; exact Hg | exact S]. }
  destruct (j =? i) eqn:E.
  - apply Z.eqb_eq in E. subst j. rewrite Z.eqb_refl. exact Sc.
  - assert (E' : (f j =? f i) = false).
    { apply Z.eqb_neq. intro H. apply Z.eqb_neq in E. apply E. apply Inj; [simpl; left; reflexivity | exact H]. }
    rewrite E'.
    assert (Inj' : forall c, In c ch -> forall j0, In j0 (ids c) -> f j0 = f i -> j0 = i).
    { intros c Hc j0 Hj0. apply Inj. simpl. right. apply in_flat_map. exists c. split; assumption. }
    clear Inj E E'. induction ch as [|c r IHr]; [exact I|].
    inversion IH as [|? ? IHc IHrest]; subst.
    specialize (IHc _ _ Sc (Inj' c (or_introl eq_refl))).
    cbn [map first_chain].
    destruct (chain_at ((j, tab) :: above) c i) as [z|] eqn:E1;
      destruct (chain_at (@cons (sid * table) (@pair sid table (f j) (map g tab)) above') (gmap f g c) (f i)) as [z'|] eqn:E2;
      simpl in IHc; try contradiction.
    + exact IHc.
    + apply IHr; [exact IHrest|]. intros c0 Hc0. apply Inj'. right. exact Hc0.
Qed.

Lemma all_occs_gmap : forall f g u, all_occs (gmap f g u) = map (map_occ f) (all_occs u).
Proof.
  intros f g u. induction u as [i k nm p tab occs ch IH] using unit_ind'. simpl.
  rewrite map_app. f_equal. rewrite flat_map_map, map_flat_map. apply flat_map_ext_Forall. exact IH.
Qed.

Lemma all_occs_refs : forall u o i, In o (all_occs u) -> o_ref o = Some i -> In i (refs u).
Proof.
  intros u. induction u as [j k nm p tab occs ch IH] using unit_ind'. intros o i Ho E. simpl in Ho |- *.
  apply in_app_or in Ho. apply in_or_app. right. apply in_or_app. right. destruct Ho as [Ho|Ho].
  - apply in_or_app. left. unfold occ_refs. apply in_flat_map. exists o. split; [exact Ho|]. rewrite E. simpl. left. reflexivity.
  - apply in_or_app. right. apply in_flat_map in Ho. destruct Ho as [c [Hc Ho]]. apply in_flat_map. exists c. split; [exact Hc|].
    rewrite Forall_forall in IH. eapply IH; eassumption.
Qed.

Lemma first_chain_None cc l i : first_chain cc l i = None <-> Forall (fun c => chain_at cc c i = None) l.
Proof.
  induction l as [|c r IH]; cbn [first_chain]; [split; auto|].
  rewrite Forall_cons_iff, <- IH. destruct (chain_at cc c i); [|tauto].
  split; [discriminate|]. intros [H _]. discriminate H.
Qed.

(** a scope has a chain exactly when it is one of the unit's scope objects *)
Lemma chain_at_None_iff : forall u above i, chain_at above u i = None <-> ~ In i (ids u).
Proof.
  intros u. induction u as [j k nm p tab occs ch IH] using unit_ind'. intros above i.
  rewrite chain_at_unfold. cbn [ids In]. destruct (j =? i) eqn:E.
  - apply Z.eqb_eq in E. split; [discriminate|tauto].
  - apply Z.eqb_neq in E. rewrite first_chain_None, in_flat_map, Forall_forall. rewrite Forall_forall in IH.
    split.
    + intros H [E'|(c & Hc & Hi)]; [contradiction|]. now apply (proj1 (IH c Hc _ i) (H c Hc)).
    + intros H c Hc. apply (IH c Hc). intros Hi. apply H. right. eauto.
Qed.

Lemma chain_at_Some_ids : forall u above i c, chain_at above u i = Some c -> In i (ids u).
Proof.
  intros u above i c H. destruct (in_dec Z.eq_dec i (ids u)) as [Hin|Hn]; [exact Hin|].
  apply (chain_at_None_iff u above i) in Hn. congruence.
Qed.

(** the types read by all symbol occurrences are invariant under a tag-preserving map that is injective where it matters *)
Theorem occ_types_gmap : forall f g ctx u, tag_preserving g ->
  (forall i, In i (refs u) -> (forall j, In j (ids u) -> f j = f i -> j = i) /\ (~ In i (ids u) -> f i = i)) ->
  occ_types ctx (gmap f g u) = occ_types ctx u.
Proof.
  intros f g ctx u Hg H. unfold occ_types. rewrite all_occs_gmap, map_map.
  apply map_ext_in. intros o Ho. simpl.
  destruct (o_ref o) as [i|] eqn:E; [|reflexivity]. simpl.
  destruct (H i (all_occs_refs _ _ _ Ho E)) as [Inj Fix].
  pose proof (chain_at_gmap f g i Hg u ctx ctx (chain_sim_refl ctx) Inj) as S.
  destruct (chain_at ctx u i) as [c|] eqn:E1, (chain_at ctx (gmap f g u) (f i)) as [c'|] eqn:E2; simpl in S; try contradiction.
  - symmetry. apply lookup_entry_sim. exact S.
  - rewrite Fix; [reflexivity|]. now apply (chain_at_None_iff u ctx i).
Qed.

Lemma occ_types_skeleton : forall ctx u, occ_types ctx (skeleton u) = occ_types ctx u.
Proof.
  intros ctx u. rewrite skeleton_gmap. apply occ_types_gmap; [apply skel_entry_tag|].
  intros i _. split; [intros j _ E; exact E | reflexivity].
Qed.

Lemma ren_conditions : forall d ctx u, bounded d ctx u = true ->
  forall i, In i (refs u) ->
    (forall j, In j (ids u) -> ren d (ids u) j = ren d (ids u) i -> j = i) /\ (~ In i (ids u) -> ren d (ids u) i = i).
Proof.
  intros d ctx u B i Hi. destruct (bounded_parts _ _ _ B) as [Hid [Hr _]]. split.
  - intros j Hj E. rewrite (ren_in d _ j Hj) in E. unfold ren in E. destruct (memZ i (ids u)); [lia|].
    specialize (Hid j Hj). specialize (Hr i Hi). lia.
  - intro Hn. apply ren_out. exact Hn.
Qed.

(** every symbol occurrence of the clone reads the type the corresponding symbol of the original reads
    (well-scoped units; links and symbols inside types play no role) *)
Theorem clone_types_equal : forall d ctx u,
  bounded d ctx u = true -> wf ctx u = true ->
  occ_types ctx (clone d ctx u) = occ_types ctx u.
Proof.
  intros d ctx u B W.
  rewrite <- occ_types_skeleton, (clone_skeleton_iso _ _ _ B W), occ_types_skeleton, rename_gmap.
  apply occ_types_gmap; [apply map_entry_tag | apply ren_conditions with (ctx := ctx); exact B].
Qed.
