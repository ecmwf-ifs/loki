(** C17 — concrete witnesses: where the real clone keeps pointers into the original, and a non-trivial instance of the class. *)
From Coq Require Import ZArith List Bool String Lia.
From LV Require Import models.M_C17 proofs.P_C17 proofs.P_C17_indep.
Import ListNotations.
Open Scope Z_scope.
Open Scope string_scope.

Definition ent (tag : Z) (trs : list tref) : entry := {| e_tag := tag; e_link := LNone; e_trefs := trs |}.
Definition tr (n : string) (r : Z) (b : bool) : tref := {| tr_name := n; tr_ref := Some r; tr_resc := b |}.
Definition oc (n : string) (r : Z) : occ := {| o_name := n; o_ref := Some r |}.

(** subroutine s(n, a); real :: a(n); associate(b => a); b(1) = n; end associate
    — the type of [b] is derived from the type of [a]: its shape holds the symbol [n] attached to s *)
Definition w_assoc : unit :=
  Unit 0 KSub "s" None
       [("a", ent 1 [tr "n" 0 true]); ("n", ent 2 [])]
       [oc "n" 0; oc "a" 0; oc "n" 0]
       [Unit 1 KAssoc "" (Some 0) [("b", ent 1 [tr "n" 0 false])] [oc "a" 0; oc "b" 1; oc "b" 1; oc "n" 0] []].

(** module m; type tt; real :: r; end type; type(tt) :: x; end module
    — the dtype of [tt] and of [x] points to the TypeDef node *)
Definition w_typedef : unit :=
  Unit 0 KMod "m" None
       [("tt", {| e_tag := 1; e_link := LType 1; e_trefs := [] |}); ("x", {| e_tag := 2; e_link := LType 1; e_trefs := [] |})]
       [oc "x" 0]
       [Unit 1 KTypedef "tt" (Some 0) [("r", ent 3 [])] [oc "r" 1] []].

(** subroutine s(n, c); character(len=n) :: c — the length is not among the re-attached attributes *)
Definition w_charlen : unit :=
  Unit 0 KSub "s" None [("c", ent 1 [tr "n" 0 false]); ("n", ent 2 [])] [oc "n" 0; oc "c" 0; oc "n" 0; oc "c" 0] [].

Lemma w_assoc_in_scope : bounded 10 [] w_assoc = true /\ wf [] w_assoc = true.
Proof. split; vm_compute; reflexivity. Qed.

(** well-scoped units whose clone still mentions scope objects of the original *)
Lemma clone_closed_refuted :
  (exists d ctx u, bounded d ctx u = true /\ wf ctx u = true /\ exists r, In r (refs (clone d ctx u)) /\ In r (ids u) /\ u = w_assoc) /\
  (exists d ctx u, bounded d ctx u = true /\ wf ctx u = true /\ exists r, In r (refs (clone d ctx u)) /\ In r (ids u) /\ u = w_typedef) /\
  (exists d ctx u, bounded d ctx u = true /\ wf ctx u = true /\ exists r, In r (refs (clone d ctx u)) /\ In r (ids u) /\ u = w_charlen).
Proof.
  assert (W : forall u r, bounded 10 [] u = true -> wf [] u = true ->
                          In r (refs (clone 10 [] u)) -> In r (ids u) ->
                          exists d ctx u', bounded d ctx u' = true /\ wf ctx u' = true /\
                                           exists r, In r (refs (clone d ctx u')) /\ In r (ids u') /\ u' = u).
  { intros u r B Wf Hr Hi. exists 10, [], u. split; [exact B|]. split; [exact Wf|]. exists r. auto. }
  split; [|split]; [apply (W w_assoc 0)|apply (W w_typedef 1)|apply (W w_charlen 0)];
    try (vm_compute; reflexivity); vm_compute; tauto.
Qed.

(** ... and then independence fails: setting a type through the shape symbol of the CLONE's [b] (attached to the
    original s) rewrites the table of the original *)
Lemma clone_independence_refuted :
  exists e, valid_edits w_assoc (clone 10 [] w_assoc) [e] /\ apply_edits [e] w_assoc <> w_assoc.
Proof.
  exists (ESetEntry 0 "n" (ent 99 [])). split.
  - constructor; [vm_compute; tauto | intros r H; vm_compute in H; contradiction | constructor].
  - vm_compute. intro H. discriminate H.
Qed.

(** a non-trivial member of the class: module with a variable, a routine with a member procedure, host association,
    shadowing and an ASSOCIATE over a scalar; cloning the routine alone (the module is the context) *)
Definition ex_ctx : chain := [(5, [("v", ent 7 []); ("s", {| e_tag := 8; e_link := LProc 0; e_trefs := [] |})])].
Definition ex_unit : unit :=
  Unit 0 KSub "s" (Some 5)
       [("a", ent 1 [tr "n" 0 true]); ("n", ent 2 []); ("mem", {| e_tag := 3; e_link := LProc 2; e_trefs := [] |})]
       [oc "n" 0; oc "a" 0; oc "n" 0; oc "v" 5; oc "mem" 0]
       [Unit 1 KAssoc "" (Some 0) [("q", ent 2 [])] [oc "n" 0; oc "q" 1; oc "q" 1; oc "v" 5] [];
        Unit 2 KSub "mem" (Some 0) [("x", ent 1 [tr "n" 0 true]); ("a", ent 4 [])] [oc "x" 2; oc "n" 0; oc "a" 2; oc "v" 5] []].

Example c17_nonvacuous :
  bounded 10 ex_ctx ex_unit = true /\ wf ex_ctx ex_unit = true /\ clean ex_unit = true /\
  clone 10 ex_ctx ex_unit <> ex_unit /\
  valid_edits ex_unit (clone 10 ex_ctx ex_unit) [ESetEntry 12 "x" (ent 9 []); EAddOcc 10 (oc "x" 12); ESetEntry 5 "v" (ent 6 [])].
Proof.
  repeat split; try (vm_compute; reflexivity).
  - vm_compute. intro H. discriminate H.
  - repeat (constructor; [vm_compute; tauto | intros r H; vm_compute in H; try contradiction; intro H'; vm_compute in H'; intuition lia |]).
    constructor.
Qed.
