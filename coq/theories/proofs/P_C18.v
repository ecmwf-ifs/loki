(** C18 — the loaded unit: new scope objects, every pointer inside the loaded unit (or a detached copy),
    loading = renaming on the class, same types read.  Defines [chain_keys]. *)
From Coq Require Import ZArith List Bool String Lia.
From LV Require Import Base.ListFacts models.M_C17 models.M_C18 proofs.P_C17 proofs.P_C17_types.
Import ListNotations.
Open Scope Z_scope.

Lemma getstate_id : forall u, u_id (getstate u) = u_id u. Proof. destruct u; reflexivity. Qed.
Lemma getstate_kind : forall u, u_kind (getstate u) = u_kind u. Proof. destruct u; reflexivity. Qed.
Lemma getstate_name : forall u, u_name (getstate u) = u_name u. Proof. destruct u; reflexivity. Qed.

Lemma ids_getstate : forall u, ids (getstate u) = ids u.
Proof.
  intros u. induction u as [i k nm p tab occs ch IH] using unit_ind'. simpl. f_equal.
  rewrite flat_map_map. apply flat_map_ext_Forall. exact IH.
Qed.

Lemma member_id_getstate : forall ch n, member_id (map getstate ch) n = member_id ch n.
Proof.
  induction ch as [|u r IH]; intros n; simpl; [reflexivity|].
  rewrite getstate_kind, getstate_name, getstate_id, IH. reflexivity.
Qed.

Lemma ids_setstate_u : forall d own u above par, ids (setstate_u d own above par u) = map (fun i => i + d) (ids u).
Proof.
  intros d own u. induction u as [i k nm p tab occs ch IH] using unit_ind'. intros above par.
  simpl. f_equal. rewrite flat_map_map, map_flat_map. apply flat_map_ext_Forall.
  eapply Forall_impl; [|exact IH]. intros c Hc. simpl in Hc.
  destruct (is_proc_kind k && is_proc_kind (u_kind c)); apply Hc.
Qed.

Theorem unpickle_fresh : forall d u, ids (unpickle d u) = map (fun i => i + d) (ids u).
Proof. intros. unfold unpickle. rewrite ids_setstate_u, ids_getstate. reflexivity. Qed.

Lemma lookup_scope_In : forall c n j, lookup_scope c n = Some j -> In j (map fst c).
Proof.
  induction c as [|[i t] r IH]; simpl; intros n j H; [discriminate|].
  destruct (thas t n); [inversion H; left; reflexivity | right; eapply IH; exact H].
Qed.

Lemma opt_lookup_In : forall c n r, In r (opt_list (lookup_scope c n)) -> In r (map fst c).
Proof.
  intros c n r H. destruct (lookup_scope c n) as [x|] eqn:E; simpl in H; [|contradiction].
  destruct H as [H|[]]. subst r. eapply lookup_scope_In. exact E.
Qed.

Lemma link_ids_set_link d own ch n l r :
  In r (link_ids (set_link d own ch n l)) ->
  In r (map (fun i => i + d) (flat_map ids ch)) \/ In r (map (fun i => i + d) own) \/ r = foreign.
Proof.
  unfold set_link. destruct (member_id ch n) as [j|] eqn:Em.
  - intros [<-|[]]. left. apply (in_map (fun i => i + d)). eapply member_id_In, Em.
  - destruct l as [|x|x]; try contradiction.
    destruct (memZ x own) eqn:Mx; intros [<-|[]]; [|now right; right].
    right. left. apply (in_map (fun i => i + d)). now apply memZ_In.
Qed.

(** what a loaded unit points to: its given parent, the scopes above it, new objects, detached copies *)
Lemma refs_setstate_getstate : forall d own u above par r,
  (forall j, In j (ids u) -> In j own) ->
  In r (refs (setstate_u d own above par (getstate u))) ->
  In r (opt_list par) \/ In r (map fst above) \/ In r (map (fun i => i + d) own) \/ r = foreign.
Proof.
  intros d own u. induction u as [i k nm p tab occs ch IH] using unit_ind'. intros above par r Hsub H.
  cbn [getstate setstate_u] in H.
  assert (Hi : In (i + d) (map (fun i => i + d) own)) by (apply (in_map (fun i => i + d)), Hsub; now left).
  assert (Hc : forall n, In r (opt_list (lookup_scope ((i + d, map strip_entry tab) :: above) n)) ->
               In r (opt_list par) \/ In r (map fst above) \/ In r (map (fun i => i + d) own) \/ r = foreign).
  { intros n Hn. apply opt_lookup_In in Hn as [<-|Hn]; auto. }
  apply (in_refs_cases _ _ _ _ _ _ _ _ _ H); clear H; intros H.
  - now left.
  - unfold table_refs in H. rewrite !flat_map_map in H. apply in_flat_map in H as ([n e] & _ & H).
    unfold set_entry, strip_entry, entry_refs in H. cbn [fst snd e_link e_trefs] in H.
    apply in_app_or in H as [H|H].
    + apply link_ids_set_link in H as [H|H]; [|auto]. right. right. left.
      apply in_map_iff in H as (j & <- & Hj). apply (in_map (fun i => i + d)), Hsub. right.
      rewrite flat_map_map in Hj. apply in_flat_map in Hj as (c & Hc' & Hj). rewrite ids_getstate in Hj.
      apply in_flat_map. eauto.
    + rewrite !flat_map_map in H. apply in_flat_map in H as (t & _ & H).
      unfold set_tref, strip_tref in H. cbn [tr_resc tr_name] in H.
      destruct (tr_resc t); cbn [tr_ref] in H; [now apply (Hc (tr_name t))|contradiction].
  - unfold occ_refs in H. rewrite !flat_map_map in H. apply in_flat_map in H as (o & _ & H).
    now apply (Hc (o_name o)).
  - rewrite !flat_map_map in H. apply in_flat_map in H as (c & Hc' & H). rewrite Forall_forall in IH.
    assert (Hs : forall j, In j (ids c) -> In j own) by (intros j Hj; apply Hsub; right; apply in_flat_map; eauto).
    destruct (is_proc_kind k && is_proc_kind (u_kind (getstate c))); apply (IH c Hc' _ _ r Hs) in H.
    + (* member procedure of a subroutine: empty chain, no parent *)
      destruct H as [[]|[[]|H]]. auto.
    + (* any other child: parent [i + d], chain extended by this scope *)
      destruct H as [[<-|[]]|[[<-|H]|H]]; auto.
Qed.

Theorem unpickle_closed : forall d u r,
  In r (refs (unpickle d u)) -> In r (ids (unpickle d u)) \/ r = foreign.
Proof.
  intros d u r H. apply (refs_setstate_getstate d (ids u) u [] None r (fun j Hj => Hj)) in H.
  rewrite unpickle_fresh. destruct H as [[]|[[]|H]]. exact H.
Qed.

(** same scope ids, same sets of declared names: all that [lookup_scope] looks at *)
Definition chain_keys (c c' : chain) : Prop :=
  Forall2 (fun x y => fst x = fst y /\ forall n, thas (snd x) n = thas (snd y) n) c c'.

Lemma lookup_scope_keys : forall c c' n, chain_keys c c' -> lookup_scope c n = lookup_scope c' n.
Proof.
  intros c c' n H. induction H as [|[i t] [i' t'] r r' [E Ht] Hr IH]; simpl; [reflexivity|].
  simpl in E, Ht. subst i'. rewrite Ht, IH. reflexivity.
Qed.

Lemma thas_strip : forall t n, thas (map strip_entry t) n = thas t n.
Proof.
  intros t n. unfold thas. induction t as [|[k v] r IH]; simpl; [reflexivity|].
  destruct (String.eqb k n); [reflexivity | exact IH].
Qed.

Lemma set_occ_ren : forall d own c c' o,
  chain_keys c' (ren_chain (ren d own) c) -> wfp_ref c (o_name o) (o_ref o) = true ->
  set_occ c' (strip_occ o) = map_occ (ren d own) o.
Proof.
  intros d own c c' o K W. unfold set_occ, strip_occ, map_occ. cbn [o_name].
  rewrite (lookup_scope_keys _ _ _ K), lookup_scope_ren.
  unfold wfp_ref in W. apply opt_sid_eqb_eq in W. rewrite W. reflexivity.
Qed.

Lemma set_tref_ren : forall d own c c' t,
  chain_keys c' (ren_chain (ren d own) c) -> wfp_tref c t = true -> cleanp_tref t = true ->
  set_tref c' (strip_tref t) = map_tref (ren d own) t.
Proof.
  intros d own c c' [n r b] K W C. unfold set_tref, strip_tref, map_tref, wfp_tref, cleanp_tref in *. cbn in *.
  destruct b; cbn in *.
  - rewrite (lookup_scope_keys _ _ _ K), lookup_scope_ren. unfold wfp_ref in W. apply opt_sid_eqb_eq in W. rewrite W. reflexivity.
  - destruct r; [discriminate | reflexivity].
Qed.

Lemma set_link_ren : forall d own ch n l,
  (forall j, In j (flat_map ids ch) -> In j own) ->
  cleanp_link own ch n l = true ->
  set_link d own (map getstate ch) n (strip_link l) = map_link (ren d own) l.
Proof.
  intros d own ch n l Hsub C. unfold set_link. rewrite member_id_getstate.
  destruct l as [|i|i]; simpl in *; destruct (member_id ch n) as [j|] eqn:E; try discriminate.
  - reflexivity.
  - apply Z.eqb_eq in C. subst i. rewrite ren_in; [reflexivity|]. apply Hsub. eapply member_id_In. exact E.
  - rewrite C. apply memZ_In in C. rewrite ren_in by assumption. reflexivity.
Qed.

(** The same induction as [P_C17.clone_u_rename], but not an instance of it: the chain carries the stripped
    tables (hence [chain_keys]) and the parent is dropped for member procedures.
    On self-contained units without member procedures, loading is the renaming of the unit's scopes: always on the
    skeleton, and on the whole unit when nothing is present that the hooks do not rebuild *)
Lemma setstate_rename : forall d own u above above' par,
  (forall i, In i (ids u) -> In i own) ->
  chain_keys above' (ren_chain (ren d own) above) ->
  wfp_u above par u = true -> no_sub_members u = true ->
  skeleton (setstate_u d own above' (option_map (ren d own) par) (getstate u)) = skeleton (rename (ren d own) u) /\
  (cleanp_u own u = true ->
   setstate_u d own above' (option_map (ren d own) par) (getstate u) = rename (ren d own) u).
Proof.
  intros d own u. induction u as [i k nm p tab occs ch IH] using unit_ind'.
  intros above above' par Hsub K W N. simpl in W, N.
  rewrite !andb_true_iff, !forallb_forall in W. destruct W as (((Wp & Wocc) & Wtab) & Wch).
  apply opt_sid_eqb_eq in Wp. subst p. rewrite forallb_forall in N.
  assert (Hi : ren d own i = i + d) by (apply ren_in, Hsub; now left).
  assert (K' : chain_keys ((i + d, map strip_entry tab) :: above') (ren_chain (ren d own) ((i, tab) :: above))).
  { rewrite ren_chain_cons, Hi. constructor; [split; [reflexivity | intro n; apply thas_strip] | exact K]. }
  assert (Hocc : map (set_occ ((i + d, map strip_entry tab) :: above')) (map strip_occ occs) = map (map_occ (ren d own)) occs).
  { rewrite map_map. apply map_ext_in. intros o Ho. eapply set_occ_ren; [exact K'|apply Wocc, Ho]. }
  rewrite Forall_forall in IH.
  assert (Hch : forall c, In c ch ->
            let v := if is_proc_kind k && is_proc_kind (u_kind (getstate c))
                     then setstate_u d own [] None (getstate c)
                     else setstate_u d own ((i + d, map strip_entry tab) :: above') (Some (i + d)) (getstate c) in
            skeleton v = skeleton (rename (ren d own) c) /\ (cleanp_u own c = true -> v = rename (ren d own) c)).
  { intros c Hc. specialize (N c Hc). apply andb_true_iff in N as [N1 N2].
    rewrite getstate_kind. apply negb_true_iff in N1. rewrite N1. cbv zeta.
    replace (Some (i + d)) with (option_map (ren d own) (Some i)) by (cbn; now rewrite Hi).
    apply (IH c Hc ((i, tab) :: above)); [|exact K'|apply Wch, Hc|exact N2].
    intros j Hj. apply Hsub. right. apply in_flat_map. eauto. }
  cbn [getstate setstate_u skeleton rename]. rewrite Hi. split.
  - f_equal.
    + rewrite !map_map. apply map_ext. now intros [n e].
    + exact Hocc.
    + rewrite !map_map. apply map_ext_in. intros c Hc. apply (Hch c Hc).
  - intros C. simpl in C. rewrite andb_true_iff, !forallb_forall in C. destruct C as [Ctab Cch]. f_equal.
    + rewrite map_map. apply map_ext_in. intros [n e] Hin.
      specialize (Wtab _ Hin). specialize (Ctab _ Hin). cbn [fst snd] in Wtab, Ctab.
      apply andb_true_iff in Ctab as [Cl Ct]. rewrite forallb_forall in Wtab, Ct.
      unfold set_entry, strip_entry, map_entry. cbn [fst snd e_tag e_link e_trefs]. f_equal. f_equal.
      * apply set_link_ren; [|exact Cl]. intros j Hj. apply Hsub. now right.
      * rewrite map_map. apply map_ext_in. intros t Ht.
        eapply set_tref_ren; [exact K'|apply Wtab, Ht|apply Ct, Ht].
    + exact Hocc.
    + rewrite map_map. apply map_ext_in. intros c Hc. apply (Hch c Hc), Cch, Hc.
Qed.

Lemma unpickle_rename : forall d u,
  self_contained u = true -> no_sub_members u = true ->
  skeleton (unpickle d u) = skeleton (rename (ren d (ids u)) u) /\
  (cleanp u = true -> unpickle d u = rename (ren d (ids u)) u).
Proof.
  intros d u S N. unfold unpickle, self_contained, cleanp in *.
  change None with (option_map (ren d (ids u)) (@None sid)).
  apply (setstate_rename d (ids u) u [] [] None); [auto | constructor | exact S | exact N].
Qed.

Theorem unpickle_skeleton_iso : forall d u,
  self_contained u = true -> no_sub_members u = true ->
  skeleton (unpickle d u) = skeleton (rename (ren d (ids u)) u).
Proof. intros d u S N. exact (proj1 (unpickle_rename d u S N)). Qed.

Theorem unpickle_iso : forall d u,
  self_contained u = true -> no_sub_members u = true -> cleanp u = true ->
  unpickle d u = rename (ren d (ids u)) u.
Proof. intros d u S N. exact (proj2 (unpickle_rename d u S N)). Qed.

Theorem unpickle_types_equal : forall d u,
  bounded d [] u = true -> self_contained u = true -> no_sub_members u = true ->
  occ_types [] (unpickle d u) = occ_types [] u.
Proof.
  intros d u B S N.
  rewrite <- occ_types_skeleton, (unpickle_skeleton_iso _ _ S N), occ_types_skeleton, rename_gmap.
  apply occ_types_gmap; [apply map_entry_tag | apply ren_conditions with (ctx := []); exact B].
Qed.
