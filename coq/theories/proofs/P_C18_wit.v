(** C18 — witnesses outside the class (member procedure, module procedure pickled alone, ASSOCIATE over an
    array) and a non-trivial member of the class ([ex18]). *)
From Coq Require Import ZArith List Bool String Lia.
From LV Require Import models.M_C17 models.M_C18 proofs.P_C17 proofs.P_C17_wit proofs.P_C18.
Import ListNotations.
Open Scope Z_scope.
Open Scope string_scope.

Definition pent (tag : Z) (j : Z) : entry := {| e_tag := tag; e_link := LProc j; e_trefs := [] |}.

(** subroutine s(n, a); real :: a(n); call mem(a); contains; subroutine mem(x); real :: x(n); x(1) = n; end; end *)
Definition w_member : unit :=
  Unit 0 KSub "s" None
       [("a", ent 2 [tr "n" 0 true]); ("mem", pent 3 1); ("n", ent 1 [])]
       [oc "n" 0; oc "a" 0; oc "n" 0; oc "mem" 0; oc "a" 0]
       [Unit 1 KSub "mem" (Some 0) [("x", ent 2 [tr "n" 0 true])] [oc "x" 1; oc "n" 0; oc "x" 1; oc "n" 0] []].

(** the member procedure comes back without its parent: the host-associated symbols are attached to nothing and have no type *)
Lemma unpickle_member_refuted :
  bounded 10 [] w_member = true /\ self_contained w_member = true /\ cleanp w_member = true /\
  skeleton (unpickle 10 w_member) <> skeleton (rename (ren 10 (ids w_member)) w_member) /\
  occ_types [] (unpickle 10 w_member) <> occ_types [] w_member /\
  (exists c, In c (u_children (unpickle 10 w_member)) /\ u_par c = None).
Proof.
  repeat split; try (vm_compute; reflexivity).
  - vm_compute. intro H. discriminate H.
  - vm_compute. intro H. discriminate H.
  - exists (hd w_member (u_children (unpickle 10 w_member))). split; vm_compute; [left|]; reflexivity.
Qed.

(** a module procedure pickled on its own: the module is not pickled, the module variable [v] has no type afterwards *)
Definition wc_ctx : chain := [(5, [("v", ent 7 []); ("r", pent 8 0)])].
Definition w_contained : unit :=
  Unit 0 KSub "r" (Some 5) [("k", ent 1 [])] [oc "k" 0; oc "k" 0; oc "v" 5] [].

Lemma unpickle_contained_refuted :
  bounded 10 wc_ctx w_contained = true /\ wf wc_ctx w_contained = true /\ clean w_contained = true /\
  occ_types wc_ctx (unpickle 10 w_contained) <> occ_types wc_ctx w_contained.
Proof. repeat split; try (vm_compute; reflexivity). vm_compute. intro H. discriminate H. Qed.

(** ASSOCIATE over an array: the symbols inside the derived type of the associate name come back attached to nothing
    (the occurrences in the IR are fine: the skeleton statement holds) *)
Lemma unpickle_iso_refuted_assoc :
  self_contained w_assoc = true /\ no_sub_members w_assoc = true /\
  unpickle 10 w_assoc <> rename (ren 10 (ids w_assoc)) w_assoc.
Proof. repeat split; try (vm_compute; reflexivity). vm_compute. intro H. discriminate H. Qed.

(** a non-trivial member of the class: module with a derived type, a variable of that type, two module procedures
    (one calls the other), an ASSOCIATE over a scalar *)
Definition ex18 : unit :=
  Unit 0 KMod "m" None
       [("tt", {| e_tag := 1; e_link := LType 1; e_trefs := [] |}); ("x", {| e_tag := 2; e_link := LType 1; e_trefs := [] |});
        ("jp", ent 3 []); ("p", pent 4 2); ("q", pent 5 4)]
       [oc "jp" 0; oc "x" 0]
       [Unit 1 KTypedef "tt" (Some 0) [("r", ent 6 [tr "jp" 0 true])] [oc "r" 1; oc "jp" 0] [];
        Unit 2 KSub "p" (Some 0) [("a", ent 6 [tr "jp" 0 true]); ("x%r", ent 6 [])] [oc "a" 2; oc "jp" 0; oc "x" 0; oc "x%r" 2; oc "q" 0]
             [Unit 3 KAssoc "" (Some 2) [("z", ent 7 [])] [oc "a" 2; oc "z" 3; oc "z" 3; oc "jp" 0] []];
        Unit 4 KFun "q" (Some 0) [("w", ent 7 [])] [oc "w" 4; oc "w" 4; oc "jp" 0] []].

Example c18_nonvacuous :
  bounded 10 [] ex18 = true /\ self_contained ex18 = true /\ no_sub_members ex18 = true /\ cleanp ex18 = true /\
  unpickle 10 ex18 <> ex18.
Proof. repeat split; try (vm_compute; reflexivity). vm_compute. intro H. discriminate H. Qed.
