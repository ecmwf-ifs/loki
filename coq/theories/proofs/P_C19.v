(** C19, part (i): the parser-class bookkeeping of make_complete — lemmas and proofs. *)
From Coq Require Import NArith List Bool Arith Lia Permutation.
From LV Require Import Base.ListFacts models.M_C19.
Import ListNotations.

Lemma f_sub_spec : forall a b, f_sub a b = true <-> N.lor b a = b.
Proof. intros. unfold f_sub. apply N.eqb_eq. Qed.

Lemma f_union_comm : forall a b, f_union a b = f_union b a.
Proof. intros. apply N.lor_comm. Qed.
Lemma f_union_assoc : forall a b c, f_union a (f_union b c) = f_union (f_union a b) c.
Proof. intros. apply N.lor_assoc. Qed.
Lemma f_union_idem : forall a, f_union a a = a.
Proof. intros. apply N.lor_diag. Qed.
Lemma f_union_0_r : forall a, f_union a 0%N = a.
Proof. intros. apply N.lor_0_r. Qed.

Lemma f_sub_refl : forall a, f_sub a a = true.
Proof. intros. apply f_sub_spec. apply N.lor_diag. Qed.

Lemma f_sub_trans : forall a b c, f_sub a b = true -> f_sub b c = true -> f_sub a c = true.
Proof.
  intros a b c H1 H2. apply f_sub_spec in H1. apply f_sub_spec in H2. apply f_sub_spec.
  now rewrite <- H2, <- N.lor_assoc, H1.
Qed.

Lemma f_sub_union_l : forall a b, f_sub a (f_union a b) = true.
Proof.
  intros. apply f_sub_spec. unfold f_union.
  rewrite (N.lor_comm a b). rewrite <- N.lor_assoc. now rewrite N.lor_diag.
Qed.
Lemma f_sub_union_r : forall a b, f_sub b (f_union a b) = true.
Proof. intros. rewrite f_union_comm. apply f_sub_union_l. Qed.

Lemma f_sub_absorb : forall r g, f_sub r g = true -> f_union g r = g.
Proof. intros r g H. now apply f_sub_spec in H. Qed.

Lemma f_sub_union_mono : forall a b c, f_sub a b = true -> f_sub a (f_union b c) = true.
Proof. intros. eapply f_sub_trans; [eassumption | apply f_sub_union_l]. Qed.

Lemma has_pu_union_l : forall a b, has_pu a = true -> has_pu (f_union a b) = true.
Proof. intros. unfold has_pu in *. now apply f_sub_union_mono. Qed.
Lemma has_pu_union_r : forall a b, has_pu b = true -> has_pu (f_union a b) = true.
Proof. intros. rewrite f_union_comm. now apply has_pu_union_l. Qed.

Lemma fold_left_union : forall l g, fold_left f_union l g = f_union g (f_unions l).
Proof.
  induction l as [|a l IH]; intros g; cbn [fold_left f_unions fold_right].
  - now rewrite f_union_0_r.
  - rewrite IH. now rewrite f_union_assoc.
Qed.

Lemma f_unions_perm : forall l l', Permutation l l' -> f_unions l = f_unions l'.
Proof.
  induction 1; cbn [f_unions fold_right] in *.
  - reflexivity.
  - now f_equal.
  - rewrite !f_union_assoc. f_equal. apply f_union_comm.
  - congruence.
Qed.

Lemma f_sub_unions_in : forall r l, In r l -> f_sub r (f_unions l) = true.
Proof.
  induction l as [|a l IH]; intros H; [contradiction|].
  cbn [f_unions fold_right]. destruct H as [->|H].
  - apply f_sub_union_l.
  - eapply f_sub_trans; [apply IH, H | apply f_sub_union_r].
Qed.

(** a request addressed to the top of a chain whose units all carry [g]: all units carry [g ∪ r] afterwards,
    whether the call returned early or re-parsed *)
Lemma unit_req_uniform : forall n g r, unit_req 0 r (repeat g n) = repeat (f_union g r) n.
Proof.
  intros n g r. unfold unit_req. destruct n as [|n]; [reflexivity|].
  cbn [repeat nth_error].
  destruct (negb (N.eqb g 0) && f_sub r g) eqn:E.
  - apply andb_prop in E as [_ E]. now rewrite (f_sub_absorb _ _ E).
  - unfold reset_from. cbn [firstn app List.length]. rewrite Nat.sub_0_r.
    rewrite repeat_length. now rewrite (f_union_comm r g).
Qed.

Lemma step_uniform : forall n g f q,
  top_level q = true ->
  step {| h_file := f; h_disc := true; h_units := repeat g n |} q =
  {| h_file := match fst q with TFile => f_union f (snd q) | _ => f end;
     h_disc := true; h_units := repeat (f_union g (snd q)) n |}.
Proof.
  intros n g f [t r] Ht. destruct t as [|[|k]]; cbn in Ht; try discriminate; cbn [step fst snd h_disc h_file h_units orb].
  - now rewrite unit_req_uniform.
  - now rewrite unit_req_uniform.
Qed.

Definition file_classes (rs : list request) : flags :=
  f_unions (map snd (filter (fun q => match fst q with TFile => true | _ => false end) rs)).

Lemma run_uniform : forall n rs g f,
  forallb top_level rs = true ->
  fold_left step rs {| h_file := f; h_disc := true; h_units := repeat g n |} =
  {| h_file := f_union f (file_classes rs); h_disc := true; h_units := repeat (f_union g (req_classes rs)) n |}.
Proof.
  induction rs as [|q rs IH]; intros g f H.
  - cbn. unfold file_classes, req_classes. cbn. now rewrite !f_union_0_r.
  - cbn [forallb] in H. apply andb_prop in H as [Hq Hrs].
    cbn [fold_left]. rewrite step_uniform by assumption. rewrite IH by assumption.
    unfold req_classes, file_classes. cbn [map f_unions fold_right filter].
    destruct q as [[|k] r]; cbn [fst snd map f_unions fold_right];
      rewrite ?f_union_assoc; reflexivity.
Qed.

(** * the property on the class: requests addressed to the file or to the top-level unit, after an initial
      parse that contains ProgramUnitClass *)

(** on the class every unit of the chain carries [p0] ∪ all requested classes, whatever the order *)
Theorem run_top_level : forall n p0 rs,
  has_pu p0 = true -> forallb top_level rs = true ->
  run n p0 rs = {| h_file := f_union p0 (file_classes rs); h_disc := true;
                   h_units := repeat (f_union p0 (req_classes rs)) n |}.
Proof.
  intros n p0 rs Hp H. unfold run, init. rewrite Hp. now apply run_uniform.
Qed.

Lemma req_classes_single : forall t c, req_classes [(t, c)] = c.
Proof. intros. unfold req_classes. cbn [map snd f_unions fold_right]. apply f_union_0_r. Qed.

(** the final records of the units equal those after ONE request with the union of all classes *)
Theorem incremental_equals_single : forall n p0 rs,
  has_pu p0 = true -> forallb top_level rs = true ->
  h_units (run n p0 rs) = h_units (run n p0 [(TFile, req_classes rs)]) /\
  h_disc (run n p0 rs) = h_disc (run n p0 [(TFile, req_classes rs)]).
Proof.
  intros n p0 rs Hp H. rewrite (run_top_level n p0 rs Hp H).
  rewrite (run_top_level n p0 [(TFile, req_classes rs)] Hp eq_refl).
  cbn [h_units h_disc]. now rewrite req_classes_single.
Qed.

Lemma req_classes_perm : forall rs rs', Permutation rs rs' -> req_classes rs = req_classes rs'.
Proof. intros. unfold req_classes. apply f_unions_perm. now apply Permutation_map. Qed.

Lemma forallb_perm : forall (A : Type) (f : A -> bool) l l', Permutation l l' -> forallb f l = forallb f l'.
Proof.
  induction 1; cbn [forallb].
  - reflexivity.
  - now rewrite IHPermutation.
  - now rewrite !andb_assoc, (andb_comm (f y)).
  - congruence.
Qed.

(** ... hence any two orders of the same requests end in the same records *)
Theorem order_irrelevant_records : forall n p0 rs rs',
  has_pu p0 = true -> forallb top_level rs = true -> Permutation rs rs' ->
  h_units (run n p0 rs) = h_units (run n p0 rs') /\ h_disc (run n p0 rs) = h_disc (run n p0 rs').
Proof.
  intros n p0 rs rs' Hp H P.
  assert (H' : forallb top_level rs' = true) by now rewrite <- (forallb_perm _ _ _ _ P).
  rewrite (run_top_level n p0 rs Hp H), (run_top_level n p0 rs' Hp H'). cbn [h_units h_disc].
  now rewrite (req_classes_perm _ _ P).
Qed.

Section Parse.
  Variables text ir : Type.
  Variable parse : flags -> text -> ir.

  (** the IR after the whole history is the IR of a single parse with the union of everything requested *)
  Theorem incremental_order_irrelevant : forall (texts : list text) p0 rs,
    has_pu p0 = true -> forallb top_level rs = true ->
    final_ir parse texts (run (List.length texts) p0 rs) =
    Some (map (parse (f_union p0 (req_classes rs))) texts).
  Proof.
    intros texts p0 rs Hp H. rewrite (run_top_level _ p0 rs Hp H). unfold final_ir. cbn [h_disc h_units].
    f_equal. generalize (f_union p0 (req_classes rs)). intros g.
    induction texts as [|t ts IH]; cbn; [reflexivity|]. now rewrite IH.
  Qed.

  Corollary incremental_single_request : forall (texts : list text) p0 rs,
    has_pu p0 = true -> forallb top_level rs = true ->
    final_ir parse texts (run (List.length texts) p0 rs) =
    final_ir parse texts (run (List.length texts) p0 [(TFile, req_classes rs)]).
  Proof.
    intros. rewrite !incremental_order_irrelevant by (assumption || reflexivity).
    now rewrite req_classes_single.
  Qed.

  Corollary incremental_permutation : forall (texts : list text) p0 rs rs',
    has_pu p0 = true -> forallb top_level rs = true -> Permutation rs rs' ->
    final_ir parse texts (run (List.length texts) p0 rs) = final_ir parse texts (run (List.length texts) p0 rs').
  Proof.
    intros texts p0 rs rs' Hp H P.
    assert (H' : forallb top_level rs' = true) by now rewrite <- (forallb_perm _ _ _ _ P).
    rewrite !incremental_order_irrelevant by assumption. now rewrite (req_classes_perm _ _ P).
  Qed.

  (** recorded assumption about the frontend: asking for more classes finds more, for the class sets
      satisfying [ok] (measured: sets containing InterfaceClass; without it USE statements of interface
      bodies are attributed to the host unit) *)
  Variable le_ir : ir -> ir -> Prop.
  Variable ok : flags -> bool.
  Hypothesis parse_mono : forall a b t, ok a = true -> f_sub a b = true -> le_ir (parse a t) (parse b t).

  (** nothing a request (or the initial parse) would have found on its own is missing at the end *)
  Theorem incremental_never_loses : forall (texts : list text) p0 rs r,
    has_pu p0 = true -> forallb top_level rs = true -> (r = p0 \/ In r (map snd rs)) -> ok r = true ->
    exists irs, final_ir parse texts (run (List.length texts) p0 rs) = Some irs /\
                Forall2 (fun t i => le_ir (parse r t) i) texts irs.
  Proof.
    intros texts p0 rs r Hp H Hr Hok. eexists. split; [now apply incremental_order_irrelevant|].
    assert (S : f_sub r (f_union p0 (req_classes rs)) = true).
    { destruct Hr as [->|Hr]; [apply f_sub_union_l|].
      eapply f_sub_trans; [apply f_sub_unions_in, Hr | apply f_sub_union_r]. }
    induction texts as [|t ts IH]; cbn [map]; constructor; auto.
  Qed.
End Parse.

(** * every request is honoured: whatever happened before, after asking a unit for [r] its record covers [r]
      (so its content is a parse with at least those classes) *)

Lemma nth_error_reset_from : forall k g l, k < List.length l -> nth_error (reset_from k g l) k = Some g.
Proof.
  intros k g l H. unfold reset_from.
  rewrite nth_error_app2 by (rewrite firstn_length; lia).
  rewrite firstn_length, Nat.min_l by lia. rewrite Nat.sub_diag.
  destruct (List.length l - k) eqn:E; [lia|]. reflexivity.
Qed.

Lemma unit_req_honoured : forall k r l g, nth_error l k = Some g ->
  exists g', nth_error (unit_req k r l) k = Some g' /\ f_sub r g' = true.
Proof.
  intros k r l g Hk. unfold unit_req. rewrite Hk.
  destruct (negb (N.eqb g 0) && f_sub r g) eqn:E.
  - apply andb_prop in E as [_ E]. eauto.
  - exists (f_union r g). split; [|apply f_sub_union_l].
    apply nth_error_reset_from. apply nth_error_Some. congruence.
Qed.

Theorem request_is_honoured : forall s k r g,
  h_disc s = true -> nth_error (h_units s) k = Some g ->
  exists g', nth_error (h_units (step s (TUnit k, r))) k = Some g' /\ f_sub r g' = true.
Proof. intros s k r g Hd Hk. cbn [step]. rewrite Hd. now apply (unit_req_honoured k r _ g). Qed.

Lemma length_unit_req : forall k r l, List.length (unit_req k r l) = List.length l.
Proof.
  intros. unfold unit_req. destruct (nth_error l k) eqn:E; [|reflexivity].
  destruct (_ && _); [reflexivity|]. unfold reset_from.
  assert (k < List.length l) by (apply nth_error_Some; congruence).
  rewrite app_length, firstn_length, repeat_length. lia.
Qed.

(** the file-level request reaches the top-level unit in every discovered state *)
Theorem file_request_is_honoured : forall s r g,
  h_disc s = true -> nth_error (h_units s) 0 = Some g ->
  exists g', nth_error (h_units (step s (TFile, r))) 0 = Some g' /\ f_sub r g' = true.
Proof. intros s r g Hd Hk. cbn [step h_units]. rewrite Hd. now apply (unit_req_honoured 0 r _ g). Qed.

(** * invariant of all histories: a nested unit never records less than the unit around it *)

Fixpoint chain_mono (l : list flags) : bool :=
  match l with
  | a :: (b :: _) as t => f_sub a b && chain_mono t
  | _ => true
  end.

Lemma chain_mono_repeat : forall g n, chain_mono (repeat g n) = true.
Proof.
  induction n as [|n IH]; [reflexivity|]. cbn [repeat]. destruct n; [reflexivity|].
  cbn [repeat chain_mono] in *. now rewrite f_sub_refl.
Qed.

Lemma map_const : forall (r : flags) (l : list flags), map (fun _ => r) l = repeat r (List.length l).
Proof. induction l as [|a l IH]; cbn; [reflexivity | now rewrite IH]. Qed.

Lemma chain_mono_map_const : forall g (l : list flags), chain_mono (map (fun _ => g) l) = true.
Proof. intros. rewrite map_const. apply chain_mono_repeat. Qed.

Lemma chain_mono_cons a l :
  chain_mono (a :: l) = match l with [] => true | b :: _ => f_sub a b && chain_mono l end.
Proof. now destruct l. Qed.

(** cutting a chain at a unit and continuing with a record that covers that unit's *)
Lemma chain_mono_firstn_repeat : forall l k g g' m,
  chain_mono l = true -> nth_error l k = Some g -> f_sub g g' = true ->
  chain_mono (firstn k l ++ repeat g' m) = true.
Proof.
  induction l as [|a l IH]; intros [|k] g g' m Hm Hk Hs; try discriminate; cbn [firstn app nth_error] in *.
  - apply chain_mono_repeat.
  - rewrite chain_mono_cons in Hm |- *.
    destruct l as [|b l]; [destruct k; discriminate|]. apply andb_prop in Hm as [Hab Hl].
    specialize (IH k g g' m Hl Hk Hs). destruct k as [|k]; cbn [firstn app nth_error] in *.
    + injection Hk as <-. destruct m; [reflexivity|]. cbn [repeat] in *. now rewrite (f_sub_trans _ _ _ Hab Hs).
    + now rewrite Hab.
Qed.

Lemma chain_mono_unit_req : forall k r l, chain_mono l = true -> chain_mono (unit_req k r l) = true.
Proof.
  intros k r l H. unfold unit_req. destruct (nth_error l k) eqn:E; [|assumption].
  destruct (_ && _); [assumption|]. unfold reset_from.
  eapply chain_mono_firstn_repeat; [exact H|exact E|apply f_sub_union_r].
Qed.

Theorem nested_records_cover_parent : forall n p0 rs, chain_mono (h_units (run n p0 rs)) = true.
Proof.
  intros n p0 rs. apply (fold_left_inv (fun s => chain_mono (h_units s) = true)); [|apply chain_mono_repeat].
  intros s [[|k] r] Hs; cbn [step h_units]; destruct (h_disc s); cbn [h_units];
    try assumption; try (now apply chain_mono_unit_req).
  destruct (has_pu r); [apply chain_mono_map_const|assumption].
Qed.

(** * outside the class the statement fails (what the code does today) *)

(** file-level requests only, ProgramUnitClass not in the initial parse: the units are created by the first
    request that contains ProgramUnitClass, with THAT request's classes only; everything requested earlier
    (including the initial classes) is forgotten *)
Fixpoint after_pu (cs : list flags) : option (list flags) :=
  match cs with
  | [] => None
  | r :: t => if has_pu r then Some cs else after_pu t
  end.

Lemma map_const_repeat : forall (r g : flags) n, map (fun _ : flags => r) (repeat g n) = repeat r n.
Proof. intros. now rewrite map_const, repeat_length. Qed.

Lemma run_file_undiscovered : forall n cs f g,
  fold_left step (map (fun r => (TFile, r)) cs) {| h_file := f; h_disc := false; h_units := repeat g n |} =
  match after_pu cs with
  | None => {| h_file := f_union f (f_unions cs); h_disc := false; h_units := repeat g n |}
  | Some l => {| h_file := f_union f (f_unions cs); h_disc := true; h_units := repeat (f_unions l) n |}
  end.
Proof.
  induction cs as [|r cs IH]; intros f g.
  - cbn. now rewrite f_union_0_r.
  - cbn [map fold_left after_pu]. cbn [step h_disc h_file h_units orb].
    destruct (has_pu r) eqn:E.
    + rewrite map_const_repeat.
      rewrite (run_uniform n (map (fun r0 => (TFile, r0)) cs) r (f_union f r)).
      2:{ clear. induction cs; cbn; auto. }
      unfold req_classes, file_classes. rewrite map_map. cbn [snd]. rewrite map_id.
      replace (filter _ (map (fun r0 : flags => (TFile, r0)) cs)) with (map (fun r0 : flags => (TFile, r0)) cs).
      2:{ clear. induction cs; cbn; [reflexivity|]. now f_equal. }
      rewrite map_map. cbn [snd]. rewrite map_id. cbn [f_unions fold_right]. now rewrite f_union_assoc.
    + rewrite IH. cbn [f_unions fold_right]. destruct (after_pu cs); now rewrite f_union_assoc.
Qed.

Theorem late_discovery_forgets : forall n p0 cs,
  has_pu p0 = false ->
  let s := run n p0 (map (fun r => (TFile, r)) cs) in
  match after_pu cs with
  | None => h_disc s = false
  | Some l => h_disc s = true /\ h_units s = repeat (f_unions l) n
  end.
Proof.
  intros n p0 cs Hp. cbn zeta. unfold run, init. rewrite Hp. rewrite run_file_undiscovered.
  destruct (after_pu cs); cbn; auto.
Qed.

(** witness: "Call first, ProgramUnit second" vs "ProgramUnit first, Call second" *)
Theorem late_program_unit_refuted :
  h_units (run 1 32%N [(TFile, 1%N)]) = [1%N] /\ h_units (run 1 1%N [(TFile, 32%N)]) = [33%N].
Proof. split; vm_compute; reflexivity. Qed.

(** witness: a request addressed to a nested unit is undone when the enclosing unit is re-parsed later,
    although no request ever asks for less: the two orders of the same two requests end differently *)
Theorem nested_request_lost_refuted :
  exists rs rs', Permutation rs rs' /\
    h_units (run 2 1%N rs) = [5%N; 5%N] /\ h_units (run 2 1%N rs') = [5%N; 37%N].
Proof.
  exists [(TUnit 1, 32%N); (TUnit 0, 4%N)], [(TUnit 0, 4%N); (TUnit 1, 32%N)].
  split; [apply perm_swap|]. split; vm_compute; reflexivity.
Qed.

(** the hypotheses of the class theorems are satisfiable by a non-trivial history *)
Example c19_history_nonvacuous :
  has_pu 1%N = true /\ forallb top_level [(TFile, 32%N); (TUnit 0, 4%N); (TFile, 36%N); (TFile, 8%N)] = true /\
  h_units (run 3 1%N [(TFile, 32%N); (TUnit 0, 4%N); (TFile, 36%N); (TFile, 8%N)]) = [45%N; 45%N; 45%N].
Proof. repeat split; vm_compute; reflexivity. Qed.
