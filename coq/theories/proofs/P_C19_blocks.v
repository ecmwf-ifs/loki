(** C19, part (ii): the block matcher on classified lines recovers every supported tree; what is discovered
    from it (calls, uses); soundness of the tree comparator of the correspondence; a witness outside the class. *)
From Coq Require Import NArith List Bool String Arith Lia.
From LV Require Import Base.ListFacts models.M_C19.
Import ListNotations.

Section NodeInd.
  Variable P : node -> Prop.
  Hypothesis HUnit : forall k name spec ms,
    Forall P spec -> match ms with Some l => Forall P l | None => True end -> P (NUnit k name spec ms).
  Hypothesis HType : forall name comps bs,
    Forall P comps -> match bs with Some l => Forall P l | None => True end -> P (NType name comps bs).
  Hypothesis HIface : forall ia isp body, Forall P body -> P (NIface ia isp body).
  Hypothesis HUse : forall um uo us, P (NUse um uo us).
  Hypothesis HCall : forall callee, P (NCall callee).
  Hypothesis HProc : forall pm pes, P (NProc pm pes).
  Hypothesis HGeneric : forall gname gnames, P (NGeneric gname gnames).
  Hypothesis HOther : P NOther.

  Fixpoint node_ind' (n : node) : P n :=
    let fix go (l : list node) : Forall P l :=
      match l with
      | [] => Forall_nil P
      | x :: r => Forall_cons x (node_ind' x) (go r)
      end in
    match n with
    | NUnit k name spec ms =>
        HUnit k name spec ms (go spec) (match ms with Some l => go l | None => I end)
    | NType name comps bs =>
        HType name comps bs (go comps) (match bs with Some l => go l | None => I end)
    | NIface a s body => HIface a s body (go body)
    | NUse m o s => HUse m o s
    | NCall c => HCall c
    | NProc m es => HProc m es
    | NGeneric g ns => HGeneric g ns
    | NOther => HOther
    end.
End NodeInd.

(** "the rest of the text is matched to [ns], leaving [r], whatever fuel (at least its length) is given" *)
Definition rest_ok (c : ctx) (rest : list line) (ns : list node) (r : list line) : Prop :=
  forall f, List.length rest <= f -> items f c rest = Some (ns, r).

Definition node_ok (n : node) : Prop :=
  forall c rest ns r, wfb c n = true -> rest_ok c rest ns r ->
    rest_ok c (flatten n ++ rest) (n :: ns) r.
Definition nodes_ok (l : list node) : Prop :=
  forall c rest ns r, forallb (wfb c) l = true -> rest_ok c rest ns r ->
    rest_ok c (flats l ++ rest) (l ++ ns) r.

Lemma nodes_ok_of_Forall : forall l, Forall node_ok l -> nodes_ok l.
Proof.
  induction 1 as [|x l Hx _ IH]; intros c rest ns r Hwf Hr.
  - exact Hr.
  - cbn [forallb] in Hwf. apply andb_prop in Hwf as [Hwx Hwl].
    unfold flats. cbn [flat_map]. rewrite <- app_assoc. cbn [app].
    apply Hx; [assumption|]. apply IH; assumption.
Qed.

(** a text that starts with a line terminating the context is left untouched, for any fuel *)
Lemma rest_ok_terminator : forall c l rest, terminates c l = true -> rest_ok c (l :: rest) [] (l :: rest).
Proof. intros c l rest H f _. destruct f; cbn [items]; now rewrite H. Qed.

Lemma rest_ok_nil : forall c, rest_ok c [] [] [].
Proof. intros c f _. destruct f; reflexivity. Qed.

Lemma ukind_eqb_refl : forall k, ukind_eqb k k = true.
Proof. destruct k; reflexivity. Qed.

Lemma term_spec_contains : forall k, terminates (spec_ctx k) LContains = true.
Proof. destruct k; reflexivity. Qed.
Lemma term_spec_end : forall k k', terminates (spec_ctx k) (LEnd k') = true.
Proof. destruct k; reflexivity. Qed.

Lemma ctx_eqb_eq : forall a b, ctx_eqb a b = true -> a = b.
Proof. destruct a, b; cbn; congruence. Qed.

(** fuel: one line is consumed per step, and a bound on a text bounds each of its suffixes *)
Lemma fuel_step {A} (x : A) l f : List.length (x :: l) <= f -> exists f', f = S f' /\ List.length l <= f'.
Proof. destruct f; cbn [List.length]; [lia|]. exists f. split; [reflexivity|lia]. Qed.

Lemma suffix_le {A} (a : list A) x b f : List.length (a ++ x :: b) <= f -> List.length b <= f.
Proof. rewrite app_length. cbn [List.length]. lia. Qed.

(** one section of a block: the nodes of [l], up to the line [t] that ends the section *)
Lemma section_ok ci l t rest :
  nodes_ok l -> forallb (wfb ci) l = true -> terminates ci t = true ->
  rest_ok ci (flat_map flatten l ++ t :: rest) l (t :: rest).
Proof.
  intros H W T f Hf. pose proof (H ci _ [] _ W (rest_ok_terminator ci t rest T) f Hf) as E.
  rewrite app_nil_r in E. exact E.
Qed.

Definition is_leaf (n : node) : bool :=
  match n with NUnit _ _ _ _ | NType _ _ _ | NIface _ _ _ => false | _ => true end.

(** a single-statement node is the [leaf] of its line in every context that admits it *)
Lemma items_leaf c n :
  is_leaf n = true -> wfb c n = true ->
  exists l, flatten n = [l] /\
    forall f rest, items (S f) c (l :: rest)
                   = match items f c rest with Some (ns, r) => Some (n :: ns, r) | None => None end.
Proof.
  destruct n as [| | |m o s|nm|pm es|g ns|]; try discriminate; intros _ W;
    (eexists; split; [reflexivity|]); intros f rest;
    destruct c; cbn in W; try discriminate W; try reflexivity.
  destruct pm; [discriminate W|reflexivity].
Qed.

Lemma leaf_ok n : is_leaf n = true -> node_ok n.
Proof.
  intros L c rest ns r W Hr f. destruct (items_leaf c n L W) as (l & -> & E). cbn [app]. intros Hf.
  apply fuel_step in Hf as (f' & -> & Hf). now rewrite E, (Hr f' Hf).
Qed.

Lemma node_ok_all : forall n, node_ok n.
Proof.
  induction n as [k name spec ms Hs Hm|name comps bs Hc Hb|ia isp body Hb| | | | |] using node_ind';
    try (now apply leaf_ok); intros c rest ns r Hwf Hr f; cbn [wfb] in Hwf.
  - apply andb_prop in Hwf as [Hwf Hms]. apply andb_prop in Hwf as [Hopen Hspec].
    apply nodes_ok_of_Forall in Hs.
    assert (Hbeg : terminates c (LBegin k name) = false) by now destruct c.
    destruct ms as [ms|]; cbn [flatten app]; repeat (rewrite <- app_assoc; cbn [app]); intros Hf;
      apply fuel_step in Hf as (f' & -> & Hf); cbn [items]; rewrite Hbeg, Hopen.
    + apply nodes_ok_of_Forall in Hm. pose proof (suffix_le _ _ _ _ Hf) as Hf2.
      rewrite (section_ok _ spec LContains (flat_map flatten ms ++ LEnd k :: rest) Hs Hspec (term_spec_contains k) f' Hf).
      rewrite (section_ok _ ms (LEnd k) rest Hm Hms eq_refl f' Hf2).
      now rewrite ukind_eqb_refl, (Hr f' (suffix_le _ _ _ _ Hf2)).
    + rewrite (section_ok _ spec (LEnd k) rest Hs Hspec (term_spec_end k k) f' Hf).
      now rewrite ukind_eqb_refl, (Hr f' (suffix_le _ _ _ _ Hf)).
  - apply andb_prop in Hwf as [Hwf Hbs]. apply andb_prop in Hwf as [Hcm Hcomps].
    apply ctx_eqb_eq in Hcm. subst c. apply nodes_ok_of_Forall in Hc.
    destruct bs as [bs|]; cbn [flatten app]; repeat (rewrite <- app_assoc; cbn [app]); intros Hf;
      apply fuel_step in Hf as (f' & -> & Hf); cbn [items terminates].
    + apply nodes_ok_of_Forall in Hb. pose proof (suffix_le _ _ _ _ Hf) as Hf2.
      rewrite (section_ok CTypeSpec comps LContains (flat_map flatten bs ++ LTypeEnd :: rest) Hc Hcomps eq_refl f' Hf).
      rewrite (section_ok CTypeBinds bs LTypeEnd rest Hb Hbs eq_refl f' Hf2).
      now rewrite (Hr f' (suffix_le _ _ _ _ Hf2)).
    + rewrite (section_ok CTypeSpec comps LTypeEnd rest Hc Hcomps eq_refl f' Hf).
      now rewrite (Hr f' (suffix_le _ _ _ _ Hf)).
  - apply andb_prop in Hwf as [Hcm Hbody]. apply nodes_ok_of_Forall in Hb.
    cbn [flatten app]. repeat (rewrite <- app_assoc; cbn [app]). intros Hf.
    apply fuel_step in Hf as (f' & -> & Hf).
    pose proof (section_ok CIface body LIfaceEnd rest Hb Hbody eq_refl f' Hf) as E.
    apply orb_prop in Hcm as [Hcm|Hcm]; apply ctx_eqb_eq in Hcm; subst c; cbn [items terminates];
      now rewrite E, (Hr f' (suffix_le _ _ _ _ Hf)).
Qed.

Lemma nodes_ok_all : forall l, nodes_ok l.
Proof. intros l. apply nodes_ok_of_Forall, Forall_all, node_ok_all. Qed.

(** every tree of the supported class, of any size and nesting depth, is recovered exactly from its text *)
Theorem blocks_roundtrip : forall us, wfsb CFile us = true -> match_blocks (flats us) = Some us.
Proof.
  intros us H. unfold match_blocks.
  pose proof (nodes_ok_all us CFile [] [] [] H (rest_ok_nil CFile) (List.length (flats us))) as E.
  rewrite !app_nil_r in E. rewrite E by lia. reflexivity.
Qed.

(** the same inside any context, followed by arbitrary text that the context leaves alone *)
Theorem items_roundtrip : forall c l t rest, wfsb c l = true -> terminates c t = true ->
  forall f, List.length (flats l ++ t :: rest) <= f -> items f c (flats l ++ t :: rest) = Some (l, t :: rest).
Proof.
  intros c l t rest H Ht f Hf.
  pose proof (nodes_ok_all l c (t :: rest) [] (t :: rest) H (rest_ok_terminator c t rest Ht) f Hf) as E.
  now rewrite app_nil_r in E.
Qed.

Theorem discovered_items_complete : forall us, wfsb CFile us = true ->
  option_map (collects []) (match_blocks (flats us)) = Some (collects [] us).
Proof. intros us H. now rewrite blocks_roundtrip. Qed.

(** items / lines that are neither a call nor an import *)
Definition plain_found (f : found) : bool := match f with FCall _ | FImport _ _ _ => false | _ => true end.
Definition plain_line (l : line) : bool := match l with LCall _ | LUse _ _ _ => false | _ => true end.

Lemma binding_items_plain ty bs : forallb plain_found (flat_map (binding_items ty) bs) = true.
Proof.
  induction bs as [|b bs IH]; [reflexivity|].
  cbn [flat_map]. rewrite forallb_app, IH, andb_true_r.
  destruct b as [| | | | |bm bes| |]; try reflexivity. cbn [binding_items].
  induction bes as [|e bes IHe]; [reflexivity|exact IHe].
Qed.

(** [g] reads names off the discovered items, [h] off the lines; they agree on calls and imports and
    see nothing in anything else. *)
Section Found.
  Variable g : found -> list string.
  Variable h : line -> list string.
  Hypothesis g_plain : forall f, plain_found f = true -> g f = [].
  Hypothesis h_plain : forall l, plain_line l = true -> h l = [].
  Hypothesis g_call : forall n, g (FCall n) = h (LCall n).
  Hypothesis g_use : forall m o s, g (FImport m o s) = h (LUse m o s).

  Definition sel (fs : list (path * found)) : list string := flat_map (fun pf => g (snd pf)) fs.

  Lemma sel_app a b : sel (a ++ b) = sel a ++ sel b.
  Proof. apply flat_map_app. Qed.

  Lemma sel_plain (l : list found) p : forallb plain_found l = true -> sel (map (fun f => (p, f)) l) = [].
  Proof.
    induction l as [|f l IH]; [reflexivity|]. cbn [forallb]. intros H. apply andb_prop in H as [Hf Hl].
    unfold sel in *. cbn [map flat_map snd]. now rewrite (g_plain f Hf), IH.
  Qed.

  (** in the two type contexts only NOther and bindings can occur *)
  Lemma type_ctx_quiet : forall l c, (c = CTypeSpec \/ c = CTypeBinds) -> forallb (wfb c) l = true ->
    flat_map h (flat_map flatten l) = [].
  Proof.
    induction l as [|x l IH]; intros c Hc Hwf; [reflexivity|].
    cbn [forallb] in Hwf. apply andb_prop in Hwf as [Hwx Hwl]. cbn [flat_map].
    rewrite flat_map_app, (IH c Hc Hwl), app_nil_r.
    destruct Hc; subst c; destruct x; cbn in Hwx; try discriminate Hwx; try (destruct k; discriminate Hwx);
      cbn [flatten flat_map]; rewrite app_nil_r; apply h_plain; reflexivity.
  Qed.

  Definition sel_ok (n : node) : Prop :=
    forall c p, wfb c n = true -> sel (collect p n) = flat_map h (flatten n).

  Lemma sel_slot l c p :
    Forall sel_ok l -> forallb (wfb c) l = true -> sel (flat_map (collect p) l) = flat_map h (flats l).
  Proof.
    induction 1 as [|x l Hx _ IH]; intros Hwf; [reflexivity|].
    cbn [forallb] in Hwf. apply andb_prop in Hwf as [Hwx Hwl]. unfold flats in *. cbn [flat_map].
    now rewrite sel_app, flat_map_app, (Hx c p Hwx), IH.
  Qed.

  Lemma sel_ok_all : forall n, sel_ok n.
  Proof.
    induction n as [k name spec ms Hs Hm|name comps bs Hc Hb|ia isp body Hb|m o s|nm|pm es|gn ns|] using node_ind';
      intros c p W; cbn [wfb] in W; cbn [collect flatten].
    - apply andb_prop in W as [W Hms]. apply andb_prop in W as [_ Hspec].
      change (sel ((p, FUnit k name) :: ?x)) with (g (FUnit k name) ++ sel x).
      cbn [flat_map]. rewrite g_plain, h_plain, sel_app, !flat_map_app by reflexivity.
      rewrite (sel_slot spec _ _ Hs Hspec). cbn [app flat_map]. rewrite (h_plain (LEnd k)) by reflexivity.
      destruct ms as [ms|]; cbn [flat_map].
      + rewrite (sel_slot ms _ _ Hm Hms), h_plain by reflexivity. cbn [app]. now rewrite app_nil_r.
      + cbn [app]. now rewrite !app_nil_r.
    - apply andb_prop in W as [W Hbs]. apply andb_prop in W as [_ Hcomps].
      change (sel ((p, FType name) :: ?x)) with (g (FType name) ++ sel x).
      cbn [flat_map]. rewrite g_plain, h_plain, !flat_map_app by reflexivity.
      rewrite (type_ctx_quiet comps CTypeSpec (or_introl eq_refl) Hcomps).
      cbn [app flat_map]. rewrite (h_plain LTypeEnd) by reflexivity.
      destruct bs as [bs|]; [|reflexivity].
      cbn [flat_map]. rewrite h_plain, (type_ctx_quiet bs CTypeBinds (or_intror eq_refl) Hbs) by reflexivity.
      apply sel_plain, binding_items_plain.
    - apply andb_prop in W as [_ Hbody].
      change (sel ((p, FIface ia isp) :: ?x)) with (g (FIface ia isp) ++ sel x).
      cbn [flat_map]. rewrite g_plain, h_plain, flat_map_app by reflexivity.
      rewrite (sel_slot body _ _ Hb Hbody). cbn [app flat_map]. rewrite h_plain by reflexivity.
      cbn [app]. now rewrite app_nil_r.
    - unfold sel. cbn [flat_map snd]. now rewrite g_use.
    - unfold sel. cbn [flat_map snd]. now rewrite g_call.
    - cbn [flat_map]. rewrite h_plain by reflexivity. unfold sel.
      induction es as [|e es IHe]; [reflexivity|]. cbn [map flat_map snd]. now rewrite g_plain by reflexivity.
    - cbn [flat_map]. now rewrite h_plain by reflexivity.
    - cbn [flat_map]. now rewrite h_plain by reflexivity.
  Qed.

  Lemma sel_collects us : wfsb CFile us = true -> sel (collects [] us) = flat_map h (flats us).
  Proof. apply sel_slot, Forall_all, sel_ok_all. Qed.
End Found.

(** every CALL / USE statement of the text is reported (none is lost in a block the matcher skipped) *)
Theorem all_calls_and_uses_found : forall us, wfsb CFile us = true ->
  exists ns, match_blocks (flats us) = Some ns /\
             found_calls (collects [] ns) = line_calls (flats us) /\
             found_uses (collects [] ns) = line_uses (flats us).
Proof.
  intros us H. exists us. split; [now apply blocks_roundtrip|]. split.
  - apply (sel_collects (fun f => match f with FCall n => [n] | _ => [] end)
                        (fun l => match l with LCall n => [n] | _ => [] end)); try (now intros []); auto.
  - apply (sel_collects (fun f => match f with FImport m _ _ => [m] | _ => [] end)
                        (fun l => match l with LUse m _ _ => [m] | _ => [] end)); try (now intros []); auto.
Qed.

Lemma ukind_eqb_eq : forall a b, ukind_eqb a b = true -> a = b.
Proof. destruct a, b; cbn; congruence. Qed.
Lemma ostring_eqb_eq : forall a b, ostring_eqb a b = true -> a = b.
Proof. destruct a, b; cbn; try congruence. intros H. apply String.eqb_eq in H. now subst. Qed.
Lemma ents_eqb_eq : forall a b, ents_eqb a b = true -> a = b.
Proof.
  induction a as [|[x u] a IH]; destruct b as [|[y v] b]; cbn; try congruence.
  intros H. apply andb_prop in H as [H H3]. apply andb_prop in H as [H1 H2].
  apply String.eqb_eq in H1. apply ostring_eqb_eq in H2. apply IH in H3. now subst.
Qed.
Lemma strs_eqb_eq : forall a b, strs_eqb a b = true -> a = b.
Proof.
  induction a as [|x a IH]; destruct b as [|y b]; cbn; try congruence.
  intros H. apply andb_prop in H as [H1 H2]. apply String.eqb_eq in H1. apply IH in H2. now subst.
Qed.

Lemma nodes_eqb_eq : forall (l l' : list node),
  Forall (fun a => forall b, node_eqb a b = true -> a = b) l -> list_eqb node_eqb l l' = true -> l = l'.
Proof.
  induction l as [|x l IH]; destruct l' as [|y l']; cbn; try congruence.
  intros HF H. inversion HF as [|? ? Hx Hl]; subst. apply andb_prop in H as [E1 E2].
  f_equal; auto.
Qed.

Theorem node_eqb_eq : forall a b, node_eqb a b = true -> a = b.
Proof.
  induction a as [k name spec ms Hs Hm|name comps bs Hc Hb|ia isp body Hb| | | | |] using node_ind';
    destruct b as [k' name' spec' ms'|name' comps' bs'|ia' isp' body'| | | | |]; cbn [node_eqb]; try congruence; intros E.
  - apply andb_prop in E as [E E4]. apply andb_prop in E as [E E3]. apply andb_prop in E as [E1 E2].
    apply ukind_eqb_eq in E1. apply String.eqb_eq in E2. apply nodes_eqb_eq in E3; [|exact Hs]. subst.
    f_equal. destruct ms, ms'; cbn in E4; try congruence. f_equal. now apply nodes_eqb_eq.
  - apply andb_prop in E as [E E3]. apply andb_prop in E as [E1 E2].
    apply String.eqb_eq in E1. apply nodes_eqb_eq in E2; [|exact Hc]. subst.
    f_equal. destruct bs, bs'; cbn in E3; try congruence. f_equal. now apply nodes_eqb_eq.
  - apply andb_prop in E as [E E3]. apply andb_prop in E as [E1 E2].
    apply Bool.eqb_prop in E1. apply ostring_eqb_eq in E2. apply nodes_eqb_eq in E3; [|exact Hb]. now subst.
  - apply andb_prop in E as [E E3]. apply andb_prop in E as [E1 E2].
    apply String.eqb_eq in E1. apply Bool.eqb_prop in E2. apply ents_eqb_eq in E3. now subst.
  - apply String.eqb_eq in E. now subst.
  - apply andb_prop in E as [E1 E2]. apply Bool.eqb_prop in E1. apply ents_eqb_eq in E2. now subst.
  - apply andb_prop in E as [E1 E2]. apply String.eqb_eq in E1. apply strs_eqb_eq in E2. now subst.
Qed.

Theorem chk_tree_sound : forall ls obs, chk_tree ls obs = true ->
  exists ns, match_blocks ls = Some ns /\ strips ns = obs.
Proof.
  intros ls obs H. unfold chk_tree in H. destruct (match_blocks ls) as [ns|]; [|discriminate].
  exists ns. split; [reflexivity|]. apply nodes_eqb_eq; [|exact H].
  apply Forall_all, node_eqb_eq.
Qed.

(** * outside the class: a derived type defined inside a routine is valid Fortran, but no typedef
      candidate is tried in a routine's specification part *)
Open Scope string_scope.

Definition witness_type_in_routine : node :=
  NUnit KSub "s" [NType "loc" [NOther] None; NCall "foo"] None.

Theorem typedef_in_routine_missed :
  match_blocks (flatten witness_type_in_routine) = Some [NUnit KSub "s" [NOther; NOther; NOther; NCall "foo"] None] /\
  ~ In ([ "s" ], FType "loc") (collects [] [NUnit KSub "s" [NOther; NOther; NOther; NCall "foo"] None]) /\
  In ([ "s" ], FType "loc") (collects [] [witness_type_in_routine]).
Proof.
  split; [vm_compute; reflexivity|]. split.
  - cbn. intros H. repeat (destruct H as [H|H]; [discriminate|]). exact H.
  - cbn. right. left. reflexivity.
Qed.

(** the hypotheses are satisfiable: a module with a typedef with bindings, a generic interface, and a module
    procedure that contains an internal procedure with an interface body (nesting depth 4) *)
Definition example_tree : list node :=
  [ NOther;
    NUnit KModule "m"
      [ NUse "k" true [("a", None); ("b", Some "c")];
        NType "t" [NOther] (Some [NProc false [("p", Some "impl")]; NGeneric "g" ["p"]]);
        NIface false (Some "gen") [NProc true [("impl", None)]] ]
      (Some [ NUnit KSub "impl" [NUse "k2" false []; NCall "foo"; NOther; NCall "obj%run"]
                (Some [ NUnit KFun "inner"
                          [NIface true None [NUnit KSub "cb" [NUse "k3" true [("x", None)]] None]; NCall "cb"] None ]) ]);
    NUnit KSub "top" [NCall "impl"] None ].

Example c19_blocks_nonvacuous :
  wfsb CFile example_tree = true /\ match_blocks (flats example_tree) = Some example_tree /\
  found_calls (collects [] example_tree) = ["foo"; "obj%run"; "cb"; "impl"].
Proof. repeat split; vm_compute; reflexivity. Qed.
