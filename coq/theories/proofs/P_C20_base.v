(** C20 — strings: prefixes and suffixes ([stake], [sskip]), slices, line breaks; and the lines of a text:
    how an offset of '\n'.join(ls) corresponds to a (line, column) position. *)
From Coq Require Import ZArith List Bool String Ascii Lia Arith.
From LV Require Import Base.Strings Base.ListFacts models.M_C20.
Import ListNotations.
Open Scope Z_scope.

(** [slen] is the model's name for [String.length]; the lemmas are stated with the library function, whose
    equations [cbn] knows, and apply to [slen] by conversion ([slen_eq]) *)
Notation len := String.length.

Lemma slen_eq s : slen s = len s. Proof. reflexivity. Qed.

Lemma count_nl_nonneg s : 0 <= count_nl s.
Proof. induction s as [|c r IH]; cbn [count_nl]; [lia|]. destruct (is_nl c); lia. Qed.

Lemma count_nl_app a b : count_nl (a ++ b) = count_nl a + count_nl b.
Proof. induction a as [|c r IH]; cbn [count_nl append]; [lia|]. rewrite IH. lia. Qed.

Lemma no_nl_count l : no_nl l = true -> count_nl l = 0.
Proof.
  induction l as [|c r IH]; cbn [no_nl count_nl]; [reflexivity|].
  intros H. apply andb_prop in H. destruct H as [H1 H2].
  destruct (is_nl c); [discriminate|]. rewrite (IH H2). reflexivity.
Qed.

Lemma no_nl_stake n : forall l, no_nl l = true -> no_nl (stake n l) = true.
Proof.
  induction n as [|n IH]; intros [|c r]; cbn [stake no_nl]; try reflexivity.
  intros H. apply andb_prop in H. destruct H as [H1 H2]. rewrite H1, (IH r H2). reflexivity.
Qed.

Lemma no_nl_sskip n : forall l, no_nl l = true -> no_nl (sskip n l) = true.
Proof.
  induction n as [|n IH]; intros [|c r]; cbn [sskip no_nl]; try reflexivity; try (intros H; exact H).
  intros H. apply andb_prop in H. destruct H as [H1 H2]. exact (IH r H2).
Qed.

Lemma stake_0 s : stake 0 s = EmptyString.
Proof. destruct s; reflexivity. Qed.

Lemma stake_empty n : stake n EmptyString = EmptyString.
Proof. destruct n; reflexivity. Qed.

Lemma stake_all n : forall s, (len s <= n)%nat -> stake n s = s.
Proof.
  induction n as [|n IH]; intros [|c r]; cbn [stake len]; intros H; try reflexivity; try lia.
  rewrite IH; [reflexivity|lia].
Qed.

Lemma sskip_all n : forall s, (len s <= n)%nat -> sskip n s = EmptyString.
Proof.
  induction n as [|n IH]; intros [|c r]; cbn [sskip len]; intros H; try reflexivity; try lia.
  apply IH. lia.
Qed.

Lemma len_stake n : forall s, len (stake n s) = Nat.min n (len s).
Proof. induction n as [|n IH]; intros [|c r]; cbn [stake len]; try reflexivity. rewrite IH. reflexivity. Qed.

Lemma len_sskip n : forall s, len (sskip n s) = (len s - n)%nat.
Proof. induction n as [|n IH]; intros [|c r]; cbn [sskip len]; try reflexivity. apply IH. Qed.

Lemma stake_sskip n : forall s, (stake n s ++ sskip n s)%string = s.
Proof. induction n as [|n IH]; intros [|c r]; cbn [stake sskip append]; try reflexivity. now rewrite IH. Qed.

Lemma stake_app_le n : forall a b, (n <= len a)%nat -> stake n (a ++ b) = stake n a.
Proof.
  induction n as [|n IH]; intros a b H.
  - now rewrite !stake_0.
  - destruct a as [|c r]; cbn [len] in H; [lia|]. cbn [append stake]. rewrite IH; [reflexivity|lia].
Qed.

Lemma stake_app_ge a : forall n b, stake (len a + n) (a ++ b) = (a ++ stake n b)%string.
Proof. induction a as [|c r IH]; intros n b; cbn [len append plus stake]; [reflexivity|]. now rewrite IH. Qed.

Lemma sskip_app_le n : forall a b, (n <= len a)%nat -> sskip n (a ++ b) = (sskip n a ++ b)%string.
Proof.
  induction n as [|n IH]; intros a b H; [reflexivity|].
  destruct a as [|c r]; cbn [len] in H; [lia|]. cbn [append sskip]. apply IH. lia.
Qed.

Lemma sskip_app_ge a : forall n b, sskip (len a + n) (a ++ b) = sskip n b.
Proof. induction a as [|c r IH]; intros n b; cbn [len append plus sskip]; [reflexivity|]. apply IH. Qed.

Lemma sskip_sskip a : forall b s, sskip a (sskip b s) = sskip (b + a) s.
Proof.
  intros b. revert a. induction b as [|b IH]; intros a s; [reflexivity|].
  destruct s as [|c r]; cbn [sskip plus]; [destruct a; reflexivity|]. apply IH.
Qed.

Lemma stake_stake n : forall m s, stake n (stake m s) = stake (Nat.min n m) s.
Proof.
  induction n as [|n IH]; intros m s; [now rewrite !stake_0|].
  destruct m as [|m]; [now rewrite !stake_0|]. destruct s as [|c r]; cbn [stake Nat.min]; [reflexivity|].
  now rewrite IH.
Qed.

Lemma sskip_stake c : forall m s, sskip c (stake m s) = stake (m - c) (sskip c s).
Proof.
  induction c as [|c IH]; intros m s; [now rewrite Nat.sub_0_r|].
  destruct m as [|m]; [now rewrite !stake_0|].
  destruct s as [|x r]; cbn [stake sskip Nat.sub]; [now rewrite stake_empty|]. apply IH.
Qed.

Lemma stake_split a : forall b s, (a <= b)%nat -> stake b s = (stake a s ++ slice a b s)%string.
Proof.
  unfold slice. induction a as [|a IH]; intros b s H.
  - rewrite stake_0. cbn [append sskip]. now rewrite Nat.sub_0_r.
  - destruct b as [|b]; [lia|]. destruct s as [|c r]; cbn [stake sskip append Nat.sub].
    + now rewrite stake_empty.
    + rewrite (IH b r) by lia. reflexivity.
Qed.

Lemma slice_mid (a m b : string) : slice (len a) (len a + len m) (a ++ m ++ b) = m.
Proof.
  unfold slice. replace (len a + len m - len a)%nat with (len m) by lia.
  replace (len a) with (len a + 0)%nat at 1 by lia. rewrite sskip_app_ge. cbn [sskip].
  rewrite stake_app_le by lia. apply stake_all. lia.
Qed.

Lemma stake_prefix (a b : string) : stake (len a) (a ++ b) = a.
Proof. rewrite stake_app_le by lia. apply stake_all. lia. Qed.

Lemma count_nl_slice a b s : (a <= b)%nat -> count_nl (stake b s) = count_nl (stake a s) + count_nl (slice a b s).
Proof. intros H. rewrite (stake_split a b s H). apply count_nl_app. Qed.

Lemma slice_slice a b c d s : (c <= d)%nat -> (d <= b - a)%nat -> slice c d (slice a b s) = slice (a + c) (a + d) s.
Proof.
  intros H1 H2. unfold slice. rewrite sskip_stake, sskip_sskip, stake_stake. f_equal. lia.
Qed.

Lemma lower_stake n : forall s, lower (stake n s) = stake n (lower s).
Proof. induction n as [|n IH]; intros [|c r]; cbn [stake lower]; try reflexivity. now rewrite IH. Qed.
Lemma lower_sskip n : forall s, lower (sskip n s) = sskip n (lower s).
Proof. induction n as [|n IH]; intros [|c r]; cbn [sskip lower]; try reflexivity. apply IH. Qed.
Lemma lower_slice a b s : lower (slice a b s) = slice a b (lower s).
Proof. unfold slice. now rewrite lower_stake, lower_sskip. Qed.
Lemma len_lower s : len (lower s) = len s.
Proof. induction s as [|c r IH]; cbn; [reflexivity|]. now rewrite IH. Qed.

Lemma count_nl_newlines n : count_nl (newlines n) = Z.of_nat n.
Proof.
  induction n as [|n IH]; [reflexivity|]. cbn [newlines count_nl]. rewrite IH.
  unfold is_nl. rewrite Ascii.eqb_refl. lia.
Qed.
Lemma len_newlines n : len (newlines n) = n.
Proof. induction n as [|n IH]; cbn; [reflexivity|]. now rewrite IH. Qed.

Lemma join_nl_cons_ne l t : t <> [] -> join_nl (l :: t) = (l ++ String nl (join_nl t))%string.
Proof. destruct t; [congruence|reflexivity]. Qed.

Lemma nth_error_Some_ne_nil {A} (r : list A) i x : nth_error r i = Some x -> r <> [].
Proof. destruct r; [destruct i; discriminate|discriminate]. Qed.

Lemma join_nl_cut ls : forall i l c, nth_error ls i = Some l -> (c <= len l)%nat ->
  stake (line_start ls i + c) (join_nl ls) = join_nl (firstn i ls ++ [stake c l]) /\
  sskip (line_start ls i + c) (join_nl ls) = join_nl (sskip c l :: skipn (S i) ls).
Proof.
  induction ls as [|l0 r IH]; intros i l c Hi Hc; [destruct i; discriminate|].
  destruct i as [|i'].
  - cbn in Hi. injection Hi as <-. cbn [line_start plus firstn skipn app].
    change (join_nl [stake c l0]) with (stake c l0).
    destruct r as [|x r']; [split; reflexivity|].
    rewrite !join_nl_cons_ne by discriminate. split; [apply stake_app_le|apply sskip_app_le]; exact Hc.
  - cbn [nth_error] in Hi. destruct (IH i' l c Hi Hc) as [IH1 IH2].
    rewrite join_nl_cons_ne by exact (nth_error_Some_ne_nil _ _ _ Hi).
    cbn [line_start firstn app]. unfold slen.
    replace (len l0 + 1 + line_start r i' + c)%nat with (len l0 + S (line_start r i' + c))%nat by lia.
    rewrite stake_app_ge, sskip_app_ge. cbn [stake sskip]. rewrite IH1, IH2. split; [|reflexivity].
    rewrite join_nl_cons_ne; [reflexivity|]. destruct (firstn i' r); discriminate.
Qed.

Lemma count_nl_join ls : forallb no_nl ls = true -> count_nl (join_nl ls) = Z.of_nat (pred (List.length ls)).
Proof.
  induction ls as [|l r IH]; [reflexivity|]. cbn [forallb]. intros H. apply andb_prop in H. destruct H as [Hl Hr].
  destruct r as [|x r']; [now apply no_nl_count|].
  rewrite join_nl_cons_ne by discriminate. rewrite count_nl_app, (no_nl_count _ Hl). cbn [count_nl]. rewrite (IH Hr).
  unfold is_nl. rewrite Ascii.eqb_refl. cbn [List.length pred]. lia.
Qed.

Lemma count_nl_line_start ls i l ca :
  forallb no_nl ls = true -> nth_error ls i = Some l -> (ca <= len l)%nat ->
  count_nl (stake (line_start ls i + ca) (join_nl ls)) = Z.of_nat i.
Proof.
  intros Hn Hi Hc. rewrite (proj1 (join_nl_cut ls i l ca Hi Hc)), count_nl_join.
  - rewrite app_length, firstn_length_le by (apply Nat.lt_le_incl, nth_error_Some; congruence).
    f_equal. cbn [List.length]. lia.
  - pose proof (proj1 (forallb_forall _ _) Hn l (nth_error_In _ _ Hi)) as Hl.
    rewrite <- (firstn_skipn i ls), forallb_app in Hn. apply andb_prop in Hn.
    rewrite forallb_app, (proj1 Hn). cbn. now rewrite (no_nl_stake ca l Hl).
Qed.

Lemma line_start_shift ls : forall i k l, nth_error ls i = Some l ->
  line_start ls (S i + k) = (line_start ls i + len l + 1 + line_start (skipn (S i) ls) k)%nat.
Proof.
  induction ls as [|l0 r IH]; intros i k l Hi.
  - destruct i; discriminate.
  - destruct i as [|i'].
    + cbn in Hi. injection Hi as <-. cbn [plus line_start skipn]. unfold slen. lia.
    + cbn [nth_error] in Hi.
      change (line_start (l0 :: r) (S (S i') + k)) with (slen l0 + 1 + line_start r (S i' + k))%nat.
      change (line_start (l0 :: r) (S i')) with (slen l0 + 1 + line_start r i')%nat.
      rewrite (IH i' k l Hi). change (skipn (S (S i')) (l0 :: r)) with (skipn (S i') r). unfold slen. lia.
Qed.

Lemma line_le_of_offset_le ls i ca j lb cb :
  nth_error ls j = Some lb -> (cb <= len lb)%nat ->
  (line_start ls i + ca <= line_start ls j + cb)%nat -> (i <= j)%nat.
Proof.
  intros Hj Hcb Hle. destruct (le_lt_dec i j) as [L|G]; [exact L|exfalso].
  pose proof (line_start_shift ls j (i - S j) lb Hj) as S1.
  replace (S j + (i - S j))%nat with i in S1 by lia. lia.
Qed.

Lemma offset_line_exists ls : ls <> [] -> forall a, (a <= len (join_nl ls))%nat ->
  exists i l ca, nth_error ls i = Some l /\ (ca <= len l)%nat /\ a = (line_start ls i + ca)%nat.
Proof.
  induction ls as [|l0 r IH]; intros Hne a Ha; [congruence|].
  destruct (le_lt_dec a (len l0)) as [Hle|Hgt].
  - exists 0%nat, l0, a. cbn. split; [reflexivity|]. split; [exact Hle|reflexivity].
  - destruct r as [|x r'].
    + cbn [join_nl] in Ha. lia.
    + rewrite join_nl_cons_ne in Ha by discriminate. rewrite length_append in Ha. cbn [len] in Ha.
      destruct (IH ltac:(discriminate) (a - len l0 - 1)%nat ltac:(lia)) as (i & l & ca & Hi & Hc & Ea).
      exists (S i), l, ca. split; [exact Hi|]. split; [exact Hc|].
      change (line_start (l0 :: x :: r') (S i)) with (slen l0 + 1 + line_start (x :: r') i)%nat. unfold slen. lia.
Qed.

Lemma offset_line_unique ls i i' l l' ca ca' :
  nth_error ls i = Some l -> nth_error ls i' = Some l' -> (ca <= len l)%nat -> (ca' <= len l')%nat ->
  (line_start ls i + ca = line_start ls i' + ca')%nat -> i = i' /\ ca = ca'.
Proof.
  intros Hi Hi' Hc Hc' E.
  pose proof (line_le_of_offset_le ls i ca i' l' ca' Hi' Hc' ltac:(lia)).
  pose proof (line_le_of_offset_le ls i' ca' i l ca Hi Hc ltac:(lia)).
  assert (i = i') as <- by lia. split; [reflexivity|lia].
Qed.

Lemma slice_join_between ls i la ca j lb cb :
  nth_error ls i = Some la -> (ca <= len la)%nat ->
  nth_error ls j = Some lb -> (cb <= len lb)%nat ->
  (line_start ls i + ca <= line_start ls j + cb)%nat ->
  slice (line_start ls i + ca) (line_start ls j + cb) (join_nl ls) = text_between ls i ca j cb.
Proof.
  intros Hi Hca Hj Hcb Hle.
  unfold slice, text_between, nth_line. rewrite (proj2 (join_nl_cut ls i la ca Hi Hca)).
  rewrite (nth_error_nth _ _ _ Hi), (nth_error_nth _ _ _ Hj).
  pose proof (line_le_of_offset_le ls i ca j lb cb Hj Hcb Hle) as Hij.
  destruct (Nat.eqb_spec i j) as [E|NE].
  - subst j. rewrite Hi in Hj. injection Hj as <-.
    replace (line_start ls i + cb - (line_start ls i + ca))%nat with (cb - ca)%nat by lia.
    destruct (skipn (S i) ls) as [|x t] eqn:Es.
    + reflexivity.
    + rewrite join_nl_cons_ne by discriminate. apply stake_app_le. rewrite len_sskip. lia.
  - pose proof (line_start_shift ls i (j - S i) la Hi) as S1.
    replace (S i + (j - S i))%nat with j in S1 by lia.
    set (ls' := sskip ca la :: skipn (S i) ls).
    assert (Hj' : nth_error ls' (S (j - S i)) = Some lb).
    { unfold ls'. cbn [nth_error]. rewrite nth_error_skipn. replace (S i + (j - S i))%nat with j by lia. exact Hj. }
    replace (line_start ls j + cb - (line_start ls i + ca))%nat with (line_start ls' (S (j - S i)) + cb)%nat.
    + rewrite (proj1 (join_nl_cut ls' (S (j - S i)) lb cb Hj' Hcb)). unfold ls'. cbn [firstn app].
      replace (j - i - 1)%nat with (j - S i)%nat by lia. reflexivity.
    + unfold ls'. cbn [line_start]. unfold slen. rewrite len_sskip. lia.
Qed.
