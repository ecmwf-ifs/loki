(** C20 — Source: clone_with_span records exactly the lines that hold the span; find / clone_with_string;
    join_source_list covers first start .. last end and holds every part at its own lines. *)
From Coq Require Import ZArith List Bool String Ascii Lia Arith.
From LV Require Import Base.Strings Base.ListFacts models.M_C20 proofs.P_C20_base.
Import ListNotations.
Open Scope Z_scope.

Lemma span_lines_correct ls l0 f i la ca j lb cb a b :
  forallb no_nl ls = true ->
  nth_error ls i = Some la -> (ca <= slen la)%nat -> a = (line_start ls i + ca)%nat ->
  nth_error ls j = Some lb -> (cb <= slen lb)%nat -> b = (line_start ls j + cb)%nat ->
  (a <= b)%nat ->
  s_l0 (clone_with_span (mk l0 (Some (l0 + zlen ls - 1)) (join_nl ls) f) a (Some b)) = l0 + Z.of_nat i /\
  s_l1 (clone_with_span (mk l0 (Some (l0 + zlen ls - 1)) (join_nl ls) f) a (Some b)) = Some (l0 + Z.of_nat j) /\
  s_str (clone_with_span (mk l0 (Some (l0 + zlen ls - 1)) (join_nl ls) f) a (Some b)) = slice a b (join_nl ls) /\
  s_str (clone_with_span (mk l0 (Some (l0 + zlen ls - 1)) (join_nl ls) f) a (Some b)) = text_between ls i ca j cb /\
  s_file (clone_with_span (mk l0 (Some (l0 + zlen ls - 1)) (join_nl ls) f) a (Some b)) = f.
Proof.
  unfold slen. intros Hn Hi Hca Ea Hj Hcb Eb Hle.
  unfold clone_with_span, mk_span_source, mk, py_slice. cbn [s_l0 s_l1 s_str s_file].
  pose proof (count_nl_line_start ls i la ca Hn Hi Hca) as Ca.
  pose proof (count_nl_line_start ls j lb cb Hn Hj Hcb) as Cb.
  pose proof (count_nl_slice a b (join_nl ls) Hle) as Cs.
  rewrite <- Ea in Ca. rewrite <- Eb in Cb. rewrite Ca. rewrite Ca, Cb in Cs.
  split; [reflexivity|]. split; [f_equal; lia|]. split; [reflexivity|]. split; [|reflexivity].
  subst a b. apply (slice_join_between ls i la ca j lb cb); assumption.
Qed.

Lemma clone_with_span_none src a : clone_with_span src a None = clone_with_span src a (Some (slen (s_str src))).
Proof.
  unfold clone_with_span, py_slice, slice. f_equal.
  symmetry. apply stake_all. rewrite len_sskip. unfold slen. lia.
Qed.

Lemma clone_with_span_clamp src a b : (slen (s_str src) <= b)%nat ->
  clone_with_span src a (Some b) = clone_with_span src a (Some (slen (s_str src))).
Proof.
  intros H. unfold clone_with_span, py_slice, slice, slen in *. f_equal.
  rewrite !stake_all; try reflexivity; rewrite len_sskip; lia.
Qed.

Lemma clone_with_span_consistent src a ob : consistent (clone_with_span src a ob) = true.
Proof. unfold consistent, clone_with_span, mk_span_source. cbn [s_l1 s_l0 s_str]. apply Z.eqb_refl. Qed.

Lemma prefixb_spec p : forall s, prefixb p s = true <-> stake (len p) s = p.
Proof.
  induction p as [|a p IH]; intros s.
  - cbn. split; reflexivity.
  - destruct s as [|b s]; cbn [prefixb len stake].
    + split; discriminate.
    + split.
      * intros H. apply andb_prop in H. destruct H as [H1 H2].
        apply Ascii.eqb_eq in H1. subst b. f_equal. apply IH. exact H2.
      * intros H. injection H as -> H. rewrite Ascii.eqb_refl. cbn. apply IH. exact H.
Qed.

Lemma prefixb_len p : forall s, prefixb p s = true -> (len p <= len s)%nat.
Proof.
  induction p as [|a p IH]; intros s H; cbn; [lia|].
  destruct s as [|b s]; cbn in *; [discriminate|].
  apply andb_prop in H. destruct H as [_ H]. specialize (IH s H). lia.
Qed.

Lemma prefixb_slice p s k : prefixb p (sskip k s) = true <-> slice k (k + len p) s = p.
Proof. unfold slice. replace (k + len p - k)%nat with (len p) by lia. apply prefixb_spec. Qed.

Lemma find_sub_unfold p s :
  find_sub p s = if prefixb p s then Some O
                 else match s with
                      | EmptyString => None
                      | String _ r => match find_sub p r with Some i => Some (S i) | None => None end
                      end.
Proof. destruct s; reflexivity. Qed.

Lemma find_sub_sound p : forall s i, find_sub p s = Some i ->
  prefixb p (sskip i s) = true /\ (i + len p <= len s)%nat.
Proof.
  induction s as [|c r IH]; intros i H; rewrite find_sub_unfold in H.
  - destruct (prefixb p "") eqn:E; [|discriminate]. injection H as <-. split; [exact E|].
    apply prefixb_len in E. cbn in *. lia.
  - destruct (prefixb p (String c r)) eqn:E.
    + injection H as <-. split; [exact E|]. apply prefixb_len in E. lia.
    + destruct (find_sub p r) as [k|] eqn:F; [|discriminate]. injection H as <-.
      destruct (IH k eq_refl) as [H1 H2]. split; [exact H1|]. cbn [len]. lia.
Qed.

Lemma find_sub_first p : forall s i, find_sub p s = Some i ->
  forall k, (k < i)%nat -> prefixb p (sskip k s) = false.
Proof.
  induction s as [|c r IH]; intros i H k Hk; rewrite find_sub_unfold in H.
  - destruct (prefixb p ""); [injection H as <-; lia|discriminate].
  - destruct (prefixb p (String c r)) eqn:E; [injection H as <-; lia|].
    destruct (find_sub p r) as [j|] eqn:F; [|discriminate]. injection H as <-.
    destruct k as [|k]; [exact E|]. cbn [sskip]. apply (IH j eq_refl). lia.
Qed.

Lemma find_sub_none p : forall s, find_sub p s = None -> forall k, prefixb p (sskip k s) = false.
Proof.
  induction s as [|c r IH]; intros H k; rewrite find_sub_unfold in H.
  - destruct (prefixb p "") eqn:E; [discriminate|]. destruct k; exact E.
  - destruct (prefixb p (String c r)) eqn:E; [discriminate|].
    destruct (find_sub p r) eqn:F; [discriminate|].
    destruct k as [|k]; [exact E|]. cbn [sskip]. apply IH. reflexivity.
Qed.

Lemma prefixb_false_slice p s k : prefixb p (sskip k s) = false -> slice k (k + len p) s <> p.
Proof. intros H E. apply prefixb_slice in E. congruence. Qed.

Lemma fold_slice ic a b s : fold_case ic (slice a b s) = slice a b (fold_case ic s).
Proof. destruct ic; cbn; [apply lower_slice|reflexivity]. Qed.
Lemma len_fold ic s : len (fold_case ic s) = len s.
Proof. destruct ic; cbn; [apply len_lower|reflexivity]. Qed.
Lemma sempty_fold ic s : sempty (fold_case ic s) = sempty s.
Proof. destruct ic, s; reflexivity. Qed.

Lemma find_exact hay needle ic isp i :
  sempty hay = false -> find_sub (fold_case ic needle) (fold_case ic hay) = Some i ->
  find hay needle ic isp = FSpan i (i + slen needle).
Proof. intros Hne H. unfold find. rewrite Hne, H. unfold slen. now rewrite len_fold. Qed.

Lemma find_locates hay needle ic isp a b :
  (isp = false \/ find_sub (fold_case ic needle) (fold_case ic hay) <> None) ->
  find hay needle ic isp = FSpan a b ->
  b = (a + slen needle)%nat /\ (b <= slen hay)%nat /\
  fold_case ic (slice a b hay) = fold_case ic needle /\
  (forall k, (k < a)%nat -> fold_case ic (slice k (k + slen needle) hay) <> fold_case ic needle).
Proof.
  intros Hc H. unfold find in H. destruct (sempty hay) eqn:Hne; [discriminate|].
  destruct (find_sub (fold_case ic needle) (fold_case ic hay)) as [i|] eqn:F.
  - injection H as <- <-. unfold slen. rewrite <- (len_fold ic needle).
    destruct (find_sub_sound _ _ _ F) as [P L]. rewrite (len_fold ic hay) in L.
    split; [reflexivity|]. split; [exact L|]. split.
    + rewrite fold_slice. apply prefixb_slice. exact P.
    + intros k Hk. rewrite fold_slice. apply prefixb_false_slice. exact (find_sub_first _ _ _ F k Hk).
  - destruct Hc as [-> | Hc]; [discriminate|congruence].
Qed.

Lemma find_FNone_absent hay needle ic :
  find hay needle ic false = FNone ->
  hay = EmptyString \/ forall k, fold_case ic (slice k (k + slen needle) hay) <> fold_case ic needle.
Proof.
  unfold find. destruct (sempty hay) eqn:Hne; [destruct hay; [now left|discriminate]|].
  destruct (find_sub (fold_case ic needle) (fold_case ic hay)) eqn:F; [discriminate|].
  intros _. right. intros k. rewrite fold_slice. unfold slen. rewrite <- (len_fold ic needle).
  apply prefixb_false_slice. exact (find_sub_none _ _ F k).
Qed.

Lemma find_space_partial hay needle ic a b :
  find_sub (fold_case ic needle) (fold_case ic hay) = None ->
  find hay needle ic true = FSpan a b ->
  exists t0 tl il, hd_error (split_ws (fold_case ic needle)) = Some t0 /\
    tl = List.last (split_ws (fold_case ic needle)) t0 /\
    find_sub t0 (fold_case ic hay) = Some a /\ find_sub tl (fold_case ic hay) = Some il /\ b = (il + slen tl)%nat /\
    slice a (a + slen t0) (fold_case ic hay) = t0 /\ slice il b (fold_case ic hay) = tl.
Proof.
  intros F H. unfold find in H. destruct (sempty hay); [discriminate|]. rewrite F in H.
  destruct (split_ws (fold_case ic needle)) as [|t0 ts] eqn:S; [discriminate|].
  destruct (find_sub t0 (fold_case ic hay)) as [i0|] eqn:F0; [|discriminate].
  destruct (forallb _ (t0 :: ts)); [|discriminate].
  remember (List.last (t0 :: ts) t0) as tl eqn:Etl.
  destruct (find_sub tl (fold_case ic hay)) as [il|] eqn:Fl; [|discriminate].
  injection H as <- <-.
  exists t0, tl, il.
  split; [reflexivity|]. split; [exact Etl|]. split; [exact F0|]. split; [exact Fl|]. split; [reflexivity|].
  split; apply prefixb_slice; [exact (proj1 (find_sub_sound _ _ _ F0))|exact (proj1 (find_sub_sound _ _ _ Fl))].
Qed.

Lemma cws_span src needle ic isp a b :
  find (s_str src) needle ic isp = FSpan a b ->
  clone_with_string src needle ic isp = Some (clone_with_span src a (Some b)).
Proof. intros H. unfold clone_with_string, clone_with_span, py_slice. now rewrite H. Qed.

Lemma cws_none src needle ic isp :
  find (s_str src) needle ic isp = FNone ->
  clone_with_string src needle ic isp = Some (mk (s_l0 src) (s_l1 src) needle (s_file src)).
Proof. intros H. unfold clone_with_string. now rewrite H. Qed.

Lemma clone_with_string_located ls l0 f needle ic isp r :
  forallb no_nl ls = true -> ls <> [] ->
  (isp = false \/ find_sub (fold_case ic needle) (fold_case ic (join_nl ls)) <> None) ->
  find (join_nl ls) needle ic isp <> FNone ->
  clone_with_string (mk l0 (Some (l0 + zlen ls - 1)) (join_nl ls) f) needle ic isp = Some r ->
  exists i ca j cb,
    (i <= j < List.length ls)%nat /\
    s_l0 r = l0 + Z.of_nat i /\ s_l1 r = Some (l0 + Z.of_nat j) /\
    s_str r = text_between ls i ca j cb /\ fold_case ic (s_str r) = fold_case ic needle /\ s_file r = f.
Proof.
  intros Hn Hne Hc Hnn H.
  set (src := mk l0 (Some (l0 + zlen ls - 1)) (join_nl ls) f) in *.
  destruct (find (join_nl ls) needle ic isp) as [|a b|] eqn:F; [congruence| |].
  2:{ unfold clone_with_string in H. cbn [s_str src mk] in H. rewrite F in H. discriminate. }
  destruct (find_locates _ _ _ _ _ _ Hc F) as (Eb & Lb & Ef & _).
  rewrite (cws_span src needle ic isp a b F) in H. injection H as <-.
  unfold slen in *.
  destruct (offset_line_exists ls Hne a ltac:(lia)) as (i & la & ca & Hi & Hca & Ea).
  destruct (offset_line_exists ls Hne b Lb) as (j & lb & cb & Hj & Hcb & Eb').
  destruct (span_lines_correct ls l0 f i la ca j lb cb a b Hn Hi Hca Ea Hj Hcb Eb' ltac:(lia))
    as (R0 & R1 & R2 & R3 & R4).
  exists i, ca, j, cb. fold src in R0, R1, R2, R3, R4.
  pose proof (line_le_of_offset_le ls i ca j lb cb Hj Hcb ltac:(lia)) as Hij.
  assert (Hjl : (j < List.length ls)%nat) by (apply nth_error_Some; congruence).
  split; [lia|]. split; [exact R0|]. split; [exact R1|]. split; [exact R3|]. split; [|exact R4].
  rewrite R2. exact Ef.
Qed.

Lemma consistent_inv s : consistent s = true ->
  s_l1 s = Some (oval (s_l1 s) 0) /\ oval (s_l1 s) 0 = s_l0 s + count_nl (s_str s).
Proof.
  unfold consistent, oval. destruct (s_l1 s) as [e|]; [|discriminate].
  intros H. apply Z.eqb_eq in H. split; [reflexivity|exact H].
Qed.

(** The loop of join_source_list, started with the lines l0 .. l1 of [str] already joined; [d] is the part
    joined last.  Part k of the rest sits behind [str] at offset [join_offset l1 rest k], on its own line. *)
Lemma join_rest_spec : forall rest d l0 l1 str a b out,
  s_l1 d = Some l1 -> l1 = l0 + count_nl str ->
  ordered_sources l1 rest = true ->
  join_rest l0 l1 str rest = (a, b, out) ->
  a = l0 /\ b = l0 + count_nl out /\ Some b = s_l1 (List.last rest d) /\
  (exists suffix, out = (str ++ suffix)%string) /\
  forall k p, nth_error rest k = Some p ->
     slice (len str + join_offset l1 rest k) (len str + join_offset l1 rest k + len (s_str p)) out = s_str p /\
     l0 + count_nl (stake (len str + join_offset l1 rest k) out) = s_l0 p.
Proof.
  induction rest as [|s r IH]; intros d l0 l1 str a b out Hd Hinv Hord H.
  - cbn in H. injection H as <- <- <-. split; [reflexivity|]. split; [exact Hinv|]. split; [symmetry; exact Hd|].
    split; [exists EmptyString; now rewrite append_nil_r|]. intros k p Hk. destruct k; discriminate.
  - cbn [ordered_sources] in Hord.
    apply andb_prop in Hord. destruct Hord as [Hord Hr].
    apply andb_prop in Hord. destruct Hord as [Hord Ht].
    apply andb_prop in Hord. destruct Hord as [Hle Hc].
    apply Z.leb_le in Hle.
    destruct (consistent_inv s Hc) as [E1 E2].
    cbn [join_rest] in H. rewrite Ht in H.
    assert (Hd' : (s_l0 s - l1 <? 0) = false) by (apply Z.ltb_ge; lia).
    rewrite Hd' in H.
    set (gap := Z.to_nat (s_l0 s - l1)) in *.
    set (str' := (str ++ newlines gap ++ s_str s)%string) in *.
    assert (Hinv' : oval (s_l1 s) 0 = l0 + count_nl str').
    { unfold str'. rewrite !count_nl_app, count_nl_newlines. unfold gap. rewrite Z2Nat.id by lia. lia. }
    destruct (IH s l0 (oval (s_l1 s) 0) str' a b out E1 Hinv' Hr H) as (Ha & Hb & Hl & (suf & Hs) & Hparts).
    split; [exact Ha|]. split; [exact Hb|]. split; [now rewrite last_cons|].
    split.
    { exists (newlines gap ++ s_str s ++ suf)%string. rewrite Hs. unfold str'.
      now rewrite !append_assoc. }
    intros k p Hk. destruct k as [|k'].
    + cbn in Hk. injection Hk as <-. cbn [join_offset]. fold gap.
      assert (Eo : out = ((str ++ newlines gap) ++ s_str s ++ suf)%string).
      { rewrite Hs. unfold str'. now rewrite !append_assoc. }
      assert (El : len (str ++ newlines gap) = (len str + gap)%nat) by (rewrite length_append, len_newlines; reflexivity).
      split.
      * rewrite Eo, <- El. apply slice_mid.
      * rewrite Eo, <- El, stake_prefix, count_nl_app, count_nl_newlines. unfold gap. rewrite Z2Nat.id by lia. lia.
    + cbn [nth_error] in Hk. cbn [join_offset]. fold gap.
      destruct (Hparts k' p Hk) as [P1 P2].
      assert (El : (len str' = len str + (gap + slen (s_str s)))%nat).
      { unfold str', slen. rewrite !length_append, len_newlines. lia. }
      replace (len str + (gap + slen (s_str s) + join_offset (oval (s_l1 s) 0) r k'))%nat
        with (len str' + join_offset (oval (s_l1 s) 0) r k')%nat by lia.
      split; assumption.
Qed.

(** the first part is joined like the others, to an empty text that ends where the first part starts *)
Lemma join_source_list_rest s rest : truthy (s_l1 s) = true ->
  join_source_list (s :: rest) =
  match join_rest (s_l0 s) (s_l0 s) EmptyString (s :: rest) with
  | (a, b, str) => Some {| s_l0 := a; s_l1 := Some b; s_str := str; s_file := s_file s |}
  end.
Proof. intros Ht. unfold join_source_list. cbn [join_rest]. now rewrite Ht, Z.sub_diag. Qed.

Lemma join_covers s rest r :
  ordered_sources (s_l0 s) (s :: rest) = true ->
  join_source_list (s :: rest) = Some r ->
  s_l0 r = s_l0 s /\ s_l1 r = s_l1 (List.last (s :: rest) s) /\ consistent r = true /\ s_file r = s_file s /\
  forall k p, nth_error (s :: rest) k = Some p ->
    slice (join_offset (s_l0 s) (s :: rest) k) (join_offset (s_l0 s) (s :: rest) k + slen (s_str p)) (s_str r) = s_str p /\
    s_l0 r + count_nl (stake (join_offset (s_l0 s) (s :: rest) k) (s_str r)) = s_l0 p.
Proof.
  intros Hord H.
  assert (Ht : truthy (s_l1 s) = true).
  { cbn [ordered_sources] in Hord. apply andb_prop in Hord. destruct Hord as [Hord _].
    apply andb_prop in Hord. exact (proj2 Hord). }
  rewrite (join_source_list_rest s rest Ht) in H.
  destruct (join_rest (s_l0 s) (s_l0 s) "" (s :: rest)) as [[a b] out] eqn:J. injection H as <-.
  destruct (join_rest_spec (s :: rest) (mk 0 (Some (s_l0 s)) "" None) (s_l0 s) (s_l0 s) "" a b out
              eq_refl (eq_sym (Z.add_0_r _)) Hord J) as (-> & Hb & Hl & _ & Hparts).
  cbn [s_l0 s_l1 s_str s_file]. rewrite !last_cons in *.
  split; [reflexivity|]. split; [exact Hl|].
  split; [unfold consistent; cbn [s_l1 s_l0 s_str]; apply Z.eqb_eq; exact Hb|].
  split; [reflexivity|exact Hparts].
Qed.

Lemma join_no_assertion_on_class s rest r :
  ordered_sources (s_l0 s) (s :: rest) = true ->
  join_source_list (s :: rest) = Some r -> join_source_list_py (s :: rest) = JSrc r.
Proof.
  intros Hord H. destruct (join_covers s rest r Hord H) as (_ & _ & Hc & _).
  unfold join_source_list_py. rewrite H. unfold consistent in Hc.
  destruct (s_l1 r) as [e|]; [|discriminate]. apply Z.eqb_eq in Hc. cbn [oval].
  assert (E : (e <? s_l0 r) = false) by (apply Z.ltb_ge; pose proof (count_nl_nonneg (s_str r)); lia).
  now rewrite E.
Qed.

(** overlapping ranges: the joined source is no longer consistent (the warning case of the code) *)
Lemma join_overlap_refuted :
  exists a b r, consistent a = true /\ consistent b = true /\
    join_source_list [a; b] = Some r /\ consistent r = false.
Proof.
  exists (mk 1 (Some 2) ("x" ++ String nl "y") None), (mk 1 (Some 1) "z" None),
         (mk 1 (Some 1) ("x" ++ String nl "yz") None).
  repeat split; vm_compute; reflexivity.
Qed.

(** ... and a part that lies before the first one makes the constructor's assertion fail *)
Lemma join_overlap_assert :
  join_source_list_py [mk 6 (Some 6) "x" None; mk 2 (Some 2) "y" None] = JAssertErr.
Proof. vm_compute. reflexivity. Qed.
