(** C20 — FortranReader: sanitized_spans are strictly increasing; a line-aligned span of the sanitised string
    maps to the physical lines of the sanitised lines it touches; reader_from_sanitized_span with an open end
    gives a sub-reader whose string is its joined sanitised lines and whose spans are their line starts.
    On the way: Python indexing and slicing ([py_nth], [py_lslice]) and [bind] in range; at the end the witnesses
    on [demo_text] for spans that start inside a line and sub-readers that stop inside the text. *)
From Coq Require Import ZArith List Bool String Ascii Lia Arith Sorting.Sorted.
From LV Require Import Base.Strings models.M_C20 proofs.P_C20_base.
Import ListNotations.
Open Scope list_scope.
Open Scope Z_scope.

Lemma accum_lower : forall l acc k y, nth_error (accum acc l) k = Some y -> acc < y.
Proof.
  induction l as [|x r IH]; intros acc k y H; [destruct k; discriminate|].
  cbn [accum] in H. destruct k as [|k]; cbn [nth_error] in H.
  - injection H as <-. lia.
  - specialize (IH _ _ _ H). lia.
Qed.

Lemma length_accum : forall l acc, List.length (accum acc l) = List.length l.
Proof. induction l as [|x r IH]; intros acc; cbn; [reflexivity|]. now rewrite IH. Qed.

Definition incr (l : list Z) : Prop :=
  forall k t x y, (k < t)%nat -> nth_error l k = Some x -> nth_error l t = Some y -> x < y.

Lemma incr_le l : incr l -> forall k t x y, (k <= t)%nat -> nth_error l k = Some x -> nth_error l t = Some y -> x <= y.
Proof.
  intros H k t x y Hkt Hk Ht. destruct (Nat.eq_dec k t) as [->|N].
  - rewrite Hk in Ht. injection Ht as <-. lia.
  - specialize (H k t x y ltac:(lia) Hk Ht). lia.
Qed.

Lemma accum_incr : forall l acc, incr (acc :: accum acc l).
Proof.
  induction l as [|z r IH]; intros acc k t x y Hkt Hk Ht; (destruct t as [|t]; [lia|]); cbn [nth_error] in Ht.
  - destruct t; discriminate.
  - destruct k as [|k]; cbn [nth_error accum] in Hk, Ht.
    + injection Hk as <-. exact (accum_lower (z :: r) acc t y Ht).
    + exact (IH _ k t x y ltac:(lia) Hk Ht).
Qed.

Lemma spans_incr src items : incr (rd_spans (mk_reader src items)).
Proof. apply accum_incr. Qed.

Lemma spans_shape src items :
  let rd := mk_reader src items in
  List.length (rd_spans rd) = S (List.length (rd_san rd)) /\ nth_error (rd_spans rd) 0 = Some 0 /\
  rd_str rd = join_nl (map r_text (rd_san rd)).
Proof. unfold mk_reader. cbn. rewrite length_accum. repeat split. Qed.

Lemma bisect_from_spec : forall l x i lo t y,
  (forall k z, (k < t)%nat -> nth_error l k = Some z -> z < x \/ i + Z.of_nat k < lo) ->
  nth_error l t = Some y -> x <= y -> lo <= i + Z.of_nat t ->
  bisect_from l x i lo = i + Z.of_nat t.
Proof.
  induction l as [|z r IH]; intros x i lo t y Hbefore Ht Hxy Hlo; [destruct t; discriminate|].
  cbn [bisect_from]. destruct t as [|t].
  - cbn in Ht. injection Ht as <-.
    assert (E1 : (lo <=? i) = true) by (apply Z.leb_le; lia).
    assert (E2 : (x <=? z) = true) by (apply Z.leb_le; lia).
    rewrite E1, E2. cbn. lia.
  - cbn [nth_error] in Ht.
    assert (E : (lo <=? i) && (x <=? z) = false).
    { destruct (Hbefore 0%nat z ltac:(lia) eq_refl) as [H|H].
      - apply andb_false_intro2. apply Z.leb_gt. exact H.
      - apply andb_false_intro1. apply Z.leb_gt. lia. }
    rewrite E. rewrite (IH x (i + 1) lo t y); [lia| |exact Ht|exact Hxy|lia].
    intros k w Hk Hw. destruct (Hbefore (S k) w ltac:(lia) Hw) as [H|H]; [left; exact H|right; lia].
Qed.

Lemma py_nth_ok {A} (l : list A) k x : nth_error l k = Some x -> py_nth l (Z.of_nat k) = Ok x.
Proof.
  intros H. unfold py_nth, zlen.
  assert (Hk : (k < List.length l)%nat) by (apply nth_error_Some; congruence).
  assert (E1 : (Z.of_nat k <? 0) = false) by (apply Z.ltb_ge; lia).
  rewrite E1.
  assert (E2 : (Z.of_nat k <? 0) || (Z.of_nat (List.length l) <=? Z.of_nat k) = false).
  { rewrite E1. cbn. apply Z.leb_gt. lia. }
  rewrite E2, Nat2Z.id, H. reflexivity.
Qed.

(** spans[i] = a makes the first bisection return i; spans[j-1] = p < b <= q = spans[j] makes the second, started
    at i, return j; both sanitised lines exist, so no IndexError *)
Lemma get_indices_aligned src items i j x y a b p q :
  (i < j)%nat ->
  nth_error (rd_spans (mk_reader src items)) i = Some a ->
  nth_error (rd_spans (mk_reader src items)) (j - 1) = Some p ->
  nth_error (rd_spans (mk_reader src items)) j = Some q -> p < b <= q ->
  nth_error (rd_san (mk_reader src items)) i = Some x ->
  nth_error (rd_san (mk_reader src items)) (j - 1) = Some y ->
  get_indices (mk_reader src items) a (Some b) false = Ok (Z.of_nat i, Z.of_nat j, r_s x - 1, r_e y).
Proof.
  intros Hij Ha Hp Hq Hb Hx Hy.
  set (rd := mk_reader src items) in *.
  pose proof (spans_incr src items) as Hinc. fold rd in Hinc.
  assert (Hjn : (j <= List.length (rd_san rd))%nat).
  { assert (j - 1 < List.length (rd_san rd))%nat by (apply nth_error_Some; congruence). lia. }
  unfold get_indices, bisect_left.
  assert (Ess : bisect_from (rd_spans rd) a 0 0 = Z.of_nat i).
  { rewrite (bisect_from_spec (rd_spans rd) a 0 0 i a); [lia| |exact Ha|lia|lia].
    intros k z Hk Hz. left. exact (Hinc k i z a Hk Hz Ha). }
  rewrite Ess.
  assert (Ese : bisect_from (rd_spans rd) b 0 (Z.of_nat i) = Z.of_nat j).
  { rewrite (bisect_from_spec (rd_spans rd) b 0 (Z.of_nat i) j q); [lia| |exact Hq|lia|lia].
    intros k z Hk Hz. left.
    pose proof (incr_le _ Hinc k (j - 1)%nat z p ltac:(lia) Hz Hp). lia. }
  rewrite Ese.
  assert (Emin : Z.min (zlen (rd_san rd)) (Z.of_nat j) = Z.of_nat j) by (unfold zlen; lia).
  rewrite Emin.
  assert (En : (zlen (rd_san rd) <=? Z.of_nat i) = false) by (apply Z.leb_gt; unfold zlen; lia).
  rewrite En.
  rewrite (py_nth_ok _ _ _ Hx). cbn [bind].
  replace (Z.of_nat j - 1) with (Z.of_nat (j - 1)) by lia.
  rewrite (py_nth_ok _ _ _ Hy). cbn [bind].
  unfold line_index, rd, mk_reader. cbn [rd_off].
  replace (r_s x - 0 - 1) with (r_s x - 1) by lia. replace (r_e y + 1 - 0 - 1) with (r_e y) by lia. reflexivity.
Qed.

Lemma py_lslice_in_range {A} (l : list A) a b : 0 <= a -> a <= b -> b <= zlen l ->
  py_lslice l a b = firstn (Z.to_nat (b - a)) (skipn (Z.to_nat a) l).
Proof.
  intros Ha Hab Hb. unfold py_lslice, clampi.
  assert (E1 : (a <? 0) = false) by (apply Z.ltb_ge; lia).
  assert (E2 : (b <? 0) = false) by (apply Z.ltb_ge; lia).
  rewrite E1, E2. rewrite !Z.min_l by lia. reflexivity.
Qed.

Lemma source_from_span_aligned src items i j x y a b p q :
  (i < j)%nat ->
  nth_error (rd_spans (mk_reader src items)) i = Some a ->
  nth_error (rd_spans (mk_reader src items)) (j - 1) = Some p ->
  nth_error (rd_spans (mk_reader src items)) j = Some q -> p < b <= q ->
  nth_error (rd_san (mk_reader src items)) i = Some x ->
  nth_error (rd_san (mk_reader src items)) (j - 1) = Some y ->
  1 <= r_s x -> r_s x <= r_e y -> r_e y <= zlen src ->
  source_from_span (mk_reader src items) a (Some b) false =
    (if sempty (join_nl (firstn (Z.to_nat (r_e y - r_s x + 1)) (skipn (Z.to_nat (r_s x - 1)) src))) then Ok None
     else Ok (Some (mk (r_s x) (Some (r_e y))
                       (join_nl (firstn (Z.to_nat (r_e y - r_s x + 1)) (skipn (Z.to_nat (r_s x - 1)) src))) None))).
Proof.
  intros Hij Ha Hp Hq Hb Hx Hy H1 H2 H3.
  unfold source_from_span. rewrite (get_indices_aligned src items i j x y a b p q Hij Ha Hp Hq Hb Hx Hy).
  cbn [bind]. change (rd_src (mk_reader src items)) with src. change (rd_off (mk_reader src items)) with 0.
  rewrite py_lslice_in_range by lia.
  replace (r_e y - (r_s x - 1)) with (r_e y - r_s x + 1) by lia.
  destruct (sempty _) eqn:E; [reflexivity|].
  unfold mk_source. replace (0 + (r_s x - 1) + 1) with (r_s x) by lia. replace (0 + r_e y) with (r_e y) by lia.
  assert (E2 : (r_e y <? r_s x) = false) by (apply Z.ltb_ge; lia).
  rewrite E2. reflexivity.
Qed.

Lemma after_p_bounds n x y : span_ok_p n x -> span_ok_p n y -> after_p x y -> r_s x <= r_s y /\ r_e x <= r_e y.
Proof. unfold span_ok_p, after_p. intros Hx Hy [H|[H1 H2]]; lia. Qed.

Lemma sorted_nth n (l : list ritem) : StronglySorted after_p l -> Forall (span_ok_p n) l ->
  forall k t x y, (k <= t)%nat -> nth_error l k = Some x -> nth_error l t = Some y ->
  r_s x <= r_s y /\ r_e x <= r_e y.
Proof.
  induction 1 as [|z r Hs IH Hall]; intros Hok k t x y Hkt Hk Ht; [destruct k; discriminate|].
  inversion Hok as [|? ? Hz Hr]; subst.
  destruct k as [|k].
  - cbn in Hk. injection Hk as <-. destruct t as [|t].
    + cbn in Ht. injection Ht as <-. lia.
    + cbn [nth_error] in Ht. apply (after_p_bounds n); [exact Hz| |].
      * rewrite Forall_forall in Hr. apply Hr. eapply nth_error_In; exact Ht.
      * rewrite Forall_forall in Hall. apply Hall. eapply nth_error_In; exact Ht.
  - destruct t as [|t]; [lia|]. cbn [nth_error] in Hk, Ht. apply (IH Hr k t); [lia|assumption|assumption].
Qed.

Lemma accum_shift : forall l acc, accum acc l = map (Z.add acc) (accum 0 l).
Proof.
  induction l as [|x r IH]; intros acc; [reflexivity|]. cbn [accum map].
  rewrite (IH (acc + Z.of_nat (slen (r_text x)) + 1)), (IH (0 + Z.of_nat (slen (r_text x)) + 1)).
  rewrite map_map. f_equal; [lia|]. apply map_ext. intros a. lia.
Qed.

Lemma skipn_spans : forall ss acc l, (ss <= List.length l)%nat ->
  exists off, nth_error (acc :: accum acc l) ss = Some off /\
              skipn ss (acc :: accum acc l) = off :: accum off (skipn ss l).
Proof.
  induction ss as [|ss IH]; intros acc l H.
  - exists acc. split; reflexivity.
  - destruct l as [|x r]; cbn [List.length] in H; [lia|].
    cbn [accum]. destruct (IH (acc + Z.of_nat (slen (r_text x)) + 1) r ltac:(lia)) as (off & E1 & E2).
    exists off. split; [exact E1|exact E2].
Qed.

Lemma map_sub_spans off l : map (fun x => x - off) (off :: accum off l) = 0 :: accum 0 l.
Proof.
  cbn [map]. f_equal; [lia|]. rewrite (accum_shift l off), map_map.
  rewrite <- (map_id (accum 0 l)) at 2. apply map_ext. intros a. lia.
Qed.

Lemma sskip_join_texts : forall ss acc (l : list ritem) off, (ss < List.length l)%nat ->
  nth_error (acc :: accum acc l) ss = Some off ->
  sskip (Z.to_nat (off - acc)) (join_nl (map r_text l)) = join_nl (map r_text (skipn ss l)).
Proof.
  induction ss as [|ss IH]; intros acc l off H E.
  - cbn in E. injection E as <-. now rewrite Z.sub_diag.
  - destruct l as [|x r]; cbn [List.length] in H; [lia|].
    cbn [accum nth_error] in E. cbn [map skipn].
    assert (Hr : map r_text r <> []) by (destruct r; [cbn in H; lia|discriminate]).
    rewrite join_nl_cons_ne by exact Hr.
    pose proof (IH (acc + Z.of_nat (slen (r_text x)) + 1) r off ltac:(lia) E) as IH'.
    assert (Hlow : acc + Z.of_nat (slen (r_text x)) + 1 <= off).
    { destruct ss as [|ss']; [cbn in E; injection E as <-; lia|].
      cbn [nth_error] in E. pose proof (accum_lower _ _ _ _ E). lia. }
    replace (Z.to_nat (off - acc)) with (len (r_text x) + S (Z.to_nat (off - (acc + Z.of_nat (slen (r_text x)) + 1))))%nat
      by (unfold slen in *; lia).
    rewrite sskip_app_ge. cbn [sskip]. exact IH'.
Qed.

Lemma bisect_from_range : forall l x i lo, i <= bisect_from l x i lo <= i + zlen l.
Proof.
  induction l as [|y r IH]; intros x i lo; cbn [bisect_from]; unfold zlen in *; cbn [List.length]; [lia|].
  destruct ((lo <=? i) && (x <=? y)); [lia|]. specialize (IH x (i + 1) lo). lia.
Qed.

Lemma py_nth_inv {A} (l : list A) i x : 0 <= i -> py_nth l i = Ok x -> nth_error l (Z.to_nat i) = Some x.
Proof.
  intros Hi. unfold py_nth. assert (E : (i <? 0) = false) by (apply Z.ltb_ge; lia). rewrite E.
  destruct ((i <? 0) || (zlen l <=? i)); [discriminate|].
  destruct (nth_error l (Z.to_nat i)); [intros H; injection H as <-; reflexivity|discriminate].
Qed.

Lemma py_lslice_tail {A} (l : list A) ss n : 0 <= ss -> ss <= zlen l -> zlen l <= n ->
  py_lslice l ss n = skipn (Z.to_nat ss) l.
Proof.
  intros H1 H2 H3. unfold py_lslice, clampi.
  assert (E1 : (ss <? 0) = false) by (apply Z.ltb_ge; lia).
  assert (E2 : (n <? 0) = false) by (apply Z.ltb_ge; unfold zlen in *; lia).
  rewrite E1, E2. rewrite (Z.min_l ss) by lia. rewrite (Z.min_r n) by lia.
  apply firstn_all2. rewrite skipn_length. unfold zlen in *. lia.
Qed.

Lemma bind_ok {A B} (r : res A) (f : A -> res B) b : bind r f = Ok b -> exists a, r = Ok a /\ f a = Ok b.
Proof. destruct r; [eauto|discriminate|discriminate]. Qed.

(** whatever branch computes the source lines, the sanitised indices are the bisection point and the length *)
Lemma get_indices_open_end rd a pad ss se s0 e0 :
  get_indices rd a None pad = Ok (ss, se, s0, e0) ->
  ss = bisect_left (rd_spans rd) a 0 /\ se = zlen (rd_san rd).
Proof.
  unfold get_indices. intros H. destruct pad.
  - apply bind_ok in H. destruct H as (? & _ & H). apply bind_ok in H. destruct H as (? & _ & H).
    injection H as <- <- _ _. split; reflexivity.
  - destruct (_ <=? _); apply bind_ok in H; destruct H as (? & _ & H).
    + injection H as <- <- _ _. split; reflexivity.
    + apply bind_ok in H. destruct H as (? & _ & H). injection H as <- <- _ _. split; reflexivity.
Qed.

Definition reader_consistent (rd : reader) : Prop :=
  rd_str rd = join_nl (map r_text (rd_san rd)) /\ rd_spans rd = 0 :: accum 0 (rd_san rd).

Lemma mk_reader_consistent src items : reader_consistent (mk_reader src items).
Proof. split; reflexivity. Qed.

Lemma sub_reader_consistent_gen rd a pad sub :
  reader_consistent rd ->
  reader_from_span rd a None pad = Ok (Some sub) -> reader_consistent sub.
Proof.
  intros [Cstr Cspans]. unfold reader_from_span.
  destruct (get_indices rd a None pad) as [[[[ss se] s0] e0]| |] eqn:G; cbn [bind]; try discriminate.
  destruct (get_indices_open_end rd a pad ss se s0 e0 G) as [Ess Ese].
  destruct (zlen (rd_san rd) <=? ss) eqn:Hn; [discriminate|]. apply Z.leb_gt in Hn.
  assert (Hss0 : 0 <= ss) by (rewrite Ess; unfold bisect_left; pose proof (bisect_from_range (rd_spans rd) a 0 0); lia).
  destruct (py_nth (rd_spans rd) ss) as [off| |] eqn:Hoff; cbn [bind]; try discriminate.
  assert (Hlen : zlen (rd_spans rd) = zlen (rd_san rd) + 1).
  { rewrite Cspans. unfold zlen. cbn [List.length]. rewrite length_accum. lia. }
  assert (Hhi : (se + 1 <? zlen (rd_spans rd)) = false) by (apply Z.ltb_ge; lia).
  rewrite Hhi. cbn [bind]. intros H. injection H as <-. unfold reader_consistent. cbn [rd_str rd_san rd_spans].
  apply py_nth_inv in Hoff; [|exact Hss0].
  assert (Hssn : (Z.to_nat ss < List.length (rd_san rd))%nat) by (unfold zlen in Hn; lia).
  rewrite Cspans in Hoff |- *. rewrite Cstr.
  destruct (skipn_spans (Z.to_nat ss) 0 (rd_san rd) ltac:(lia)) as (off' & E1 & E2).
  rewrite Hoff in E1. injection E1 as <-.
  rewrite (py_lslice_tail (rd_san rd) ss se) by (unfold zlen in *; lia).
  rewrite (py_lslice_tail (0 :: accum 0 (rd_san rd)) ss (se + 1))
    by (unfold zlen in *; cbn [List.length] in *; rewrite ?length_accum in *; lia).
  rewrite E2, map_sub_spans. split; [|reflexivity].
  unfold zslice, py_slice. cbn [option_map].
  pose proof (sskip_join_texts (Z.to_nat ss) 0 (rd_san rd) off Hssn Hoff) as K.
  rewrite Z.sub_0_r in K. exact K.
Qed.

Definition demo_text : string := ("a = 1" ++ String nl ("b = 2" ++ String nl "c = 3"))%string.

Lemma span_midline_refuted :
  exists rd a b s, rd = reader_of_text demo_text /\
    (* offsets 2..8 of the sanitised string lie on its lines 0 and 1, i.e. on physical lines 1-2 *)
    a = 2 /\ b = 8 /\ rd_spans rd = [0; 6; 12; 18] /\
    source_from_span rd a (Some b) false = Ok (Some s) /\ s_l0 s = 2 /\ s_l1 s = Some 2.
Proof.
  exists (reader_of_text demo_text), 2, 8, (mk 2 (Some 2) "b = 2" None).
  split; [reflexivity|]. split; [reflexivity|]. split; [reflexivity|].
  split; [vm_compute; reflexivity|]. split; [vm_compute; reflexivity|]. split; reflexivity.
Qed.

Lemma sub_reader_string_refuted :
  exists rd sub, rd = reader_of_text demo_text /\
    reader_from_span rd 0 (Some 5) false = Ok (Some sub) /\
    map r_text (rd_san sub) = ["a = 1"%string] /\
    rd_str sub = ("a = 1" ++ String nl ("b = 2" ++ String nl ""))%string.
Proof.
  exists (reader_of_text demo_text),
    {| rd_off := 0; rd_src := ["a = 1"%string];
       rd_san := [{| r_kind := KLine; r_text := "a = 1"; r_s := 1; r_e := 1; r_inner := false |}];
       rd_spans := [0; 6]; rd_str := ("a = 1" ++ String nl ("b = 2" ++ String nl ""))%string |}.
  split; [reflexivity|]. split; [vm_compute; reflexivity|]. split; reflexivity.
Qed.
