(** C20 — the model of fparser's line reader.  Two invariants of [scan], each carried through one physical line
    by a lemma about [step]: (1) spans in range and in reading order, comments inside a statement flagged as
    such; (2) every logical line is made of pieces of the physical lines g_s .. g_e, in order, the lines in
    between being blank or comment lines. *)
From Coq Require Import ZArith List Bool String Ascii Lia Arith Sorting.Sorted.
From LV Require Import Base.Strings models.M_C20 proofs.P_C20_base.
Import ListNotations.
Open Scope list_scope.
Open Scope Z_scope.

Definition step (k : Z) (st : option cstate) (l : string) : list ev * option cstate :=
  match st with None => scan_fresh k l | Some c => scan_cont k c l end.

Lemma scan_cons k st l r :
  scan k st (l :: r) = fst (step k st l) ++ scan (k + 1) (snd (step k st l)) r.
Proof. cbn [scan]. unfold step. destruct st; destruct (_ : list ev * option cstate); reflexivity. Qed.

Lemma SS_app {A} (R : A -> A -> Prop) (a b : list A) :
  StronglySorted R a -> StronglySorted R b -> (forall x y, In x a -> In y b -> R x y) -> StronglySorted R (a ++ b).
Proof.
  induction a as [|x a IH]; intros Ha Hb H; [exact Hb|].
  inversion Ha as [|? ? Hsa Hfa]; subst. cbn. constructor.
  - apply IH; [exact Hsa|exact Hb|]. intros u v Hu Hv. apply H; [now right|exact Hv].
  - apply Forall_app. split; [exact Hfa|]. apply Forall_forall. intros y Hy. apply H; [now left|exact Hy].
Qed.

Lemma is_sub_refl l : is_sub l l.
Proof. exists 0%nat, (len l). cbn [sskip]. symmetry. apply stake_all. lia. Qed.
Lemma is_sub_stake n p l : is_sub p l -> is_sub (stake n p) l.
Proof. intros (a & m & ->). exists a, (Nat.min n m). apply stake_stake. Qed.
Lemma is_sub_sskip n p l : is_sub p l -> is_sub (sskip n p) l.
Proof. intros (a & m & ->). exists (a + n)%nat, (m - n)%nat. rewrite sskip_stake, sskip_sskip. reflexivity. Qed.

Lemma rstrip_prefix s : exists n, rstrip s = stake n s.
Proof.
  induction s as [|c r (n & IH)]; [exists 0%nat; reflexivity|]. cbn [rstrip].
  destruct (is_ws c && sempty (rstrip r)); [exists 0%nat; reflexivity|].
  exists (S n). cbn [stake]. now rewrite IH.
Qed.

Lemma split_cmt_prefix : forall s q, exists n, fst (fst (split_cmt q s)) = stake n s.
Proof.
  induction s as [|c r IH]; intros q; [exists 0%nat; reflexivity|]. cbn [split_cmt].
  destruct (q_is_none q && Ascii.eqb c "!"); [exists 0%nat; reflexivity|].
  destruct (IH (qstep q c)) as (n & E). destruct (split_cmt (qstep q c) r) as [[a b] q']. cbn [fst] in *.
  exists (S n). cbn [stake]. now rewrite E.
Qed.

Lemma drop_last_prefix s : exists n, drop_last s = stake n s.
Proof.
  induction s as [|c r (n & IH)]; [exists 0%nat; reflexivity|]. cbn [drop_last].
  destruct r as [|c2 r']; [exists 0%nat; reflexivity|]. exists (S n). cbn [stake]. now rewrite IH.
Qed.

Lemma is_sub_rstrip p l : is_sub p l -> is_sub (rstrip p) l.
Proof. intros H. destruct (rstrip_prefix p) as (n & ->). now apply is_sub_stake. Qed.
Lemma is_sub_drop_last p l : is_sub p l -> is_sub (drop_last p) l.
Proof. intros H. destruct (drop_last_prefix p) as (n & ->). now apply is_sub_stake. Qed.
Lemma is_sub_lead p l : is_sub p l -> is_sub (lead_amp_cut p) l.
Proof.
  intros H. unfold lead_amp_cut. destruct (find_sub "&" p) as [k|]; [|exact H].
  destruct (Nat.eqb k 1 || sempty (lstrip (stake k p))); [|exact H]. now apply is_sub_sskip.
Qed.
Lemma is_sub_code q p l code cm q' : is_sub p l -> split_cmt q p = (code, cm, q') -> is_sub code l.
Proof. intros H E. destruct (split_cmt_prefix p q) as (n & F). rewrite E in F. cbn in F. subst code. now apply is_sub_stake. Qed.

Lemma line_at_here pre l r : line_at (pre ++ l :: r) (zlen pre + 1) = Some l.
Proof.
  unfold line_at, zlen. assert (E : (Z.of_nat (List.length pre) + 1 <? 1) = false) by (apply Z.ltb_ge; lia).
  rewrite E. replace (Z.of_nat (List.length pre) + 1 - 1) with (Z.of_nat (List.length pre)) by lia.
  rewrite Nat2Z.id, nth_error_app2 by lia. now rewrite Nat.sub_diag.
Qed.

Lemma sorted_le_last : forall l x, StronglySorted Z.lt l -> In x l -> x <= List.last l 0.
Proof.
  induction l as [|y r IH]; intros x Hs Hin; [destruct Hin|].
  inversion Hs as [|? ? Hs' Hf]; subst. destruct r as [|z r'].
  - destruct Hin as [<-|[]]. cbn. lia.
  - change (List.last (y :: z :: r') 0) with (List.last (z :: r') 0). destruct Hin as [<-|Hin].
    + rewrite Forall_forall in Hf.
      assert (Hl : In (List.last (z :: r') 0) (z :: r')).
      { clear. revert z. induction r' as [|w t IHt]; intros z; [now left|]. right. apply IHt. }
      specialize (Hf _ Hl). lia.
    + apply IH; assumption.
Qed.

Lemma sorted_snoc l k : StronglySorted Z.lt l -> (forall x, In x l -> x < k) -> StronglySorted Z.lt (l ++ [k]).
Proof.
  intros Hs H. apply SS_app; [exact Hs|constructor; constructor|].
  intros x y Hx [<-|[]]. apply H, Hx.
Qed.

Definition ev_lo (e : ev) : Z := match e with EvI i => r_s i | EvG g => g_s g end.
Definition ev_hi (e : ev) : Z := match e with EvI i => r_e i | EvG g => g_e g end.
Definition ev_lt (a b : ev) : Prop := ev_hi a < ev_lo b.

Definition inner_cmt_ok (lo hi : Z) (x : ritem) : Prop :=
  r_inner x = true /\ r_kind x = KComment /\ lo <= r_s x /\ r_s x = r_e x /\ r_e x <= hi.

(** an event lies within lo .. hi; a stand-alone item is not flagged and is no statement; the comments of a
    logical line lie on its physical lines (or, while it is still open, up to hi) *)
Definition ev_good (lo hi : Z) (e : ev) : Prop :=
  lo <= ev_lo e /\ ev_lo e <= ev_hi e /\ ev_hi e <= hi /\
  match e with
  | EvI i => r_inner i = false /\ r_kind i <> KLine
  | EvG g => Forall (inner_cmt_ok (g_s g) hi) (g_cms g)
  end.

(** ... so every item of an event either carries the event's span or is a flagged comment inside it *)
Definition item_good (e : ev) (hi : Z) (x : ritem) : Prop :=
  (r_inner x = false /\ r_s x = ev_lo e /\ r_e x = ev_hi e) \/ inner_cmt_ok (ev_lo e) hi x.

Lemma ev_items_good lo hi e : ev_good lo hi e -> Forall (item_good e hi) (ev_items e).
Proof.
  intros (_ & _ & _ & H). destruct e as [i|g]; cbn [ev_items].
  - constructor; [|constructor]. left. split; [apply H|split; reflexivity].
  - apply Forall_app. split.
    + apply Forall_forall. intros x Hx. apply in_map_iff in Hx. destruct Hx as (p & <- & _).
      left. cbn. repeat split.
    + eapply Forall_impl; [|exact H]. intros x Hx. right. exact Hx.
Qed.

Lemma Forall_inner_mono lo hi hi' l : hi <= hi' -> Forall (inner_cmt_ok lo hi) l -> Forall (inner_cmt_ok lo hi') l.
Proof.
  intros H F. eapply Forall_impl; [|exact F]. intros x (A & B & C & D & E). repeat split; try assumption; lia.
Qed.

Lemma ev_good_mono lo lo' hi hi' e : lo' <= lo -> hi <= hi' -> ev_good lo hi e -> ev_good lo' hi' e.
Proof.
  unfold ev_good. intros H1 H2 (A & B & C & D). split; [lia|]. split; [lia|]. split; [lia|].
  destruct e as [i|g]; [exact D|]. exact (Forall_inner_mono _ hi hi' _ H2 D).
Qed.

Lemma inline_cmt_ok cm k lo : lo <= k -> Forall (inner_cmt_ok lo k) (inline_cmt cm k).
Proof.
  intros H. destruct cm as [t|]; cbn; [|constructor].
  constructor; [|constructor]. unfold inner_cmt_ok, mk_cmt. cbn. repeat split; lia.
Qed.

(** an open statement before line k: its comments lie on the lines read so far *)
Definition st_ok (k : Z) (st : option cstate) : Prop :=
  match st with
  | None => True
  | Some c => cs_s c <= cs_e c /\ cs_e c < k /\ Forall (inner_cmt_ok (cs_s c) (k - 1)) (cs_cms c)
  end.
(** the first line of the statement that is open before line k, else k itself *)
Definition open_lo (k : Z) (st : option cstate) : Z := match st with Some c => cs_s c | None => k end.

(** one physical line: either nothing is emitted, or one event that ends on this line and closes the statement *)
Definition step_keeps (k : Z) (st : option cstate) (r : list ev * option cstate) : Prop :=
  st_ok (k + 1) (snd r) /\ open_lo k st <= open_lo (k + 1) (snd r) /\
  (fst r = [] \/ exists e, r = ([e], None) /\ ev_good (open_lo k st) k e /\ ev_hi e = k).

Lemma step_emits_nothing k st c' : st_ok (k + 1) (Some c') -> open_lo k st <= cs_s c' -> step_keeps k st ([], Some c').
Proof. intros H1 H2. split; [exact H1|]. split; [exact H2|]. left. reflexivity. Qed.

Lemma step_emits_item k st kd t : open_lo k st <= k -> kd <> KLine ->
  step_keeps k st ([EvI {| r_kind := kd; r_text := t; r_s := k; r_e := k; r_inner := false |}], None).
Proof.
  intros H1 H2. split; [exact I|]. split; [cbn [snd open_lo]; lia|]. right. eexists. split; [reflexivity|].
  split; [|reflexivity]. unfold ev_good. cbn [ev_lo ev_hi r_s r_e r_inner r_kind].
  split; [lia|]. split; [lia|]. split; [lia|]. split; [reflexivity|exact H2].
Qed.

Lemma step_emits_group k st g : open_lo k st <= g_s g -> g_s g <= k -> g_e g = k ->
  Forall (inner_cmt_ok (g_s g) k) (g_cms g) -> step_keeps k st ([EvG g], None).
Proof.
  intros H1 H2 H3 H4. split; [exact I|]. split; [cbn [snd open_lo]; lia|]. right. exists (EvG g). split; [reflexivity|].
  split; [|exact H3]. unfold ev_good. cbn [ev_lo ev_hi]. split; [lia|]. split; [lia|]. split; [lia|exact H4].
Qed.

Lemma step_ok k st l : st_ok k st -> step_keeps k st (step k st l).
Proof.
  intros Hst. destruct st as [c|]; cbn [step].
  - destruct Hst as (H1 & H2 & H3).
    assert (H3' : Forall (inner_cmt_ok (cs_s c) k) (cs_cms c)) by (apply (Forall_inner_mono _ (k - 1)); [lia|exact H3]).
    unfold scan_cont. destruct (first_nonws l) as [ch|].
    2:{ apply step_emits_nothing; [|cbn [open_lo]; lia]. cbn [st_ok]. split; [lia|]. split; [lia|].
        replace (k + 1 - 1) with k by lia. exact H3'. }
    destruct (Ascii.eqb ch "!").
    { apply step_emits_nothing; [|cbn [open_lo cs_s]; lia]. cbn [st_ok cs_s cs_e cs_cms]. split; [lia|]. split; [lia|].
      replace (k + 1 - 1) with k by lia. apply Forall_app. split; [exact H3'|].
      constructor; [|constructor]. unfold inner_cmt_ok, mk_cmt. cbn. repeat split; lia. }
    destruct (split_cmt (cs_q c) (rstrip l)) as [[code cm] q].
    destruct (ends_amp (rstrip code)).
    { apply step_emits_nothing; [|cbn [open_lo cs_s]; lia]. cbn [st_ok cs_s cs_e cs_cms]. split; [lia|]. split; [lia|].
      replace (k + 1 - 1) with k by lia. apply Forall_app. split; [exact H3'|]. apply inline_cmt_ok. lia. }
    apply step_emits_group; cbn [open_lo g_s g_e g_cms]; try lia.
    apply Forall_app. split; [exact H3'|]. apply inline_cmt_ok. lia.
  - unfold scan_fresh. destruct (first_nonws l) as [ch|].
    2:{ apply step_emits_item; [cbn [open_lo]; lia|discriminate]. }
    destruct (Ascii.eqb ch "!"); [apply step_emits_item; [cbn [open_lo]; lia|discriminate]|].
    destruct (Ascii.eqb ch "#"); [apply step_emits_item; [cbn [open_lo]; lia|discriminate]|].
    destruct (split_cmt QN l) as [[code cm] q].
    destruct (ends_amp (rstrip code)).
    { apply step_emits_nothing; [|cbn [open_lo cs_s]; lia]. cbn [st_ok cs_s cs_e cs_cms]. split; [lia|]. split; [lia|].
      replace (k + 1 - 1) with k by lia. apply inline_cmt_ok. lia. }
    apply step_emits_group; cbn [open_lo g_s g_e g_cms]; try lia. apply inline_cmt_ok. lia.
Qed.

Lemma scan_sorted : forall ls k st, st_ok k st ->
  StronglySorted ev_lt (scan k st ls) /\ Forall (ev_good (open_lo k st) (k + zlen ls - 1)) (scan k st ls).
Proof.
  induction ls as [|l r IH]; intros k st Hst.
  - cbn [scan]. destruct st as [c|]; [|split; constructor].
    destruct Hst as (H1 & H2 & H3). split; [constructor; constructor|].
    constructor; [|constructor]. unfold ev_good, close_group. cbn [ev_lo ev_hi g_s g_e g_cms open_lo zlen List.length].
    split; [lia|]. split; [lia|]. split; [cbn; lia|].
    apply (Forall_inner_mono _ (k - 1)); [cbn; lia|exact H3].
  - rewrite scan_cons.
    destruct (step_ok k st l Hst) as (Hst' & Hlb & Hshape).
    destruct (step k st l) as [evs st']. cbn [fst snd] in *.
    destruct (IH (k + 1) st' Hst') as (Hs & Hg).
    assert (Hz : zlen (l :: r) = zlen r + 1) by (unfold zlen; cbn [List.length]; lia).
    assert (Hrest : Forall (ev_good (open_lo k st) (k + zlen (l :: r) - 1)) (scan (k + 1) st' r)).
    { eapply Forall_impl; [|exact Hg]. intros e. apply ev_good_mono; [exact Hlb|lia]. }
    destruct Hshape as [-> | (e & E & He & Hhi)]; [split; assumption|].
    injection E as -> ->. cbn [open_lo app] in *. split.
    + (* the event ends on line k, everything that follows starts after it *)
      constructor; [exact Hs|]. eapply Forall_impl; [|exact Hg]. intros y (A & _). unfold ev_lt. lia.
    + constructor; [|exact Hrest]. apply (ev_good_mono (open_lo k st) _ k); [lia|unfold zlen in *; lia|exact He].
Qed.

Lemma fp_read_spans_ok ls : Forall (span_ok_p (zlen ls)) (fp_read ls).
Proof.
  unfold fp_read. destruct (scan_sorted ls 1 None I) as [_ Hg]. cbn [open_lo] in Hg.
  apply Forall_forall. intros x Hx. apply in_flat_map in Hx. destruct Hx as (e & He & Hx).
  rewrite Forall_forall in Hg. pose proof (ev_items_good _ _ _ (Hg e He)) as D.
  destruct (Hg e He) as (A & B & C & _).
  rewrite Forall_forall in D. unfold span_ok_p.
  destruct (D x Hx) as [(_ & E1 & E2)|(_ & _ & E1 & E2 & E3)]; lia.
Qed.

Definition outer (x : ritem) : bool := negb (r_inner x).

Lemma outer_sorted evs lo hi :
  StronglySorted ev_lt evs -> Forall (ev_good lo hi) evs ->
  StronglySorted after_p (filter outer (flat_map ev_items evs)).
Proof.
  induction 1 as [|e r Hs IH Hall]; intros Hg; [constructor|].
  inversion Hg as [|? ? He Hr]; subst. cbn [flat_map]. rewrite filter_app.
  pose proof (ev_items_good _ _ _ He) as D. rewrite Forall_forall in D.
  apply SS_app.
  - (* items of one event share its span *)
    assert (G : forall l, (forall x, In x l -> In x (ev_items e)) -> StronglySorted after_p (filter outer l)).
    { induction l as [|x l IHl]; intros Hin; [constructor|]. cbn [filter].
      destruct (outer x) eqn:Ox; [|apply IHl; intros y Hy; apply Hin; now right].
      constructor; [apply IHl; intros y Hy; apply Hin; now right|].
      apply Forall_forall. intros y Hy. apply filter_In in Hy. destruct Hy as [Hy Oy].
      unfold outer in Ox, Oy. apply negb_true_iff in Ox, Oy.
      destruct (D x (Hin x (or_introl eq_refl))) as [(_ & X1 & X2)|(X & _)]; [|congruence].
      destruct (D y (Hin y (or_intror Hy))) as [(_ & Y1 & Y2)|(Y & _)]; [|congruence].
      right. lia. }
    apply G. auto.
  - apply IH. exact Hr.
  - intros x y Hx Hy. apply filter_In in Hx. destruct Hx as [Hx Ox]. apply filter_In in Hy. destruct Hy as [Hy Oy].
    unfold outer in Ox, Oy. apply negb_true_iff in Ox, Oy.
    destruct (D x Hx) as [(_ & X1 & X2)|(X & _)]; [|congruence].
    apply in_flat_map in Hy. destruct Hy as (e' & He' & Hy).
    rewrite Forall_forall in Hall. specialize (Hall e' He'). unfold ev_lt in Hall.
    rewrite Forall_forall in Hr. pose proof (ev_items_good _ _ _ (Hr e' He')) as D'. rewrite Forall_forall in D'.
    destruct (D' y Hy) as [(_ & Y1 & Y2)|(Y & _)]; [|congruence].
    left. lia.
Qed.

Lemma sanitize_from_sorted : forall items p,
  StronglySorted after_p (filter outer items) -> inner_ok items = true ->
  StronglySorted after_p (sanitize_from p items) /\
  (forall x, In x (sanitize_from p items) -> In x (filter outer items)).
Proof.
  induction items as [|x r IH]; intros p Hs Hi; [split; [constructor|intros ? []]|].
  cbn [inner_ok forallb] in Hi. apply andb_prop in Hi. destruct Hi as [Hx Hi].
  cbn [sanitize_from filter] in *. unfold outer at 1 3. unfold outer at 1 in Hs.
  destruct (r_inner x) eqn:Ix; cbn [negb] in *.
  - (* a comment inside a statement: plain, hence dropped *)
    assert (K : keep p x = false).
    { unfold keep. cbn [negb orb] in Hx.
      destruct (r_kind x); try discriminate. apply andb_prop in Hx. destruct Hx as [_ Hx].
      apply negb_true_iff in Hx. rewrite Hx. apply andb_false_r. }
    rewrite K. cbn [app]. apply IH; assumption.
  - inversion Hs as [|? ? Hs' Hf]; subst.
    destruct (IH (r_e x) Hs' Hi) as [S1 S2].
    destruct (keep p x); cbn [app].
    + split.
      * constructor; [exact S1|]. apply Forall_forall. intros y Hy. rewrite Forall_forall in Hf. apply Hf, S2, Hy.
      * intros y [<-|Hy]; [now left|right; apply S2, Hy].
    + split; [exact S1|]. intros y Hy. right. apply S2, Hy.
Qed.

Lemma fp_read_sanitized_sorted ls :
  inner_ok (fp_read ls) = true -> StronglySorted after_p (sanitize (fp_read ls)).
Proof.
  intros Hi. unfold sanitize.
  destruct (scan_sorted ls 1 None I) as [Hs Hg].
  apply sanitize_from_sorted; [|exact Hi].
  unfold fp_read. apply (outer_sorted _ _ _ Hs Hg).
Qed.

Lemma sanitize_from_incl : forall items p x, In x (sanitize_from p items) -> In x items.
Proof.
  induction items as [|y r IH]; intros p x H; [exact H|].
  cbn [sanitize_from] in H. apply in_app_or in H. destruct H as [H|H].
  - destruct (keep p y); [destruct H as [<-|[]]; now left|destruct H].
  - right. exact (IH _ _ H).
Qed.

(** the reading order can fail when a pragma-like comment sits inside a continued statement *)
Definition inner_pragma_text : string :=
  ("x = 1 &" ++ String nl (" !c1" ++ String nl (" & + 2 !$foo" ++ String nl "y=2")))%string.

Lemma inner_pragma_refuted :
  map (fun x => (r_s x, r_e x)) (rd_san (reader_of_text inner_pragma_text)) = [(1, 3); (3, 3); (4, 4)].
Proof. vm_compute. reflexivity. Qed.

(** the invariant of an open statement: [group_exact] for the lines read so far *)
Definition cs_exact (all : list string) (k : Z) (c : cstate) : Prop :=
  cs_parts c <> [] /\
  Forall (part_ok all) (cs_parts c) /\
  StronglySorted Z.lt (map fst (cs_parts c)) /\
  hd_error (map fst (cs_parts c)) = Some (cs_s c) /\
  List.last (map fst (cs_parts c)) 0 = cs_e c /\
  cs_e c < k /\
  (forall k', cs_s c <= k' < k -> ~ In k' (map fst (cs_parts c)) ->
     exists l, line_at all k' = Some l /\ skipped_line l = true).
Definition st_exact (all : list string) (k : Z) (st : option cstate) : Prop :=
  match st with None => True | Some c => cs_exact all k c end.

Lemma close_exact all k c : cs_exact all k c -> group_exact all (close_group c).
Proof.
  intros (A & B & C & D & E & F & G). unfold group_exact, close_group. cbn [g_parts g_s g_e].
  repeat split; try assumption. intros k' Hk Hn. apply G; [lia|exact Hn].
Qed.

Lemma snoc_facts all k c p l :
  cs_exact all k c -> line_at all k = Some l -> code_line l = true -> is_sub p l ->
  let parts := cs_parts c ++ [(k, p)] in
  parts <> [] /\ Forall (part_ok all) parts /\ StronglySorted Z.lt (map fst parts) /\
  hd_error (map fst parts) = Some (cs_s c) /\ List.last (map fst parts) 0 = k /\
  (forall k', cs_s c <= k' < k + 1 -> ~ In k' (map fst parts) ->
     exists l', line_at all k' = Some l' /\ skipped_line l' = true).
Proof.
  intros (A & B & C & D & E & F & G) Hl Hc Hp parts. unfold parts. rewrite map_app. cbn [map fst].
  split; [destruct (cs_parts c); discriminate|]. split.
  { apply Forall_app. split; [exact B|]. constructor; [|constructor]. exists l. cbn [fst snd]. auto. }
  split.
  { apply sorted_snoc; [exact C|]. intros x Hx. pose proof (sorted_le_last _ x C Hx). lia. }
  split.
  { destruct (cs_parts c) as [|y t]; [congruence|]. exact D. }
  split; [apply last_last|].
  intros k' Hk Hn. destruct (Z.eq_dec k' k) as [->|N].
  - exfalso. apply Hn. apply in_or_app. right. now left.
  - apply G; [lia|]. intros Hin. apply Hn. apply in_or_app. now left.
Qed.

(** a blank or comment line inside an open statement: the parts stay, the line joins the skipped ones *)
Lemma cs_exact_skip all k c c' l :
  line_at all k = Some l -> skipped_line l = true ->
  cs_parts c' = cs_parts c -> cs_s c' = cs_s c -> cs_e c' = cs_e c ->
  cs_exact all k c -> cs_exact all (k + 1) c'.
Proof.
  intros Hl Hs Ep Es Ee (A & B & C & D & E & F & G). unfold cs_exact. rewrite Ep, Es, Ee.
  repeat split; try assumption; try lia.
  intros k' Hk Hn. destruct (Z.eq_dec k' k) as [->|N]; [exists l; now split|]. apply G; [lia|exact Hn].
Qed.

Lemma code_line_of l ch : first_nonws l = Some ch -> Ascii.eqb ch "!" = false -> code_line l = true.
Proof. intros H E. unfold code_line. rewrite H, E. reflexivity. Qed.
Lemma skipped_blank l : first_nonws l = None -> skipped_line l = true.
Proof. intros H. unfold skipped_line. now rewrite H. Qed.
Lemma skipped_cmt l ch : first_nonws l = Some ch -> Ascii.eqb ch "!" = true -> skipped_line l = true.
Proof. intros H E. unfold skipped_line. now rewrite H. Qed.

(** a skipped line leaves the parts alone ([cs_exact_skip]); a code line appends its part ([snoc_facts]) and either
    keeps the statement open or closes it into a group; without an open statement a code line starts one *)
Lemma step_exact all k st l :
  line_at all k = Some l -> st_exact all k st ->
  Forall (group_exact all) (groups_of (fst (step k st l))) /\ st_exact all (k + 1) (snd (step k st l)).
Proof.
  intros Hl Hst. destruct st as [c|]; cbn [step].
  - cbn [st_exact] in Hst. unfold scan_cont.
    destruct (first_nonws l) as [ch|] eqn:Hf.
    2:{ split; [constructor|]. exact (cs_exact_skip all k c c l Hl (skipped_blank l Hf) eq_refl eq_refl eq_refl Hst). }
    destruct (Ascii.eqb ch "!") eqn:Hb.
    { split; [constructor|]. exact (cs_exact_skip all k c _ l Hl (skipped_cmt l ch Hf Hb) eq_refl eq_refl eq_refl Hst). }
    destruct (split_cmt (cs_q c) (rstrip l)) as [[code cm] q] eqn:Hs.
    assert (Hcode : is_sub code l) by (apply (is_sub_code _ _ _ _ _ _ (is_sub_rstrip _ _ (is_sub_refl l)) Hs)).
    assert (Hcl : code_line l = true) by (apply (code_line_of l ch Hf Hb)).
    destruct (ends_amp (rstrip code)).
    + cbn [fst snd groups_of flat_map st_exact]. split; [constructor|].
      destruct (snoc_facts all k c (lead_amp_cut (drop_last (rstrip code))) l Hst Hl Hcl
                  (is_sub_lead _ _ (is_sub_drop_last _ _ (is_sub_rstrip _ _ Hcode)))) as (A & B & C & D & E & G).
      unfold cs_exact. cbn [cs_parts cs_s cs_e]. repeat split; try assumption; lia.
    + cbn [fst snd groups_of flat_map app st_exact]. split; [|exact I].
      constructor; [|constructor].
      destruct (snoc_facts all k c (lead_amp_cut code) l Hst Hl Hcl (is_sub_lead _ _ Hcode)) as (A & B & C & D & E & G).
      unfold group_exact. cbn [g_parts g_s g_e]. repeat split; try assumption.
      intros k' Hk Hn. apply G; [lia|exact Hn].
  - unfold scan_fresh. destruct (first_nonws l) as [ch|] eqn:Hf.
    2:{ cbn. split; [constructor|exact I]. }
    destruct (Ascii.eqb ch "!") eqn:Hb; [cbn; split; [constructor|exact I]|].
    destruct (Ascii.eqb ch "#"); [cbn; split; [constructor|exact I]|].
    destruct (split_cmt QN l) as [[code cm] q] eqn:Hs.
    assert (Hcode : is_sub code l) by (apply (is_sub_code _ _ _ _ _ _ (is_sub_refl l) Hs)).
    assert (Hcl : code_line l = true) by (apply (code_line_of l ch Hf Hb)).
    assert (Hpart : forall p, is_sub p l -> part_ok all (k, p)) by (intros p Hp; exists l; cbn [fst snd]; auto).
    destruct (ends_amp (rstrip code)).
    + cbn [fst snd groups_of flat_map st_exact]. split; [constructor|].
      unfold cs_exact. cbn [cs_parts cs_s cs_e map fst hd_error List.last].
      split; [discriminate|]. split; [constructor; [apply Hpart, is_sub_drop_last, is_sub_rstrip, Hcode|constructor]|].
      split; [constructor; constructor|]. split; [reflexivity|]. split; [reflexivity|]. split; [lia|].
      intros k' Hk Hn. exfalso. apply Hn. left. lia.
    + cbn [fst snd groups_of flat_map app st_exact]. split; [|exact I].
      constructor; [|constructor]. unfold group_exact. cbn [g_parts g_s g_e map fst hd_error List.last].
      split; [discriminate|]. split; [constructor; [apply Hpart, is_sub_rstrip, Hcode|constructor]|].
      split; [constructor; constructor|]. split; [reflexivity|]. split; [reflexivity|].
      intros k' Hk Hn. exfalso. apply Hn. left. lia.
Qed.

Lemma scan_exact all : forall ls pre k st,
  all = pre ++ ls -> k = zlen pre + 1 -> st_exact all k st ->
  Forall (group_exact all) (groups_of (scan k st ls)).
Proof.
  induction ls as [|l r IH]; intros pre k st Hall Hk Hst.
  - cbn [scan]. destruct st as [c|]; [|constructor]. cbn. constructor; [|constructor].
    apply (close_exact all k). exact Hst.
  - rewrite scan_cons. unfold groups_of at 1. rewrite flat_map_app.
    assert (Hl : line_at all k = Some l) by (subst all k; apply line_at_here).
    destruct (step_exact all k st l Hl Hst) as [H1 H2].
    apply Forall_app. split; [exact H1|].
    apply (IH (pre ++ [l])); [subst all; now rewrite <- app_assoc| |exact H2].
    subst k. unfold zlen. rewrite app_length. cbn [List.length]. lia.
Qed.

Lemma fp_groups_exact ls : Forall (group_exact ls) (groups_of (scan 1 None ls)).
Proof. apply (scan_exact ls ls [] 1 None); [reflexivity|reflexivity|exact I]. Qed.

(** every statement item of the reader comes from such a group, with the group's span: stand-alone items and the
    comments of a group are no statements *)
Lemma fp_read_line_from_group ls x :
  In x (fp_read ls) -> r_kind x = KLine ->
  exists g, In g (groups_of (scan 1 None ls)) /\ r_s x = g_s g /\ r_e x = g_e g /\ In (r_text x) (pieces (g_content g)).
Proof.
  unfold fp_read. intros Hin Hk. apply in_flat_map in Hin. destruct Hin as (e & He & Hx).
  destruct (scan_sorted ls 1 None I) as [_ Hg]. rewrite Forall_forall in Hg.
  destruct (Hg e He) as (_ & _ & _ & D). destruct e as [i|g].
  - destruct Hx as [<-|[]]. destruct D as [_ D]. contradiction.
  - exists g. split; [apply in_flat_map; exists (EvG g); split; [exact He|now left]|].
    cbn [ev_items] in Hx. apply in_app_or in Hx. destruct Hx as [Hx|Hx].
    + apply in_map_iff in Hx. destruct Hx as (p & <- & Hp). cbn. auto.
    + exfalso. rewrite Forall_forall in D. destruct (D x Hx) as (_ & K & _). congruence.
Qed.
