(** C20 — concrete witnesses (refutations of the unconditional statements) and non-vacuity examples. *)
From Coq Require Import ZArith List Bool String Ascii.
From LV Require Import Base.Strings models.M_C20 proofs.P_C20_base.
Import ListNotations.
Open Scope Z_scope.

(** the ignore_space fall-back of Source.find: the end can lie before the start ... *)
Lemma find_space_reversed :
  find "c a" "a  c" true true = FSpan 2%nat 1%nat.
Proof. vm_compute. reflexivity. Qed.

(** ... the located text can hold more than the searched string ... *)
Lemma find_space_extra :
  find "a + b * a" "a  *" true true = FSpan 0%nat 7%nat /\
  remove_ws (lower (slice 0%nat 7%nat "a + b * a")) <> remove_ws (lower "a  *").
Proof. split; [vm_compute; reflexivity|vm_compute; discriminate]. Qed.

(** ... and a blank search string raises IndexError *)
Lemma find_space_index_error : find "x" " " true true = FIndexError.
Proof. vm_compute. reflexivity. Qed.

(** the frontend's use: a character literal continued over two lines is "found" with its continuation markers *)
Definition continued_literal : string :=
  ("  s = 'hello &" ++ String nl "     &world'")%string.
Lemma cws_continued_literal :
  exists r, clone_with_string (mk 3 (Some 4) continued_literal None) "'hello world'" true true = Some r /\
    s_str r = ("'hello &" ++ String nl "     &world'")%string /\ s_l0 r = 3 /\ s_l1 r = Some 4.
Proof.
  exists (mk 3 (Some 4) ("'hello &" ++ String nl "     &world'") None).
  split; [vm_compute; reflexivity|]. repeat split.
Qed.

(** non-vacuity: a three-line text, the span from column 2 of line 0 to column 1 of line 2 *)
Example span_example :
  let ls := ["ab cd"; ""; "xyz"]%string in
  let r := clone_with_span (mk 10 (Some 12) (join_nl ls) (Some "f.F90"%string)) 2%nat (Some 8%nat) in
  forallb no_nl ls = true /\ line_start ls 0%nat = 0%nat /\ line_start ls 2%nat = 7%nat /\
  s_l0 r = 10 /\ s_l1 r = Some 12 /\ s_str r = text_between ls 0%nat 2%nat 2%nat 1%nat /\
  s_str r = (" cd" ++ String nl (String nl "x"))%string.
Proof. cbv zeta. repeat split; vm_compute; reflexivity. Qed.

(** non-vacuity: a text with a continued statement, an interleaved comment, a pragma, a statement list *)
Definition reader_demo : string :=
  join_nl ["! head"; "call foo(a, &"; "  ! note"; "   & b) ! tail"; "!$acc loop"; "x = 1; Y = 2"]%string.
Example reader_example :
  map (fun x => (r_text x, r_s x, r_e x)) (rd_san (reader_of_text reader_demo)) =
    [("call foo(a,  b)", 2, 4); ("!$acc loop", 5, 5); ("x = 1", 6, 6); ("y = 2", 6, 6)]%string /\
  inner_ok (fp_read (text_lines reader_demo)) = true /\
  rd_spans (reader_of_text reader_demo) = [0; 16; 27; 33; 39].
Proof.
  (* the line reader is evaluated once; the three conjuncts then only sanitise its items and sum their lengths *)
  assert (E : fp_read (text_lines reader_demo) =
    [mk_cmt "! head" 1 false;
     {| r_kind := KLine; r_text := "call foo(a,  b)"; r_s := 2; r_e := 4; r_inner := false |};
     mk_cmt "! note" 3 true; mk_cmt "! tail" 4 true; mk_cmt "!$acc loop" 5 false;
     {| r_kind := KLine; r_text := "x = 1"; r_s := 6; r_e := 6; r_inner := false |};
     {| r_kind := KLine; r_text := "y = 2"; r_s := 6; r_e := 6; r_inner := false |}]) by (vm_compute; reflexivity).
  unfold reader_of_text. rewrite E. repeat split; vm_compute; reflexivity.
Qed.
