(** C21 — proofs, part 1: list/set basics, the worklist invariant of SGraph._populate,
    nodes = reach, edges exact, is_ignored provenance, _break_cycles facts. *)
From Coq Require Import String Ascii List Bool Arith Lia.
From LV Require Import Base.Strings Base.ListFacts models.M_C21.
Import ListNotations.
Open Scope string_scope.
Open Scope list_scope.

Lemma smem_In x l : smem x l = true <-> In x l.
Proof. apply existsb_eqb_In. Qed.

Lemma smem_false x l : smem x l = false <-> ~ In x l.
Proof. apply existsb_eqb_false. Qed.

Lemma edge_eqb_eq e f : edge_eqb e f = true <-> e = f.
Proof.
  destruct e as [a b], f as [c d]. unfold edge_eqb. cbn.
  rewrite andb_true_iff, !String.eqb_eq. split; [intros [-> ->]; reflexivity|intros H; inversion H; auto].
Qed.

Lemma emem_In e l : emem e l = true <-> In e l.
Proof.
  unfold emem. rewrite existsb_exists. split.
  - intros [y [Hy E]]. apply edge_eqb_eq in E. now subst.
  - intros H. exists e. split; [assumption|now apply edge_eqb_eq].
Qed.

Lemma add_edges_In new : forall es e, In e (add_edges es new) <-> In e es \/ In e new.
Proof.
  induction new as [|f r IH]; intros es e; cbn.
  - tauto.
  - rewrite IH. destruct (emem f es) eqn:E.
    + apply emem_In in E. split; [tauto|]. intros [H|[->|H]]; auto.
    + rewrite in_app_iff. cbn. tauto.
Qed.

Lemma add_nodes_In new : forall ns x, In x (add_nodes ns new) <-> In x ns \/ In x new.
Proof.
  induction new as [|f r IH]; intros ns x; cbn.
  - tauto.
  - rewrite IH. destruct (smem f ns) eqn:E.
    + apply smem_In in E. split; [tauto|]. intros [H|[->|H]]; auto.
    + rewrite in_app_iff. cbn. tauto.
Qed.

Lemma dedup_acc_In l : forall seen x, In x (dedup_acc seen l) <-> In x l /\ ~ In x seen.
Proof.
  induction l as [|a r IH]; intros seen x; cbn.
  - tauto.
  - destruct (smem a seen) eqn:E.
    + apply smem_In in E. rewrite IH. split; [tauto|]. intros [[->|H] N]; [contradiction|tauto].
    + apply smem_false in E. cbn. rewrite IH. cbn. split.
      * intros [->|[H N]]; [tauto|]. split; [tauto|]. intros H'. apply N. now right.
      * intros [[->|H] N]; [now left|]. destruct (String.eqb_spec a x) as [->|D]; [now left|].
        right. split; [assumption|]. intros [H'|H']; [congruence|contradiction].
Qed.

Lemma dedup_acc_NoDup l : forall seen, NoDup (dedup_acc seen l).
Proof.
  induction l as [|a r IH]; intros seen; cbn; [constructor|].
  destruct (smem a seen); [apply IH|]. constructor; [|apply IH].
  rewrite dedup_acc_In. cbn. tauto.
Qed.

Lemma dedup_In l x : In x (dedup l) <-> In x l.
Proof. unfold dedup. rewrite dedup_acc_In. cbn. tauto. Qed.
Lemma dedup_NoDup l : NoDup (dedup l).
Proof. apply dedup_acc_NoDup. Qed.

Lemma lookup_In {A} k (t : list (string * A)) v : lookup k t = Some v -> In (k, v) t.
Proof.
  induction t as [|[k' v'] r IH]; cbn; [discriminate|].
  destruct (String.eqb_spec k k') as [->|D].
  - intros H; inversion H; subst. now left.
  - intros H. right. now apply IH.
Qed.

(** [y] is a child kept for the expanded item [x] *)
Definition R (inp : input) (x y : string) : Prop := exists l, children inp x = Ok l /\ In y l.

Inductive reach (inp : input) : string -> Prop :=
| reach_seed x : In x (seed_items inp) -> reach inp x
| reach_step x y : reach inp x -> R inp x y -> reach inp y.

Inductive star (inp : input) : string -> string -> Prop :=
| star_refl x : star inp x x
| star_step x y z : star inp x y -> R inp y z -> star inp x z.

(** an ignore-list hit somewhere up the dependency chain *)
Definition ign_just (inp : input) (y : string) : Prop :=
  exists z w, reach inp z /\ R inp z w /\ matchb false true w (cfg_ignore inp z) = true /\ star inp w y.

Definition ign_ok (inp : input) (m : list (string * bool)) : Prop :=
  forall y, get_ign m y = true -> ign_just inp y.

(** [n] has been popped: all its children are nodes and all its non-self edges are present.
    With an empty queue every node is [done], which is what completeness needs. *)
Definition done (inp : input) (s : st) (n : string) : Prop :=
  exists l, children inp n = Ok l /\ incl l (nodes s) /\ (forall y, In y l -> y <> n -> In (n, y) (edges s)).

(** the worklist invariant: seeds are nodes, nodes are reachable and either queued or [done], edges are kept
    dependencies between distinct items, every is_ignored flag has a provenance *)
Record inv (inp : input) (s : st) : Prop := {
  inv_seeds : incl (seed_items inp) (nodes s);
  inv_reach : forall n, In n (nodes s) -> reach inp n;
  inv_queue : incl (queue s) (nodes s);
  inv_done : forall n, In n (nodes s) -> In n (queue s) \/ done inp s n;
  inv_edges : forall x y, In (x, y) (edges s) -> In x (nodes s) /\ R inp x y /\ x <> y;
  inv_ign : ign_ok inp (ign s)
}.

Lemma get_ign_cons m y b z : get_ign ((y, b) :: m) z = if String.eqb z y then b else get_ign m z.
Proof. unfold get_ign. cbn. destruct (String.eqb z y); reflexivity. Qed.

Lemma set_ign_ok inp x l : reach inp x -> (forall y, In y l -> R inp x y) ->
  forall m, ign_ok inp m -> ign_ok inp (set_ign (cfg_ignore inp x) x l m).
Proof.
  intros Hx. induction l as [|y r IH]; intros HR m Hm; cbn; [assumption|].
  apply IH; [intros; apply HR; now right|].
  unfold ign_ok. intros z Hz. rewrite get_ign_cons in Hz.
  destruct (String.eqb_spec z y) as [E|D]; [subst z|now apply Hm].
  apply orb_true_iff in Hz. destruct Hz as [Hz|Hz].
  - destruct (Hm _ Hz) as (z0 & w & Hr & HRzw & Hmt & Hst).
    exists z0, w. repeat split; try assumption. eapply star_step; [exact Hst|]. apply HR. now left.
  - exists x, y. repeat split; try assumption; [apply HR; now left|constructor].
Qed.

Lemma done_mono inp s s' n :
  done inp s n -> incl (nodes s) (nodes s') -> incl (edges s) (edges s') -> done inp s' n.
Proof.
  intros (l & Hc & Hi & He) Hn Hee. exists l. split; [exact Hc|]. split.
  - intros y Hy. apply Hn, Hi, Hy.
  - intros y Hy Hne. now apply Hee, He.
Qed.

Lemma step_inv inp s x q s' :
  inv inp s -> queue s = x :: q ->
  step inp x (mk_st (nodes s) (edges s) q (ign s)) = Ok s' -> inv inp s'.
Proof.
  intros Inv Hq Hs. unfold step in Hs. cbn [nodes edges queue ign] in Hs.
  destruct (children inp x) as [l| | |] eqn:Hc; try discriminate. injection Hs as <-.
  assert (Hxn : In x (nodes s)) by (apply (inv_queue _ _ Inv); rewrite Hq; now left).
  assert (Hxr : reach inp x) by (now apply (inv_reach _ _ Inv)).
  assert (HR : forall y, In y l -> R inp x y) by (intros y Hy; exists l; auto).
  assert (Hl : incl l (nodes s ++ filter (fun y => negb (smem y (nodes s))) l)).
  { intros y Hy. rewrite in_app_iff, filter_In.
    destruct (smem y (nodes s)) eqn:E; [left; now apply smem_In|right; auto]. }
  constructor; cbn [nodes edges queue ign].
  - apply incl_appl, Inv.
  - intros n Hn. apply in_app_or in Hn as [Hn|Hn]; [now apply (inv_reach _ _ Inv)|].
    apply filter_In in Hn as [Hn _]. eapply reach_step; [exact Hxr|now apply HR].
  - apply incl_app; [|apply incl_appr, incl_refl].
    apply incl_appl. intros n Hn. apply (inv_queue _ _ Inv). rewrite Hq. now right.
  - intros n Hn. apply in_app_or in Hn as [Hn|Hn]; [|left; apply in_or_app; now right].
    destruct (inv_done _ _ Inv n Hn) as [Hin|Hd].
    + rewrite Hq in Hin. destruct Hin as [<-|Hin]; [right|left; apply in_or_app; now left].
      exists l. split; [exact Hc|]. split; [exact Hl|]. cbn [edges]. intros y Hy Hne.
      apply add_edges_In. right. apply in_map_iff. exists y. split; [reflexivity|].
      apply filter_In. split; [exact Hy|]. destruct (String.eqb_spec x y); [congruence|reflexivity].
    + right. eapply done_mono; [exact Hd|apply incl_appl, incl_refl|].
      intros e He. apply add_edges_In. now left.
  - intros a b Hab. apply add_edges_In in Hab as [Hab|Hab].
    + destruct (inv_edges _ _ Inv a b Hab) as (H1 & H2 & H3). rewrite in_app_iff. tauto.
    + apply in_map_iff in Hab as (y & [= <- <-] & Hin). apply filter_In in Hin as [Hin Hne].
      rewrite in_app_iff. split; [now left|]. split; [now apply HR|].
      destruct (String.eqb_spec x y); [discriminate|assumption].
  - apply set_ign_ok; try assumption. apply (inv_ign _ _ Inv).
Qed.

Lemma run_inv inp : forall fuel s s', inv inp s -> run inp fuel s = Ok s' -> inv inp s' /\ queue s' = [].
Proof.
  induction fuel as [|f IH]; intros s s' Inv Hr; cbn in Hr.
  - destruct (queue s) eqn:Hq; [|discriminate]. inversion Hr; subst. auto.
  - destruct (queue s) as [|x q] eqn:Hq.
    + inversion Hr; subst. auto.
    + destruct (step inp x (mk_st (nodes s) (edges s) q (ign s))) as [s1| | |] eqn:Hs; try discriminate.
      apply (IH s1 s'); [|assumption]. eapply step_inv; eauto.
Qed.

Lemma init_inv inp ign0 : ign_ok inp ign0 -> inv inp (init_st inp ign0).
Proof.
  intros H0. unfold init_st. constructor; cbn [nodes edges queue ign].
  - intros x Hx. apply add_nodes_In. now right.
  - intros n Hn. apply add_nodes_In in Hn. destruct Hn as [[]|Hn]. now apply reach_seed.
  - intros x Hx. apply add_nodes_In. now right.
  - intros n Hn. apply add_nodes_In in Hn. destruct Hn as [[]|Hn]. now left.
  - intros x y [].
  - assumption.
Qed.

Lemma ign_ok_nil inp : ign_ok inp [].
Proof. intros y H. discriminate. Qed.

Lemma populate_from_inv inp ign0 s : ign_ok inp ign0 -> populate_from inp ign0 = Ok s -> inv inp s /\ queue s = [].
Proof. intros H0 H. eapply run_inv; [apply init_inv; exact H0|exact H]. Qed.

Lemma populate_inv inp s : populate inp = Ok s -> inv inp s /\ queue s = [].
Proof.
  unfold populate. destruct (i_two_pass inp).
  - destruct (populate_from inp []) as [s1| | |] eqn:H1; try discriminate.
    intros H2. eapply populate_from_inv; [|exact H2].
    apply (inv_ign _ _ (proj1 (populate_from_inv _ _ _ (ign_ok_nil inp) H1))).
  - apply populate_from_inv, ign_ok_nil.
Qed.

(** nodes of the populated graph = items reachable from the seeds through R (soundness and completeness) *)
Lemma populate_nodes_closure inp s : populate inp = Ok s -> forall x, In x (nodes s) <-> reach inp x.
Proof.
  intros H x. destruct (populate_inv _ _ H) as [Inv Hq]. split; [apply (inv_reach _ _ Inv)|].
  induction 1 as [x Hx|x y Hx IH HR].
  - now apply (inv_seeds _ _ Inv).
  - destruct (inv_done _ _ Inv x IH) as [Hin|(l & Hc & Hi & _)]; [rewrite Hq in Hin; destruct Hin|].
    destruct HR as (l' & Hc' & Hy). replace l' with l in Hy by congruence. auto.
Qed.

Lemma populate_edges_exact inp s : populate inp = Ok s ->
  forall x y, In (x, y) (edges s) <-> In x (nodes s) /\ R inp x y /\ x <> y.
Proof.
  intros H x y. destruct (populate_inv _ _ H) as [Inv Hq]. split; [apply (inv_edges _ _ Inv)|].
  intros (Hx & (l' & Hc' & Hy) & Hne).
  destruct (inv_done _ _ Inv x Hx) as [Hin|(l & Hc & _ & He)]; [rewrite Hq in Hin; destruct Hin|].
  replace l' with l in Hy by congruence. apply He; [assumption|congruence].
Qed.

Lemma populate_ign_ok inp s : populate inp = Ok s -> ign_ok inp (ign s).
Proof. intros H. apply (inv_ign _ _ (proj1 (populate_inv _ _ H))). Qed.

(** * _break_cycles only removes edges; it is the identity without RECURSIVE procedures *)
Lemma remove_edge_incl e es : incl (remove_edge e es) es.
Proof. intros f Hf. unfold remove_edge in Hf. apply filter_In in Hf. tauto. Qed.

Lemma break_from_incl ns src : forall fuel es, incl (break_from fuel ns es src) es.
Proof.
  induction fuel as [|f IH]; intros es; cbn; [apply incl_refl|].
  destruct (find_cycle ns es src); [|apply incl_refl].
  eapply incl_tran; [apply IH|apply remove_edge_incl].
Qed.

Lemma break_cycles_subset inp ns es : incl (break_cycles inp ns es) es.
Proof.
  apply (fold_left_inv (fun es' => incl es' es)); [|apply incl_refl].
  intros es' x H. destruct (is_recursive inp x); [|exact H]. eapply incl_tran; [apply break_from_incl|exact H].
Qed.

Lemma break_cycles_no_recursive inp ns es :
  (forall x, In x ns -> is_recursive inp x = false) -> break_cycles inp ns es = es.
Proof. intros H. apply fold_left_fix. intros x Hx. now rewrite (H x Hx). Qed.

Lemma scheduler_graph_Ok_inversion inp g : scheduler_graph inp = Ok g -> exists s, populate inp = Ok s /\ g = graph_of inp s.
Proof.
  unfold scheduler_graph. destruct (populate inp) as [s| | |]; try discriminate.
  intros H; inversion H. eauto.
Qed.

Lemma graph_nodes_closure inp g : scheduler_graph inp = Ok g -> forall x, In x (g_nodes g) <-> reach inp x.
Proof. intros H. destruct (scheduler_graph_Ok_inversion _ _ H) as (s & Hp & ->). cbn. now apply populate_nodes_closure. Qed.

Lemma graph_edges_sound inp g : scheduler_graph inp = Ok g ->
  forall x y, In (x, y) (g_edges g) -> In x (g_nodes g) /\ In y (g_nodes g) /\ R inp x y /\ x <> y.
Proof.
  intros H x y Hxy. destruct (scheduler_graph_Ok_inversion _ _ H) as (s & Hp & ->). cbn in *.
  apply break_cycles_subset in Hxy. apply (populate_edges_exact _ _ Hp) in Hxy.
  destruct Hxy as (Hx & HR & Hne). repeat split; try assumption.
  apply (populate_nodes_closure _ _ Hp). eapply reach_step; [|exact HR]. now apply (populate_nodes_closure _ _ Hp).
Qed.

Lemma graph_edges_exact_no_recursive inp g : scheduler_graph inp = Ok g ->
  (forall x, In x (g_nodes g) -> is_recursive inp x = false) ->
  forall x y, In (x, y) (g_edges g) <-> In x (g_nodes g) /\ R inp x y /\ x <> y.
Proof.
  intros H Hn x y. destruct (scheduler_graph_Ok_inversion _ _ H) as (s & Hp & ->). cbn in *.
  rewrite break_cycles_no_recursive by assumption. now apply populate_edges_exact.
Qed.

Lemma ignored_propagates inp g : scheduler_graph inp = Ok g -> forall y, In y (g_ignored g) -> ign_just inp y.
Proof.
  intros H y Hy. destruct (scheduler_graph_Ok_inversion _ _ H) as (s & Hp & ->). cbn in Hy.
  apply filter_In in Hy. destruct Hy as [_ Hy]. now apply (populate_ign_ok _ _ Hp).
Qed.
