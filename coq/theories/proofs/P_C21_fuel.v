(** C21 — proofs, part 2: the pruning performed on the children of an item ([kept]), the fuel bound of the
    worklist loop, and the on-class pruning theorem [edges_respect_pruning_on_class].  Defines [checked]. *)
From Coq Require Import String Ascii List Bool Arith Lia.
From LV Require Import Base.Strings Base.ListFacts models.M_C21 proofs.P_C21.
Import ListNotations.
Open Scope string_scope.
Open Scope list_scope.

(** dependency nodes on which ItemFactory applies the _is_ignored test to every produced name *)
Definition checked (d : dnode) : bool := match d with DCallUnq _ _ _ => false | _ => true end.

(** * what [emit]/[kept] can produce: one of the node's targets, and not an early-ignored one unless the
    node is an unqualified call *)
Lemma emit_In strict g c d l y :
  emit strict g c d = Ok l -> In y l -> In y (targets d) /\ (checked d = true -> early g c y = false).
Proof.
  destruct d as [n|n|m syms|p cands fk]; cbn [emit targets checked].
  - intros [= <-]. destruct (early g c n) eqn:E; intros []; [subst y|contradiction]. split; [now left|auto].
  - destruct (early g c n) eqn:E; [intros [= <-] []|]. destruct strict; [discriminate|].
    intros [= <-] [<-|[]]. split; [now left|auto].
  - destruct (early g c m) eqn:E; [intros [= <-] []|].
    destruct syms as [|s0 sr]; [intros [= <-] [<-|[]]; split; [now left|auto]|].
    intros [= <-] Hy.
    assert (Hi : In y (map (fun sk => m +++ "#" +++ fst sk)
                         (filter (fun sk => is_item (snd sk))
                            (filter (fun sk => negb (early g c (m +++ "#" +++ fst sk))) (s0 :: sr)))) ->
                 In y (map (fun sk => m +++ "#" +++ fst sk) (s0 :: sr)) /\ early g c y = false).
    { intros H. apply in_map_iff in H as (sk & <- & Hsk).
      apply filter_In in Hsk as [Hsk _]. apply filter_In in Hsk as [Hsk Hn].
      split; [now apply (in_map (fun sk => m +++ "#" +++ fst sk))|now apply negb_true_iff in Hn]. }
    (* the [existsb] is the has_globalvar_import test: when a module variable is imported, the module itself is
       a dependency as well *)
    destruct (existsb _ _).
    + destruct Hy as [<-|Hy]; [split; [now left|auto]|]. destruct (Hi Hy). split; [now right|auto].
    + destruct (Hi Hy). split; [now right|auto].
  - intros He Hy. split; [|discriminate]. revert He Hy.
    destruct (filter (fun m => negb (matchb true true (m +++ "#" +++ p) g)) cands) as [|m [|m2 r]] eqn:F.
    + destruct (early g c ("#" +++ p)); [intros [= <-] []|].
      destruct fk; [intros [= <-] [<-|[]]; now left|].
      destruct strict; [discriminate|]. intros [= <-] [<-|[]]; now left.
    + intros [= <-] [<-|[]]. right. apply (in_map (fun m => m +++ "#" +++ p)).
      assert (Hm : In m (filter (fun m => negb (matchb true true (m +++ "#" +++ p) g)) cands)) by (rewrite F; now left).
      now apply filter_In in Hm.
    + discriminate.
Qed.

Lemma emit_targets strict g c d l : emit strict g c d = Ok l -> incl l (targets d).
Proof. intros H y Hy. now apply (emit_In _ _ _ _ _ _ H Hy). Qed.

Lemma emit_all_In strict g c : forall ds l, emit_all strict g c ds = Ok l ->
  forall y, In y l <-> exists d l0, In d ds /\ emit strict g c d = Ok l0 /\ In y l0.
Proof.
  induction ds as [|d r IH]; intros l H y; cbn in H.
  - inversion H; subst. split; [intros []|intros (d & l0 & [] & _)].
  - destruct (emit strict g c d) as [l0| | |] eqn:E; try discriminate.
    destruct (emit_all strict g c r) as [l1| | |] eqn:E1; try discriminate.
    inversion H; subst. rewrite in_app_iff, (IH l1 eq_refl). split.
    + intros [Hy|(d' & l' & Hd & He & Hy)].
      * exists d, l0. split; [now left|auto].
      * exists d', l'. split; [now right|auto].
    + intros (d' & l' & [<-|Hd] & He & Hy).
      * left. congruence.
      * right. eauto.
Qed.

Lemma matchb_nil pat par n : matchb pat par n [] = false.
Proof. unfold matchb, match_keys. destruct (name_variants par n); reflexivity. Qed.

(** the children kept for an item: exactly the emitted names that survive the two plain re-filters *)
Lemma kept_In strict g c ds l : kept strict g c ds = Ok l ->
  forall y, In y l <->
    (exists d l0, In d ds /\ emit strict g c d = Ok l0 /\ In y l0) /\
    matchb false false y (c_disable c) = false /\ matchb false false y (c_block c) = false.
Proof.
  unfold kept. destruct (emit_all strict g c ds) as [l0| | |] eqn:E; try discriminate.
  intros H; inversion H; subst; clear H. intros y.
  rewrite filter_In, dedup_In, negb_true_iff.
  destruct (c_disable c) as [|k ks] eqn:D.
  - rewrite (emit_all_In _ _ _ _ _ E). rewrite matchb_nil. tauto.
  - rewrite filter_In, negb_true_iff, (emit_all_In _ _ _ _ _ E). tauto.
Qed.

Lemma kept_NoDup strict g c ds l : kept strict g c ds = Ok l -> NoDup l.
Proof.
  unfold kept. destruct (emit_all strict g c ds) as [l0| | |]; try discriminate.
  intros H; inversion H; subst. apply NoDup_filter, dedup_NoDup.
Qed.

Lemma children_NoDup inp x l : children inp x = Ok l -> NoDup l.
Proof.
  unfold children. destruct (lookup x (i_table inp)) as [[c ds]|]; [|intros H; inversion H; constructor].
  destruct (c_expand c); [apply kept_NoDup|intros H; inversion H; constructor].
Qed.

Lemma children_universe inp x l : children inp x = Ok l -> incl l (universe inp).
Proof.
  unfold children. destruct (lookup x (i_table inp)) as [[c ds]|] eqn:L; [|intros H; inversion H; intros ? []].
  destruct (c_expand c); [|intros H; inversion H; intros ? []].
  intros H y Hy. apply (kept_In _ _ _ _ _ H) in Hy. destruct Hy as [(d & l0 & Hd & He & Hy) _].
  unfold universe. apply in_flat_map. exists (x, (c, ds)). split; [now apply lookup_In|].
  cbn. apply in_flat_map. exists d. split; [assumption|]. now apply (emit_targets _ _ _ _ _ He).
Qed.

(** children of an expanded item in terms of the raw dependency nodes *)
Lemma R_spec inp x y : R inp x y <->
  exists c ds l, lookup x (i_table inp) = Some (c, ds) /\ c_expand c = true /\
                 kept (i_strict inp) (i_gdisable inp) c ds = Ok l /\ In y l.
Proof.
  unfold R, children. split.
  - intros (l & H & Hy). destruct (lookup x (i_table inp)) as [[c ds]|]; [|inversion H; subst; destruct Hy].
    destruct (c_expand c) eqn:E; [|inversion H; subst; destruct Hy]. exists c, ds, l. auto.
  - intros (c & ds & l & -> & -> & H & Hy). exists l. auto.
Qed.

(** ... and what a plain item node emits *)
Lemma emit_item strict g c n l : emit strict g c (DItem n) = Ok l -> forall y, In y l <-> y = n /\ early g c n = false.
Proof.
  cbn. intros H; inversion H; subst. intros y. destruct (early g c n); cbn; [split; [tauto|intros [_ ?]; discriminate]|].
  split; [intros [<-|[]]; auto|intros [-> _]; now left].
Qed.

Lemma emit_checked_not_early strict g c d l : checked d = true -> emit strict g c d = Ok l ->
  forall y, In y l -> early g c y = false.
Proof. intros Hd H y Hy. now apply (emit_In _ _ _ _ _ _ H Hy). Qed.

(** the part of the universe [U] not yet among the nodes [ns] *)
Definition cnt (U ns : list string) : nat := length (filter (fun u => negb (smem u ns)) U).

Lemma smem_app a l1 l2 : smem a (l1 ++ l2) = orb (smem a l1) (smem a l2).
Proof. unfold smem. apply existsb_app. Qed.

Lemma cnt_ext U ns ns' : (forall u, In u U -> smem u ns = smem u ns') -> cnt U ns = cnt U ns'.
Proof.
  unfold cnt. induction U as [|a U IH]; intros H; cbn; [reflexivity|].
  rewrite (H a (or_introl eq_refl)). destruct (negb (smem a ns')); cbn; rewrite IH; auto; intros; apply H; now right.
Qed.

Lemma cnt_add1 U : NoDup U -> forall ns y, In y U -> ~ In y ns -> cnt U (ns ++ [y]) + 1 = cnt U ns.
Proof.
  induction 1 as [|a U Ha Hd IH]; intros ns y Hy Hn; [destruct Hy|].
  unfold cnt. cbn [filter]. fold (cnt U (ns ++ [y])). fold (cnt U ns).
  rewrite smem_app. destruct Hy as [->|Hy].
  - assert (E : smem y ns = false) by now apply smem_false.
    assert (E1 : smem y [y] = true) by (apply smem_In; now left).
    rewrite E, E1. cbn [orb negb length].
    fold (cnt U (ns ++ [y])). fold (cnt U ns).
    rewrite (cnt_ext U (ns ++ [y]) ns); [lia|].
    intros u Hu. rewrite smem_app. replace (smem u [y]) with false; [now rewrite orb_false_r|].
    symmetry. apply smem_false. intros [->|[]]. contradiction.
  - assert (E1 : smem a [y] = false) by (apply smem_false; intros [->|[]]; contradiction).
    rewrite E1, orb_false_r. destruct (negb (smem a ns)); cbn [length];
      fold (cnt U (ns ++ [y])); fold (cnt U ns); specialize (IH ns y Hy Hn); lia.
Qed.

Lemma cnt_add U : NoDup U -> forall new ns, NoDup new -> incl new U -> (forall y, In y new -> ~ In y ns) ->
  cnt U (ns ++ new) + length new = cnt U ns.
Proof.
  intros HU. induction new as [|y r IH]; intros ns Hnd Hi Hdis.
  - rewrite app_nil_r. cbn. lia.
  - inversion Hnd as [|? ? Hy Hr]; subst.
    replace (ns ++ y :: r) with ((ns ++ [y]) ++ r) by (rewrite <- app_assoc; reflexivity).
    specialize (IH (ns ++ [y]) Hr).
    assert (H1 : cnt U ((ns ++ [y]) ++ r) + length r = cnt U (ns ++ [y])).
    { apply IH; [intros z Hz; apply Hi; now right|].
      intros z Hz Hin. apply in_app_iff in Hin. destruct Hin as [Hin|[->|[]]]; [|contradiction].
      apply (Hdis z); [now right|assumption]. }
    assert (H2 : cnt U (ns ++ [y]) + 1 = cnt U ns).
    { apply cnt_add1; [assumption|apply Hi; now left|apply Hdis; now left]. }
    cbn [length]. lia.
Qed.

Lemma cnt_le U ns : cnt U ns <= length U.
Proof. unfold cnt. induction U as [|a U IH]; cbn; [lia|]. destruct (negb (smem a ns)); cbn; lia. Qed.

(** a pop takes one element off the queue; the new children it appends are as many as the unseen part of the
    universe shrinks by: the sum drops by one per iteration *)
Definition measure (inp : input) (s : st) : nat := length (queue s) + cnt (dedup (universe inp)) (nodes s).

Lemma step_measure inp s x q s' :
  step inp x (mk_st (nodes s) (edges s) q (ign s)) = Ok s' ->
  measure inp s' = length q + cnt (dedup (universe inp)) (nodes s).
Proof.
  unfold step. cbn [nodes edges queue ign]. destruct (children inp x) as [l| | |] eqn:Hc; try discriminate.
  intros H; inversion H; subst; clear H. unfold measure. cbn [nodes queue].
  rewrite app_length.
  pose proof (cnt_add (dedup (universe inp)) (dedup_NoDup _)
                (filter (fun y => negb (smem y (nodes s))) l) (nodes s)) as HC.
  assert (H1 : NoDup (filter (fun y => negb (smem y (nodes s))) l)) by (apply NoDup_filter; eapply children_NoDup; eauto).
  assert (H2 : incl (filter (fun y => negb (smem y (nodes s))) l) (dedup (universe inp))).
  { intros y Hy. apply filter_In in Hy. apply dedup_In. apply (children_universe _ _ _ Hc). tauto. }
  assert (H3 : forall y, In y (filter (fun y => negb (smem y (nodes s))) l) -> ~ In y (nodes s)).
  { intros y Hy. apply filter_In in Hy. destruct Hy as [_ Hy]. apply negb_true_iff in Hy. now apply smem_false. }
  specialize (HC H1 H2 H3). lia.
Qed.

Lemma emit_no_fuel strict g c d : emit strict g c d <> ErrFuel.
Proof.
  destruct d as [n|n|m syms|p cands fk]; cbn [emit].
  - discriminate.
  - destruct (early g c n); [discriminate|]. destruct strict; discriminate.
  - destruct (early g c m); [discriminate|]. destruct syms; discriminate.
  - destruct (filter _ cands) as [|m [|m2 r]]; try discriminate.
    destruct (early g c _); [discriminate|]. destruct fk; [discriminate|]. destruct strict; discriminate.
Qed.

Lemma emit_all_no_fuel strict g c ds : emit_all strict g c ds <> ErrFuel.
Proof.
  induction ds as [|d r IH]; cbn; [discriminate|].
  pose proof (emit_no_fuel strict g c d). destruct (emit strict g c d); try congruence.
  destruct (emit_all strict g c r); congruence.
Qed.

Lemma children_no_fuel inp x : children inp x <> ErrFuel.
Proof.
  unfold children. destruct (lookup x (i_table inp)) as [[c ds]|]; [|discriminate].
  destruct (c_expand c); [|discriminate]. unfold kept.
  pose proof (emit_all_no_fuel (i_strict inp) (i_gdisable inp) c ds).
  destruct (emit_all _ _ c ds); congruence.
Qed.

Lemma run_no_fuel_err inp : forall fuel s, measure inp s < fuel -> run inp fuel s <> ErrFuel.
Proof.
  induction fuel as [|f IH]; intros s Hm; [lia|]. cbn.
  destruct (queue s) as [|x q] eqn:Hq; [discriminate|].
  destruct (step inp x (mk_st (nodes s) (edges s) q (ign s))) as [s1| | |] eqn:Hs; try discriminate.
  - apply IH. rewrite (step_measure _ _ _ _ _ Hs). unfold measure in Hm. rewrite Hq in Hm. cbn in Hm. lia.
  - unfold step in Hs. pose proof (children_no_fuel inp x). destruct (children inp x); congruence.
Qed.

Lemma run_mono inp : forall f s r, run inp f s = r -> r <> ErrFuel -> forall f', f <= f' -> run inp f' s = r.
Proof.
  induction f as [|f IH]; intros s r Hr Hne f' Hle.
  - cbn in Hr. destruct (queue s) eqn:Hq; [|congruence]. destruct f'; cbn; rewrite Hq; assumption.
  - destruct f' as [|f']; [lia|]. cbn in *. destruct (queue s) as [|x q]; [assumption|].
    destruct (step inp x (mk_st (nodes s) (edges s) q (ign s))) as [s1| | |]; try assumption.
    apply IH; [assumption|assumption|lia].
Qed.

Lemma init_measure inp ign0 : measure inp (init_st inp ign0) < fuel_bound inp.
Proof.
  unfold measure, init_st, fuel_bound. cbn [queue nodes].
  pose proof (cnt_le (dedup (universe inp)) (add_nodes [] (seed_items inp))). lia.
Qed.

Lemma fuel_suffices inp ign0 :
  populate_from inp ign0 <> ErrFuel /\
  forall fuel, fuel_bound inp <= fuel -> run inp fuel (init_st inp ign0) = populate_from inp ign0.
Proof.
  assert (H : populate_from inp ign0 <> ErrFuel) by (apply run_no_fuel_err, init_measure).
  split; [assumption|]. intros fuel Hle. eapply run_mono; [reflexivity|assumption|assumption].
Qed.

Lemma populate_no_fuel_err inp : populate inp <> ErrFuel.
Proof.
  unfold populate. destruct (i_two_pass inp); [|apply fuel_suffices].
  destruct (populate_from inp []) eqn:E; try discriminate; [apply fuel_suffices|].
  exfalso. revert E. apply fuel_suffices.
Qed.

Lemma scheduler_graph_no_fuel_err inp : scheduler_graph inp <> ErrFuel.
Proof.
  unfold scheduler_graph. pose proof (populate_no_fuel_err inp). destruct (populate inp); congruence.
Qed.

(** on inputs whose dependency nodes are all [checked], no edge leads to a name that matches the
    global disable list or the parent's disable/block list under the pattern and scope rules *)
Lemma edges_respect_pruning_on_class inp s :
  (forall x c ds d, lookup x (i_table inp) = Some (c, ds) -> In d ds -> checked d = true) ->
  populate inp = Ok s ->
  forall x y, In (x, y) (edges s) ->
    exists c ds, lookup x (i_table inp) = Some (c, ds) /\ c_expand c = true /\
                 early (i_gdisable inp) c y = false /\
                 matchb false false y (c_disable c) = false /\ matchb false false y (c_block c) = false.
Proof.
  intros Hcl Hp x y Hxy. apply (populate_edges_exact _ _ Hp) in Hxy. destruct Hxy as (_ & HR & _).
  apply R_spec in HR. destruct HR as (c & ds & l & HL & HE & HK & Hy).
  exists c, ds. split; [assumption|]. split; [assumption|].
  apply (kept_In _ _ _ _ _ HK) in Hy. destruct Hy as ((d & l0 & Hd & He & Hy0) & H1 & H2).
  split; [|auto]. eapply emit_checked_not_early; eauto.
Qed.
