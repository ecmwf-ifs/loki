(** C21 — proofs, part 3: SchedulerConfig.match_item_keys (case folding, scope rules, fnmatch subset),
    concrete witnesses for the places where the pruning is by-passed, and a non-trivial instance. *)
From Coq Require Import String Ascii List Bool Arith Lia.
From LV Require Import Base.Strings models.M_C21 proofs.P_C21 proofs.P_C21_fuel.
Import ListNotations.
Open Scope string_scope.
Open Scope list_scope.

Lemma match_keys_case_insensitive pat par nm nm' keys keys' :
  lower nm = lower nm' -> map lower keys = map lower keys' ->
  match_keys pat par nm keys = match_keys pat par nm' keys'.
Proof. intros H1 H2. unfold match_keys, name_variants. now rewrite H1, H2. Qed.

Lemma matchb_case_insensitive pat par nm nm' keys keys' :
  lower nm = lower nm' -> map lower keys = map lower keys' ->
  matchb pat par nm keys = matchb pat par nm' keys'.
Proof. intros H1 H2. unfold matchb. now rewrite (match_keys_case_insensitive _ _ _ _ _ _ H1 H2). Qed.

Lemma match_keys_upper pat par nm keys :
  match_keys pat par (upper nm) (map upper keys) = match_keys pat par nm keys.
Proof.
  apply match_keys_case_insensitive; [apply lower_upper|].
  rewrite map_map. apply map_ext. intros; apply lower_upper.
Qed.

Lemma split_on_none c s : has_char c s = false -> split_on c s = [s].
Proof.
  induction s as [|a r IH]; cbn; [reflexivity|].
  destruct (Ascii.eqb a c); [discriminate|]. intros H. now rewrite (IH H).
Qed.

Lemma split_on_app c a b : has_char c a = false ->
  split_on c (a +++ String c b) = a :: split_on c b.
Proof.
  induction a as [|x r IH]; cbn.
  - intros _. now rewrite Ascii.eqb_refl.
  - destruct (Ascii.eqb x c); [discriminate|]. intros H. now rewrite (IH H).
Qed.

Lemma has_char_lower d s :
  is_upper d = false -> is_lower_c d = false -> has_char d (lower s) = has_char d s.
Proof. intros Hu Hl. induction s as [|a r IH]; cbn; [reflexivity|]. now rewrite lower_ascii_eqb, IH. Qed.

Lemma has_hash_lower s : has_char "#" (lower s) = has_char "#" s.
Proof. now apply has_char_lower. Qed.
Lemma has_pct_lower s : has_char "%" (lower s) = has_char "%" s.
Proof. now apply has_char_lower. Qed.

Lemma lower_scoped a b : lower (a +++ "#" +++ b) = lower a +++ "#" +++ lower b.
Proof. rewrite !lower_app. reflexivity. Qed.

Lemma name_variants_local par local : has_char "#" local = false ->
  name_variants par local = Some (variants_of par (lower local) "" (lower local)).
Proof.
  intros H. unfold name_variants. rewrite split_on_none by now rewrite has_hash_lower. reflexivity.
Qed.

Lemma name_variants_scoped par scope local : has_char "#" scope = false -> has_char "#" local = false ->
  name_variants par (scope +++ "#" +++ local) =
  Some (variants_of par (lower scope +++ "#" +++ lower local) (lower scope) (lower local)).
Proof.
  intros H1 H2. unfold name_variants. rewrite lower_scoped.
  change (lower scope +++ "#" +++ lower local) with (lower scope +++ String "#" (lower local)).
  rewrite split_on_app by now rewrite has_hash_lower.
  rewrite split_on_none by now rewrite has_hash_lower. reflexivity.
Qed.

Lemma key_hits_plain vs k : key_hits false vs k = true <-> In k vs.
Proof. exact (smem_In k vs). Qed.

(** default matching (what [create_item_config], the [disable] re-filter and the [block] test use):
    a key selects an item iff, after case folding, it is the fully qualified name or the local name *)
Lemma match_keys_spec scope local keys : has_char "#" scope = false -> has_char "#" local = false ->
  exists l, match_keys false false (scope +++ "#" +++ local) keys = Some l /\
    forall k, In k l <-> In k (map lower keys) /\
                         (k = lower scope +++ "#" +++ lower local \/ k = lower local).
Proof.
  intros H1 H2. unfold match_keys. rewrite name_variants_scoped by assumption. eexists. split; [reflexivity|].
  intros k. rewrite filter_In, key_hits_plain. cbn. intuition congruence.
Qed.

Inductive gmatch : string -> string -> Prop :=
| gm_nil : gmatch "" ""
| gm_star p s t : gmatch p t -> gmatch (String "*" p) (s +++ t)
| gm_q p c s : gmatch p s -> gmatch (String "?" p) (String c s)
| gm_lit c p s : c <> "*"%char -> c <> "?"%char -> gmatch p s -> gmatch (String c p) (String c s).

Lemma glob_star p s :
  glob (String "*" p) s =
  if glob p s then true else match s with EmptyString => false | String _ s' => glob (String "*" p) s' end.
Proof. destruct s; reflexivity. Qed.

Lemma glob_char c p s : c <> "*"%char ->
  glob (String c p) s =
  match s with
  | EmptyString => false
  | String d s' => if (Ascii.eqb c "?" || Ascii.eqb c d)%bool then glob p s' else false
  end.
Proof. intros H. cbn [glob]. destruct (Ascii.eqb_spec c "*"); [contradiction|reflexivity]. Qed.

Lemma gmatch_star_cons p a s : gmatch (String "*" p) s -> gmatch (String "*" p) (String a s).
Proof.
  intros H. inversion H; subst.
  - change (String a (s0 +++ t)) with (String a s0 +++ t). now constructor.
  - congruence.
Qed.

Lemma glob_sound : forall p s, glob p s = true -> gmatch p s.
Proof.
  induction p as [|c p IH]; intros s H.
  - destruct s; [constructor|discriminate].
  - destruct (ascii_dec c "*") as [->|Hc].
    + induction s as [|a s IHs].
      * rewrite glob_star in H. destruct (glob p "") eqn:E; [|discriminate].
        change "" with ("" +++ ""). constructor. now apply IH.
      * rewrite glob_star in H. destruct (glob p (String a s)) eqn:E.
        -- change (String a s) with ("" +++ String a s). constructor. now apply IH.
        -- apply gmatch_star_cons. now apply IHs.
    + rewrite glob_char in H by assumption. destruct s as [|d s]; [discriminate|].
      destruct (Ascii.eqb_spec c "?") as [->|Hq]; cbn [orb] in H.
      * constructor. now apply IH.
      * destruct (Ascii.eqb_spec c d) as [->|Hd]; [|discriminate]. constructor; auto.
Qed.

Lemma glob_complete p s : gmatch p s -> glob p s = true.
Proof.
  induction 1 as [|p s t H IH|p c s H IH|c p s Hc Hq H IH].
  - reflexivity.
  - induction s as [|a s IHs]; cbn [String.append].
    + rewrite glob_star, IH. reflexivity.
    + rewrite glob_star. destruct (glob p (String a (s +++ t))); [reflexivity|exact IHs].
  - rewrite glob_char by discriminate. replace (Ascii.eqb "?" "?") with true by reflexivity. cbn [orb]. exact IH.
  - rewrite glob_char by assumption. rewrite Ascii.eqb_refl, orb_true_r. exact IH.
Qed.

Lemma glob_spec p s : glob p s = true <-> gmatch p s.
Proof. split; [apply glob_sound|apply glob_complete]. Qed.

Lemma gmatch_refl s : gmatch s s.
Proof.
  induction s as [|c r IH]; [constructor|].
  destruct (ascii_dec c "*") as [->|Hs].
  - change (String "*" r) with ("*" +++ r) at 2. now constructor.
  - destruct (ascii_dec c "?") as [->|Hq]; [now constructor|now constructor].
Qed.

Lemma glob_refl s : glob s s = true.
Proof. apply glob_complete, gmatch_refl. Qed.

(** with [match_item_parents] the enclosing scope (module) name selects every member *)
Lemma match_keys_parent_scope pat scope local keys :
  has_char "#" scope = false -> has_char "#" local = false -> scope <> "" ->
  In (lower scope) (map lower keys) ->
  matchb pat true (scope +++ "#" +++ local) keys = true.
Proof.
  intros H1 H2 Hne Hk. unfold matchb, match_keys. rewrite name_variants_scoped by assumption.
  assert (Hin : In (lower scope) (filter (key_hits pat
              (variants_of true (lower scope +++ "#" +++ lower local) (lower scope) (lower local))) (map lower keys))).
  { apply filter_In. split; [assumption|]. unfold key_hits. apply existsb_exists. exists (lower scope). split.
    - unfold variants_of. right. right. apply in_app_iff. left.
      destruct (String.eqb_spec (lower scope) ""); [|now left].
      exfalso. apply Hne. destruct scope; [reflexivity|discriminate].
    - destruct pat; [|apply String.eqb_refl].
      apply glob_refl. }
  destruct (filter _ (map lower keys)); [destruct Hin|reflexivity].
Qed.

Definition no_wild (p : string) : bool := andb (negb (has_char "*" p)) (negb (has_char "?" p)).

(** a key without wildcards is matched literally, so plain matching is a special case of pattern matching *)
Lemma glob_literal : forall p s, no_wild p = true -> glob p s = String.eqb p s.
Proof.
  induction p as [|c p IH]; intros s H.
  - destruct s; reflexivity.
  - unfold no_wild in H. cbn [has_char] in H.
    destruct (Ascii.eqb_spec c "*") as [->|Hs]; [discriminate H|].
    destruct (Ascii.eqb_spec c "?") as [->|Hq]; [rewrite andb_false_r in H; discriminate H|].
    rewrite glob_char by assumption. destruct s as [|d s]; [reflexivity|].
    cbn [String.eqb]. destruct (Ascii.eqb_spec c "?"); [contradiction|]. cbn [orb].
    destruct (Ascii.eqb c d); [|reflexivity]. apply IH. exact H.
Qed.

Lemma key_hits_plain_pattern vs k : no_wild k = true -> key_hits true vs k = key_hits false vs k.
Proof.
  intros H. unfold key_hits. induction vs as [|v r IH]; cbn; [reflexivity|].
  now rewrite glob_literal, IH.
Qed.

(** * the two places where a dependency escapes the pattern / scope pruning (unqualified USE) *)
Definition cfg0 : icfg := mk_icfg true [] [] [] false.

Definition inp_block_escape : input :=
  mk_input false []
    [ ("#drv", (mk_icfg true [] ["k*"] [] false, [DImport "km_mod" []; DCallUnq "k1" ["km_mod"] false]));
      ("km_mod#k1", (cfg0, [])); ("km_mod", (cfg0, [])) ]
    ["drv"] ["#drv"] [("km_mod", (["k1"], ["k1"]))] true.

Lemma blocked_pattern_escapes_refuted :
  exists inp s x y c ds,
    populate inp = Ok s /\ In (x, y) (edges s) /\ lookup x (i_table inp) = Some (c, ds) /\
    early (i_gdisable inp) c y = true.
Proof.
  exists inp_block_escape,
         (mk_st ["#drv"; "km_mod#k1"] [("#drv", "km_mod#k1")] [] [("km_mod#k1", false); ("km_mod#k1", false)]),
         "#drv", "km_mod#k1", (mk_icfg true [] ["k*"] [] false),
         [DImport "km_mod" []; DCallUnq "k1" ["km_mod"] false].
  split; [vm_compute; reflexivity|]. split; [now left|]. split; vm_compute; reflexivity.
Qed.

Definition inp_phantom : input :=
  mk_input false ["km_mod"]
    [ ("#drv", (cfg0, [DImport "km_mod" []; DCallUnq "k1" ["km_mod"] false])); ("km_mod", (cfg0, [])) ]
    ["drv"] ["#drv"] [("km_mod", (["k1"], ["k1"]))] true.

(** the only candidate of the call is disabled, yet a node "#k1" (an external item) enters the graph *)
Lemma disabled_callee_phantom_refuted :
  exists inp s x c ds p m,
    populate inp = Ok s /\ lookup x (i_table inp) = Some (c, ds) /\ In x (nodes s) /\
    In (DCallUnq p [m] false) ds /\ gdis inp (m +++ "#" +++ p) = true /\ In ("#" +++ p) (nodes s).
Proof.
  exists inp_phantom, (mk_st ["#drv"; "#k1"] [("#drv", "#k1")] [] [("#k1", false); ("#k1", false)]),
         "#drv", cfg0, [DImport "km_mod" []; DCallUnq "k1" ["km_mod"] false], "k1", "km_mod".
  split; [vm_compute; reflexivity|]. split; [reflexivity|]. split; [now left|].
  split; [right; now left|]. split; [vm_compute; reflexivity|right; now left].
Qed.

(** * a non-trivial instance: modules, a type-bound call, a disabled and a blocked callee, recursion *)
Definition inp_example : input :=
  mk_input true ["abort*"]
    [ ("m1_mod#r1", (mk_icfg true ["abort*"] ["m3_mod"] ["free1"] false,
         [DImport "m3_mod" []; DItem "m1_mod#ty1"; DItem "m2_mod#r2"; DItem "m3_mod#r3";
          DItem "m1_mod#ty1%bnd"; DItem "#free1"; DItem "#abort_now"]));
      ("m1_mod#ty1", (cfg0, []));
      ("m1_mod#ty1%bnd", (cfg0, [DItem "m1_mod#r1b"]));
      ("m1_mod#r1b", (cfg0, [DItem "m1_mod#ty1"]));
      ("m2_mod#r2", (mk_icfg true [] [] [] true, [DItem "m2_mod#r2"; DItem "m1_mod#r1b"]));
      ("#free1", (cfg0, [DImport "m2_mod" [("nvar", SKvar); ("r2", SKsub)]; DItem "#free2"]));
      ("#free2", (mk_icfg false [] [] [] false, [DItem "m3_mod#r3"]));
      ("m2_mod", (cfg0, [])); ("m3_mod#r3", (cfg0, [])) ]
    ["R1"] ["#free1"; "#free2"]
    [("m1_mod", (["r1"; "r1b"], ["r1"; "r1b"; "ty1"])); ("m2_mod", (["r2"], ["r2"])); ("m3_mod", (["r3"], ["r3"]))]
    true.

Example example_graph :
  scheduler_graph inp_example =
  Ok (mk_graph
        ["m1_mod#r1"; "m1_mod#ty1"; "m2_mod#r2"; "m1_mod#ty1%bnd"; "#free1"; "m1_mod#r1b"; "m2_mod"; "#free2"]
        [("m1_mod#r1", "m1_mod#ty1"); ("m1_mod#r1", "m2_mod#r2"); ("m1_mod#r1", "m1_mod#ty1%bnd");
         ("m1_mod#r1", "#free1"); ("m2_mod#r2", "m1_mod#r1b"); ("m1_mod#ty1%bnd", "m1_mod#r1b");
         ("#free1", "m2_mod"); ("#free1", "#free2"); ("m1_mod#r1b", "m1_mod#ty1")]
        ["#free1"; "m2_mod"; "#free2"]).
Proof. vm_compute. reflexivity. Qed.
