(** C22 — proofs about the model of Scheduler.process_transformation (M_C22.v): folded names and look-ups; what
    [is_topo] gives ([topo]); every selected item exactly once ([visit_once]); order of callers and callees ([before],
    [reach]); the loop over the visited items ([run_spec]); the file graph and its traversal; cycles; targets and
    successors ([chain]); an example.  The vocabulary of the statements is defined first. *)
From Coq Require Import String Ascii List Bool Arith Lia.
From LV Require Import Base.Strings Base.ListFacts models.M_C22.
Import ListNotations.
Open Scope string_scope.
Open Scope list_scope.

(** * vocabulary of the statements *)

(** the folded (lower-case) name of an item: what the scheduler compares *)
Definition fname (it : item) : string := lower (iname it).

(** what [is_topo g order = true] says, as propositions *)
Record topo (g : graph) (order : list string) : Prop := mkTopo {
  t_nodes_nodup : NoDup (map fname (nodes g));
  t_order_nodup : NoDup (map lower order);
  t_nodes_in    : forall it, In it (nodes g) -> In (fname it) (map lower order);
  t_order_in    : forall n, In n order -> In (lower n) (map fname (nodes g));
  t_edges       : forall e, In e (edges g) -> edge_fwd order e = true
}.

(** the items in processing order, before the filter *)
Definition traversal (g : graph) (order : list string) (rev_ : bool) : list item :=
  if rev_ then rev (order_items g order) else order_items g order.

(** [x] occurs before [y] in [l] *)
Definition before {A} (x y : A) (l : list A) : Prop :=
  exists l1 l2 l3, l = l1 ++ x :: l2 ++ y :: l3.

(** dependency paths (names are matched up to letter case) *)
Inductive reach (g : graph) : string -> string -> Prop :=
| reach_edge a b x y : In (a, b) (edges g) -> lower a = lower x -> lower b = lower y -> reach g x y
| reach_trans x y z : reach g x y -> reach g y z -> reach g x z.

(** an external item the loop passes over instead of raising: planning mode and [generated] *)
Definition skippable (plan : bool) (it : item) : bool := iext it && plan && igen it.

(** the filter with which the file graph is traversed *)
Definition fg_flags (m : manifest) (strict : bool) (mode : option string) : sflags :=
  mkSF None (m_reverse m) false strict mode.

(** [chain g x y]: [y] is a child of [x], or of a chain of binding/interface items below [x] *)
Inductive chain (g : graph) : string -> string -> Prop :=
| chain_edge x c ci : In c (succs g x) -> find_item c (nodes g) = Some ci -> chain g x (iname ci)
| chain_step x c ci y : In c (succs g x) -> find_item c (nodes g) = Some ci ->
                        is_intermediate ci = true -> chain g (iname ci) y -> chain g x y.

(** * folded names *)
Lemma name_eqb_iff a b : name_eqb a b = true <-> lower a = lower b.
Proof. unfold name_eqb. apply String.eqb_eq. Qed.

Lemma name_eqb_false_iff a b : name_eqb a b = false <-> lower a <> lower b.
Proof. unfold name_eqb. apply String.eqb_neq. Qed.

Lemma name_eqb_refl a : name_eqb a a = true.
Proof. apply name_eqb_iff. reflexivity. Qed.

Lemma name_eqb_sym a b : name_eqb a b = name_eqb b a.
Proof. unfold name_eqb. apply String.eqb_sym. Qed.

Lemma name_eqb_ext_l a a' b : lower a = lower a' -> name_eqb a b = name_eqb a' b.
Proof. unfold name_eqb. intros ->. reflexivity. Qed.

Lemma name_eqb_ext_r a b b' : lower b = lower b' -> name_eqb a b = name_eqb a b'.
Proof. unfold name_eqb. intros ->. reflexivity. Qed.

Lemma mem_name_iff n l : mem_name n l = true <-> In (lower n) (map lower l).
Proof.
  induction l as [|m r IH]; cbn.
  - split; [discriminate|tauto].
  - rewrite orb_true_iff, IH, name_eqb_iff. split; intros [H|H]; auto.
Qed.

Lemma mem_name_ext n n' l : lower n = lower n' -> mem_name n l = mem_name n' l.
Proof.
  intros E. induction l as [|m r IH]; cbn; [reflexivity|].
  now rewrite IH, (name_eqb_ext_l _ _ _ E).
Qed.

Lemma mem_name_false_iff n l : mem_name n l = false <-> ~ In (lower n) (map lower l).
Proof.
  rewrite <- mem_name_iff. destruct (mem_name n l); split; intros; try congruence; auto.
Qed.

Lemma nodup_names_iff l : nodup_names l = true <-> NoDup (map lower l).
Proof.
  induction l as [|n r IH]; cbn.
  - split; [constructor|reflexivity].
  - rewrite andb_true_iff, negb_true_iff, IH, mem_name_false_iff. split.
    + intros [H1 H2]. constructor; assumption.
    + intros H. inversion H; subst. split; assumption.
Qed.

Lemma map_fname l : map fname l = map lower (map iname l).
Proof. now rewrite map_map. Qed.

Lemma find_item_Some n l it :
  find_item n l = Some it -> In it l /\ lower n = fname it.
Proof.
  induction l as [|x r IH]; cbn; [discriminate|].
  destruct (name_eqb n (iname x)) eqn:E.
  - intros [= <-]. split; [now left|]. now apply name_eqb_iff.
  - intros H. destruct (IH H). split; [now right|assumption].
Qed.

Lemma find_item_None n l :
  find_item n l = None -> ~ In (lower n) (map fname l).
Proof.
  induction l as [|x r IH]; cbn; [tauto|].
  destruct (name_eqb n (iname x)) eqn:E; [discriminate|].
  intros H [H1|H1].
  - apply name_eqb_false_iff in E. unfold fname in H1. congruence.
  - now apply IH.
Qed.

Lemma find_item_ext n n' l : lower n = lower n' -> find_item n l = find_item n' l.
Proof.
  intros E. induction l as [|x r IH]; cbn; [reflexivity|].
  now rewrite IH, (name_eqb_ext_l _ _ _ E).
Qed.

Lemma find_item_In n l it :
  NoDup (map fname l) -> In it l -> lower n = fname it -> find_item n l = Some it.
Proof.
  intros ND Hin E.
  destruct (find_item n l) as [it'|] eqn:F.
  - apply find_item_Some in F as [Hin' E']. f_equal.
    apply (NoDup_map_inj fname l); auto. congruence.
  - exfalso. apply find_item_None in F. apply F. rewrite E. now apply in_map.
Qed.

Lemma NoDup_of_map {A B} (f : A -> B) l : NoDup (map f l) -> NoDup l.
Proof. apply NoDup_map_inv. Qed.

(** * what [is_topo] gives; every selected item exactly once *)
Lemma is_topo_spec g order : is_topo g order = true <-> topo g order.
Proof.
  unfold is_topo. rewrite !andb_true_iff, !forallb_forall, !nodup_names_iff.
  split.
  - intros ((((H1 & H2) & H3) & H4) & H5). constructor; auto.
    + now rewrite map_fname.
    + intros it Hit. apply mem_name_iff. now apply H3.
    + intros n Hn. rewrite map_fname. apply mem_name_iff. now apply H4.
  - intros [H1 H2 H3 H4 H5]. repeat split; auto.
    + now rewrite <- map_fname.
    + intros it Hit. apply mem_name_iff. now apply H3.
    + intros n Hn. apply mem_name_iff. rewrite <- map_fname. now apply H4.
Qed.

Lemma order_items_app g l1 l2 :
  order_items g (l1 ++ l2) = order_items g l1 ++ order_items g l2.
Proof. unfold order_items. apply flat_map_app. Qed.

Lemma order_items_In_nodes g order it :
  In it (order_items g order) -> In it (nodes g) /\ In (fname it) (map lower order).
Proof.
  unfold order_items. intros H. apply in_flat_map in H as (n & Hn & H).
  destruct (find_item n (nodes g)) as [x|] eqn:F; [|destruct H].
  destruct H as [<-|[]]. apply find_item_Some in F as [Hx E]. split; auto.
  rewrite <- E. now apply in_map.
Qed.

Lemma order_items_names g order :
  (forall n, In n order -> In (lower n) (map fname (nodes g))) ->
  map fname (order_items g order) = map lower order.
Proof.
  induction order as [|n r IH]; intros H; cbn; [reflexivity|].
  destruct (find_item n (nodes g)) as [x|] eqn:F.
  - cbn. apply find_item_Some in F as [_ E]. rewrite <- E. f_equal.
    apply IH. intros m Hm. apply H. now right.
  - exfalso. apply find_item_None in F. apply F. apply H. now left.
Qed.

Lemma order_items_In g order it :
  topo g order -> (In it (order_items g order) <-> In it (nodes g)).
Proof.
  intros T. split.
  - intros H. now apply order_items_In_nodes in H.
  - intros H. pose proof (t_nodes_in _ _ T it H) as Hin.
    apply in_map_iff in Hin as (n & En & Hn).
    unfold order_items. apply in_flat_map. exists n. split; auto.
    rewrite (find_item_In n (nodes g) it); [now left| |auto|auto].
    apply (t_nodes_nodup _ _ T).
Qed.

Lemma order_items_nodup g order :
  topo g order -> NoDup (map fname (order_items g order)).
Proof.
  intros T. rewrite order_items_names; [apply (t_order_nodup _ _ T)|apply (t_order_in _ _ T)].
Qed.

Lemma sfilter_unfold g order s :
  sfilter g order s = filter (sel s) (traversal g order (sf_reverse s)).
Proof. reflexivity. Qed.

Lemma visit_once g order s :
  is_topo g order = true ->
  NoDup (map fname (sfilter g order s)) /\
  (forall it, In it (sfilter g order s) <-> In it (nodes g) /\ sel s it = true).
Proof.
  intros H. apply is_topo_spec in H. rewrite sfilter_unfold. split.
  - apply NoDup_map_filter. unfold traversal. destruct (sf_reverse s).
    + rewrite map_rev. apply NoDup_rev. now apply order_items_nodup.
    + now apply order_items_nodup.
  - intros it. rewrite filter_In. unfold traversal.
    destruct (sf_reverse s); [rewrite <- in_rev|]; now rewrite order_items_In.
Qed.

(** * order: callers before callees *)
Lemma index_of_ext n n' l : lower n = lower n' -> index_of n l = index_of n' l.
Proof.
  intros E. induction l as [|m r IH]; cbn; [reflexivity|].
  now rewrite IH, (name_eqb_ext_l _ _ _ E).
Qed.

Lemma index_of_split a l i :
  index_of a l = Some i ->
  exists l1 na l2, l = l1 ++ na :: l2 /\ length l1 = i /\ lower na = lower a.
Proof.
  revert i. induction l as [|m r IH]; cbn; intros i; [discriminate|].
  destruct (name_eqb a m) eqn:E.
  - intros [= <-]. exists [], m, r. repeat split. symmetry. now apply name_eqb_iff.
  - destruct (index_of a r) as [k|] eqn:F; [|discriminate].
    intros [= <-]. destruct (IH k eq_refl) as (l1 & na & l2 & -> & <- & En).
    exists (m :: l1), na, l2. repeat split; auto.
Qed.

Lemma index_lt_split a b l i j :
  index_of a l = Some i -> index_of b l = Some j -> i < j ->
  exists l1 na l2 nb l3, l = l1 ++ na :: l2 ++ nb :: l3 /\ lower na = lower a /\ lower nb = lower b.
Proof.
  revert i j. induction l as [|m r IH]; cbn; intros i j; [discriminate|].
  destruct (name_eqb a m) eqn:Ea.
  - intros [= <-]. destruct (name_eqb b m) eqn:Eb; [intros [= <-]; lia|].
    destruct (index_of b r) as [k|] eqn:F; [|discriminate].
    intros _ _. destruct (index_of_split _ _ _ F) as (l2 & nb & l3 & -> & _ & En).
    exists [], m, l2, nb, l3. repeat split; auto. symmetry. now apply name_eqb_iff.
  - destruct (index_of a r) as [k|] eqn:Fa; [|discriminate]. intros [= <-].
    destruct (name_eqb b m) eqn:Eb; [intros [= <-]; lia|].
    destruct (index_of b r) as [k'|] eqn:Fb; [|discriminate]. intros [= <-] Hlt.
    destruct (IH k k' eq_refl eq_refl) as (l1 & na & l2 & nb & l3 & -> & E1 & E2); [lia|].
    exists (m :: l1), na, l2, nb, l3. repeat split; auto.
Qed.

Lemma reach_index g order x y :
  topo g order -> reach g x y ->
  exists i j, index_of x order = Some i /\ index_of y order = Some j /\ i < j.
Proof.
  intros T R. induction R as [a b x y Hin Ea Eb | x y z _ IH1 _ IH2].
  - pose proof (t_edges _ _ T _ Hin) as F. unfold edge_fwd in F. cbn in F.
    destruct (index_of a order) as [i|] eqn:Fa; [|discriminate].
    destruct (index_of b order) as [j|] eqn:Fb; [|discriminate].
    exists i, j. rewrite <- (index_of_ext _ _ _ Ea), <- (index_of_ext _ _ _ Eb).
    repeat split; auto. now apply Nat.ltb_lt.
  - destruct IH1 as (i & j & H1 & H2 & L1). destruct IH2 as (j' & k & H3 & H4 & L2).
    rewrite H2 in H3. injection H3 as <-. exists i, k. repeat split; auto. lia.
Qed.

Lemma reach_irrefl g order x : topo g order -> ~ reach g x x.
Proof.
  intros T R. destruct (reach_index _ _ _ _ T R) as (i & j & H1 & H2 & L).
  rewrite H1 in H2. injection H2 as <-. lia.
Qed.

Lemma order_items_cons_found g n r it :
  find_item n (nodes g) = Some it -> order_items g (n :: r) = it :: order_items g r.
Proof. intros F. unfold order_items. cbn. now rewrite F. Qed.

Lemma before_order_items g order x y ix iy :
  topo g order -> reach g x y ->
  find_item x (nodes g) = Some ix -> find_item y (nodes g) = Some iy ->
  before ix iy (order_items g order).
Proof.
  intros T R Fx Fy.
  destruct (reach_index _ _ _ _ T R) as (i & j & H1 & H2 & L).
  destruct (index_lt_split _ _ _ _ _ H1 H2 L) as (l1 & na & l2 & nb & l3 & -> & Ea & Eb).
  exists (order_items g l1), (order_items g l2), (order_items g l3).
  rewrite order_items_app.
  rewrite (order_items_cons_found g na _ ix) by (rewrite (find_item_ext _ _ _ Ea); exact Fx).
  rewrite order_items_app.
  rewrite (order_items_cons_found g nb _ iy) by (rewrite (find_item_ext _ _ _ Eb); exact Fy).
  reflexivity.
Qed.

Lemma before_filter {A} (p : A -> bool) x y l :
  before x y l -> p x = true -> p y = true -> before x y (filter p l).
Proof.
  intros (l1 & l2 & l3 & ->) Hx Hy.
  exists (filter p l1), (filter p l2), (filter p l3).
  rewrite filter_app. cbn. rewrite Hx. rewrite filter_app. cbn. rewrite Hy. reflexivity.
Qed.

Lemma before_rev {A} (x y : A) l : before x y l -> before y x (rev l).
Proof.
  intros (l1 & l2 & l3 & ->). exists (rev l3), (rev l2), (rev l1).
  rewrite rev_app_distr. cbn. rewrite rev_app_distr. cbn.
  rewrite <- !app_assoc. cbn. reflexivity.
Qed.

(** stated for dependency paths; a direct edge is the case [reach_edge] *)
Lemma callers_first g order s x y ix iy :
  is_topo g order = true -> sf_reverse s = false ->
  reach g x y ->
  find_item x (nodes g) = Some ix -> find_item y (nodes g) = Some iy ->
  sel s ix = true -> sel s iy = true ->
  before ix iy (sfilter g order s).
Proof.
  intros H Hr R Fx Fy Sx Sy. apply is_topo_spec in H.
  rewrite sfilter_unfold, Hr. cbn. apply before_filter; auto.
  now apply (before_order_items g order x y).
Qed.

Lemma callees_first g order s x y ix iy :
  is_topo g order = true -> sf_reverse s = true ->
  reach g x y ->
  find_item x (nodes g) = Some ix -> find_item y (nodes g) = Some iy ->
  sel s ix = true -> sel s iy = true ->
  before iy ix (sfilter g order s).
Proof.
  intros H Hr R Fx Fy Sx Sy. apply is_topo_spec in H.
  rewrite sfilter_unfold, Hr. cbn. apply before_filter; auto.
  apply before_rev. now apply (before_order_items g order x y).
Qed.

Lemma edge_reach g a b : In (a, b) (edges g) -> reach g a b.
Proof. intros H. now apply (reach_edge g a b a b). Qed.

(** * the loop over the visited items *)
Lemma run_no_external plan l :
  (forall it, In it l -> iext it = false) -> run plan l = (l, Done).
Proof.
  induction l as [|it r IH]; intros H; cbn; [reflexivity|].
  rewrite (H it (or_introl eq_refl)). rewrite IH; [reflexivity|].
  intros x Hx. apply H. now right.
Qed.

Lemma run_spec plan l v o :
  run plan l = (v, o) ->
  match o with
  | Done => v = filter (fun it => negb (iext it)) l /\
            forall it, In it l -> iext it = true -> skippable plan it = true
  | ErrExternal n =>
      exists l1 it l2, l = l1 ++ it :: l2 /\ iext it = true /\ iname it = n /\
                       skippable plan it = false /\
                       v = filter (fun it => negb (iext it)) l1 /\
                       forall e, In e l1 -> iext e = true -> skippable plan e = true
  end.
Proof.
  revert v o. induction l as [|it r IH]; cbn; intros v o.
  - intros [= <- <-]. split; [reflexivity|tauto].
  - destruct (run plan r) as [v0 o0]. specialize (IH _ _ eq_refl).
    destruct (iext it) eqn:E; [destruct (plan && igen it) eqn:P|].
    (* three heads: a skippable external (goal 1), an external that aborts (goal 2), a kept item (goal 3) *)
    2: { intros [= <- <-]. exists [], it, r. unfold skippable. rewrite E, <- andb_assoc, P.
         repeat split; auto. }
    (* the head is passed over (an external that may be skipped) or kept: the tail's outcome stands *)
    all: intros [= <- <-];
      assert (S : iext it = true -> skippable plan it = true) by (unfold skippable; rewrite E; cbn; congruence);
      destruct o0 as [|n].
    (* for each of the two heads, the tail ends with [Done] (goals 1, 3) or with an error (the rest) *)
    1, 3: destruct IH as [-> IH]; (split; [reflexivity|]); intros x [<-|Hx]; auto.
    all: destruct IH as (l1 & x & l2 & -> & Ex & En & Sk & -> & Hl1); exists (it :: l1), x, l2;
      repeat split; auto; [cbn; now rewrite E|intros e [<-|He]; auto].
Qed.

Lemma sel_not_strict s it : sf_incl_ext s = false -> sel s it = true -> iext it = false.
Proof.
  unfold sel. intros ->. rewrite !andb_true_iff, orb_false_r, negb_true_iff. tauto.
Qed.

(** * the file graph *)
Lemma filter_mem_name p n l :
  mem_name n (filter p l) = true -> mem_name n l = true.
Proof.
  induction l as [|m r IH]; cbn; [auto|].
  destruct (p m); cbn; rewrite ?orb_true_iff; intuition.
Qed.

Lemma nodup_names_filter p l : nodup_names l = true -> nodup_names (filter p l) = true.
Proof. rewrite !nodup_names_iff. apply NoDup_map_filter. Qed.

Lemma dedup_nodup l : nodup_names (dedup l) = true.
Proof.
  induction l as [|n r IH]; cbn; [reflexivity|].
  rewrite andb_true_iff, negb_true_iff. split.
  - apply mem_name_false_iff. intros Hin.
    apply in_map_iff in Hin as (x & Ex & Hx). apply filter_In in Hx as [_ Hx].
    apply negb_true_iff, name_eqb_false_iff in Hx. congruence.
  - now apply nodup_names_filter.
Qed.

Lemma dedup_mem n l : mem_name n (dedup l) = mem_name n l.
Proof.
  induction l as [|m r IH]; cbn; [reflexivity|].
  destruct (name_eqb n m) eqn:E; cbn; [reflexivity|].
  rewrite <- IH. clear IH. induction (dedup r) as [|x d IHd]; cbn; [reflexivity|].
  destruct (name_eqb x m) eqn:Ex; cbn.
  - rewrite IHd. destruct (name_eqb n x) eqn:Enx; cbn; [|reflexivity].
    apply name_eqb_iff in Enx, Ex. apply name_eqb_false_iff in E. congruence.
  - now rewrite IHd.
Qed.

Lemma file_node_name files its f : iname (file_node files its f) = f.
Proof. unfold file_node. destruct (find_item f files); reflexivity. Qed.

Lemma file_node_ext files its f : iext (file_node files its f) = false.
Proof. unfold file_node. destruct (find_item f files); reflexivity. Qed.

Lemma fg_node_names g order f excl files :
  map iname (nodes (filegraph g order f excl files)) = dedup (map ifile (fg_items g order f excl)).
Proof.
  unfold filegraph. cbn. rewrite map_map.
  erewrite map_ext; [apply map_id|]. intros a. apply file_node_name.
Qed.

Lemma fg_nodes_nodup g order f excl files :
  NoDup (map fname (nodes (filegraph g order f excl files))).
Proof.
  rewrite map_fname, fg_node_names. apply nodup_names_iff, dedup_nodup.
Qed.

Lemma fg_nodes_no_external g order f excl files it :
  In it (nodes (filegraph g order f excl files)) -> iext it = false.
Proof.
  unfold filegraph. cbn. intros H. apply in_map_iff in H as (n & <- & _). apply file_node_ext.
Qed.

Lemma fg_nodes_spec g order f excl files n :
  is_topo g order = true ->
  (In (lower n) (map fname (nodes (filegraph g order f excl files))) <->
   exists it, In it (nodes g) /\ sel (mkSF f false excl false None) it = true /\ lower (ifile it) = lower n).
Proof.
  intros H. rewrite map_fname, fg_node_names, <- mem_name_iff, dedup_mem, mem_name_iff.
  unfold fg_items. rewrite in_map_iff. split.
  - intros (x & Ex & Hx). apply in_map_iff in Hx as (it & <- & Hit).
    apply (visit_once g order _ H) in Hit as [Hn Hs]. exists it. auto.
  - intros (it & Hn & Hs & E). exists (ifile it). split; auto.
    apply in_map. apply (visit_once g order _ H). auto.
Qed.

Lemma succs_In g n c :
  In c (succs g n) <-> exists a, In (a, c) (edges g) /\ lower a = lower n.
Proof.
  unfold succs. rewrite in_map_iff. split.
  - intros ([a c'] & <- & H). apply filter_In in H as [H E]. cbn in *.
    exists a. split; auto. now apply name_eqb_iff.
  - intros (a & H & E). exists (a, c). split; auto. apply filter_In. split; auto.
    cbn. now apply name_eqb_iff.
Qed.

Lemma fg_edge_of_item_edge g order f excl files x y ix iy :
  is_topo g order = true ->
  In (x, y) (edges g) ->
  find_item x (nodes g) = Some ix -> find_item y (nodes g) = Some iy ->
  sel (mkSF f false excl false None) ix = true -> sel (mkSF f false excl false None) iy = true ->
  lower (ifile ix) <> lower (ifile iy) ->
  In (ifile ix, ifile iy) (edges (filegraph g order f excl files)).
Proof.
  intros H He Fx Fy Sx Sy Hd.
  pose proof (visit_once g order (mkSF f false excl false None) H) as [ND SP].
  apply find_item_Some in Fx as [Hix Ex]. apply find_item_Some in Fy as [Hiy Ey].
  change (edges (filegraph g order f excl files)) with (fg_edges g (fg_items g order f excl)).
  change (sfilter g order (mkSF f false excl false None)) with (fg_items g order f excl) in ND, SP.
  unfold fg_edges.
  apply in_flat_map. exists ix. split; [apply SP; auto|].
  apply in_flat_map. exists y. split.
  - apply succs_In. exists x. split; auto.
  - rewrite (find_item_In y (fg_items g order f excl) iy); auto.
    + destruct (name_eqb (ifile iy) (ifile ix)) eqn:E; [|now left].
      apply name_eqb_iff in E. congruence.
    + apply SP. auto.
Qed.

(** * the traversal: item graph or file graph *)
Lemma visit_filegraph g files order order_f m strict mode :
  m_filegraph m = true ->
  visit g files order order_f m strict mode =
  sfilter (filegraph g order (m_filter m) (negb (m_ignored m)) files) order_f (fg_flags m strict mode).
Proof. unfold visit. now intros ->. Qed.

Lemma visit_items g files order order_f m strict mode :
  m_filegraph m = false ->
  visit g files order order_f m strict mode =
  sfilter g order (mkSF (m_filter m) (m_reverse m) (negb (m_ignored m)) strict mode).
Proof. unfold visit. now intros ->. Qed.

Lemma visit_sel g files order order_f m strict mode it :
  In it (visit g files order order_f m strict mode) ->
  exists s, sf_incl_ext s = strict /\ sel s it = true.
Proof.
  unfold visit. destruct (m_filegraph m); rewrite sfilter_unfold; intros H;
    apply filter_In in H as [_ H].
  - exists (mkSF None (m_reverse m) false strict mode). split; [reflexivity|exact H].
  - exists (mkSF (m_filter m) (m_reverse m) (negb (m_ignored m)) strict mode). split; [reflexivity|exact H].
Qed.

Lemma no_abort_when_not_strict g files order order_f m mode plan :
  process g files order order_f m false mode plan = (visit g files order order_f m false mode, Done).
Proof.
  unfold process. apply run_no_external. intros it Hit.
  apply visit_sel in Hit as (s & Hs & Hsel). now apply (sel_not_strict s).
Qed.

Lemma filegraph_visit_once g files order order_f m strict mode :
  m_filegraph m = true ->
  is_topo (filegraph g order (m_filter m) (negb (m_ignored m)) files) order_f = true ->
  let fg := filegraph g order (m_filter m) (negb (m_ignored m)) files in
  let v := visit g files order order_f m strict mode in
  NoDup (map fname v) /\
  (forall fi, In fi v <-> In fi (nodes fg) /\ sel (fg_flags m strict mode) fi = true).
Proof.
  intros Hf Ht fg v. subst v. rewrite visit_filegraph by exact Hf.
  exact (visit_once _ _ _ Ht).
Qed.

Lemma filegraph_order g files order order_f m strict mode x y ix iy fx fy :
  m_filegraph m = true ->
  is_topo g order = true ->
  is_topo (filegraph g order (m_filter m) (negb (m_ignored m)) files) order_f = true ->
  let fg := filegraph g order (m_filter m) (negb (m_ignored m)) files in
  let fsel := mkSF (m_filter m) false (negb (m_ignored m)) false None in
  In (x, y) (edges g) ->
  find_item x (nodes g) = Some ix -> find_item y (nodes g) = Some iy ->
  sel fsel ix = true -> sel fsel iy = true ->
  lower (ifile ix) <> lower (ifile iy) ->
  find_item (ifile ix) (nodes fg) = Some fx -> find_item (ifile iy) (nodes fg) = Some fy ->
  sel (fg_flags m strict mode) fx = true -> sel (fg_flags m strict mode) fy = true ->
  let v := visit g files order order_f m strict mode in
  if m_reverse m then before fy fx v else before fx fy v.
Proof.
  intros Hf Hg Ht fg fsel He Fx Fy Sx Sy Hd Ffx Ffy Sfx Sfy v. subst v.
  rewrite visit_filegraph by exact Hf.
  assert (R : reach fg (ifile ix) (ifile iy)).
  { apply edge_reach. now apply (fg_edge_of_item_edge g order (m_filter m) (negb (m_ignored m)) files x y). }
  destruct (m_reverse m) eqn:Er.
  - apply (callees_first fg order_f _ (ifile ix) (ifile iy)); auto.
  - apply (callers_first fg order_f _ (ifile ix) (ifile iy)); auto.
Qed.

(** * cycles *)
Lemma has_edge_reach g a b : has_edge g a b = true -> reach g a b.
Proof.
  unfold has_edge. rewrite existsb_exists. intros ([x y] & Hin & E). cbn in E.
  apply andb_true_iff in E as [E1 E2]. apply name_eqb_iff in E1, E2.
  now apply (reach_edge g x y a b).
Qed.

Lemma path_ok_reach g a l last : path_ok g a l last = true -> reach g a last.
Proof.
  revert a. induction l as [|b r IH]; cbn; intros a.
  - apply has_edge_reach.
  - rewrite andb_true_iff. intros [H1 H2]. eapply reach_trans; [apply has_edge_reach; eassumption|auto].
Qed.

Lemma cycle_no_topo g c order : is_cycle g c = true -> is_topo g order = false.
Proof.
  intros Hc. destruct (is_topo g order) eqn:T; [|reflexivity]. exfalso.
  apply is_topo_spec in T. destruct c as [|a r]; [discriminate|].
  cbn in Hc. apply path_ok_reach in Hc. exact (reach_irrefl g order a T Hc).
Qed.

(** * targets and successors *)
Lemma targets_spec raw excl n :
  In n (targets raw excl) <-> In n raw /\ mem_name n excl = false.
Proof. unfold targets. rewrite filter_In, negb_true_iff. tauto. Qed.

Lemma targets_order raw excl : exists p, targets raw excl = filter p raw.
Proof. eexists. reflexivity. Qed.

Lemma succ_fold_sound (rec : string -> option (list string)) g f n :
  (forall x l, rec x = Some l -> forall y, In y l -> chain g x y) ->
  forall cs l, (forall c, In c cs -> In c (succs g n)) ->
  fold_right (succ_step rec g f) (Some []) cs = Some l ->
  forall y, In y l -> chain g n y.
Proof.
  intros Hrec. induction cs as [|c r IHr]; cbn; intros l Hsub.
  - intros [= <-] y [].
  - destruct (fold_right (succ_step rec g f) (Some []) r) as [rest|] eqn:FR; [|discriminate].
    assert (Hrest : forall y, In y rest -> chain g n y).
    { apply (IHr rest); auto. }
    assert (Hc : In c (succs g n)) by (apply Hsub; now left).
    unfold succ_step.
    destruct (find_item c (nodes g)) as [ci|] eqn:Fc.
    + destruct (inst_match f ci).
      * destruct (is_intermediate ci) eqn:Ei.
        -- destruct (rec (iname ci)) as [sub|] eqn:S; [|discriminate].
           intros [= <-] y [<-|Hy].
           ++ eapply chain_edge; eauto.
           ++ apply in_app_or in Hy as [Hy|Hy]; auto.
              eapply chain_step; eauto.
        -- intros [= <-] y [<-|Hy]; auto. eapply chain_edge; eauto.
      * intros [= <-]. auto.
    + intros [= <-]. auto.
Qed.

(** every successor handed to a transformation is a dependency, reached through binding/interface items only *)
Lemma succ_gen_sound fuel g : forall f frec n l,
  succ_gen fuel g f frec n = Some l -> forall y, In y l -> chain g n y.
Proof.
  induction fuel as [|k IH]; intros f frec n l; cbn; [discriminate|].
  intros H. eapply succ_fold_sound; [|intros c Hc; exact Hc|exact H].
  intros x l' Hx. eapply IH; eauto.
Qed.

Lemma chain_reach g x y : chain g x y -> reach g x y.
Proof.
  induction 1 as [x c ci Hc F | x c ci y Hc F _ _ IH].
  - apply succs_In in Hc as (a & Hin & E). apply find_item_Some in F as [_ Ec].
    now apply (reach_edge g a c x (iname ci)).
  - eapply reach_trans; [|exact IH].
    apply succs_In in Hc as (a & Hin & E). apply find_item_Some in F as [_ Ec].
    now apply (reach_edge g a c x (iname ci)).
Qed.

Lemma succ_fold_direct (rec : string -> option (list string)) g f cs : forall l c ci,
  fold_right (succ_step rec g f) (Some []) cs = Some l ->
  In c cs -> find_item c (nodes g) = Some ci -> inst_match f ci = true ->
  In (iname ci) l.
Proof.
  induction cs as [|c' r IHr]; cbn; intros l c ci; [intros _ []|].
  destruct (fold_right (succ_step rec g f) (Some []) r) as [rest|] eqn:FR; [|discriminate].
  unfold succ_step. intros Hl [<-|Hc] F M.
  - rewrite F, M in Hl. destruct (is_intermediate ci).
    + destruct (rec (iname ci)); [|discriminate]. injection Hl as <-. now left.
    + injection Hl as <-. now left.
  - assert (Hin : In (iname ci) rest) by (apply (IHr rest c ci); auto).
    destruct (find_item c' (nodes g)) as [ci'|].
    + destruct (inst_match f ci').
      * destruct (is_intermediate ci').
        -- destruct (rec (iname ci')); [|discriminate].
           injection Hl as <-. right. apply in_or_app. now right.
        -- injection Hl as <-. now right.
      * now injection Hl as <-.
    + now injection Hl as <-.
Qed.

Lemma succ_gen_direct fuel g f frec n l c ci :
  succ_gen fuel g f frec n = Some l ->
  In c (succs g n) -> find_item c (nodes g) = Some ci -> inst_match f ci = true ->
  In (iname ci) l.
Proof.
  destruct fuel as [|k]; cbn; [discriminate|]. apply succ_fold_direct.
Qed.

Lemma successors_partial g f n l :
  sub_successors g f n = Some l ->
  (forall y, In y l -> chain g n y /\ reach g n y) /\
  (forall c ci, In c (succs g n) -> find_item c (nodes g) = Some ci ->
                inst_match (ext_filter f) ci = true -> In (iname ci) l).
Proof.
  intros H. split.
  - intros y Hy. assert (C : chain g n y) by (eapply succ_gen_sound; eauto).
    split; [exact C|now apply chain_reach].
  - intros c ci Hc F M. eapply succ_gen_direct; eauto.
Qed.

(** * an example: the hypotheses of the item-graph theorems are satisfiable *)

Definition ex_items : list item := [
  mkItem "#driver" KProc false false false "m0" "driver" "/p/a.f90";
  mkItem "tmod#q" KProc false false false "m0" "kernel" "/p/tmod.f90";
  mkItem "#c" KProc false false false "m0" "kernel" "/p/c.f90";
  mkItem "tmod#tt" KTypeDef false false false "m0" "kernel" "/p/tmod.f90";
  mkItem "tmod#tt%bp" KBinding false false false "m0" "kernel" "/p/tmod.f90";
  mkItem "tmod#bp_impl" KProc false false true "m0" "kernel" "/p/tmod.f90";
  mkItem "#ext" KProc true false false "m0" "kernel" ""
].
Definition ex_graph : graph := mkGraph ex_items
  [("#driver", "tmod#q"); ("#driver", "#c"); ("#c", "tmod#tt"); ("#c", "tmod#tt%bp"); ("#c", "#ext");
   ("tmod#tt%bp", "tmod#bp_impl"); ("tmod#bp_impl", "tmod#tt")].
Definition ex_order : list string :=
  ["#driver"; "tmod#q"; "#c"; "tmod#tt%bp"; "#ext"; "tmod#bp_impl"; "tmod#tt"].

Example ex_is_topo : is_topo ex_graph ex_order = true.
Proof. vm_compute. reflexivity. Qed.

Example ex_visit :
  map iname (sfilter ex_graph ex_order (mkSF (Some [KProc]) true true false None)) = ["#c"; "tmod#q"; "#driver"].
Proof. vm_compute. reflexivity. Qed.

Example ex_successors :
  sub_successors ex_graph (Some [KProc]) "#c" = Some ["tmod#tt%bp"; "tmod#bp_impl"].
Proof. vm_compute. reflexivity. Qed.
