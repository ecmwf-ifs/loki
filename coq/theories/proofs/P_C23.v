(** C23 — proofs: item equality/hash, factory names, suffixing, key matching, and the
    case-equivariance of the C22 processing model. *)
From Coq Require Import String Ascii List Bool Arith Lia.
From LV Require Import Base.Strings Base.ListFacts models.M_C22 proofs.P_C22 models.M_C23.
Import ListNotations.
Open Scope string_scope.
Open Scope list_scope.

Lemma lower_empty_iff s : lower s = "" <-> s = "".
Proof. destruct s; cbn; split; intros H; try reflexivity; discriminate. Qed.

Lemma eqb_empty_lower s : String.eqb (lower s) "" = String.eqb s "".
Proof.
  destruct (String.eqb s "") eqn:E.
  - apply String.eqb_eq in E. subst. reflexivity.
  - apply String.eqb_neq in E. apply String.eqb_neq. intros H. apply E. now apply lower_empty_iff.
Qed.

Lemma eqb_empty_sim s s' : lower s = lower s' -> String.eqb s "" = String.eqb s' "".
Proof. intros H. now rewrite <- (eqb_empty_lower s), <- (eqb_empty_lower s'), H. Qed.

Lemma is_lower_lower s : is_lower (lower s) = true.
Proof. unfold is_lower. apply String.eqb_eq. apply lower_idem. Qed.

Lemma is_lower_iff s : is_lower s = true <-> lower s = s.
Proof. unfold is_lower. apply String.eqb_eq. Qed.

(** F8: equal items with different hashes *)
Lemma item_hash_refuted :
  exists a b, item_eqb a b = true /\ item_hash a <> item_hash b.
Proof. exists "Mod#Foo", "mod#foo". split; [vm_compute; reflexivity|discriminate]. Qed.

Lemma item_eq_hash_on_lower a b :
  is_lower a = true -> is_lower b = true -> item_eqb a b = true -> item_hash a = item_hash b.
Proof.
  unfold item_hash, item_eqb. rewrite !is_lower_iff, name_eqb_iff. congruence.
Qed.

Lemma item_hash_folded_consistent a b :
  item_eqb a b = true -> item_hash_folded a = item_hash_folded b.
Proof. unfold item_eqb, item_hash_folded. now rewrite name_eqb_iff. Qed.

(** dict / set / graph membership misses an equal item spelled differently *)
Lemma py_mem_refuted :
  exists x l, mem_name x l = true /\ py_mem x l = false.
Proof. exists "Mod#Foo", ["mod#foo"]. split; vm_compute; reflexivity. Qed.

Lemma py_mem_on_lower x l :
  is_lower x = true -> forallb is_lower l = true -> py_mem x l = mem_name x l.
Proof.
  intros Hx. induction l as [|y r IH]; cbn; [reflexivity|].
  rewrite andb_true_iff. intros [Hy Hr]. rewrite <- IH by exact Hr. f_equal.
  unfold item_hash, item_eqb, name_eqb.
  apply is_lower_iff in Hx, Hy. rewrite Hx, Hy.
  destruct (String.eqb x y); reflexivity.
Qed.

Lemma factory_names_lower :
  (forall m, is_lower (module_item_name m) = true) /\
  (forall s l, is_lower (scoped_item_name s l) = true) /\
  (forall s t r, is_lower (binding_item_name s t r) = true) /\
  (forall p, is_lower (file_item_name p) = true).
Proof. repeat split; intros; apply is_lower_lower. Qed.

Lemma factory_names_case_invariant s s' l l' :
  lower s = lower s' -> lower l = lower l' ->
  scoped_item_name s l = scoped_item_name s' l' /\ module_item_name s = module_item_name s'.
Proof.
  intros Hs Hl. unfold scoped_item_name, module_item_name.
  rewrite !lower_app, Hs, Hl. split; reflexivity.
Qed.

Lemma binding_name_case_invariant s s' t t' r r' :
  lower s = lower s' -> lower t = lower t' -> lower r = lower r' ->
  binding_item_name s t r = binding_item_name s' t' r'.
Proof. intros Hs Ht Hr. unfold binding_item_name. now rewrite !lower_app, Hs, Ht, Hr. Qed.

Lemma ci_get_fold {V} k k' (d : list (string * V)) : lower k = lower k' -> ci_get k d = ci_get k' d.
Proof. intros E. induction d as [|[x v] r IH]; cbn; [reflexivity|]. now rewrite E, IH. Qed.

Lemma ci_get_set {V} k k' (v : V) d : lower k = lower k' -> ci_get k (ci_set k' v d) = Some v.
Proof.
  intros E. induction d as [|[x w] r IH]; cbn.
  - now rewrite E, String.eqb_refl.
  - destruct (String.eqb (lower k') x) eqn:F; cbn.
    + now rewrite E, F.
    + rewrite E, F. exact IH.
Qed.

Lemma cache_lookup_case_insensitive (k k' : string) (v : nat) d :
  lower k = lower k' -> ci_get k (ci_set k' v d) = Some v /\ ci_get k d = ci_get k' d.
Proof. intros H. split; [now apply ci_get_set|now apply ci_get_fold]. Qed.

Lemma suffix_commutes_with_lower scope local suffix msuffix :
  match new_item_name scope local suffix msuffix with
  | (s, l, n) => (lower s, lower l, lower n)
  end = new_item_name (lower scope) (lower local) (lower suffix) (lower msuffix).
Proof.
  unfold new_item_name. rewrite eqb_empty_lower.
  destruct (String.eqb scope ""); cbn [lower]; now rewrite !lower_app.
Qed.

Lemma new_item_name_case_invariant sc sc' lo lo' su su' ms ms' :
  lower sc = lower sc' -> lower lo = lower lo' -> lower su = lower su' -> lower ms = lower ms' ->
  match new_item_name sc lo su ms, new_item_name sc' lo' su' ms' with
  | (s, l, n), (s', l', n') => lower s = lower s' /\ lower l = lower l' /\ lower n = lower n'
  end.
Proof.
  intros H1 H2 H3 H4.
  pose proof (suffix_commutes_with_lower sc lo su ms) as A.
  pose proof (suffix_commutes_with_lower sc' lo' su' ms') as B.
  rewrite H1, H2, H3, H4 in A. rewrite <- B in A.
  destruct (new_item_name sc lo su ms) as [[s l] n].
  destruct (new_item_name sc' lo' su' ms') as [[s' l'] n'].
  now inversion A.
Qed.

(** F-C23-2: an upper-case suffix makes the clone of a free-standing routine fail *)
Lemma clone_free_refuted :
  exists cached nn nl nn' nl',
    lower nn = lower nn' /\ lower nl = lower nl' /\
    clone_free cached nn nl = None /\ clone_free cached nn' nl' <> None.
Proof.
  exists [], "#fr_DUP", "fr_DUP", "#fr_dup", "fr_dup".
  repeat split; try (vm_compute; reflexivity). vm_compute. discriminate.
Qed.

Lemma clone_free_on_class cached nl :
  is_lower nl = true -> clone_free cached ("#" +++ nl) nl = Some (lower ("#" +++ nl)).
Proof.
  intros H. apply is_lower_iff in H. unfold clone_free, scoped_item_name.
  destruct (mem_name ("#" +++ nl) cached); [reflexivity|].
  cbn. rewrite H. now rewrite String.eqb_refl.
Qed.

Lemma clone_free_fixed_case_invariant cached nn nn' nl nl' :
  lower nn = lower nn' -> lower nl = lower nl' ->
  clone_free_fixed cached nn nl = clone_free_fixed cached nn' nl'.
Proof.
  intros H1 H2. unfold clone_free_fixed, scoped_item_name.
  rewrite (mem_name_ext _ _ cached H1), H1.
  rewrite !lower_app, H2. unfold name_eqb. now rewrite H1.
Qed.

Lemma Forall2_sim_map_lower l l' : Forall2 sim_name l l' -> map lower l = map lower l'.
Proof. induction 1 as [|a b r r' H _ IH]; cbn; [reflexivity|]. now rewrite H, IH. Qed.

Lemma match_keys_case_invariant s s' l l' keys keys' p :
  lower s = lower s' -> lower l = lower l' -> Forall2 sim_name keys keys' ->
  match_keys s l keys p = match_keys s' l' keys' p.
Proof.
  intros Hs Hl Hk. unfold match_keys, candidates.
  rewrite (Forall2_sim_map_lower _ _ Hk), !lower_app, Hs, Hl, (eqb_empty_sim _ _ Hs). reflexivity.
Qed.


(** generic facts about [Forall2] *)
Lemma Forall2_filter {A B} (R : A -> B -> Prop) p q l l' :
  (forall a b, R a b -> p a = q b) -> Forall2 R l l' -> Forall2 R (filter p l) (filter q l').
Proof.
  intros H. induction 1 as [|a b r r' Hab _ IH]; cbn; [constructor|].
  rewrite (H _ _ Hab). destruct (q b); auto.
Qed.

Lemma Forall2_rev' {A B} (R : A -> B -> Prop) l l' : Forall2 R l l' -> Forall2 R (rev l) (rev l').
Proof.
  induction 1 as [|a b r r' Hab _ IH]; cbn; [constructor|].
  apply Forall2_app; auto.
Qed.

Lemma Forall2_map {A B C D} (R : A -> B -> Prop) (S : C -> D -> Prop) f f' l l' :
  (forall a b, R a b -> S (f a) (f' b)) -> Forall2 R l l' -> Forall2 S (map f l) (map f' l').
Proof. intros H. induction 1; cbn; constructor; auto. Qed.

Lemma forallb_Forall2 {A B} (R : A -> B -> Prop) p q l l' :
  (forall a b, R a b -> p a = q b) -> Forall2 R l l' -> forallb p l = forallb q l'.
Proof. intros H. induction 1 as [|a b r r' Hab _ IH]; cbn; [reflexivity|]. now rewrite (H _ _ Hab), IH. Qed.

(** the C22 model only depends on folded names *)
Lemma name_eqb_sim a a' b b' : lower a = lower a' -> lower b = lower b' -> name_eqb a b = name_eqb a' b'.
Proof. unfold name_eqb. now intros -> ->. Qed.

Lemma mem_name_sim n n' l l' :
  lower n = lower n' -> Forall2 sim_name l l' -> mem_name n l = mem_name n' l'.
Proof.
  intros E. induction 1 as [|a b r r' H _ IH]; cbn; [reflexivity|].
  now rewrite IH, (name_eqb_sim _ _ _ _ E H).
Qed.

Lemma nodup_names_sim l l' : Forall2 sim_name l l' -> nodup_names l = nodup_names l'.
Proof.
  induction 1 as [|a b r r' H Hr IH]; cbn; [reflexivity|].
  now rewrite IH, (mem_name_sim _ _ _ _ H Hr).
Qed.

Lemma index_of_sim n n' l l' :
  lower n = lower n' -> Forall2 sim_name l l' -> index_of n l = index_of n' l'.
Proof.
  intros E. induction 1 as [|a b r r' H _ IH]; cbn; [reflexivity|].
  now rewrite IH, (name_eqb_sim _ _ _ _ E H).
Qed.

(** two look-up results agree up to letter case *)
Definition sim_oitem (a b : option item) : Prop :=
  match a, b with
  | Some x, Some y => sim_item x y
  | None, None => True
  | _, _ => False
  end.

Lemma find_item_sim n n' l l' :
  lower n = lower n' -> Forall2 sim_item l l' -> sim_oitem (find_item n l) (find_item n' l').
Proof.
  intros E. induction 1 as [|a b r r' H _ IH]; cbn; [exact I|].
  rewrite (name_eqb_sim _ _ _ _ E (si_name _ _ H)).
  destruct (name_eqb n' (iname b)); [exact H|exact IH].
Qed.

Lemma order_items_sim g g' o o' :
  sim_graph g g' -> Forall2 sim_name o o' -> Forall2 sim_item (order_items g o) (order_items g' o').
Proof.
  intros G. unfold order_items. apply Forall2_flat_map2. intros a b E.
  pose proof (find_item_sim a b _ _ E (sg_nodes _ _ G)) as F.
  destruct (find_item a (nodes g)), (find_item b (nodes g')); cbn in F; try contradiction; auto.
Qed.

Lemma sel_sim s a b : sim_item a b -> sel s a = sel s b.
Proof.
  intros [_ _ Hk He _ Hi Hm _]. unfold sel, cls_match, mode_exempt.
  now rewrite Hk, He, Hi, Hm.
Qed.

Lemma sfilter_sim g g' o o' s :
  sim_graph g g' -> Forall2 sim_name o o' -> Forall2 sim_item (sfilter g o s) (sfilter g' o' s).
Proof.
  intros G O. unfold sfilter. apply Forall2_filter; [apply sel_sim|].
  destruct (sf_reverse s); [apply Forall2_rev'|]; now apply order_items_sim.
Qed.

Lemma succs_sim g g' n n' :
  sim_graph g g' -> lower n = lower n' -> Forall2 sim_name (succs g n) (succs g' n').
Proof.
  intros G E. unfold succs.
  apply (Forall2_map sim_edge sim_name); [intros a b [_ H]; exact H|].
  apply Forall2_filter; [|apply (sg_edges _ _ G)].
  intros a b [H _]. now apply name_eqb_sim.
Qed.

Lemma dedup_sim l l' : Forall2 sim_name l l' -> Forall2 sim_name (dedup l) (dedup l').
Proof.
  induction 1 as [|a b r r' H _ IH]; cbn; constructor; auto.
  apply Forall2_filter; auto. intros x y E. f_equal. now apply name_eqb_sim.
Qed.

Lemma file_node_sim files files' its its' f f' :
  Forall2 sim_item files files' -> Forall2 sim_item its its' -> lower f = lower f' ->
  sim_item (file_node files its f) (file_node files' its' f').
Proof.
  intros Hf Hi E. unfold file_node.
  assert (Hm : forallb iign (members its f) = forallb iign (members its' f')).
  { apply (forallb_Forall2 sim_item); [intros a b H; apply (si_ign _ _ H)|].
    unfold members. apply Forall2_filter; auto.
    intros a b H. apply name_eqb_sim; auto. apply (si_file _ _ H). }
  pose proof (find_item_sim f f' _ _ E Hf) as F.
  destruct (find_item f files) as [x|], (find_item f' files') as [y|]; cbn in F; try contradiction.
  - destruct F. constructor; cbn; auto.
  - constructor; cbn; auto.
Qed.

Lemma fg_edges_sim g g' its its' :
  sim_graph g g' -> Forall2 sim_item its its' -> Forall2 sim_edge (fg_edges g its) (fg_edges g' its').
Proof.
  intros G Hi. unfold fg_edges.
  apply (Forall2_flat_map2 sim_item sim_edge); auto. intros a b Hab.
  apply (Forall2_flat_map2 sim_name sim_edge); [|apply succs_sim; auto; apply (si_name _ _ Hab)].
  intros c c' Ec. pose proof (find_item_sim c c' _ _ Ec Hi) as F.
  destruct (find_item c its) as [x|], (find_item c' its') as [y|]; cbn in F; try contradiction; [|constructor].
  rewrite (name_eqb_sim _ _ _ _ (si_file _ _ F) (si_file _ _ Hab)).
  destruct (name_eqb (ifile y) (ifile b)); constructor; [|constructor].
  split; cbn; [apply (si_file _ _ Hab)|apply (si_file _ _ F)].
Qed.

Lemma filegraph_sim g g' o o' f excl files files' :
  sim_graph g g' -> Forall2 sim_name o o' -> Forall2 sim_item files files' ->
  sim_graph (filegraph g o f excl files) (filegraph g' o' f excl files').
Proof.
  intros G O F.
  assert (I : Forall2 sim_item (fg_items g o f excl) (fg_items g' o' f excl)) by (now apply sfilter_sim).
  unfold filegraph. constructor; cbn.
  - apply (Forall2_map sim_name sim_item).
    + intros a b E. now apply file_node_sim.
    + apply dedup_sim. apply (Forall2_map sim_item sim_name); auto. intros a b H. apply (si_file _ _ H).
  - now apply fg_edges_sim.
Qed.

Lemma visit_sim g g' files files' o o' of of' m strict mode :
  sim_graph g g' -> Forall2 sim_item files files' -> Forall2 sim_name o o' -> Forall2 sim_name of of' ->
  Forall2 sim_item (visit g files o of m strict mode) (visit g' files' o' of' m strict mode).
Proof.
  intros G F O Of. unfold visit. destruct (m_filegraph m).
  - apply sfilter_sim; auto. now apply filegraph_sim.
  - now apply sfilter_sim.
Qed.

Lemma run_sim plan l l' :
  Forall2 sim_item l l' ->
  Forall2 sim_item (fst (run plan l)) (fst (run plan l')) /\ sim_outcome (snd (run plan l)) (snd (run plan l')).
Proof.
  induction 1 as [|a b r r' H _ IH]; cbn; [split; [constructor|exact I]|].
  rewrite (si_ext _ _ H), (si_gen _ _ H).
  destruct (iext b).
  - destruct (plan && igen b); [exact IH|]. cbn. split; [constructor|apply (si_name _ _ H)].
  - destruct (run plan r) as [v o], (run plan r') as [v' o']. cbn in *. destruct IH. split; auto.
Qed.

Lemma case_equivariance g g' files files' o o' of of' m strict mode plan :
  sim_graph g g' -> Forall2 sim_item files files' -> Forall2 sim_name o o' -> Forall2 sim_name of of' ->
  Forall2 sim_item (fst (process g files o of m strict mode plan)) (fst (process g' files' o' of' m strict mode plan)) /\
  sim_outcome (snd (process g files o of m strict mode plan)) (snd (process g' files' o' of' m strict mode plan)).
Proof. intros G F O Of. unfold process. apply run_sim. now apply visit_sim. Qed.

Lemma is_topo_sim g g' o o' :
  sim_graph g g' -> Forall2 sim_name o o' -> is_topo g o = is_topo g' o'.
Proof.
  intros G O. unfold is_topo.
  assert (N : Forall2 sim_name (map iname (nodes g)) (map iname (nodes g'))).
  { apply (Forall2_map sim_item sim_name); [intros a b H; apply (si_name _ _ H)|apply (sg_nodes _ _ G)]. }
  (* the five conjuncts of [is_topo]: distinct node names and distinct order (here), then the three bullets:
     every node is in the order, every name of the order is a node, every edge points forward *)
  f_equal; [f_equal; [f_equal; [f_equal; now apply nodup_names_sim|]|]|].
  - apply (forallb_Forall2 sim_item); [|apply G]. intros a b H. apply mem_name_sim; [apply H|exact O].
  - apply (forallb_Forall2 sim_name); [|exact O]. intros a b H. now apply mem_name_sim.
  - apply (forallb_Forall2 sim_edge); [|apply G]. intros a b [H1 H2]. unfold edge_fwd.
    now rewrite (index_of_sim _ _ _ _ H1 O), (index_of_sim _ _ _ _ H2 O).
Qed.

Lemma sim_fnames l l' : Forall2 sim_item l l' -> map fname l = map fname l'.
Proof. induction 1 as [|a b r r' H _ IH]; cbn; [reflexivity|]. unfold fname at 1 3. now rewrite (si_name _ _ H), IH. Qed.

Lemma rename_item_sim rn rf it : case_renaming rn -> case_renaming rf -> sim_item it (rename_item rn rf it).
Proof. intros Hn Hf. constructor; cbn; auto. Qed.

Lemma rename_graph_sim rn rf ra rb g :
  case_renaming rn -> case_renaming rf -> case_renaming ra -> case_renaming rb ->
  sim_graph g (rename_graph rn rf ra rb g).
Proof.
  intros Hn Hf Ha Hb. constructor; cbn.
  - induction (nodes g); cbn; constructor; auto. now apply rename_item_sim.
  - induction (edges g); cbn; constructor; auto. split; cbn; auto.
Qed.

Lemma rename_names_sim r l : case_renaming r -> Forall2 sim_name l (map r l).
Proof. intros H. induction l; cbn; constructor; auto. unfold sim_name. now rewrite H. Qed.

Lemma rename_items_sim rn rf l : case_renaming rn -> case_renaming rf -> Forall2 sim_item l (map (rename_item rn rf) l).
Proof. intros Hn Hf. induction l; cbn; constructor; auto. now apply rename_item_sim. Qed.

Lemma case_renaming_invariance rn rf ra rb ro rof g files o of m strict mode plan :
  case_renaming rn -> case_renaming rf -> case_renaming ra -> case_renaming rb ->
  case_renaming ro -> case_renaming rof ->
  let p  := process g files o of m strict mode plan in
  let p' := process (rename_graph rn rf ra rb g) (map (rename_item rf rf) files) (map ro o) (map rof of) m strict mode plan in
  map fname (fst p') = map fname (fst p) /\ sim_outcome (snd p) (snd p') /\
  is_topo (rename_graph rn rf ra rb g) (map ro o) = is_topo g o.
Proof.
  intros Hn Hf Ha Hb Ho Hof p p'. subst p p'.
  pose proof (rename_graph_sim rn rf ra rb g Hn Hf Ha Hb) as G.
  destruct (case_equivariance g _ files _ o _ of _ m strict mode plan G
              (rename_items_sim rf rf files Hf Hf) (rename_names_sim ro o Ho) (rename_names_sim rof of Hof)) as [A B].
  repeat split.
  - symmetry. now apply sim_fnames.
  - exact B.
  - symmetry. apply is_topo_sim; auto. now apply rename_names_sim.
Qed.

(** ** reflection of the decidable similarity used by the correspondence run *)
Lemma forall2b_Forall2 {A B} (p : A -> B -> bool) (R : A -> B -> Prop) l l' :
  (forall a b, p a b = true -> R a b) -> forall2b p l l' = true -> Forall2 R l l'.
Proof.
  intros H. revert l'. induction l as [|a r IH]; destruct l' as [|b r']; cbn; try discriminate; [constructor|].
  rewrite andb_true_iff. intros [H1 H2]. constructor; auto.
Qed.

Lemma kind_eqb_eq a b : kind_eqb a b = true -> a = b.
Proof. destruct a, b; cbn; congruence. Qed.

Lemma simb_item_sound a b : simb_item a b = true -> sim_item a b.
Proof.
  unfold simb_item. rewrite !andb_true_iff, !name_eqb_iff, !String.eqb_eq.
  intros [[[[[[[H1 H2] H3] H4] H5] H6] H7] H8]. constructor; auto using kind_eqb_eq, Bool.eqb_prop.
Qed.

Lemma simb_graph_sound g g' : simb_graph g g' = true -> sim_graph g g'.
Proof.
  unfold simb_graph. rewrite andb_true_iff. intros [H1 H2]. constructor.
  - eapply forall2b_Forall2; [|exact H1]. apply simb_item_sound.
  - eapply forall2b_Forall2; [|exact H2]. intros a b. unfold simb_edge. rewrite andb_true_iff.
    intros [E1 E2]. split; now apply name_eqb_iff.
Qed.

Lemma simb_names_sound l l' : simb_names l l' = true -> Forall2 sim_name l l'.
Proof. apply forall2b_Forall2. intros a b. apply name_eqb_iff. Qed.

(** what [chk_variants = true] on two real runs entails *)
Lemma variants_agree g g' files files' o o' of of' m strict mode plan :
  chk_variants g g' o o' = true ->
  Forall2 sim_item files files' -> Forall2 sim_name of of' ->
  map fname (fst (process g files o of m strict mode plan)) =
  map fname (fst (process g' files' o' of' m strict mode plan)).
Proof.
  unfold chk_variants. rewrite !andb_true_iff. intros [[[H1 H2] _] _] F Of.
  apply sim_fnames. apply case_equivariance; auto.
  - now apply simb_graph_sound.
  - now apply simb_names_sound.
Qed.

(** a non-trivial instance of the renaming theorem's hypotheses *)
Example upper_is_case_renaming : case_renaming upper.
Proof. intros n. apply lower_upper. Qed.
