(** C24 — the plan lists of CMakePlanTransformation and pipelines of item-set effects (model M_C24). *)
From Coq Require Import List Bool String Ascii Arith Permutation.
From LV Require Import Base.ListFacts models.M_C24 proofs.P_C24_path.
Import ListNotations.
Open Scope string_scope.
Open Scope list_scope.

Lemma key_eqb_eq a b : key_eqb a b = true <-> a = b.
Proof.
  destruct a as [x|], b as [y|]; cbn; try (split; [discriminate|congruence]).
  - rewrite String.eqb_eq. split; congruence.
  - split; reflexivity.
Qed.

Lemma key_eqb_refl a : key_eqb a a = true.
Proof. now apply key_eqb_eq. Qed.

Lemma flat_cons k vs r : flat ((k, vs) :: r) = vs ++ flat r.
Proof. reflexivity. Qed.

Lemma flat_al_add k v l : Permutation (flat (al_add k v l)) (flat l ++ [v]).
Proof.
  induction l as [|[k' vs] r IH]; cbn [al_add].
  - cbn. apply Permutation_refl.
  - destruct (key_eqb k' k).
    + rewrite !flat_cons. rewrite <- !app_assoc.
      apply Permutation_app_head, Permutation_app_comm.
    + rewrite !flat_cons, <- app_assoc. now apply Permutation_app_head.
Qed.

Lemma al_get_add k k2 v l : al_get k2 (al_add k v l) = al_get k2 l ++ (if key_eqb k k2 then [v] else []).
Proof.
  induction l as [|[k' vs] r IH]; cbn [al_add al_get].
  - destruct (key_eqb k k2); reflexivity.
  - destruct (key_eqb k' k) eqn:E; cbn [al_get].
    + apply key_eqb_eq in E as ->. destruct (key_eqb k k2); [reflexivity|now rewrite app_nil_r].
    + destruct (key_eqb k' k2) eqn:E2; [|exact IH]. apply key_eqb_eq in E2 as ->.
      destruct (key_eqb k k2) eqn:E3; [|now rewrite app_nil_r].
      apply key_eqb_eq in E3 as ->. now rewrite key_eqb_refl in E.
Qed.

(** Everything the planner does to one of its three dictionaries is a sequence of [al_add]s; the two facts about
    one insertion ([al_get_add], [flat_al_add]) lift to any sequence ([al_get_adds], [flat_adds]), and the planner's result is such a sequence applied to the empty plan. *)
Fixpoint adds (kvs : list (key * string)) (l : alist) : alist :=
  match kvs with [] => l | (k, v) :: r => adds r (al_add k v l) end.

Lemma adds_app a b l : adds (a ++ b) l = adds b (adds a l).
Proof. revert l. induction a as [|[k v] r IH]; intros l; cbn; [reflexivity|apply IH]. Qed.

Lemma al_get_adds k kvs : forall l,
  al_get k (adds kvs l) = al_get k l ++ map snd (filter (fun kv => key_eqb (fst kv) k) kvs).
Proof.
  induction kvs as [|[k' v] r IH]; intros l; cbn [adds filter fst]; [now rewrite app_nil_r|].
  rewrite IH, al_get_add. destruct (key_eqb k' k); cbn; now rewrite <- app_assoc.
Qed.

Lemma flat_adds kvs : forall l, Permutation (flat (adds kvs l)) (flat l ++ map snd kvs).
Proof.
  induction kvs as [|[k v] r IH]; intros l; cbn [adds map snd]; [now rewrite app_nil_r|].
  rewrite IH, (flat_al_add k v l), <- app_assoc. reflexivity.
Qed.

Lemma in_flat_adds kvs p : In p (flat (adds kvs [])) <-> In p (map snd kvs).
Proof. split; apply Permutation_in; [|symmetry]; apply (flat_adds kvs []). Qed.

Lemma flat_union kvs p : In p (flat (adds kvs [])) <-> exists k, In p (al_get k (adds kvs [])).
Proof.
  rewrite in_flat_adds, in_map_iff. split.
  - intros ([k v] & <- & H). exists k. rewrite al_get_adds. apply in_map_iff. exists (k, v).
    split; [reflexivity|]. apply filter_In. split; [exact H|apply key_eqb_refl].
  - intros [k H]. rewrite al_get_adds in H. apply in_map_iff in H as (kv & <- & H).
    apply filter_In in H as [H _]. eauto.
Qed.

(** what the items [its] contribute when item [i] puts the values [f i] under its library *)
Definition contrib (f : fitem -> list string) (its : list fitem) : list (key * string) :=
  flat_map (fun i => map (pair (f_lib i)) (f i)) its.

Lemma snd_contrib f its : map snd (contrib f its) = flat_map f its.
Proof.
  unfold contrib. rewrite map_flat_map. apply flat_map_ext_Forall, Forall_forall. intros i _.
  rewrite map_map. apply map_id.
Qed.

Lemma in_flat_contrib f its p : In p (flat (adds (contrib f its) [])) <-> exists i, In i its /\ In p (f i).
Proof. now rewrite in_flat_adds, snd_contrib, in_flat_map. Qed.

Lemma get_contrib f its k p :
  In p (al_get k (adds (contrib f its) [])) <-> exists i, In i its /\ f_lib i = k /\ In p (f i).
Proof.
  rewrite al_get_adds. cbn [al_get app]. rewrite in_map_iff. unfold contrib. split.
  - intros ([k' v] & <- & H). apply filter_In in H as [H E]. apply key_eqb_eq in E.
    apply in_flat_map in H as (i & Hi & H). apply in_map_iff in H as (v' & [= <- <-] & Hv). eauto.
  - intros (i & Hi & <- & Hp). exists (f_lib i, p). split; [reflexivity|]. apply filter_In.
    split; [|apply key_eqb_refl]. apply in_flat_map. exists i. split; [exact Hi|now apply in_map].
Qed.

(** what one visited item contributes to the sources to TRANSFORM, to APPEND and to REMOVE *)
Definition tr_of (root : option string) (i : fitem) : list string :=
  (if f_exists i then match rel root (f_path i) (f_res i) with Some s => [s] | None => [] end else []) ++
  (if f_repl i && (f_oexists i && negb (f_exists i))
   then match rel root (f_orig i) (f_ores i) with Some s => [s] | None => [] end else []).
Definition ap_of (cfg : fwcfg) (i : fitem) : list string :=
  match file_path cfg i with Some n => [n] | None => [] end.
Definition rm_of (root : option string) (i : fitem) : list string :=
  if f_exists i && negb (f_repl i) then match rel root (f_path i) (f_res i) with Some s => [s] | None => [] end else [].

(** the plan [st] after the items [its] *)
Definition planned root cfg (st : plan) (its : list fitem) : plan :=
  mk_plan (adds (contrib (tr_of root) its) (p_tr st)) (adds (contrib (ap_of cfg) its) (p_ap st))
          (adds (contrib (rm_of root) its) (p_rm st)).

(** each branch of [plan_item] is literally the [al_add]s of [planned … [i]], so every case closes by [reflexivity] *)
Lemma plan_item_visited root cfg st i st' :
  visited i = true -> plan_item root cfg st i = Some st' ->
  (exists n, file_path cfg i = Some n) /\ st' = planned root cfg st [i].
Proof.
  intros V. unfold plan_item, planned, contrib, tr_of, ap_of, rm_of. rewrite V. cbn [negb flat_map].
  destruct (file_path cfg i) as [n|]; [|discriminate].
  destruct (rel root (f_path i) (f_res i)) as [src|]; [|discriminate].
  destruct (f_repl i); [destruct (rel root (f_orig i) (f_ores i)) as [osrc|]; [|discriminate]|];
    intros [= <-]; (split; [eauto|]); destruct st, (f_exists i), (f_oexists i); reflexivity.
Qed.

Definition vis (s : list fitem) : list fitem := filter visited s.

Lemma plan_all_spec root cfg items : forall st P,
  plan_all root cfg st items = Some P ->
  (forall i, In i (vis items) -> exists n, file_path cfg i = Some n) /\ P = planned root cfg st (vis items).
Proof.
  unfold vis. induction items as [|i r IH]; intros st P H; cbn [plan_all filter] in *.
  - injection H as <-. split; [intros i []|]. now destruct st.
  - destruct (plan_item root cfg st i) as [st1|] eqn:E1; [|discriminate]. destruct (IH _ _ H) as [I0 ->].
    destruct (visited i) eqn:V.
    + destruct (plan_item_visited _ _ _ _ _ V E1) as [J0 ->]. split.
      * intros j [<-|Hj]; [exact J0|now apply I0].
      * unfold planned, contrib. cbn [flat_map p_tr p_ap p_rm]. now rewrite !app_nil_r, !adds_app.
    + unfold plan_item in E1. rewrite V in E1. injection E1 as <-. auto.
Qed.

Lemma planner_lists root cfg items P :
  run_planner root cfg items = Some P ->
  (forall i, In i (vis items) -> exists n, file_path cfg i = Some n) /\
  p_tr P = adds (contrib (tr_of root) (vis items)) [] /\
  p_ap P = adds (contrib (ap_of cfg) (vis items)) [] /\
  p_rm P = adds (contrib (rm_of root) (vis items)) [].
Proof. intros H. destruct (plan_all_spec _ _ _ _ _ H) as [I0 ->]. auto. Qed.

Lemma somes_map_some (l : list fitem) cfg :
  (forall i, In i l -> exists n, file_path cfg i = Some n) ->
  somes (map (file_path cfg) l) = Some (flat_map (ap_of cfg) l).
Proof.
  induction l as [|i r IH]; intros H; [reflexivity|].
  cbn [map somes flat_map]. destruct (H i (or_introl eq_refl)) as [n En].
  unfold ap_of at 1. rewrite En. rewrite IH; [reflexivity|]. intros j Hj. apply H. now right.
Qed.

Lemma append_is_written root cfg items P :
  run_planner root cfg items = Some P ->
  exists w, somes (written cfg items) = Some w /\ Permutation (flat (p_ap P)) w.
Proof.
  intros H. destruct (planner_lists _ _ _ _ H) as (I0 & _ & -> & _).
  exists (flat_map (ap_of cfg) (vis items)). split; [now apply somes_map_some|].
  rewrite flat_adds, snd_contrib. reflexivity.
Qed.

Lemma in_somes l w x : somes l = Some w -> (In x w <-> In (Some x) l).
Proof.
  revert w. induction l as [|[y|] r IH]; cbn; intros w H.
  - inversion H; subst. tauto.
  - destruct (somes r) as [t|]; [|discriminate]. inversion H; subst. cbn. rewrite (IH _ eq_refl).
    split; intros [E|E]; auto; [left; congruence|left; congruence].
  - discriminate.
Qed.

Lemma append_in_iff_written root cfg items P :
  run_planner root cfg items = Some P ->
  forall p, In p (flat (p_ap P)) <-> In (Some p) (written cfg items).
Proof.
  intros H p. destruct (append_is_written _ _ _ _ H) as (w & Hw & Pw).
  rewrite <- (in_somes _ _ _ Hw). split; apply Permutation_in; [assumption|now apply Permutation_sym].
Qed.

Lemma in_tr_of root i p :
  In p (tr_of root i) <->
  (f_exists i = true /\ rel root (f_path i) (f_res i) = Some p) \/
  (f_repl i = true /\ f_oexists i = true /\ f_exists i = false /\ rel root (f_orig i) (f_ores i) = Some p).
Proof.
  unfold tr_of. rewrite in_app_iff. split.
  - intros [H|H].
    + destruct (f_exists i); [|contradiction]. destruct (rel _ _ _); [|contradiction].
      destruct H as [<-|[]]. now left.
    + destruct (f_repl i), (f_oexists i), (f_exists i); cbn in H; try contradiction.
      destruct (rel root (f_orig i) _); [|contradiction]. destruct H as [<-|[]]. right. auto.
  - intros [[E R]|(E1 & E2 & E3 & R)].
    + left. rewrite E, R. now left.
    + right. rewrite E1, E2, E3, R. now left.
Qed.

Lemma in_rm_of root i p :
  In p (rm_of root i) <-> f_exists i = true /\ f_repl i = false /\ rel root (f_path i) (f_res i) = Some p.
Proof.
  unfold rm_of. split.
  - destruct (f_exists i), (f_repl i); cbn; try contradiction.
    destruct (rel _ _ _); [|contradiction]. intros [<-|[]]. auto.
  - intros (E1 & E2 & R). rewrite E1, E2, R. now left.
Qed.

Lemma to_transform_spec root cfg items P :
  run_planner root cfg items = Some P ->
  forall p, In p (flat (p_tr P)) <->
    exists i, In i items /\ visited i = true /\
      ((f_exists i = true /\ rel root (f_path i) (f_res i) = Some p) \/
       (f_repl i = true /\ f_oexists i = true /\ f_exists i = false /\ rel root (f_orig i) (f_ores i) = Some p)).
Proof.
  intros H p. destruct (planner_lists _ _ _ _ H) as (_ & -> & _).
  rewrite in_flat_contrib. split; intros (i & Hi & Hp); exists i.
  - apply filter_In in Hi as [Hi V]. apply in_tr_of in Hp. auto.
  - destruct Hp as [V Hp]. split; [now apply filter_In|now apply in_tr_of].
Qed.

Lemma to_remove_spec root cfg items P :
  run_planner root cfg items = Some P ->
  forall p, In p (flat (p_rm P)) <->
    exists i, In i items /\ visited i = true /\ f_exists i = true /\ f_repl i = false /\
              rel root (f_path i) (f_res i) = Some p.
Proof.
  intros H p. destruct (planner_lists _ _ _ _ H) as (_ & _ & _ & ->).
  rewrite in_flat_contrib. split; intros (i & Hi & Hp); exists i.
  - apply filter_In in Hi as [Hi V]. apply in_rm_of in Hp. tauto.
  - destruct Hp as [V Hp]. split; [now apply filter_In|now apply in_rm_of].
Qed.

Lemma remove_subset_transform root cfg items P :
  run_planner root cfg items = Some P -> incl (flat (p_rm P)) (flat (p_tr P)).
Proof.
  intros H p Hp. apply (to_remove_spec _ _ _ _ H) in Hp as (i & Hi & V & E1 & E2 & R).
  apply (to_transform_spec _ _ _ _ H). exists i. repeat split; auto.
Qed.

Lemma per_lib_append root cfg items P k :
  run_planner root cfg items = Some P ->
  forall p, In p (al_get k (p_ap P)) <->
    exists i, In i items /\ visited i = true /\ f_lib i = k /\ file_path cfg i = Some p.
Proof.
  intros H p. destruct (planner_lists _ _ _ _ H) as (_ & _ & -> & _). rewrite get_contrib. split.
  - intros (i & Hi & E & Hp). apply filter_In in Hi as [Hi V]. unfold ap_of in Hp.
    destruct (file_path cfg i) eqn:F; [|contradiction]. destruct Hp as [<-|[]]. eauto.
  - intros (i & Hi & V & E & F). exists i. split; [apply filter_In; now split|]. split; [exact E|].
    unfold ap_of. rewrite F. now left.
Qed.

Lemma flat_is_union_of_libs root cfg items P :
  run_planner root cfg items = Some P ->
  forall p, (In p (flat (p_ap P)) <-> exists k, In p (al_get k (p_ap P))) /\
            (In p (flat (p_tr P)) <-> exists k, In p (al_get k (p_tr P))) /\
            (In p (flat (p_rm P)) <-> exists k, In p (al_get k (p_rm P))).
Proof.
  intros H p. destruct (planner_lists _ _ _ _ H) as (_ & -> & -> & ->).
  repeat split; apply flat_union.
Qed.

Lemma planner_fails_iff root cfg items :
  run_planner root cfg items = None <->
  exists i, In i items /\ visited i = true /\
    (file_path cfg i = None \/ rel root (f_path i) (f_res i) = None \/
     (f_repl i = true /\ rel root (f_orig i) (f_ores i) = None)).
Proof.
  unfold run_planner. generalize plan0. induction items as [|i r IH]; intros st; cbn [plan_all].
  - split; [discriminate|intros (i & [] & _)].
  - destruct (plan_item root cfg st i) as [st1|] eqn:E.
    + rewrite IH. split.
      * intros (j & Hj & R). exists j. split; [now right|exact R].
      * intros (j & [Ej|Hj] & V & R); [subst j|exists j; auto]. exfalso.
        unfold plan_item in E. rewrite V in E. cbn [negb] in E.
        destruct R as [R|[R|[R1 R2]]].
        -- now rewrite R in E.
        -- destruct (file_path cfg i); [|discriminate]. now rewrite R in E.
        -- destruct (file_path cfg i); [|discriminate]. destruct (rel root (f_path i) _); [|discriminate].
           now rewrite R1, R2 in E.
    + split; [intros _|reflexivity]. exists i. split; [now left|].
      unfold plan_item in E. destruct (visited i) eqn:V; [|discriminate]. split; [reflexivity|]. cbn [negb] in E.
      destruct (file_path cfg i); [|now left]. right.
      destruct (rel root (f_path i) _); [|now left]. right.
      destruct (f_repl i); [|destruct (f_exists i); discriminate].
      split; [reflexivity|]. destruct (rel root (f_orig i) _); [discriminate|reflexivity].
Qed.

Lemma weq_refl s : weq s s. Proof. intros k; tauto. Qed.
Lemma weq_sym s t : weq s t -> weq t s. Proof. intros H k; now rewrite (H k). Qed.
Lemma weq_trans s t u : weq s t -> weq t u -> weq s u. Proof. intros H1 H2 k; now rewrite (H1 k), (H2 k). Qed.

Lemma in_written_iff cfg s o :
  In o (written cfg s) <-> exists p m, In (p, m, true) (map ikey s) /\ file_path_k cfg p m = o.
Proof.
  unfold written. rewrite in_map_iff. split.
  - intros (i & <- & Hi). apply filter_In in Hi as [Hi V]. exists (f_path i), (f_mode i). split; [|reflexivity].
    apply in_map_iff. exists i. split; [unfold ikey; now rewrite V|assumption].
  - intros (p & m & Hk & <-). apply in_map_iff in Hk as (i & E & Hi). unfold ikey in E. inversion E; subst.
    exists i. split; [reflexivity|]. apply filter_In. now split.
Qed.

Lemma weq_written cfg s s' : weq s s' -> forall o, In o (written cfg s) <-> In o (written cfg s').
Proof.
  intros W o. rewrite !in_written_iff. split; intros (p & m & Hk & E); exists p, m; (split; [|exact E]); now apply W.
Qed.

Lemma run_weq pipe : Forall agrees pipe -> forall s s', weq s s' -> weq (run t_plan pipe s) (run t_conv pipe s').
Proof.
  unfold run. induction 1 as [|T r HT _ IH]; intros s s' W; cbn [fold_left]; [exact W|].
  apply IH. now apply HT.
Qed.

(** the main statement: if every transformation of the pipeline changes the item set in planning mode as it does in
    conversion mode, the plan's sources to append are exactly the files the conversion writes *)
Theorem plan_append_eq_written root cfg pipe s s' P :
  Forall agrees pipe -> weq s s' ->
  run_planner root cfg (run t_plan pipe s) = Some P ->
  forall p, In p (flat (p_ap P)) <-> In (Some p) (written cfg (run t_conv pipe s')).
Proof.
  intros HA W H p. rewrite (append_in_iff_written _ _ _ _ H).
  apply weq_written. now apply run_weq.
Qed.

(** as multisets when both runs reach the same item list *)
Theorem plan_append_perm_written root cfg pipe s P :
  run t_plan pipe s = run t_conv pipe s ->
  run_planner root cfg (run t_plan pipe s) = Some P ->
  exists w, somes (written cfg (run t_conv pipe s)) = Some w /\ Permutation (flat (p_ap P)) w.
Proof. intros E H. rewrite <- E. now apply (append_is_written root). Qed.

Lemma agrees_keep : agrees T_keep.
Proof. intros s s' W. exact W. Qed.

Lemma mem_str_In p l : mem_str p l = true <-> In p l.
Proof.
  induction l as [|q r IH]; cbn; [split; [discriminate|contradiction]|].
  rewrite orb_true_iff, String.eqb_eq, IH. tauto.
Qed.

Lemma in_ikey_filter_path (f : string -> bool) s k :
  In k (map ikey (filter (fun i => f (f_path i)) s)) <-> In k (map ikey s) /\ f (fst (fst k)) = true.
Proof.
  rewrite !in_map_iff. split.
  - intros (i & <- & Hi). apply filter_In in Hi as [Hi F]. split; [exists i; auto|exact F].
  - intros [(i & <- & Hi) F]. exists i. split; [reflexivity|]. apply filter_In. now split.
Qed.

Lemma agrees_drop ps : agrees (T_drop ps).
Proof.
  intros s s' W k. cbn [t_plan t_conv T_drop]. unfold eff_drop.
  rewrite (in_ikey_filter_path (fun p => negb (mem_str p ps))), (in_ikey_filter_path (fun p => negb (mem_str p ps))).
  now rewrite (W k).
Qed.

Lemma mem_path_ikey p s : mem_path p s = true <-> exists m v, In (p, m, v) (map ikey s).
Proof.
  induction s as [|i r IH]; cbn [mem_path map In].
  - split; [discriminate|intros (m & v & [])].
  - rewrite orb_true_iff, String.eqb_eq, IH. split.
    + intros [<-|(m & v & H)]; [exists (f_mode i), (visited i); now left|exists m, v; now right].
    + intros (m & v & [E|H]); [left; unfold ikey in E; congruence|right; eauto].
Qed.

Lemma weq_mem_path p s s' : weq s s' -> mem_path p s = mem_path p s'.
Proof.
  intros W. destruct (mem_path p s) eqn:E, (mem_path p s') eqn:E'; try reflexivity.
  - apply mem_path_ikey in E as (m & v & H). apply W in H.
    assert (mem_path p s' = true) by (apply mem_path_ikey; eauto). congruence.
  - apply mem_path_ikey in E' as (m & v & H). apply W in H.
    assert (mem_path p s = true) by (apply mem_path_ikey; eauto). congruence.
Qed.

Lemma weq_app_one s s' n : weq s s' -> weq (s ++ [n]) (s' ++ [n]).
Proof. intros W k. rewrite !map_app, !in_app_iff. now rewrite (W k). Qed.

Lemma agrees_create news : agrees (T_create news).
Proof.
  cbn. induction news as [|n r IH]; intros s s' W; cbn [t_plan t_conv T_create eff_create]; [exact W|].
  apply IH. rewrite (weq_mem_path _ _ _ W). destruct (mem_path (f_path n) s'); [exact W|now apply weq_app_one].
Qed.

Inductive builtin : trafo -> Prop :=
| B_keep : builtin T_keep
| B_create news : builtin (T_create news)
| B_drop ps : builtin (T_drop ps).

Lemma builtin_agrees T : builtin T -> agrees T.
Proof. destruct 1; [apply agrees_keep|apply agrees_create|apply agrees_drop]. Qed.

Corollary builtin_pipeline_plan_eq_written root cfg pipe s P :
  Forall builtin pipe ->
  run_planner root cfg (run t_plan pipe s) = Some P ->
  forall p, In p (flat (p_ap P)) <-> In (Some p) (written cfg (run t_conv pipe s)).
Proof.
  intros HB. apply plan_append_eq_written; [|apply weq_refl].
  eapply Forall_impl; [|exact HB]. apply builtin_agrees.
Qed.

(** example / witness data: driver, a module kernel, a free kernel, and a header module that is not visited *)
Definition ex_cfg := mk_fwcfg None (Some "/R/build").
Definition ex_drv := mk_fitem "/R/src/driver.F90" true "/R/src/driver.F90" "/R/src/driver.F90" true "/R/src/driver.F90" false None (Some "idem") false true.
Definition ex_k1 := mk_fitem "/R/src/k1_mod.F90" true "/R/src/k1_mod.F90" "/R/src/k1_mod.F90" true "/R/src/k1_mod.F90" true (Some "lib.a") (Some "idem") false true.
Definition ex_k2 := mk_fitem "/R/src/sub/k2.f90" true "/R/src/sub/k2.f90" "/R/src/sub/k2.f90" true "/R/src/sub/k2.f90" false None (Some "scc-stack") false true.
Definition ex_hdr := mk_fitem "/R/src/hdr_mod.F90" true "/R/src/hdr_mod.F90" "/R/src/hdr_mod.F90" true "/R/src/hdr_mod.F90" false None (Some "idem") false false.
Definition ex_s := [ex_drv; ex_k1; ex_k2; ex_hdr].
Definition ex_pipe := [T_create [dup_item ex_k2 "k2_dup" false "/R/src/sub/k2_dup.f90"]; T_drop ["/R/src/k1_mod.F90"]; T_keep].

(** the hypotheses of the main theorem are satisfiable by a non-trivial instance, with these lists *)
Example example_pipeline :
  Forall builtin ex_pipe /\
  exists P, run_planner (Some "/R") ex_cfg (run t_plan ex_pipe ex_s) = Some P /\
    flat (p_ap P) = ["/R/build/driver.idem.F90"; "/R/build/k2.scc_stack.f90"; "/R/build/k2_dup.scc_stack.f90"] /\
    flat (p_tr P) = ["src/driver.F90"; "src/sub/k2.f90"] /\
    flat (p_rm P) = ["src/driver.F90"; "src/sub/k2.f90"].
Proof.
  split; [repeat constructor|]. apply some_witness. vm_compute. repeat split.
Qed.

(** a renaming transformation without planning counterpart followed by a name-based removal: the plan appends a
    file the conversion never writes (finding F-C24-1) *)
Lemma plan_differs_without_hypothesis :
  exists pipe s root cfg P p,
    run_planner root cfg (run t_plan pipe s) = Some P /\
    In p (flat (p_ap P)) /\ ~ In (Some p) (written cfg (run t_conv pipe s)).
Proof.
  exists [T_keep; T_drop_conv_only ["/R/src/sub/k2.f90"]], ex_s, (Some "/R"), ex_cfg.
  destruct (some_witness (run_planner (Some "/R") ex_cfg (run t_plan [T_keep; T_drop_conv_only ["/R/src/sub/k2.f90"]] ex_s))
              (fun P => mem_str "/R/build/k2.scc_stack.f90" (flat (p_ap P)) = true)) as (P & HP & Hin);
    [vm_compute; reflexivity|].
  exists P, "/R/build/k2.scc_stack.f90". split; [exact HP|]. split; [now apply mem_str_In|].
  vm_compute. intros [H|[H|[]]]; discriminate.
Qed.

(** a duplicated item whose original left the graph: its origin is not among the sources to transform
    unless it is replicated (finding F-C24-4) *)
Lemma origin_of_duplicate_not_listed :
  exists items root cfg P i,
    run_planner root cfg items = Some P /\ In i items /\ visited i = true /\
    f_exists i = false /\ f_oexists i = true /\ ~ In "src/sub/k2.f90" (flat (p_tr P)) /\
    rel root (f_orig i) (f_ores i) = Some "src/sub/k2.f90".
Proof.
  exists [ex_drv; dup_item ex_k2 "k2_dup" false "/R/src/sub/k2_dup.f90"], (Some "/R"), ex_cfg.
  destruct (some_witness (run_planner (Some "/R") ex_cfg [ex_drv; dup_item ex_k2 "k2_dup" false "/R/src/sub/k2_dup.f90"])
              (fun P => mem_str "src/sub/k2.f90" (flat (p_tr P)) = false)) as (P & HP & Hn);
    [vm_compute; reflexivity|].
  exists P, (dup_item ex_k2 "k2_dup" false "/R/src/sub/k2_dup.f90").
  split; [exact HP|]. repeat split; try reflexivity.
  - right. now left.
  - intros Hin. apply mem_str_In in Hin. congruence.
Qed.
