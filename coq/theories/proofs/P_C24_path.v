(** C24 — facts about the path rule (FileWriteTransformation._get_file_path) of M_C24. *)
From Coq Require Import List Bool String Ascii Arith.
From LV Require Import Base.Strings models.M_C24.
Import ListNotations.
Open Scope string_scope.

Lemma has_char_app c a b : has_char c (a ++ b) = has_char c a || has_char c b.
Proof. induction a as [|x a IH]; cbn; [reflexivity|]. rewrite IH. now rewrite orb_assoc. Qed.

Lemma rsplit_nochar c s : has_char c s = false -> rsplit c s = (s, None).
Proof.
  induction s as [|a r IH]; cbn; [reflexivity|]. intros H.
  apply orb_false_iff in H as [Ha Hr]. rewrite (IH Hr). now rewrite Ha.
Qed.

Lemma rsplit_last c b t : has_char c t = false -> rsplit c (b ++ String c t) = (b, Some t).
Proof.
  intros H. induction b as [|a b IH]; cbn.
  - rewrite (rsplit_nochar _ _ H). now rewrite Ascii.eqb_refl.
  - now rewrite IH.
Qed.

Lemma rsplit_some c s b t : rsplit c s = (b, Some t) -> s = b ++ String c t /\ has_char c t = false.
Proof.
  revert b t. induction s as [|a r IH]; cbn; intros b t H; [discriminate|].
  destruct (rsplit c r) as [b' [t'|]] eqn:E.
  - inversion H; subst. destruct (IH _ _ eq_refl) as [-> Ht]. now split.
  - destruct (Ascii.eqb a c) eqn:Ea; [|discriminate].
    inversion H; subst. apply Ascii.eqb_eq in Ea as ->.
    split; [reflexivity|].
    clear IH H. revert b' E. induction t as [|x t IHt]; cbn; intros; [reflexivity|].
    destruct (rsplit c t) as [b2 [t2|]] eqn:E2; [discriminate|].
    destruct (Ascii.eqb x c) eqn:Ex; [discriminate|]. cbn. eapply IHt. reflexivity.
Qed.

Lemma rsplit_none c s b : rsplit c s = (b, None) -> b = s /\ has_char c s = false.
Proof.
  revert b. induction s as [|a r IH]; cbn; intros b H; [inversion H; now split|].
  destruct (rsplit c r) as [b' [t'|]] eqn:E; [discriminate|].
  destruct (Ascii.eqb a c) eqn:Ea; [discriminate|]. inversion H; subst.
  destruct (IH _ eq_refl) as [_ Hr]. now rewrite Hr.
Qed.

Lemma basename_nochar p : has_char "/"%char (basename p) = false.
Proof.
  unfold basename. destruct (rsplit "/"%char p) as [b [t|]] eqn:E.
  - now destruct (rsplit_some _ _ _ _ E).
  - now destruct (rsplit_none _ _ _ E) as [-> H].
Qed.

Lemma dirpart_basename p : p = dirpart p ++ basename p.
Proof.
  unfold dirpart, basename. destruct (rsplit "/"%char p) as [b [t|]] eqn:E.
  - destruct (rsplit_some _ _ _ _ E) as [-> _]. now rewrite append_assoc.
  - now destruct (rsplit_none _ _ _ E) as [-> _].
Qed.

Lemma basename_dirpart p n : has_char "/"%char n = false -> basename (dirpart p ++ n) = n.
Proof.
  intros H. unfold dirpart, basename at 1. destruct (rsplit "/"%char p) as [b [t|]] eqn:E.
  - rewrite append_assoc. cbn [append]. now rewrite (rsplit_last _ _ _ H).
  - cbn [append]. now rewrite (rsplit_nochar _ _ H).
Qed.

Lemma dirpart_dirpart p n : has_char "/"%char n = false -> dirpart (dirpart p ++ n) = dirpart p.
Proof.
  intros H. unfold dirpart at 2 3. destruct (rsplit "/"%char p) as [b [t|]] eqn:E; unfold dirpart.
  - rewrite append_assoc. cbn [append]. now rewrite (rsplit_last _ _ _ H).
  - cbn [append]. now rewrite (rsplit_nochar _ _ H).
Qed.

Lemma py_stem_nochar c s : has_char c s = false -> has_char c (py_stem s) = false.
Proof.
  intros H. unfold py_stem. destruct (rsplit "."%char s) as [b [t|]] eqn:E; [|assumption].
  destruct (is_empty b || is_empty t); [assumption|].
  destruct (rsplit_some _ _ _ _ E) as [-> _]. rewrite has_char_app in H.
  now apply orb_false_iff in H as [H _].
Qed.

(** the name is the stem followed by the suffix *)
Lemma stem_suffix s : s = py_stem s ++ py_suffix s.
Proof.
  unfold py_stem, py_suffix. destruct (rsplit "."%char s) as [b [t|]] eqn:E.
  - destruct (is_empty b || is_empty t); [now rewrite append_nil_r|].
    now destruct (rsplit_some _ _ _ _ E) as [-> _].
  - now rewrite append_nil_r.
Qed.

Lemma replace_char_nochar a b s : a <> b -> has_char a (replace_char a b s) = false.
Proof.
  intros N. induction s as [|c r IH]; cbn; [reflexivity|]. rewrite IH, orb_false_r.
  destruct (Ascii.eqb c a) eqn:E; [|assumption].
  apply Ascii.eqb_neq. congruence.
Qed.

(** the mode part of a generated file name never contains a dash *)
Lemma mode_sanitised m : has_char "-"%char (mode_of m) = false.
Proof. unfold mode_of. apply replace_char_nochar. discriminate. Qed.

Lemma mode_default : mode_of None = "loki" /\ mode_of (Some "") = "loki".
Proof. split; reflexivity. Qed.

(* destruct the condition of the first [if] in the goal or in a hypothesis *)
Ltac dif := match goal with
            | |- context [if ?c then _ else _] => destruct c eqn:?
            | H : context [if ?c then _ else _] |- _ => destruct c eqn:?
            end.

Lemma with_suffix_some p sfx q :
  with_suffix p sfx = Some q ->
  q = dirpart p ++ py_stem (basename p) ++ sfx /\ has_char "/"%char sfx = false.
Proof.
  unfold with_suffix. intros E. repeat dif; try discriminate. inversion E. now split.
Qed.

Lemma with_suffix_basename p sfx q :
  with_suffix p sfx = Some q -> basename q = py_stem (basename p) ++ sfx /\ dirpart q = dirpart p.
Proof.
  intros H. destruct (with_suffix_some _ _ _ H) as [-> Hs].
  assert (N : has_char "/"%char (py_stem (basename p) ++ sfx) = false).
  { rewrite has_char_app, Hs, orb_false_r. apply py_stem_nochar, basename_nochar. }
  split; [now apply basename_dirpart|now apply dirpart_dirpart].
Qed.

(** with_suffix only looks at the name *)
Lemma with_suffix_name p p' sfx :
  basename p = basename p' ->
  match with_suffix p sfx, with_suffix p' sfx with
  | Some q, Some q' => basename q = basename q'
  | None, None => True
  | _, _ => False
  end.
Proof.
  intros E. destruct (with_suffix p sfx) as [q|] eqn:H; destruct (with_suffix p' sfx) as [q'|] eqn:H'.
  (* one of the two fails: both tests of [with_suffix] read the name only *)
  2, 3: unfold with_suffix in *; rewrite <- E in H'; repeat dif; discriminate.
  - destruct (with_suffix_basename _ _ _ H) as [-> _]. destruct (with_suffix_basename _ _ _ H') as [-> _]. now rewrite E.
  - exact I.
Qed.

(** the file name the rule generates: stem, mode, suffix *)
Definition gen_name (cfg : fwcfg) (p : string) (m : option string) : string :=
  py_stem (basename p) ++ "." ++ mode_of m ++ suffix_str cfg p.

(** without an output directory the file is written next to the original *)
Lemma file_path_nodir cfg p m q :
  c_outdir cfg = None -> file_path_k cfg p m = Some q -> q = dirpart p ++ gen_name cfg p m.
Proof.
  unfold file_path_k, gen_name. intros -> H.
  destruct (with_suffix p _) as [sp|] eqn:E; [|discriminate]. inversion H; subst.
  now destruct (with_suffix_some _ _ _ E) as [-> _].
Qed.

(** with an output directory only the name survives *)
Lemma file_path_outdir cfg d p m q :
  c_outdir cfg = Some d -> file_path_k cfg p m = Some q -> q = join_dir d (gen_name cfg p m).
Proof.
  unfold file_path_k, gen_name. intros -> H.
  destruct (with_suffix p _) as [sp|] eqn:E; [|discriminate]. inversion H; subst.
  now destruct (with_suffix_basename _ _ _ E) as [-> _].
Qed.

(** the generated name keeps the original stem and, unless overridden, the original suffix *)
Lemma gen_name_keeps_suffix cfg p m :
  c_suffix cfg = None -> gen_name cfg p m = py_stem (basename p) ++ "." ++ mode_of m ++ py_suffix (basename p).
Proof. unfold gen_name, suffix_str. now intros ->. Qed.

Lemma suffix_str_name cfg p p' : basename p = basename p' -> suffix_str cfg p = suffix_str cfg p'.
Proof. unfold suffix_str. now intros ->. Qed.

(** two sources with the same file name and mode are written to the same file of the output directory *)
Lemma file_path_same_name cfg d p p' m :
  c_outdir cfg = Some d -> basename p = basename p' -> file_path_k cfg p m = file_path_k cfg p' m.
Proof.
  intros Hd E. unfold file_path_k. rewrite Hd, (suffix_str_name cfg p p' E).
  pose proof (with_suffix_name p p' ("." ++ mode_of m ++ suffix_str cfg p') E) as H.
  destruct (with_suffix p _) as [q|]; destruct (with_suffix p' _) as [q'|]; try contradiction; [now rewrite H|reflexivity].
Qed.

(** the rule is a function of (path, mode, configuration) only *)
Lemma file_path_deterministic cfg i j : wkey i = wkey j -> file_path cfg i = file_path cfg j.
Proof. unfold wkey, file_path. intros [= -> ->]. reflexivity. Qed.

Lemma mode_nonempty m : exists c r, mode_of m = String c r.
Proof. unfold mode_of. destruct m as [[|c r]|]; cbn; eauto. Qed.

Lemma with_suffix_dot p x :
  x <> "" ->
  with_suffix p (String "."%char x) =
  if has_char "/"%char x then None else if is_empty (basename p) then None
  else Some (dirpart p ++ py_stem (basename p) ++ String "."%char x).
Proof.
  intros N. destruct x as [|a x]; [congruence|]. unfold with_suffix.
  change (has_char "/"%char (String "."%char (String a x))) with (has_char "/"%char (String a x)).
  change (is_empty (String "."%char (String a x))) with false.
  change (starts_with_dot (String "."%char (String a x))) with true.
  change ((String "."%char (String a x) =? ".")%string) with false.
  reflexivity.
Qed.

(** it fails exactly when the suffix text contains a path separator or the path has no name *)
Lemma file_path_none cfg p m :
  file_path_k cfg p m = None <->
  has_char "/"%char (mode_of m ++ suffix_str cfg p) = true \/ is_empty (basename p) = true.
Proof.
  unfold file_path_k. change ("." ++ mode_of m ++ suffix_str cfg p) with (String "."%char (mode_of m ++ suffix_str cfg p)).
  rewrite with_suffix_dot.
  - destruct (has_char "/"%char (mode_of m ++ suffix_str cfg p)); [intuition|].
    destruct (is_empty (basename p)); [intuition|].
    destruct (c_outdir cfg); split; intros H; try discriminate; destruct H; discriminate.
  - destruct (mode_nonempty m) as (c & r & ->). discriminate.
Qed.

(** two different sources collide in the output directory (finding F-C24-2) *)
Lemma file_path_collision :
  exists cfg i j, f_path i <> f_path j /\ file_path cfg i = file_path cfg j /\ file_path cfg i <> None.
Proof.
  exists (mk_fwcfg None (Some "/R/build")),
         (mk_fitem "/R/src/sub/k3_mod.F90" true "" "" true "" false None (Some "idem") false true),
         (mk_fitem "/R/src/other/k3_mod.F90" true "" "" true "" false None (Some "idem") false true).
  split; [discriminate|]. split; [reflexivity|]. vm_compute. discriminate.
Qed.
