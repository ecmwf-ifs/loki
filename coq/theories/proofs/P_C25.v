(** C25 — the invariant of the scheduler state over processing histories (model M_C25). *)
From Coq Require Import List Bool String Ascii Arith.
From LV Require Import Base.ListFacts models.M_C25 proofs.P_C25_graph proofs.P_C25_keys.
Import ListNotations.
Open Scope string_scope.
Open Scope list_scope.

(** the structural invariant:
    - every cache key is the name of the item stored under it, keys are pairwise distinct;
    - the seed is a node; every dependency (call, import, interface, planned addition) of a node is a node;
    - every edge joins two nodes and is a dependency of its source;
    - every node is reachable from the seed. *)
Definition inv (seed : list nref) (st : state) : Prop :=
  (forall e, In e (st_cache st) -> e_key e = e_name e) /\
  NoDup (map e_key (st_cache st)) /\
  incl seed (st_nodes st) /\
  (forall x d, In x (st_nodes st) -> In d (deps_of st x) -> In d (st_nodes st)) /\
  (forall x y, In (x, y) (st_edges st) -> In x (st_nodes st) /\ In y (st_nodes st) /\ In y (deps_of st x)) /\
  (forall x, In x (st_nodes st) -> exists s, In s seed /\ reach st s x).

Lemma kok_props c : kok c -> (forall e, In e c -> e_key e = e_name e) /\ NoDup (map e_key c).
Proof.
  intros [K N]. split; [|now apply nodup_s_NoDup].
  intros e He. rewrite forallb_forall in K. specialize (K e He). now apply String.eqb_eq in K.
Qed.

Lemma inv_after_rebuild seed st st0 :
  rebuild seed st0 = Some st -> kok (st_cache st) -> inv seed st.
Proof.
  intros R K. destruct (kok_props _ K) as [K1 K2]. destruct (rebuild_spec _ _ _ R) as (A & B & Cc & D).
  split; [exact K1|]. split; [exact K2|]. split; [exact A|]. split; [exact B|]. split; [exact Cc|exact D].
Qed.

Theorem init_inv disk seed st : init disk seed = Some st -> inv seed st.
Proof. intros H. eapply inv_after_rebuild; [exact H|]. eapply init_kok; eauto. Qed.

Theorem step_inv disk seed st o st' :
  kok (st_cache st) -> step disk seed st o = Some st' -> inv (next_seeds o st seed) st' /\ kok (st_cache st').
Proof.
  intros K H. pose proof (step_kok _ _ _ _ _ H K) as K'. split; [|exact K'].
  apply step_Some in H as (st1 & _ & R). now apply (inv_after_rebuild _ _ _ R).
Qed.

(** the seed list each state of a history was rebuilt from *)
Fixpoint run_seeds (disk : list source) (seed : list nref) (st : state) (ops : list op) : list (list nref) :=
  match ops with
  | [] => []
  | o :: r => match step disk seed st o with
              | Some st' => next_seeds o st seed :: run_seeds disk (next_seeds o st seed) st' r
              | None => []
              end
  end.

(** every state of every history, each with the seed list as renamed so far *)
Theorem history_inv disk : forall ops seed st0 sts,
  kok (st_cache st0) -> run disk seed st0 ops = Some sts ->
  Forall2 inv (run_seeds disk seed st0 ops) sts.
Proof.
  induction ops as [|o r IH]; intros seed st0 sts K H; cbn [run run_seeds] in *.
  - inversion H; constructor.
  - destruct (step disk seed st0 o) as [st1|] eqn:S; [|discriminate].
    destruct (run disk (next_seeds o st0 seed) st1 r) as [l|] eqn:R; [|discriminate]. inversion H; subst.
    destruct (step_inv _ _ _ _ _ K S) as [I1 K1]. constructor; [exact I1|]. eapply IH; eauto.
Qed.

Corollary history_inv_from_init disk seed ops st0 sts :
  init disk seed = Some st0 -> run disk seed st0 ops = Some sts ->
  Forall2 inv (seed :: run_seeds disk seed st0 ops) (st0 :: sts).
Proof.
  intros H0 H. constructor; [now apply (init_inv disk)|].
  eapply history_inv; [|exact H]. eapply init_kok; eauto.
Qed.

(** the operations as a fold over (seed list, state) *)
Definition step_opt disk (acc : option (list nref * state)) (o : op) : option (list nref * state) :=
  match acc with
  | Some (seed, s) => match step disk seed s o with Some s' => Some (next_seeds o s seed, s') | None => None end
  | None => None
  end.

Lemma fold_step_opt_None disk ops : fold_left (step_opt disk) ops None = None.
Proof. induction ops; cbn; auto. Qed.

Theorem fold_history_inv disk seed ops st0 seed' st :
  init disk seed = Some st0 -> fold_left (step_opt disk) ops (Some (seed, st0)) = Some (seed', st) -> inv seed' st.
Proof.
  intros H0. assert (K : kok (st_cache st0)) by (eapply init_kok; eauto).
  assert (I : inv seed st0) by (now apply (init_inv disk)).
  clear H0. revert seed st0 K I. induction ops as [|o r IH]; intros seed st0 K I H; cbn [fold_left] in H.
  - inversion H; now subst.
  - cbn [step_opt] in H. destruct (step disk seed st0 o) as [st1|] eqn:S.
    + destruct (step_inv _ _ _ _ _ K S) as [I1 K1]. eapply IH; eauto.
    + rewrite fold_step_opt_None in H. discriminate.
Qed.

(** * a later processing visits exactly the surviving procedure nodes *)
Lemma in_proc_nodes st s r : In (s, r) (proc_nodes st) <-> In (NProc s r) (st_nodes st).
Proof.
  unfold proc_nodes. rewrite in_flat_map. split.
  - intros (n & Hn & H). destruct n; cbn in H; try contradiction. destruct H as [E|[]]. inversion E; subst. exact Hn.
  - intros H. exists (NProc s r). split; [exact H|now left].
Qed.

Theorem later_processing_visits_survivors seed st :
  inv seed st ->
  forall x, In x (visits st) <->
            exists s r, x = (s ++ "#" ++ r)%string /\ In (NProc s r) (st_nodes st) /\
                        exists s0, In s0 seed /\ reach st s0 (NProc s r).
Proof.
  intros (_ & _ & _ & _ & _ & R) x. unfold visits. rewrite in_map_iff. split.
  - intros ([s r] & <- & H). apply in_proc_nodes in H. exists s, r. cbn. auto.
  - intros (s & r & -> & H & _). exists (s, r). split; [reflexivity|now apply in_proc_nodes].
Qed.

(** * examples and class boundary

    Through [some_witness(2)] a concrete history is evaluated once, its states never held as terms in the goal. *)
Definition rt (n : string) (calls : list string) (imps : list (string * list string)) (intfs : list string) := mk_routine n calls imps intfs.

(** driver -> ka (m_mod), kf (free, interface block); kf -> kb (m_mod); ka, kb -> kl (l_mod); kc is unreferenced; d_mod is a data module *)
Definition ex_disk : list source :=
  [ mk_source "/driver.f90" [TFree (rt "driver" ["ka"; "kf"] [("m_mod", ["ka"]); ("d_mod", ["gv"])] ["kf"])];
    mk_source "/kf.f90" [TFree (rt "kf" ["kb"] [("m_mod", ["kb"])] [])];
    mk_source "/mfile.f90" [TMod "m_mod" [rt "ka" ["kl"] [("l_mod", ["kl"])] []; rt "kb" ["kl"] [("l_mod", ["kl"]); ("d_mod", ["gv"])] []; rt "kc" [] [] []]];
    mk_source "/sub/l_mod.f90" [TMod "l_mod" [rt "kl" [] [] []]];
    mk_source "/d_mod.f90" [TMod "d_mod" []] ].
Definition ex_seed := [NProc "" "driver"].
Definition ex_ops := [ODup "ka" "_dup" "_dup" true; OWrap "_mod"; ODep "_test" "_mod"; ORem "zz"].

(** the names of the graph nodes *)
Definition names_of (st : state) : list string := map nname (st_nodes st).

(** a non-trivial history inside the class: every state is consistent, and these are the surviving nodes *)
Example example_history :
  exists st0 sts st,
    init ex_disk ex_seed = Some st0 /\ run ex_disk ex_seed st0 ex_ops = Some sts /\
    forallb consistent_b (st0 :: sts) = true /\
    last sts st0 = st /\
    names_of st = ["#driver"; "d_mod"; "m_test_mod#ka_test"; "m_mod_dup_test_mod#ka_dup_test"; "kf_test_mod#kf_test";
                   "l_test_mod#kl_test"; "l_mod_dup_test_mod#kl_dup_test"; "m_test_mod#kb_test"] /\
    visits st = ["#driver"; "m_test_mod#ka_test"; "m_mod_dup_test_mod#ka_dup_test"; "kf_test_mod#kf_test";
                 "l_test_mod#kl_test"; "l_mod_dup_test_mod#kl_dup_test"; "m_test_mod#kb_test"].
Proof.
  destruct (some_witness2 (init ex_disk ex_seed) (fun st0 => run ex_disk ex_seed st0 ex_ops)
              (fun st0 sts =>
                 forallb consistent_b (st0 :: sts) = true /\
                 names_of (last sts st0) =
                   ["#driver"; "d_mod"; "m_test_mod#ka_test"; "m_mod_dup_test_mod#ka_dup_test"; "kf_test_mod#kf_test";
                    "l_test_mod#kl_test"; "l_mod_dup_test_mod#kl_dup_test"; "m_test_mod#kb_test"] /\
                 visits (last sts st0) =
                   ["#driver"; "m_test_mod#ka_test"; "m_mod_dup_test_mod#ka_dup_test"; "kf_test_mod#kf_test";
                    "l_test_mod#kl_test"; "l_mod_dup_test_mod#kl_dup_test"; "m_test_mod#kb_test"]))
    as (st0 & sts & H0 & Hr & Hc & Hn & Hv).
  { vm_compute. repeat split. }
  exists st0, sts, (last sts st0). repeat split; assumption.
Qed.

(** several seeds, two of them kernels: the seed list is renamed element by element and the renamed entry points are
    graph nodes *)
Definition ex_seeds2 := [NProc "" "driver"; NProc "m_mod" "kc"; NProc "" "kf"].
Example multi_seed_history :
  exists st0 sts,
    init ex_disk ex_seeds2 = Some st0 /\ run ex_disk ex_seeds2 st0 [OWrap "_mod"; ODep "_test" "_mod"] = Some sts /\
    forallb consistent_b (st0 :: sts) = true /\
    seeds_after ex_disk ex_seeds2 st0 [OWrap "_mod"; ODep "_test" "_mod"] =
      [NProc "" "driver"; NProc "m_test_mod" "kc_test"; NProc "kf_test_mod" "kf_test"] /\
    forallb (fun n => mem_n n (st_nodes (last sts st0)))
            [NProc "" "driver"; NProc "m_test_mod" "kc_test"; NProc "kf_test_mod" "kf_test"] = true.
Proof. apply some_witness2. vm_compute. repeat split. Qed.

(** between the transformation and rekey_item_cache the keys are stale: the re-keying is needed *)
Example rekey_needed :
  exists st0, init ex_disk ex_seed = Some st0 /\
              keys_are_names (apply_dep "_test" "_mod" st0) = false /\
              keys_are_names (rekey (apply_dep "_test" "_mod" st0)) = true.
Proof. apply some_witness. vm_compute. split; reflexivity. Qed.

(** RemoveKernel deletes the call but leaves the USE statement: once the module leaves the graph the processed
    source imports from a module that is not part of the output (finding F-C25-1) *)
Definition ex_disk2 : list source :=
  [ mk_source "/driver.f90" [TFree (rt "driver" ["ka"] [("ka_mod", ["ka"])] [])];
    mk_source "/ka_mod.f90" [TMod "ka_mod" [rt "ka" [] [] []]] ].
Example remove_leaves_import_refuted :
  exists st0 st1,
    init ex_disk2 ex_seed = Some st0 /\ consistent_b st0 = true /\
    step ex_disk2 ex_seed st0 (ORem "ka") = Some st1 /\
    inv_b st1 = true /\ imports_written st1 = false.
Proof.
  destruct (some_witness2 (init ex_disk2 ex_seed) (fun st0 => step ex_disk2 ex_seed st0 (ORem "ka"))
              (fun st0 st1 => consistent_b st0 = true /\ inv_b st1 = true /\ imports_written st1 = false))
    as (st0 & st1 & H0 & Hs & Hc & Hi & Hw).
  { vm_compute. repeat split. }
  exists st0, st1. repeat split; assumption.
Qed.

(** outside the modelled class the step is undefined: the same suffix twice (the implementation then renames the
    callers' calls but not the routines, finding F-C25-2), a module wrap with a caller that has no interface block *)
Example same_suffix_twice_outside_class :
  exists st0 st1,
    init ex_disk ex_seed = Some st0 /\ step ex_disk ex_seed st0 (ODep "_test" "_mod") = Some st1 /\
    step ex_disk ex_seed st1 (ODep "_test" "_mod") = None.
Proof. apply some_witness2. vm_compute. reflexivity. Qed.

Definition ex_disk3 : list source :=
  [ mk_source "/driver.f90" [TFree (rt "driver" ["kf"] [] [])];
    mk_source "/kf.f90" [TFree (rt "kf" [] [] [])] ].
Example wrap_without_interface_outside_class :
  exists st0, init ex_disk3 ex_seed = Some st0 /\ step ex_disk3 ex_seed st0 (OWrap "_mod") = None.
Proof. apply some_witness. vm_compute. reflexivity. Qed.
