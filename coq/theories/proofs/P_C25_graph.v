(** C25 — the graph rebuilt after every processing step (model M_C25): no dangling edge, every dependency of a
    node is a node, every node is reachable from the seed. *)
From Coq Require Import List Bool String Ascii Arith.
From LV Require Import models.M_C25.
Import ListNotations.
Open Scope string_scope.
Open Scope list_scope.

Lemma nref_eqb_eq a b : nref_eqb a b = true <-> a = b.
Proof.
  destruct a, b; cbn; try (split; [discriminate|congruence]).
  - rewrite andb_true_iff, !String.eqb_eq. split; [intros [-> ->]; reflexivity|intros E; inversion E; auto].
  - rewrite String.eqb_eq. split; congruence.
  - rewrite String.eqb_eq. split; congruence.
Qed.

Lemma nref_eqb_refl a : nref_eqb a a = true.
Proof. now apply nref_eqb_eq. Qed.

Lemma mem_n_In x l : mem_n x l = true <-> In x l.
Proof.
  induction l as [|y r IH]; cbn; [split; [discriminate|contradiction]|].
  rewrite orb_true_iff, nref_eqb_eq, IH. tauto.
Qed.

Lemma mem_n_false x l : mem_n x l = false <-> ~ In x l.
Proof. rewrite <- mem_n_In. destruct (mem_n x l); split; congruence. Qed.

Lemma dedup_n_In x l : In x (dedup_n l) <-> In x l.
Proof.
  induction l as [|y r IH]; cbn; [tauto|].
  destruct (mem_n y r) eqn:E.
  - rewrite IH. apply mem_n_In in E. split; [auto|intros [<-|H]; auto].
  - cbn. rewrite IH. tauto.
Qed.

(** [deps_of] does not look at the graph fields *)
Lemma deps_of_graph_irrelevant st ns es n :
  deps_of (mk_state (st_srcs st) (st_cache st) ns es (st_removed st) (st_added st)) n = deps_of st n.
Proof. destruct st; reflexivity. Qed.

Section Close.
  Variable st : state.
  Let D := deps_of st.

  Definition closed_part (work seen : list nref) : Prop :=
    forall x, In x seen -> ~ In x work -> forall d, In d (D x) -> In d seen.
  Definition edges_ok (seen : list nref) (edges : list (nref * nref)) : Prop :=
    forall x y, In (x, y) edges -> In x seen /\ In y seen /\ In y (D x).

  (** reachability from the seed through [deps_of] *)
  Inductive reach (seed : nref) : nref -> Prop :=
  | reach_seed : reach seed seed
  | reach_step x d : reach seed x -> In d (D x) -> reach seed d.

  Definition reachable (seeds l : list nref) : Prop := forall x, In x l -> exists s, In s seeds /\ reach s x.

  Lemma close_inv seeds fuel : forall work seen edges ns es fl,
    incl work seen -> closed_part work seen -> edges_ok seen edges -> reachable seeds seen ->
    close fuel st work seen edges = (ns, es, fl) ->
    incl seen ns /\ edges_ok ns es /\ (fl = true -> closed_part [] ns) /\ reachable seeds ns.
  Proof.
    induction fuel as [|f IH]; intros work seen edges ns es fl Hw Hc He Hr H; cbn [close] in H.
    - inversion H; subst. split; [apply incl_refl|]. split; [exact He|]. split; [|exact Hr].
      destruct work; [intros _; exact Hc|discriminate].
    - destruct work as [|x w].
      + inversion H; subst. split; [apply incl_refl|]. split; [exact He|]. split; [intros _; exact Hc|exact Hr].
      + set (ds := dedup_n (deps_of st x)) in *.
        set (new := filter (fun d => negb (mem_n d seen)) ds) in *.
        assert (Hx : In x seen) by (apply Hw; now left).
        assert (Hds : forall d, In d ds <-> In d (D x)) by (intros d; apply dedup_n_In).
        assert (Hnew : forall d, In d ds -> In d (seen ++ new)).
        { intros d Hd. apply in_or_app. destruct (mem_n d seen) eqn:E; [left; now apply mem_n_In|].
          right. apply filter_In. split; [exact Hd|now rewrite E]. }
        destruct (IH (w ++ new) (seen ++ new)
                     (edges ++ map (fun d => (x, d)) (filter (fun d => negb (nref_eqb d x)) ds)) ns es fl) as (I1 & I2 & I3 & I4); auto.
        * intros y Hy. apply in_app_or in Hy as [Hy|Hy]; apply in_or_app; [left; apply Hw; now right|now right].
        * intros y Hy Hnw d Hd.
          apply in_app_or in Hy as [Hy|Hy].
          -- destruct (nref_eqb y x) eqn:Eyx.
             ++ apply nref_eqb_eq in Eyx as ->. apply Hnew, Hds, Hd.
             ++ apply in_or_app. left. apply (Hc y Hy); [|exact Hd].
                intros [E|Hyw]; [subst; now rewrite nref_eqb_refl in Eyx|].
                apply Hnw, in_or_app. now left.
          -- exfalso. apply Hnw, in_or_app. now right.
        * intros a b Hab. apply in_app_or in Hab as [Hab|Hab].
          -- destruct (He a b Hab) as (A & B & Cc). repeat split; auto; apply in_or_app; now left.
          -- apply in_map_iff in Hab as (d & E & Hd). inversion E; subst. apply filter_In in Hd as [Hd _].
             repeat split; [apply in_or_app; now left|now apply Hnew|now apply Hds].
        * intros y Hy. apply in_app_or in Hy as [Hy|Hy]; [now apply Hr|]. apply filter_In in Hy as [Hy _].
          destruct (Hr x Hx) as (s0 & Hs0 & R). exists s0. split; [exact Hs0|].
          apply (reach_step _ x); [exact R|now apply Hds].
        * split; [|exact (conj I2 (conj I3 I4))]. intros y Hy. apply I1, in_or_app. now left.
  Qed.

End Close.

Lemma rebuild_Some seed st st' :
  rebuild seed st = Some st' ->
  exists fuel ns es, close fuel st seed seed [] = (ns, es, true) /\
                     st' = mk_state (st_srcs st) (st_cache st) ns es (st_removed st) (st_added st).
Proof.
  unfold rebuild. destruct (close _ st seed seed []) as [[ns es] [|]] eqn:E; [|discriminate].
  intros [= <-]. eauto.
Qed.

Lemma rebuild_fields seed st st' :
  rebuild seed st = Some st' ->
  st_srcs st' = st_srcs st /\ st_cache st' = st_cache st /\ st_removed st' = st_removed st /\ st_added st' = st_added st.
Proof. intros (fuel & ns & es & _ & ->)%rebuild_Some. cbn. auto. Qed.

Lemma deps_of_rebuild seed st st' : rebuild seed st = Some st' -> forall n, deps_of st' n = deps_of st n.
Proof. intros (fuel & ns & es & _ & ->)%rebuild_Some n. apply deps_of_graph_irrelevant. Qed.

Lemma step_Some disk seed st o st' :
  step disk seed st o = Some st' ->
  exists st1, transform o st = Some st1 /\ rebuild (next_seeds o st seed) (discover disk st1) = Some st'.
Proof. unfold step. destruct (transform o st) as [st1|]; [eauto|discriminate]. Qed.

Theorem rebuild_spec seed st st' :
  rebuild seed st = Some st' ->
  incl seed (st_nodes st') /\
  (forall x d, In x (st_nodes st') -> In d (deps_of st' x) -> In d (st_nodes st')) /\
  (forall x y, In (x, y) (st_edges st') -> In x (st_nodes st') /\ In y (st_nodes st') /\ In y (deps_of st' x)) /\
  (forall x, In x (st_nodes st') -> exists s, In s seed /\ reach st' s x).
Proof.
  intros H. pose proof (deps_of_rebuild _ _ _ H) as HD.
  apply rebuild_Some in H as (fuel & ns & es & E & ->). cbn [st_nodes st_edges].
  assert (Hc0 : closed_part st seed seed) by (intros x Hx Hn; exfalso; apply Hn; exact Hx).
  assert (He0 : edges_ok st seed []) by (intros x y []).
  assert (Hr0 : reachable st seed seed) by (intros y Hy; exists y; split; [exact Hy|constructor]).
  destruct (close_inv st seed _ seed seed [] ns es true (incl_refl _) Hc0 He0 Hr0 E) as (I1 & I2 & I3 & I4).
  split; [exact I1|]. split; [|split].
  - intros x d Hx Hd. rewrite HD in Hd. apply (I3 eq_refl x Hx); auto.
  - intros x y Hxy. destruct (I2 x y Hxy) as (A & B & Cc). rewrite HD. auto.
  - intros x Hx. destruct (I4 x Hx) as (s0 & Hs0 & R). exists s0. split; [exact Hs0|].
    clear -R HD. induction R; [constructor|]. econstructor; [eassumption|]. now rewrite HD.
Qed.

Lemma rebuild_refs_resolve seed st st' : rebuild seed st = Some st' -> refs_resolve st' = true.
Proof.
  intros H. destruct (rebuild_spec _ _ _ H) as (_ & Hc & _).
  unfold refs_resolve. apply forallb_forall. intros x Hx. apply forallb_forall. intros d Hd.
  apply mem_n_In. eapply Hc; eauto.
Qed.

Lemma rebuild_no_dangling seed st st' : rebuild seed st = Some st' -> no_dangling st' = true.
Proof.
  intros H. destruct (rebuild_spec _ _ _ H) as (_ & _ & He & _).
  unfold no_dangling. apply forallb_forall. intros [x y] Hxy. cbn.
  destruct (He x y Hxy) as (A & B & _). apply andb_true_iff. split; now apply mem_n_In.
Qed.
