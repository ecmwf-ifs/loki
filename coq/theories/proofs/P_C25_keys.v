(** C25 — the item cache: after every processing step every key is the name of the item stored under it and the
    keys are pairwise distinct (rekey_item_cache / _discover / DuplicateKernel's item creation in model M_C25). *)
From Coq Require Import List Bool String Ascii Arith.
From LV Require Import Base.ListFacts models.M_C25 proofs.P_C25_graph.
Import ListNotations.
Open Scope string_scope.
Open Scope list_scope.

Lemma mem_s_In x l : mem_s x l = true <-> In x l.
Proof.
  induction l as [|y r IH]; cbn; [split; [discriminate|contradiction]|].
  rewrite orb_true_iff, String.eqb_eq, IH. tauto.
Qed.

Lemma nodup_s_NoDup l : nodup_s l = true <-> NoDup l.
Proof.
  induction l as [|x r IH]; cbn; [split; [constructor|reflexivity]|].
  rewrite andb_true_iff, negb_true_iff, IH. split.
  - intros [M N]. constructor; [|exact N]. intros I. apply mem_s_In in I. congruence.
  - intros N. inversion N as [|? ? Hx Hr]; subst. split; [|exact Hr].
    destruct (mem_s x r) eqn:E; [|reflexivity]. apply mem_s_In in E. contradiction.
Qed.

(** [kok c]: in the cache [c] every key is the name of its item and the keys are pairwise distinct; on a state's cache
    this is [keys_are_names st = true /\ keys_distinct st = true] of M_C25 (by conversion, see [rekey_keys_are_names]) *)
Definition keyname (e : entry) : bool := String.eqb (e_key e) (e_name e).
Definition kok (c : list entry) : Prop := forallb keyname c = true /\ nodup_s (map e_key c) = true.

Lemma kok_nil : kok [].
Proof. split; reflexivity. Qed.

Lemma has_key_mem k c : has_key k c = mem_s k (map e_key c).
Proof. induction c as [|e r IH]; cbn; [reflexivity|]. now rewrite <- IH. Qed.

Lemma mem_s_snoc x l y : mem_s x (l ++ [y]) = mem_s x l || String.eqb y x.
Proof. induction l as [|z r IH]; cbn; [now rewrite orb_false_r|]. now rewrite IH, orb_assoc. Qed.

Lemma nodup_s_app_one l x : nodup_s l = true -> mem_s x l = false -> nodup_s (l ++ [x]) = true.
Proof.
  induction l as [|y r IH]; cbn; [reflexivity|]. intros H M.
  apply andb_true_iff in H as [H1 H2]. apply orb_false_iff in M as [M1 M2].
  rewrite mem_s_snoc. apply negb_true_iff in H1. rewrite H1. cbn.
  rewrite String.eqb_sym, M1. cbn. now apply IH.
Qed.

Lemma kok_app_fresh c e : kok c -> has_key (e_key e) c = false -> keyname e = true -> kok (c ++ [e]).
Proof.
  intros [K N] F E. split.
  - rewrite forallb_app, K. cbn. now rewrite E.
  - rewrite map_app. cbn. apply nodup_s_app_one; [exact N|]. now rewrite <- has_key_mem.
Qed.

(** the shape of every insertion into the cache: only under a key that is not there yet *)
Lemma kok_add c e : keyname e = true -> kok c -> kok (if has_key (e_key e) c then c else c ++ [e]).
Proof. intros E K. destruct (has_key (e_key e) c) eqn:F; [exact K|now apply kok_app_fresh]. Qed.

Lemma add_defs_of_kok srcs fe c : kok c -> kok (add_defs_of srcs c fe).
Proof.
  apply fold_left_inv. intros c' [m rs|rt].
  - exact (kok_add c' (mk_entry m KMod "" m (e_src fe)) (String.eqb_refl _)).
  - exact (kok_add c' (mk_entry ("#" ++ r_name rt) KProc "" (r_name rt) (e_src fe)) (String.eqb_refl _)).
Qed.

Lemma discover_kok disk st : kok (st_cache st) -> kok (st_cache (discover disk st)).
Proof.
  intros K. unfold discover.
  match goal with |- context [fold_left ?F disk ?a] =>
    assert (H : kok (snd (fold_left F disk a))); [|destruct (fold_left F disk a) as [srcs cache]]
  end.
  - apply (fold_left_inv (fun a => kok (snd a))); [|exact K]. intros [s c] d Kc. cbn beta iota.
    destruct (has_key (s_path d) c) eqn:E; [exact Kc|]. apply kok_app_fresh; auto. apply String.eqb_refl.
  - cbn [st_cache]. apply fold_left_inv; [|exact H]. intros c fe. apply add_defs_of_kok.
Qed.

Lemma e_name_mk k kd sc lo i e :
  kd = e_kind e -> sc = e_scope e -> lo = e_local e -> e_name (mk_entry k kd sc lo i) = e_name e.
Proof. intros -> -> ->. reflexivity. Qed.

(** rekey_item_cache: whatever the transformation did to the item names, afterwards keys are names *)
Theorem rekey_kok st : kok (st_cache (rekey st)).
Proof.
  unfold rekey. cbn [st_cache]. apply fold_left_inv; [|exact kok_nil]. intros acc e K.
  set (e' := mk_entry (e_name e) (e_kind e) (e_scope e) (e_local e) (e_src e)).
  assert (Ee : keyname e' = true) by apply String.eqb_refl.
  destruct (has_key (e_name e) acc) eqn:H; [|now apply kok_app_fresh].
  (* the key exists: the entry under it is overwritten in place, every key stays as it was *)
  destruct K as [K N]. split.
  - rewrite forallb_forall in *. intros x Hx. apply in_map_iff in Hx as (y & <- & Hy).
    destruct (String.eqb (e_key y) (e_name e)); [exact Ee|now apply K].
  - rewrite map_map, (map_ext_in _ e_key); [exact N|].
    intros y _. destruct (String.eqb (e_key y) (e_name e)) eqn:Ey; [|reflexivity].
    now apply String.eqb_eq in Ey.
Qed.

Lemma clone_item_kok sfx msfx st scope name st' :
  clone_item sfx msfx st scope name = Some st' -> kok (st_cache st) -> kok (st_cache st').
Proof.
  unfold clone_item. intros H K.
  destruct (proc_ir st (new_scope msfx scope) (name ++ sfx)); [inversion H; now subst|].
  destruct (negb (String.eqb scope "") && _) eqn:B.
  - destruct (find_entry (new_scope msfx scope) KMod (st_cache st)); [|discriminate].
    destruct (cache_mod st (new_scope msfx scope)) as [rs|]; [|discriminate].
    destruct (find_routine name rs); [|discriminate]. inversion H; subst. exact K.
  - destruct (src_of_proc st scope name) as [i|]; [|discriminate].
    destruct (nth_error (st_srcs st) i) as [s|]; [|discriminate].
    match type of H with (if ?c then _ else _) = _ => destruct c eqn:F end; [discriminate|].
    inversion H; subst. cbn [st_cache]. apply add_defs_of_kok.
    apply orb_false_iff in F as [F1 _].
    apply kok_app_fresh; auto. unfold keyname. cbn. apply String.eqb_refl.
Qed.

Lemma clone_tree_kok fuel : forall sub sfx msfx st scope name st',
  clone_tree fuel sub sfx msfx st scope name = Some st' -> kok (st_cache st) -> kok (st_cache st').
Proof.
  induction fuel as [|f IH]; intros sub sfx msfx st scope name st' H K; cbn [clone_tree] in H; [discriminate|].
  destruct (clone_item sfx msfx st scope name) as [st1|] eqn:E1; [|discriminate].
  pose proof (clone_item_kok _ _ _ _ _ _ E1 K) as K1.
  destruct sub; [|inversion H; now subst].
  set (ch := proc_succs st (NProc scope name)) in *.
  pose (P := fun o : option state => match o with Some s => kok (st_cache s) | None => True end).
  assert (Hf : P (fold_left (fun acc c => match acc with
                                          | Some s => clone_tree f true sfx msfx s (fst c) (snd c)
                                          | None => None end) ch (Some st1))).
  { apply (fold_left_inv P); [|exact K1]. intros [a|] c Ka; [|exact I].
    destruct (clone_tree f true sfx msfx a (fst c) (snd c)) eqn:Ec; [|exact I]. apply (IH _ _ _ _ _ _ _ Ec Ka). }
  destruct (fold_left _ ch (Some st1)) as [st2|] eqn:E2; [|discriminate].
  match type of H with match ?x with Some _ => _ | None => _ end = _ => destruct x end; [|discriminate].
  inversion H; subst. exact Hf.
Qed.

Lemma apply_dup_kok k sfx msfx sub st st' :
  apply_dup k sfx msfx sub st = Some st' -> kok (st_cache st) -> kok (st_cache st').
Proof.
  unfold apply_dup. intros H K.
  destruct (filter _ (proc_nodes st)) as [|[scope x] r]; [inversion H; now subst|].
  destruct (existsb _ (st_edges st)); [|inversion H; now subst].
  destruct (clone_tree _ sub sfx msfx st scope k) as [st1|] eqn:E; [|discriminate].
  inversion H; subst. cbn [st_cache]. eapply clone_tree_kok; eauto.
Qed.

(** * one step: the renaming transformations end in [rekey] and so establish it whatever the state before *)
Lemma transform_kok o st st1 :
  transform o st = Some st1 ->
  kok (st_cache st) \/ (exists a b, o = ODep a b) \/ (exists a, o = OWrap a) -> kok (st_cache st1).
Proof.
  intros T K. destruct o as [sfx msfx|msfx|k sfx msfx sub|k]; cbn [transform] in T.
  - destruct (dep_class sfx msfx st); [|discriminate]. injection T as <-. apply rekey_kok.
  - destruct (wrap_class msfx st); [|discriminate]. injection T as <-. apply rekey_kok.
  - destruct K as [K|[(a & b & E)|(a & E)]]; try discriminate.
    destruct (all_internal st && negb (is_driver k)); [|discriminate]. eapply apply_dup_kok; eauto.
  - destruct K as [K|[(a & b & E)|(a & E)]]; try discriminate.
    destruct (all_internal st && negb (is_driver k)); [|discriminate]. now injection T as <-.
Qed.

Lemma step_kok_from disk seed st o st' :
  step disk seed st o = Some st' ->
  kok (st_cache st) \/ (exists a b, o = ODep a b) \/ (exists a, o = OWrap a) -> kok (st_cache st').
Proof.
  intros (st1 & T & R)%step_Some K. destruct (rebuild_fields _ _ _ R) as (_ & -> & _).
  apply discover_kok. exact (transform_kok _ _ _ T K).
Qed.

Theorem step_kok disk seed st o st' :
  step disk seed st o = Some st' -> kok (st_cache st) -> kok (st_cache st').
Proof. intros H K. apply (step_kok_from _ _ _ _ _ H). now left. Qed.

Theorem rename_step_kok disk seed st o st' :
  (exists a b, o = ODep a b) \/ (exists a, o = OWrap a) ->
  step disk seed st o = Some st' -> kok (st_cache st').
Proof. intros Ho H. apply (step_kok_from _ _ _ _ _ H). now right. Qed.

Theorem init_kok disk seed st : init disk seed = Some st -> kok (st_cache st).
Proof.
  unfold init. intros H. destruct (rebuild_fields _ _ _ H) as (_ & -> & _). apply discover_kok, kok_nil.
Qed.

Theorem rekey_keys_are_names st : keys_are_names (rekey st) = true /\ keys_distinct (rekey st) = true.
Proof. exact (rekey_kok st). Qed.
