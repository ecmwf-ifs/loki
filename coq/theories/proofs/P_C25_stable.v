(** C25 — a later processing that changes nothing (re-discovery + graph rebuild, what Scheduler.process does after any
    item-creating transformation) finds exactly the same graph: the survivors are stable. *)
From Coq Require Import List Bool String Ascii Arith.
From LV Require Import Base.ListFacts models.M_C25 proofs.P_C25_graph proofs.P_C25_keys.
Import ListNotations.
Open Scope string_scope.
Open Scope list_scope.

(** * the closure only reads the dependency function *)
Lemma close_ext st1 st2 : (forall n, deps_of st1 n = deps_of st2 n) ->
  forall fuel w s e, close fuel st1 w s e = close fuel st2 w s e.
Proof.
  intros H. induction fuel as [|f IH]; intros w s e; cbn [close]; [reflexivity|].
  destruct w as [|x w]; [reflexivity|]. rewrite H. apply IH.
Qed.

Lemma deps_of_fields st1 st2 :
  st_srcs st1 = st_srcs st2 -> st_cache st1 = st_cache st2 -> st_removed st1 = st_removed st2 -> st_added st1 = st_added st2 ->
  forall n, deps_of st1 n = deps_of st2 n.
Proof. destruct st1, st2; cbn. intros -> -> -> -> n. reflexivity. Qed.

Lemma rebuild_ext seed st1 st2 :
  st_srcs st1 = st_srcs st2 -> st_cache st1 = st_cache st2 -> st_removed st1 = st_removed st2 -> st_added st1 = st_added st2 ->
  match rebuild seed st1, rebuild seed st2 with
  | Some a, Some b => st_nodes a = st_nodes b /\ st_edges a = st_edges b
  | None, None => True
  | _, _ => False
  end.
Proof.
  intros E1 E2 E3 E4. unfold rebuild. rewrite E1, E2.
  rewrite (close_ext st1 st2 (deps_of_fields _ _ E1 E2 E3 E4)).
  destruct (close _ st2 seed seed []) as [[ns es] [|]]; cbn; auto.
Qed.

Definition ukey (u : topunit) : string := match u with TMod m _ => m | TFree r => "#" ++ r_name r end.
Definition uentry (i : nat) (u : topunit) : entry :=
  match u with TMod m _ => mk_entry m KMod "" m i | TFree r => mk_entry ("#" ++ r_name r) KProc "" (r_name r) i end.
Definition add_unit (i : nat) (c : list entry) (u : topunit) : list entry :=
  if has_key (ukey u) c then c else c ++ [uentry i u].

Lemma add_defs_of_eq srcs c fe : add_defs_of srcs c fe = fold_left (add_unit (e_src fe)) (src_units srcs (e_src fe)) c.
Proof.
  unfold add_defs_of. generalize (src_units srcs (e_src fe)) as us. intros us. revert c.
  induction us as [|u r IH]; intros c; cbn [fold_left]; [reflexivity|]. rewrite IH. f_equal.
  destruct u; reflexivity.
Qed.

Lemma has_key_app k c x : has_key k (c ++ x) = has_key k c || has_key k x.
Proof. unfold has_key. apply existsb_app. Qed.

(** Each of the three layers of [discover] (a unit, the units of a file item, a file on disk) only ever appends under
    a key that is missing.  For such a step [F]: keys present stay present, the step's own key is present
    afterwards, and the step changes nothing when its key was there; folds inherit the three facts. *)
Lemma add_unit_mono i c u k : has_key k c = true -> has_key k (add_unit i c u) = true.
Proof. intros H. unfold add_unit. destruct (has_key (ukey u) c); [exact H|]. rewrite has_key_app, H. reflexivity. Qed.

Lemma add_unit_has i c u : has_key (ukey u) (add_unit i c u) = true.
Proof.
  unfold add_unit. destruct (has_key (ukey u) c) eqn:E; [exact E|]. rewrite has_key_app.
  apply orb_true_iff. right. destruct u; cbn; now rewrite String.eqb_refl.
Qed.

Lemma add_unit_noop i c u : has_key (ukey u) c = true -> add_unit i c u = c.
Proof. unfold add_unit. now intros ->. Qed.

Definition is_file (e : entry) : bool := ikind_eqb (e_kind e) KFile.

Lemma add_unit_files i c u : filter is_file (add_unit i c u) = filter is_file c.
Proof.
  unfold add_unit. destruct (has_key (ukey u) c); [reflexivity|].
  rewrite filter_app. destruct u; cbn; apply app_nil_r.
Qed.

Lemma defs_mono srcs c fe k : has_key k c = true -> has_key k (add_defs_of srcs c fe) = true.
Proof.
  rewrite add_defs_of_eq. apply (fold_left_inv (fun c => has_key k c = true)). intros a u. apply add_unit_mono.
Qed.

Lemma defs_has srcs c fe u : In u (src_units srcs (e_src fe)) -> has_key (ukey u) (add_defs_of srcs c fe) = true.
Proof.
  rewrite add_defs_of_eq. apply (fold_left_covers (fun c => has_key (ukey u) c = true)).
  - intros a v. apply add_unit_mono.
  - intros a. apply add_unit_has.
Qed.

Lemma defs_noop srcs c fe :
  (forall u, In u (src_units srcs (e_src fe)) -> has_key (ukey u) c = true) -> add_defs_of srcs c fe = c.
Proof. intros H. rewrite add_defs_of_eq. apply fold_left_fix. intros u Hu. apply add_unit_noop, H, Hu. Qed.

Lemma defs_files srcs c fe : filter is_file (add_defs_of srcs c fe) = filter is_file c.
Proof.
  rewrite add_defs_of_eq. apply (fold_left_inv (fun a => filter is_file a = filter is_file c)); [|reflexivity].
  intros a u <-. apply add_unit_files.
Qed.

(** the first phase: files on disk *)
Definition disk_step (a : list source * list entry) (d : source) : list source * list entry :=
  let '(srcs, cache) := a in
  if has_key (s_path d) cache then (srcs, cache)
  else (srcs ++ [d], cache ++ [mk_entry (s_path d) KFile "" (s_path d) (List.length srcs)]).

Lemma disk_step_mono a d k : has_key k (snd a) = true -> has_key k (snd (disk_step a d)) = true.
Proof.
  destruct a as [s c]. unfold disk_step. cbn [snd]. intros H. destruct (has_key (s_path d) c); cbn [snd]; [exact H|].
  rewrite has_key_app, H. reflexivity.
Qed.

Lemma disk_step_has a d : has_key (s_path d) (snd (disk_step a d)) = true.
Proof.
  destruct a as [s c]. unfold disk_step. destruct (has_key (s_path d) c) eqn:E; cbn [snd]; [exact E|].
  rewrite has_key_app. apply orb_true_iff. right. cbn. now rewrite String.eqb_refl.
Qed.

Lemma disk_step_noop a d : has_key (s_path d) (snd a) = true -> disk_step a d = a.
Proof. destruct a as [s c]. unfold disk_step. cbn [snd]. now intros ->. Qed.

Lemma discover_unfold disk st :
  discover disk st =
  let a := fold_left disk_step disk (st_srcs st, st_cache st) in
  mk_state (fst a) (fold_left (add_defs_of (fst a)) (filter is_file (snd a)) (snd a))
           (st_nodes st) (st_edges st) (st_removed st) (st_added st).
Proof.
  unfold discover.
  match goal with |- context [fold_left ?F disk _] =>
    assert (E : forall l a, fold_left F l a = fold_left disk_step l a)
      by (induction l as [|d r IH]; intros [s c]; cbn [fold_left]; [reflexivity|]; rewrite <- IH; reflexivity)
  end.
  rewrite E. destruct (fold_left disk_step disk (st_srcs st, st_cache st)) as [srcs cache]. reflexivity.
Qed.

Theorem discover_idempotent disk st ns es :
  let d1 := discover disk st in
  discover disk (mk_state (st_srcs d1) (st_cache d1) ns es (st_removed d1) (st_added d1)) =
  mk_state (st_srcs d1) (st_cache d1) ns es (st_removed d1) (st_added d1).
Proof.
  cbn zeta. rewrite (discover_unfold disk st). cbn zeta.
  set (a := fold_left disk_step disk (st_srcs st, st_cache st)).
  set (c2 := fold_left (add_defs_of (fst a)) (filter is_file (snd a)) (snd a)).
  cbn [st_srcs st_cache st_removed st_added].
  rewrite discover_unfold. cbn [st_srcs st_cache st_nodes st_edges st_removed st_added]. cbn zeta.
  assert (E1 : fold_left disk_step disk (fst a, c2) = (fst a, c2)).
  { apply fold_left_fix. intros d Hd. apply disk_step_noop. cbn [snd]. unfold c2.
    apply (fold_left_inv (fun c => has_key (s_path d) c = true)); [intros c fe; apply defs_mono|].
    unfold a. apply (fold_left_covers (fun a => has_key (s_path d) (snd a) = true) _ d); [| |exact Hd].
    - intros b e. apply disk_step_mono.
    - intros b. apply disk_step_has. }
  rewrite E1. cbn [fst snd]. f_equal.
  assert (F : filter is_file c2 = filter is_file (snd a)).
  { unfold c2. apply (fold_left_inv (fun c => filter is_file c = filter is_file (snd a))); [|reflexivity].
    intros c fe <-. apply defs_files. }
  rewrite F. apply fold_left_fix. intros fe Hfe. apply defs_noop. intros u Hu. unfold c2.
  apply (fold_left_covers (fun c => has_key (ukey u) c = true) _ fe); [| |exact Hfe].
  - intros c f. apply defs_mono.
  - intros c. now apply defs_has.
Qed.

(** a later processing that changes nothing: re-discovery and graph rebuild *)
Definition reprocess (disk : list source) (seed : list nref) (st : state) : option state := rebuild seed (discover disk st).

Theorem later_processing_stable disk seed st o st' :
  step disk seed st o = Some st' ->
  exists st'', reprocess disk (next_seeds o st seed) st' = Some st'' /\
               st_nodes st'' = st_nodes st' /\ st_edges st'' = st_edges st' /\
               st_cache st'' = st_cache st' /\ st_srcs st'' = st_srcs st'.
Proof.
  unfold reprocess. intros (st1 & _ & H)%step_Some.
  set (d1 := discover disk st1) in *.
  destruct (rebuild_fields _ _ _ H) as (S1 & C1 & R1 & A1).
  assert (Ed : discover disk st' = mk_state (st_srcs d1) (st_cache d1) (st_nodes st') (st_edges st') (st_removed d1) (st_added d1)).
  { replace st' with (mk_state (st_srcs d1) (st_cache d1) (st_nodes st') (st_edges st') (st_removed d1) (st_added d1))
      by (destruct st'; cbn in *; now subst).
    apply discover_idempotent. }
  pose proof (rebuild_ext (next_seeds o st seed) (discover disk st') d1) as Hr.
  rewrite Ed in Hr. cbn [st_srcs st_cache st_removed st_added] in Hr.
  specialize (Hr eq_refl eq_refl eq_refl eq_refl). rewrite H in Hr. rewrite Ed.
  destruct (rebuild (next_seeds o st seed) (mk_state (st_srcs d1) (st_cache d1) (st_nodes st') (st_edges st') (st_removed d1) (st_added d1))) as [st''|] eqn:R;
    [|contradiction].
  exists st''. destruct Hr as [N E]. split; [reflexivity|]. split; [exact N|]. split; [exact E|].
  destruct (rebuild_fields _ _ _ R) as (S2 & C2 & _ & _). cbn in S2, C2. split; congruence.
Qed.
