(** C26 — proofs, part 1: name sets, summaries; the instrumented interpreter: erasure of the
    instrumentation, inversion of one step, induction over runs, fuel. *)
From Coq Require Import ZArith List Bool String Lia.
From LV Require Import Base.Expr Base.MiniF Base.ListFacts Base.ExprFacts Base.MiniFFacts models.M_C26.
Import ListNotations.
Open Scope Z_scope.

Lemma mem_In x l : mem x l = true <-> In x l.
Proof. apply existsb_eqb_In. Qed.

Lemma mem_false x l : mem x l = false <-> ~ In x l.
Proof. apply existsb_eqb_false. Qed.

Lemma In_diff x a b : In x (diff a b) <-> In x a /\ ~ In x b.
Proof.
  unfold diff. rewrite filter_In, negb_true_iff, mem_false. tauto.
Qed.

Lemma In_inter x a b : In x (inter a b) <-> In x a /\ In x b.
Proof. unfold inter. rewrite filter_In, mem_In. tauto. Qed.

Lemma In_rem1 x v a : In x (rem1 v a) <-> In x a /\ x <> v.
Proof.
  unfold rem1. rewrite filter_In, negb_true_iff, String.eqb_neq. tauto.
Qed.

Lemma diff_nil a : diff a [] = a.
Proof.
  unfold diff. induction a as [|x r IH]; [reflexivity|].
  cbn [filter]. change (negb (mem x [])) with true. cbn iota. now rewrite IH.
Qed.

Lemma diff_app a b c : diff (a ++ b) c = diff a c ++ diff b c.
Proof. apply filter_app. Qed.

Lemma diff_diff a b c : diff (diff a b) c = diff a (c ++ b).
Proof.
  unfold diff, mem. induction a as [|x r IH]; [reflexivity|].
  cbn [filter]. rewrite existsb_app.
  destruct (existsb (String.eqb x) b); cbn [negb filter]; rewrite IH; [now rewrite orb_true_r|].
  now rewrite orb_false_r.
Qed.

Lemma subset_In a b : subset a b = true <-> (forall x, In x a -> In x b).
Proof.
  unfold subset. rewrite forallb_forall. split; intros H x Hx; apply mem_In; now apply H.
Qed.

Lemma disjointb_spec a b : disjointb a b = true -> forall x, In x a -> ~ In x b.
Proof. unfold disjointb. rewrite forallb_forall. intros H x Hx. apply mem_false, negb_true_iff. now apply H. Qed.

Lemma disjointb_nil a : disjointb a [] = true.
Proof. now induction a. Qed.

Lemma In_flat_map_iff {A B} (f : A -> list B) l y : In y (flat_map f l) <-> exists x, In x l /\ In y (f x).
Proof. apply in_flat_map. Qed.

Lemma loc_eqb_eq a b : loc_eqb a b = true <-> a = b.
Proof.
  destruct a as [x|x i], b as [y|y j]; cbn; try (split; congruence).
  - rewrite String.eqb_eq. split; congruence.
  - rewrite andb_true_iff, String.eqb_eq, list_z_eqb_eq. split; [intros [-> ->]; reflexivity|intros E; inversion E; auto].
Qed.

Lemma mem_loc_In l ls : mem_loc l ls = true <-> In l ls.
Proof.
  unfold mem_loc. rewrite existsb_exists. split.
  - intros [y [Hy E]]. apply loc_eqb_eq in E. now subst.
  - intros H. exists l. split; [exact H|now apply loc_eqb_eq].
Qed.

Lemma mem_loc_false l ls : mem_loc l ls = false <-> ~ In l ls.
Proof. rewrite <- mem_loc_In. destruct (mem_loc l ls); split; congruence. Qed.

Lemma loc_eq_dec (a b : loc) : {a = b} + {a <> b}.
Proof.
  destruct (loc_eqb a b) eqn:E; [left; now apply loc_eqb_eq|right].
  intros H. apply loc_eqb_eq in H. congruence.
Qed.

Lemma In_loc_dec (l : loc) ls : {In l ls} + {~ In l ls}.
Proof. apply in_dec, loc_eq_dec. Qed.

(** the locations a run wrote or read *)
Definition touched (t : summary) (l : loc) : Prop := In l (fst t) \/ In l (snd t).

Lemma seqT_w a b l : In l (fst (seqT a b)) <-> In l (fst a) \/ In l (fst b).
Proof. unfold seqT. cbn [fst]. apply in_app_iff. Qed.

Lemma seqT_r a b l : In l (snd (seqT a b)) <-> In l (snd a) \/ (In l (snd b) /\ ~ In l (fst a)).
Proof.
  unfold seqT. cbn [snd]. rewrite in_app_iff, filter_In, negb_true_iff, mem_loc_false. tauto.
Qed.

Lemma seqT_nil_l t : seqT nilT t = t.
Proof.
  destruct t as [w r]. unfold seqT, nilT. cbn. f_equal.
  induction r as [|y r IHr]; cbn; [reflexivity|]. now rewrite IHr.
Qed.

Lemma seqT_r_weak a b l : In l (snd (seqT a b)) -> In l (snd a) \/ In l (snd b).
Proof. rewrite seqT_r. tauto. Qed.

(** every statement first reads, then acts: its summary is [seqT (rdT R) t] *)
Lemma seqT_rd_w R t : fst (seqT (rdT R) t) = fst t.
Proof. reflexivity. Qed.

Lemma seqT_rd_r R t l : In l (snd (seqT (rdT R) t)) <-> In l R \/ In l (snd t).
Proof. rewrite seqT_r. cbn. tauto. Qed.

Lemma wrT_w x l : In l (fst (wrT x)) <-> l = x.
Proof. cbn. split; [intros [H|[]]; congruence|intros ->; now left]. Qed.

Lemma touched_seqT a b l : touched (seqT a b) l -> touched a l \/ touched b l.
Proof. unfold touched. rewrite seqT_w, seqT_r. tauto. Qed.

Lemma touched_rd R t l : touched (seqT (rdT R) t) l -> In l R \/ touched t l.
Proof. unfold touched. rewrite seqT_rd_w, seqT_rd_r. tauto. Qed.

Lemma touched_wr x l : touched (wrT x) l -> l = x.
Proof. intros [H|[]]. now apply wrT_w. Qed.

Lemma erase_bind (o : option (store * summary)) (o' : option store)
      (k : store * summary -> option (store * summary)) (k' : store -> option store) :
  option_map fst o = o' -> (forall r, option_map fst (k r) = k' (fst r)) ->
  option_map fst (obind o k) = obind o' k'.
Proof. intros E H. destruct o as [r|]; cbn in *; subst; cbn; auto. Qed.

Lemma do_loop_tr_erase run_tr run v d :
  (forall s, option_map fst (run_tr s) = run s) ->
  forall n i s, option_map fst (do_loop_tr run_tr v d n i s) = do_loop run v d n i s.
Proof.
  intros H. induction n as [|n IH]; intros i s; cbn [do_loop_tr do_loop]; [reflexivity|].
  apply erase_bind; [apply H|]. intros r1.
  rewrite <- (obind_ret (do_loop run v d n (i + d) (fst r1))).
  apply erase_bind; [apply IH|]. intros r2. reflexivity.
Qed.

Lemma step_tr_erase ps f :
  (forall ss s, option_map fst (exec_tr ps f ss s) = exec ps f ss s) ->
  forall st s, option_map fst (step_tr ps (exec_tr ps f) st s) = exec1 ps f st s.
Proof.
  intros IH st s.
  destruct st as [x e|a idx e|v lo hi stp body|c body|c tb eb|g args|l]; cbn [step_tr exec1].
  - destruct (evalZ (env_st s) e); reflexivity.
  - destruct (eval_idx s idx); cbn [obind]; [|reflexivity]. destruct (evalZ (env_st s) e); reflexivity.
  - destruct (evalZ (env_st s) lo); cbn [obind]; [|reflexivity].
    destruct (evalZ (env_st s) hi); cbn [obind]; [|reflexivity].
    destruct (match stp with None => Some 1 | Some e => evalZ (env_st s) e end) as [d|]; cbn [obind]; [|reflexivity].
    destruct (d =? 0); [reflexivity|].
    rewrite <- (obind_ret (do_loop _ _ _ _ _ _)).
    apply erase_bind; [apply do_loop_tr_erase; intros; apply IH|]. intros r. reflexivity.
  - destruct (evalB (env_st s) c) as [[|]|]; cbn [obind]; try reflexivity.
    apply erase_bind; [apply IH|]. intros r1.
    rewrite <- (obind_ret (exec ps f [SWhile c body] (fst r1))).
    apply erase_bind; [apply IH|]. intros r2. reflexivity.
  - destruct (evalB (env_st s) c) as [b|]; cbn [obind]; [|reflexivity].
    rewrite <- (obind_ret (exec ps f _ s)).
    apply erase_bind; [apply IH|]. intros r. reflexivity.
  - destruct (find_proc ps g) as [p|]; cbn [obind]; [|reflexivity].
    destruct (copy_in s (p_params p) args empty_store) as [s0|]; cbn [obind]; [|reflexivity].
    apply erase_bind; [apply IH|]. intros r. reflexivity.
  - reflexivity.
Qed.

Lemma exec_tr_unfold ps f st rest s :
  exec_tr ps (S f) (st :: rest) s =
  obind (step_tr ps (exec_tr ps f) st s) (fun r1 =>
  obind (exec_tr ps f rest (fst r1)) (fun r2 => Some (fst r2, seqT (snd r1) (snd r2)))).
Proof. reflexivity. Qed.

Lemma exec_tr_erase ps : forall f ss s, option_map fst (exec_tr ps f ss s) = exec ps f ss s.
Proof.
  induction f as [|f IH]; intros ss s; [reflexivity|].
  destruct ss as [|st rest]; [reflexivity|].
  rewrite exec_tr_unfold, exec_unfold.
  apply erase_bind; [now apply step_tr_erase|]. intros r1.
  rewrite <- (obind_ret (exec ps f rest (fst r1))).
  apply erase_bind; [apply IH|]. intros r2. reflexivity.
Qed.

Corollary exec_tr_exec ps f ss s s' t : exec_tr ps f ss s = Some (s', t) -> exec ps f ss s = Some s'.
Proof. intros E. rewrite <- exec_tr_erase, E. reflexivity. Qed.

Corollary exec_exec_tr ps f ss s s' : exec ps f ss s = Some s' -> exists t, exec_tr ps f ss s = Some (s', t).
Proof.
  intros E. rewrite <- exec_tr_erase in E.
  destruct (exec_tr ps f ss s) as [[s1 t]|]; cbn in E; [|discriminate].
  exists t. congruence.
Qed.

(** peels every [obind] off a hypothesis [E : obind o1 (fun r => obind o2 ...) = Some _]: the results are
    named [r], [r0], [r1], ... and their equations [E0], [E1], [E2], ... in order; what remains keeps the name [E] *)
Ltac inv_obind E :=
  repeat (let x := fresh "r" in let Ex := fresh "E" in
          apply obind_some in E; destruct E as [x [Ex E]]).

Lemma exec_tr_nil ps f s s' t : exec_tr ps f [] s = Some (s', t) -> s' = s /\ t = nilT.
Proof. destruct f; cbn; [discriminate|]. intros E. inversion E. auto. Qed.

Lemma exec_tr_cons ps f st rest s s' t :
  exec_tr ps f (st :: rest) s = Some (s', t) ->
  exists g s1 t1 t2, f = S g /\ step_tr ps (exec_tr ps g) st s = Some (s1, t1) /\
                     exec_tr ps g rest s1 = Some (s', t2) /\ t = seqT t1 t2.
Proof.
  destruct f as [|g]; [discriminate|]. rewrite exec_tr_unfold. intros E.
  inv_obind E. destruct r as [s1 t1], r0 as [s2 t2]. cbn [fst snd] in *.
  inversion E; subst. exists g, s1, t1, t2. auto.
Qed.

(** what a successful step did, by kind of statement; [rec] runs the nested bodies *)
Lemma step_tr_inv ps rec st s s' t :
  step_tr ps rec st s = Some (s', t) ->
  match st with
  | SAssign x e =>
      exists v, evalZ (env_st s) e = Some v /\ s' = set_sv x v s /\ t = seqT (rdT (ereads s e)) (wrT (LS x))
  | SStore a idx e =>
      exists i v, eval_idx s idx = Some i /\ evalZ (env_st s) e = Some v /\ s' = set_av a i v s /\
                  t = seqT (rdT (flat_map (ereads s) idx ++ ereads s e)) (wrT (LA a i))
  | SDo v lo hi stp body =>
      exists a b d t2, evalZ (env_st s) lo = Some a /\ evalZ (env_st s) hi = Some b /\
        match stp with None => Some 1 | Some e => evalZ (env_st s) e end = Some d /\ (d =? 0) = false /\
        do_loop_tr (rec body) v d (Z.to_nat (trip_count a b d)) a s = Some (s', t2) /\
        t = seqT (rdT (ereads s lo ++ ereads s hi ++ step_reads s stp)) t2
  | SWhile c body =>
      (evalB (env_st s) c = Some false /\ s' = s /\ t = rdT (ereads s c)) \/
      exists s1 t1 t2, evalB (env_st s) c = Some true /\ rec body s = Some (s1, t1) /\
        rec [SWhile c body] s1 = Some (s', t2) /\ t = seqT (rdT (ereads s c)) (seqT t1 t2)
  | SIf c tb eb =>
      exists b t1, evalB (env_st s) c = Some b /\ rec (if b then tb else eb) s = Some (s', t1) /\
                   t = seqT (rdT (ereads s c)) t1
  | SCall g args =>
      exists p s0 s1 tc, find_proc ps g = Some p /\ copy_in s (p_params p) args empty_store = Some s0 /\
        rec (p_body p) s0 = Some (s1, tc) /\ s' = copy_out s1 (p_params p) args s /\
        t = seqT (rdT (arg_reads s (p_params p) args)) (back_tr (p_params p) args tc)
  | SSkip _ => s' = s /\ t = nilT
  end.
Proof.
  intros E. destruct st as [x e|a idx e|v lo hi stp body|c body|c tb eb|g args|lab]; unfold step_tr in E.
  - inv_obind E. inversion E. eauto.
  - inv_obind E. inversion E. eauto 6.
  - inv_obind E. destruct (r1 =? 0) eqn:Ed; [discriminate|]. inv_obind E. destruct r2 as [s2 t2].
    inversion E; subst. exists r, r0, r1, t2. auto 6.
  - inv_obind E. destruct r; [right|left; inversion E; subst; auto].
    inv_obind E. destruct r as [s1 t1], r0 as [s2 t2]. inversion E; subst. exists s1, t1, t2. auto.
  - inv_obind E. destruct r0 as [s1 t1]. inversion E; subst. exists r, t1. auto.
  - inv_obind E. destruct r1 as [s1 tc]. inversion E; subst. exists r, r0, s1, tc. auto 6.
  - inversion E. auto.
Qed.

(** * Induction over runs: a property of runs follows from the empty run and from one step followed
    by the rest, given the property for all runs with less fuel (those nested in the step) *)
Lemma exec_tr_ind ps (P : list stmt -> store -> store -> summary -> Prop) :
  (forall s, P [] s s nilT) ->
  (forall f st rest s s1 t1 s' t2,
     (forall ss s s' t, exec_tr ps f ss s = Some (s', t) -> P ss s s' t) ->
     step_tr ps (exec_tr ps f) st s = Some (s1, t1) -> exec_tr ps f rest s1 = Some (s', t2) ->
     P (st :: rest) s s' (seqT t1 t2)) ->
  forall f ss s s' t, exec_tr ps f ss s = Some (s', t) -> P ss s s' t.
Proof.
  intros Hnil Hcons. induction f as [|f IH]; intros ss s s' t E; [discriminate|].
  destruct ss as [|st rest].
  - apply exec_tr_nil in E. destruct E as [-> ->]. apply Hnil.
  - apply exec_tr_cons in E. destruct E as (g & s1 & t1 & t2 & Eg & E1 & E2 & ->).
    injection Eg as <-. eapply Hcons; eauto.
Qed.

Lemma do_loop_tr_mono (run1 run2 : store -> option (store * summary)) v d n :
  (forall s r, run1 s = Some r -> run2 s = Some r) ->
  forall i s r, do_loop_tr run1 v d n i s = Some r -> do_loop_tr run2 v d n i s = Some r.
Proof.
  intros H. induction n as [|n IH]; intros i s r; cbn [do_loop_tr]; [auto|].
  apply obind_mono; [apply H|]. intros r1. apply obind_mono; [apply IH|auto].
Qed.

Lemma step_tr_mono ps (rec1 rec2 : list stmt -> store -> option (store * summary)) :
  (forall ss s r, rec1 ss s = Some r -> rec2 ss s = Some r) ->
  forall st s r, step_tr ps rec1 st s = Some r -> step_tr ps rec2 st s = Some r.
Proof.
  intros H st s r.
  destruct st as [x e|a idx e|v lo hi stp body|c body|c tb eb|g args|l]; try exact (fun E => E); unfold step_tr;
    repeat (apply obind_mono; [auto|]; intros ?); auto.
  - destruct (_ =? 0); [auto|]. apply obind_mono; [apply do_loop_tr_mono, H|auto].
  - destruct a; [|auto]. repeat (apply obind_mono; [auto|]; intros ?). auto.
Qed.

Lemma exec_tr_fuel_S ps f : forall ss s r, exec_tr ps f ss s = Some r -> exec_tr ps (S f) ss s = Some r.
Proof.
  induction f as [|f IH]; intros ss s r; [discriminate|].
  destruct ss as [|st rest]; [auto|]. rewrite !exec_tr_unfold.
  apply obind_mono; [apply step_tr_mono, IH|]. intros r1. apply obind_mono; [apply IH|auto].
Qed.

Lemma exec_tr_fuel_mono ps f f' ss s r :
  exec_tr ps f ss s = Some r -> (f <= f')%nat -> exec_tr ps f' ss s = Some r.
Proof.
  intros E Hle. induction Hle as [|m Hle IH]; [exact E|]. now apply exec_tr_fuel_S.
Qed.

(** a run of [a ++ b] is a run of [a] followed by a run of [b]; the written sets compose *)
Lemma exec_tr_app_inv ps : forall a b f s s' t,
  exec_tr ps f (a ++ b) s = Some (s', t) ->
  exists s1 t1 t2, exec_tr ps f a s = Some (s1, t1) /\ exec_tr ps f b s1 = Some (s', t2) /\
                   (forall l, In l (fst t) <-> In l (fst t1) \/ In l (fst t2)).
Proof.
  induction a as [|x a IH]; intros b f s s' t E.
  - cbn [app] in E. destruct f as [|g]; [discriminate|].
    exists s, nilT, t. split; [reflexivity|]. split; [exact E|]. intros l. cbn. tauto.
  - cbn [app] in E. apply exec_tr_cons in E. destruct E as [g [s1 [t1 [t2 [-> [E1 [E2 ->]]]]]]].
    apply IH in E2. destruct E2 as [s2 [u1 [u2 [A [B Hw]]]]].
    exists s2, (seqT t1 u1), u2. split; [|split].
    + rewrite exec_tr_unfold, E1. cbn [obind fst snd]. rewrite A. reflexivity.
    + now apply exec_tr_fuel_S.
    + intros l. rewrite !seqT_w, Hw. tauto.
Qed.
