(** C26 — proofs, part 2: the attacher's sets of a body in closed form, the callee side of the call
    rules, soundness of [defines] (up to DO variables). *)
From Coq Require Import ZArith List Bool String Lia.
From LV Require Import Base.Expr Base.MiniF Base.ListFacts Base.MiniFFacts models.M_C26 proofs.P_C26.
Import ListNotations.
Open Scope Z_scope.

Section Spec.
  Variable sg : sigs.

  (** [Db]: the defines of the statements of a body, in order; [Ub]: the uses of each statement minus
      the defines of the statements before it (what [_visit_body] accumulates from empty sets) *)
  Definition Db (ss : list stmt) : names := flat_map (fun st => fst (du_stmt sg st)) ss.
  Fixpoint Ub (ss : list stmt) : names :=
    match ss with
    | [] => []
    | st :: r => snd (du_stmt sg st) ++ diff (Ub r) (fst (du_stmt sg st))
    end.

  Lemma du_body_cons x r D U :
    du_body sg (x :: r) D U = du_body sg r (D ++ fst (du_stmt sg x)) (U ++ diff (snd (du_stmt sg x)) D).
  Proof. reflexivity. Qed.

  (** the accumulators of [_visit_body] only grow at the end, so the result is the start followed by
      a function of the body alone *)
  Lemma du_body_eq : forall ss D U, du_body sg ss D U = (D ++ Db ss, U ++ diff (Ub ss) D).
  Proof.
    induction ss as [|st r IH]; intros D U.
    - cbn. now rewrite !app_nil_r.
    - rewrite du_body_cons, IH. cbn [Db flat_map Ub]. now rewrite diff_app, diff_diff, <- !app_assoc.
  Qed.

  Lemma defines_of_eq ss : defines_of sg ss = Db ss.
  Proof. unfold defines_of. now rewrite du_body_eq. Qed.

  Lemma uses_of_eq ss : uses_of sg ss = Ub ss.
  Proof. unfold uses_of. rewrite du_body_eq. apply diff_nil. Qed.

  Lemma du_do v lo hi stp b :
    du_stmt sg (SDo v lo hi stp b) = (rem1 v (Db b), rem1 v (bound_vars lo hi stp ++ Ub b)).
  Proof. cbn [du_stmt]. change (du_fold (du_stmt sg)) with (du_body sg). now rewrite du_body_eq, diff_nil. Qed.

  Lemma du_while c b : du_stmt sg (SWhile c b) = (Db b, evars c ++ Ub b).
  Proof. cbn [du_stmt]. change (du_fold (du_stmt sg)) with (du_body sg). now rewrite du_body_eq, diff_nil. Qed.

  Lemma du_if c tb eb : du_stmt sg (SIf c tb eb) = (Db tb ++ Db eb, (evars c ++ Ub tb) ++ Ub eb).
  Proof. cbn [du_stmt]. change (du_fold (du_stmt sg)) with (du_body sg). now rewrite !du_body_eq, !diff_nil. Qed.

  Lemma Db_app a b : Db (a ++ b) = Db a ++ Db b.
  Proof. apply flat_map_app. Qed.

  Lemma Db_single st : Db [st] = fst (du_stmt sg st).
  Proof. apply app_nil_r. Qed.

  Lemma Ub_single st : Ub [st] = snd (du_stmt sg st).
  Proof. apply app_nil_r. Qed.
End Spec.

Lemma dovars_app a b : dovars (a ++ b) = dovars a ++ dovars b.
Proof. unfold dovars. apply flat_map_app. Qed.

Lemma dsafe_app sg a b : dsafe sg (a ++ b) = dsafe sg a && dsafe sg b.
Proof. apply forallb_app. Qed.

(** * DO loops: every location touched by a loop is the DO variable or touched by a run of the body *)
Lemma do_loop_tr_w (P : loc -> Prop) run v d :
  (forall s s' t, run s = Some (s', t) -> forall l, In l (fst t) -> P l) -> P (LS v) ->
  forall n i s s' t, do_loop_tr run v d n i s = Some (s', t) -> forall l, In l (fst t) -> P l.
Proof.
  intros H Hv. induction n as [|n IH]; intros i s s' t E l Hl; cbn [do_loop_tr] in E.
  - inversion E; subst. apply wrT_w in Hl. now subst.
  - inv_obind E. destruct r as [s1 t1], r0 as [s2 t2]. cbn [fst snd] in *. inversion E; subst.
    rewrite !seqT_w, wrT_w in Hl. destruct Hl as [[->|Hl]|Hl]; eauto.
Qed.

Lemma do_loop_tr_writes_v run v d : forall n i s s' t, do_loop_tr run v d n i s = Some (s', t) -> In (LS v) (fst t).
Proof.
  induction n as [|n IH]; intros i s s' t E; cbn [do_loop_tr] in E.
  - inversion E; subst. now left.
  - inv_obind E. inversion E; subst. now left.
Qed.

Lemma do_loop_tr_r (P : loc -> Prop) run v d :
  (forall s s' t, run s = Some (s', t) -> forall l, In l (snd t) -> P l) ->
  forall n i s s' t, do_loop_tr run v d n i s = Some (s', t) -> forall l, In l (snd t) -> P l /\ l <> LS v.
Proof.
  intros H. induction n as [|n IH]; intros i s s' t E l Hl; cbn [do_loop_tr] in E.
  - inversion E; subst. contradiction.
  - inv_obind E. destruct r as [s1 t1], r0 as [s2 t2]. cbn [fst snd] in *. inversion E; subst.
    apply seqT_r in Hl. destruct Hl as [Hl|[Hl _]]; [|eauto].
    apply seqT_r in Hl. destruct Hl as [[]|[Hl Hn]].
    split; [eauto|]. intros ->. apply Hn. now left.
Qed.

Lemma do_loop_tr_any (P : loc -> Prop) run v d :
  (forall s s' t, run s = Some (s', t) -> forall l, touched t l -> P l) -> P (LS v) ->
  forall n i s s' t, do_loop_tr run v d n i s = Some (s', t) -> forall l, touched t l -> P l.
Proof.
  intros H Hv n i s s' t E l [Hl|Hl].
  - eapply (do_loop_tr_w P); [|exact Hv|exact E|exact Hl]. intros; eapply H; [eassumption|now left].
  - eapply (do_loop_tr_r P); [|exact E|exact Hl]. intros; eapply H; [eassumption|now right].
Qed.

Lemma find_proc_ok mw ps sg g p :
  sigs_ok mw ps sg = true -> find_proc ps g = Some p -> proc_ok mw ps sg g p = true.
Proof.
  unfold sigs_ok. rewrite forallb_forall. intros H E.
  specialize (H _ (find_proc_In _ _ _ E)). cbn [fst] in H. now rewrite E in H.
Qed.

(** what [sigs_ok] says about an enriched callee, position by position *)
Record sig_facts (mw : musts) (ps : procs) (sg : sigs) (p : proc) (its : list intent) : Prop := {
  sf_len : List.length its = List.length (p_params p);
  sf_dsafe : dsafe sg (p_body p) = true;
  sf_definite : definite mw ps sg (p_body p) = true;
  sf_noout : forall k it d b, nth_error its k = Some it -> nth_error (p_params p) k = Some (d, b) ->
             is_out it = false -> ~ In d (Db sg (p_body p)) /\ ~ In d (dovars (p_body p));
  sf_noin : forall k it d b, nth_error its k = Some it -> nth_error (p_params p) k = Some (d, b) ->
            is_in it = false -> ~ In d (Ub sg (p_body p))
}.

Lemma proc_ok_sig mw ps sg g p its :
  proc_ok mw ps sg g p = true -> find_sig sg g = Some its -> sig_facts mw ps sg p its.
Proof.
  unfold proc_ok. intros H Es. rewrite Es, defines_of_eq, uses_of_eq in H.
  rewrite !andb_true_iff in H. destruct H as [[_ [[[Hl Hd] Hdef] Hf]] _].
  apply Nat.eqb_eq in Hl. rewrite map_length in Hl.
  assert (forall k it d b, nth_error its k = Some it -> nth_error (p_params p) k = Some (d, b) ->
            (is_out it = true \/ ~ In d (Db sg (p_body p) ++ dovars (p_body p))) /\
            (is_in it = true \/ ~ In d (Ub sg (p_body p)))) as Hk.
  { intros k it d b E1 E2. rewrite <- !mem_false, <- !negb_true_iff, <- !orb_true_iff, <- andb_true_iff.
    apply (forallb_combine_nth _ _ _ k it d Hf E1). now rewrite nth_error_map, E2. }
  constructor; auto; intros k it d b E1 E2 Hi; destruct (Hk k it d b E1 E2) as [[A|A] [B|B]];
    rewrite ?in_app_iff in *; try congruence; tauto.
Qed.

Lemma proc_ok_nodup mw ps sg g p : proc_ok mw ps sg g p = true -> NoDup (map fst (p_params p)).
Proof.
  unfold proc_ok. rewrite !andb_true_iff. intros [[H _] _]. now apply ListFacts.nodupb_NoDup.
Qed.

Lemma proc_ok_must mw ps sg g p fl :
  proc_ok mw ps sg g p = true -> find_must mw g = Some fl ->
  forall k d isarr, nth_error fl k = Some true -> nth_error (p_params p) k = Some (d, isarr) ->
    isarr = false /\ In d (mdef mw (p_body p)).
Proof.
  unfold proc_ok. intros H Em. rewrite Em in H.
  rewrite !andb_true_iff in H. destruct H as [_ [_ Hf]].
  intros k d isarr E1 E2.
  pose proof (forallb_combine_nth _ _ _ k true (d, isarr) Hf E1 E2) as Hk. cbn in Hk.
  rewrite andb_true_iff, negb_true_iff, mem_In in Hk. tauto.
Qed.

(** * [back]: accesses of the callee to a dummy seen from the caller *)
Lemma back_inv : forall params args l' l,
  In l (back params args l') ->
  exists k d b x, nth_error params k = Some (d, b) /\ nth_error args k = Some (EVar x) /\
    ((b = false /\ l' = LS d /\ l = LS x) \/ (b = true /\ exists i, l' = LA d i /\ l = LA x i)).
Proof.
  induction params as [|[d b] ps IH]; intros [|a r] l' l H; cbn [back] in H; try contradiction.
  apply in_app_iff in H. destruct H as [H|H].
  - exists 0%nat, d, b. destruct a as [| |x| | | | | | | | | |]; try contradiction.
    exists x. cbn [nth_error]. split; [reflexivity|]. split; [reflexivity|].
    destruct b, l' as [y|y i]; try contradiction;
      (destruct (String.eqb_spec y d) as [->|_]; [|contradiction]); destruct H as [<-|[]]; eauto 6.
  - apply IH in H. destruct H as [k [d' [b' [x H]]]]. exists (S k), d', b', x. exact H.
Qed.

Lemma back_names params args l' l :
  In l (back params args l') ->
  exists k b, nth_error params k = Some (lname l', b) /\ nth_error args k = Some (EVar (lname l)).
Proof.
  intros H. apply back_inv in H.
  destruct H as (k & d & b & x & Ep & Ea & [(_ & -> & ->)|(_ & i & -> & ->)]); eauto.
Qed.

(** the location of the same kind (and index) as [l] under the name [d]: where a dummy [d] holds
    what the actual [lname l] holds *)
Definition is_arr_loc (l : loc) : bool := match l with LS _ => false | LA _ _ => true end.
Definition at_name (d : string) (l : loc) : loc := match l with LS _ => LS d | LA _ i => LA d i end.

Lemma back_intro : forall params args k d l,
  nth_error params k = Some (d, is_arr_loc l) -> nth_error args k = Some (EVar (lname l)) ->
  In l (back params args (at_name d l)).
Proof.
  induction params as [|[d0 b0] ps IH]; intros [|a r] [|k] d l E1 E2; cbn in E1, E2; try discriminate;
    cbn [back]; apply in_app_iff.
  - injection E1 as -> ->. injection E2 as ->. left. destruct l; cbn; rewrite String.eqb_refl; now left.
  - right. eapply IH; eauto.
Qed.

Lemma copy_in_len : forall params args caller c s0,
  copy_in caller params args c = Some s0 -> List.length params = List.length args.
Proof.
  induction params as [|[d b] ps IH]; intros args caller c s0 E.
  - destruct args; [reflexivity|discriminate].
  - destruct b, args as [|a r]; cbn [copy_in] in E; try discriminate; cbn [List.length]; f_equal.
    + destruct a; try discriminate. eapply IH; eauto.
    + destruct (evalZ (env_st caller) a); [|discriminate]. eapply IH; eauto.
Qed.

(** * [defines] is sound up to DO variables, on the class [dsafe] with callees that respect their intents *)
Section Defines.
  Variables (mw : musts) (ps : procs) (sg : sigs).
  Hypothesis Hok : sigs_ok mw ps sg = true.

  (** the name of [l] is in the defines of the body or is one of its DO variables *)
  Definition Pw (ss : list stmt) (l : loc) : Prop := In (lname l) (Db sg ss) \/ In (lname l) (dovars ss).

  Lemma Pw_cons st rest l :
    Pw (st :: rest) l <->
    (In (lname l) (fst (du_stmt sg st)) \/ In (lname l) (dovars_stmt st)) \/ Pw rest l.
  Proof. unfold Pw, Db, dovars. cbn [flat_map]. rewrite !in_app_iff. tauto. Qed.

  Lemma step_def rec :
    (forall ss s s' t, rec ss s = Some (s', t) -> dsafe sg ss = true -> forall l, In l (fst t) -> Pw ss l) ->
    forall st s s' t, step_tr ps rec st s = Some (s', t) -> dsafe_stmt sg st = true ->
    forall l, In l (fst t) -> In (lname l) (fst (du_stmt sg st)) \/ In (lname l) (dovars_stmt st).
  Proof.
    intros IH st s s' t E Hs l Hl. apply step_tr_inv in E.
    destruct st as [x e|a idx e|v lo hi stp body|c body|c tb eb|g args|lab]; cbn [dsafe_stmt] in Hs.
    - destruct E as (v & _ & _ & ->). apply wrT_w in Hl. subst. left. now left.
    - destruct E as (i & v & _ & _ & _ & ->). apply wrT_w in Hl. subst. left. now left.
    - destruct E as (a & b & d & t2 & _ & _ & _ & _ & E & ->). rewrite seqT_rd_w in Hl.
      assert (Pw body l \/ l = LS v) as [[HP|HP]| ->].
      { eapply (do_loop_tr_w (fun l => Pw body l \/ l = LS v)); [|now right|exact E|exact Hl].
        intros s0 s1 t1 R l0 Hl0. left. eapply IH; eauto. }
      + (* the attacher removes [v] from the body's defines; [v] is a DO variable *)
        destruct (string_dec (lname l) v) as [Ev|Ev]; [right; now left|].
        left. rewrite du_do. apply In_rem1. auto.
      + right. right. exact HP.
      + right. now left.
    - destruct E as [(_ & _ & ->)|(s1 & t1 & t2 & _ & E1 & E2 & ->)]; [contradiction|].
      rewrite seqT_rd_w in Hl. apply seqT_w in Hl. rewrite du_while. destruct Hl as [Hl|Hl].
      + exact (IH _ _ _ _ E1 Hs _ Hl).
      + assert (dsafe sg [SWhile c body] = true) as Hs' by (cbn; now rewrite Hs).
        apply (IH _ _ _ _ E2 Hs'), Pw_cons in Hl. rewrite du_while in Hl. destruct Hl as [Hl|[[]|[]]]. exact Hl.
    - destruct E as (b & t1 & _ & E1 & ->). rewrite seqT_rd_w in Hl.
      apply andb_true_iff in Hs. destruct Hs as [Ht He].
      rewrite du_if. cbn [fst dovars_stmt]. rewrite !in_app_iff.
      destruct b; [destruct (IH _ _ _ _ E1 Ht _ Hl)|destruct (IH _ _ _ _ E1 He _ Hl)]; auto.
    - destruct E as (p & s0 & s1 & tc & Ep & E0 & E2 & _ & ->). rewrite seqT_rd_w in Hl.
      apply in_flat_map in Hl. destruct Hl as [l' [Hl' Hb]].
      apply back_names in Hb. destruct Hb as (k & b & Epk & Ea).
      left. cbn [du_stmt]. pose proof (find_proc_ok _ _ _ _ _ Hok Ep) as Hp.
      unfold call_dsafe in Hs. destruct (find_sig sg g) as [its|] eqn:Es.
      + (* an actual at an out/inout dummy is in the defines by [call_dsafe]; the callee does not
           write its other dummies *)
        destruct (proc_ok_sig _ _ _ _ _ _ Hp Es) as [Hlen Hds _ Hno _].
        apply andb_true_iff in Hs. destruct Hs as [_ Hs].
        destruct (nth_error_len (p_params p) its k _ (eq_sym Hlen) Epk) as [it Eit].
        destruct (is_out it) eqn:Eo.
        * pose proof (forallb_combine_nth _ _ _ k it (EVar (lname l)) Hs Eit Ea) as Hm. cbn beta iota in Hm.
          rewrite Eo in Hm. now apply mem_In in Hm.
        * exfalso. destruct (Hno k it _ b Eit Epk Eo) as [N1 N2].
          destruct (IH _ _ _ _ E2 Hds _ Hl') as [HP|HP]; tauto.
      + rewrite forallb_forall in Hs. specialize (Hs _ (nth_error_In _ _ Ea)). now apply mem_In in Hs.
    - destruct E as [_ ->]. contradiction.
  Qed.

  Lemma defines_sound_aux : forall f ss s s' t,
    exec_tr ps f ss s = Some (s', t) -> dsafe sg ss = true -> forall l, In l (fst t) -> Pw ss l.
  Proof.
    apply (exec_tr_ind ps (fun ss _ _ t => dsafe sg ss = true -> forall l, In l (fst t) -> Pw ss l)).
    - intros _ _ l [].
    - intros f st rest s s1 t1 s' t2 IH E1 E2 Hs l Hl.
      cbn [dsafe forallb] in Hs. apply andb_true_iff in Hs. destruct Hs as [Hs1 Hs2].
      apply Pw_cons. apply seqT_w in Hl. destruct Hl as [Hl|Hl].
      + left. exact (step_def _ IH _ _ _ _ E1 Hs1 _ Hl).
      + right. exact (IH _ _ _ _ E2 Hs2 _ Hl).
  Qed.

  Theorem defines_sound f ss s s' t :
    exec_tr ps f ss s = Some (s', t) -> dsafe sg ss = true ->
    forall l, In l (fst t) -> In (lname l) (defines_of sg ss) \/ In (lname l) (dovars ss).
  Proof. rewrite defines_of_eq. apply defines_sound_aux. Qed.
End Defines.
