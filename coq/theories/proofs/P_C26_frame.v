(** C26 — proofs, part 3: frame property.  A location that is not in the written set of a run keeps
    its value; hence a variable that is neither in [defines] nor a DO variable keeps its value (the
    form in which consumers such as region outlining use [defines_symbols]). *)
From Coq Require Import ZArith List Bool String Lia.
From LV Require Import Base.Expr Base.MiniF Base.MiniFFacts models.M_C26 proofs.P_C26 proofs.P_C26_def.
Import ListNotations.
Open Scope Z_scope.

(** the value at a location; part of the statement of [T_C26.C26_frame_locs] *)
Definition val (s : store) (l : loc) : Z := match l with LS x => sv s x | LA a i => av s a i end.

Lemma val_set_sv x v s l : l <> LS x -> val (set_sv x v s) l = val s l.
Proof.
  destruct l as [y|a i]; cbn; [|reflexivity]. intros H.
  destruct (String.eqb y x) eqn:E; [|reflexivity]. apply String.eqb_eq in E. congruence.
Qed.

Lemma val_set_av a i v s l : l <> LA a i -> val (set_av a i v s) l = val s l.
Proof.
  destruct l as [y|b j]; cbn; [reflexivity|]. intros H.
  destruct (String.eqb b a && list_z_eqb j i) eqn:E; [|reflexivity].
  apply andb_true_iff in E. destruct E as [E1 E2]. apply String.eqb_eq in E1. apply list_z_eqb_eq in E2. congruence.
Qed.

Lemma copy_in_val : forall params args caller c s0 k d l,
  NoDup (map fst params) -> copy_in caller params args c = Some s0 ->
  nth_error params k = Some (d, is_arr_loc l) -> nth_error args k = Some (EVar (lname l)) ->
  val s0 (at_name d l) = val caller l.
Proof.
  induction params as [|[d0 b] ps IH]; intros args caller c s0 k d l Hnd E E1 E2; [destruct k; discriminate|].
  inversion Hnd as [|? ? Hn0 Hnd']; subst. destruct args as [|a r]; [destruct k; discriminate|].
  destruct k as [|k]; cbn in E1, E2.
  - injection E1 as -> ->. injection E2 as ->.
    destruct l as [x|x i]; cbn [is_arr_loc copy_in evalZ env_st ev_var] in E;
      destruct (copy_in_other _ _ _ _ _ d E Hn0) as [A B]; cbn; rewrite ?A, ?B; cbn; now rewrite String.eqb_refl.
  - destruct b; cbn [copy_in] in E; [destruct a; try discriminate|destruct (evalZ (env_st caller) a); [|discriminate]];
      eapply IH; eauto.
Qed.

Lemma copy_out_val : forall params args s1 c l V,
  val c l = V ->
  (forall k d, nth_error params k = Some (d, is_arr_loc l) -> nth_error args k = Some (EVar (lname l)) ->
               val s1 (at_name d l) = V) ->
  val (copy_out s1 params args c) l = V.
Proof.
  induction params as [|[d b] ps IH]; intros args s1 c l V Hc H; [destruct args; exact Hc|].
  destruct args as [|a r]; [destruct b; exact Hc|].
  assert (H' : forall k d', nth_error ps k = Some (d', is_arr_loc l) -> nth_error r k = Some (EVar (lname l)) ->
                            val s1 (at_name d' l) = V) by (intros k d' A B; exact (H (S k) d' A B)).
  destruct b, a as [| |x| | | | | | | | | |]; cbn [copy_out]; try (apply IH; assumption); (apply IH; [|exact H']).
  - (* array dummy [d], actual [x]: the array [x] receives the cells of [d] *)
    destruct l as [y|y i]; cbn; [exact Hc|]. destruct (String.eqb_spec y x) as [->|_]; [|exact Hc].
    exact (H 0%nat d eq_refl eq_refl).
  - (* scalar dummy [d], actual [x] *)
    destruct l as [y|y i]; cbn; [|exact Hc]. destruct (String.eqb_spec y x) as [->|_]; [|exact Hc].
    exact (H 0%nat d eq_refl eq_refl).
Qed.

Lemma do_loop_tr_frame run v d :
  (forall s s' t, run s = Some (s', t) -> forall l, ~ In l (fst t) -> val s' l = val s l) ->
  forall n i s s' t, do_loop_tr run v d n i s = Some (s', t) -> forall l, ~ In l (fst t) -> val s' l = val s l.
Proof.
  intros H. induction n as [|n IH]; intros i s s' t E l Hl; cbn [do_loop_tr] in E.
  - inversion E; subst. apply val_set_sv. intros ->. apply Hl. now left.
  - inv_obind E. destruct r as [s1 t1], r0 as [s2 t2]. cbn [fst snd] in *. inversion E; subst.
    rewrite !seqT_w, wrT_w in Hl.
    rewrite (IH _ _ _ _ E1 l), (H _ _ _ E0 l) by tauto. apply val_set_sv. tauto.
Qed.

Section Frame.
  Variables (mw : musts) (ps : procs) (sg : sigs).
  Hypothesis Hok : sigs_ok mw ps sg = true.

  Lemma step_frame rec :
    (forall ss s s' t, rec ss s = Some (s', t) -> forall l, ~ In l (fst t) -> val s' l = val s l) ->
    forall st s s' t, step_tr ps rec st s = Some (s', t) ->
    forall l, ~ In l (fst t) -> val s' l = val s l.
  Proof.
    intros IH st s s' t E l Hl. apply step_tr_inv in E.
    destruct st as [x e|a idx e|v lo hi stp body|c body|c tb eb|g args|lab].
    - destruct E as (v & _ & -> & ->). apply val_set_sv. intros ->. apply Hl. now left.
    - destruct E as (i & v & _ & _ & -> & ->). apply val_set_av. intros ->. apply Hl. now left.
    - destruct E as (a & b & d & t2 & _ & _ & _ & _ & E & ->).
      exact (do_loop_tr_frame _ _ _ (IH body) _ _ _ _ _ E l Hl).
    - destruct E as [(_ & -> & _)|(s1 & t1 & t2 & _ & E1 & E2 & ->)]; [reflexivity|].
      rewrite seqT_rd_w, seqT_w in Hl. rewrite (IH _ _ _ _ E2 l), (IH _ _ _ _ E1 l) by tauto. reflexivity.
    - destruct E as (b & t1 & _ & E1 & ->). exact (IH _ _ _ _ E1 l Hl).
    - (* a location of the caller changes only through a variable actual bound to a dummy whose
         location the callee wrote *)
      destruct E as (p & s0 & s1 & tc & Ep & E0 & E2 & -> & ->).
      pose proof (proc_ok_nodup _ _ _ _ _ (find_proc_ok _ _ _ _ _ Hok Ep)) as Hnd.
      assert (forall l', In l (back (p_params p) args l') -> ~ In l' (fst tc)) as Hb.
      { intros l' A B. apply Hl. rewrite seqT_rd_w. apply in_flat_map. eauto. }
      apply copy_out_val; [reflexivity|]. intros k d Epk Ea.
      rewrite (IH _ _ _ _ E2 _ (Hb _ (back_intro _ _ _ _ _ Epk Ea))).
      exact (copy_in_val _ _ _ _ _ _ _ _ Hnd E0 Epk Ea).
    - destruct E as [-> _]. reflexivity.
  Qed.

  Theorem frame_locs : forall f ss s s' t,
    exec_tr ps f ss s = Some (s', t) -> forall l, ~ In l (fst t) -> val s' l = val s l.
  Proof.
    apply (exec_tr_ind ps (fun _ s s' t => forall l, ~ In l (fst t) -> val s' l = val s l)); [reflexivity|].
    intros f st rest s s1 t1 s' t2 IH E1 E2 l Hl. rewrite seqT_w in Hl.
    rewrite (IH _ _ _ _ E2 l), (step_frame _ IH _ _ _ _ E1 l) by tauto. reflexivity.
  Qed.

  (** the consumers' form: whatever is not in [defines] (and is not a DO variable) is unchanged *)
  Theorem frame_vars f ss s s' x :
    exec ps f ss s = Some s' -> dsafe sg ss = true ->
    ~ In x (defines_of sg ss) -> ~ In x (dovars ss) ->
    sv s' x = sv s x /\ (forall i, av s' x i = av s x i).
  Proof.
    intros E Hs Hd Hv. apply exec_exec_tr in E. destruct E as [t E].
    assert (forall l, lname l = x -> ~ In l (fst t)) as Hn.
    { intros l Hx A. destruct (defines_sound mw ps sg Hok _ _ _ _ _ E Hs _ A) as [B|B]; rewrite Hx in B; tauto. }
    split.
    - exact (frame_locs _ _ _ _ _ E (LS x) (Hn (LS x) eq_refl)).
    - intros i. exact (frame_locs _ _ _ _ _ E (LA x i) (Hn (LA x i) eq_refl)).
  Qed.
End Frame.
