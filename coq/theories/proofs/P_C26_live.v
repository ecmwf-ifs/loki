(** C26 — proofs, part 5: live sets of nodes outside loops; machine-checked counterexamples.
    Defines the witness programs, stores and signatures ([st0], [wit_*], [ps_*], [sg_*], [ex_*]) that the
    statements of T_C26 mention ([st0] also occurs in T_C27). *)
From Coq Require Import ZArith List Bool String Lia.
From LV Require Import Base.Expr Base.MiniF Base.ListFacts Base.MiniFFacts models.M_C26 proofs.P_C26 proofs.P_C26_def.
Import ListNotations.
Open Scope Z_scope.

Lemma live_before_In sg : forall ss k L x,
  In x (live_before sg L ss k) <-> In x L \/ In x (Db sg (firstn k ss)).
Proof.
  unfold live_before. induction ss as [|st r IH]; intros k L x.
  - destruct k; cbn; tauto.
  - destruct k as [|k]; [cbn; tauto|].
    cbn [firstn fold_left]. rewrite IH. unfold Db. cbn [flat_map]. rewrite !in_app_iff. tauto.
Qed.

Lemma live_before_S sg L st r k : live_before sg L (st :: r) (S k) = live_before sg (L ++ fst (du_stmt sg st)) r k.
Proof. reflexivity. Qed.

Lemma annot_body_cons sg L x r :
  annot_body sg L (x :: r) = annot_stmt sg L x ++ annot_body sg (L ++ fst (du_stmt sg x)) r.
Proof. reflexivity. Qed.

Lemma annot_body_nth sg : forall ss k L st,
  nth_error ss k = Some st -> incl (annot_stmt sg (live_before sg L ss k) st) (annot_body sg L ss).
Proof.
  induction ss as [|x r IH]; intros [|k] L st E; cbn in E; try discriminate.
  - inversion E; subst. rewrite annot_body_cons. apply incl_appl, incl_refl.
  - rewrite annot_body_cons, live_before_S. apply incl_appr. now apply IH.
Qed.

(** the node reached by [at_node] carries exactly that live set in the model's annotation *)
Lemma at_node_annot sg L ss pre lv st :
  at_node sg L ss pre lv st ->
  In (fst (du_stmt sg st), snd (du_stmt sg st), lv) (annot_body sg L ss).
Proof.
  induction 1 as [L ss k st E|L ss j c tb eb br pre lv st E H IH].
  - apply (annot_body_nth sg ss k L st E). destruct st; now left.
  - apply (annot_body_nth sg ss j L _ E). cbn [annot_stmt]. right. fold (annot_body sg).
    apply in_app_iff. destruct br; auto.
Qed.

Lemma at_node_dsafe sg L ss pre lv st : at_node sg L ss pre lv st -> dsafe sg ss = true -> dsafe sg pre = true.
Proof.
  induction 1 as [L ss k st E|L ss j c tb eb br pre lv st E H IH]; intros Hs.
  - now apply forallb_firstn.
  - rewrite dsafe_app. apply andb_true_iff. split; [now apply forallb_firstn|]. apply IH.
    pose proof (forallb_nth _ _ _ _ Hs E) as A. cbn [dsafe_stmt] in A. apply andb_true_iff in A.
    destruct br; tauto.
Qed.

Lemma at_node_live sg L ss pre lv st :
  at_node sg L ss pre lv st -> (forall x, In x L -> In x lv) /\ (forall x, In x (Db sg pre) -> In x lv).
Proof.
  induction 1 as [L ss k st E|L ss j c tb eb br pre lv st E H [IH1 IH2]].
  - split; intros x Hx; apply live_before_In; auto.
  - split; intros x Hx.
    + apply IH1. apply live_before_In. auto.
    + rewrite Db_app in Hx. apply in_app_iff in Hx. destruct Hx as [Hx|Hx]; [|auto].
      apply IH1. apply live_before_In. auto.
Qed.

Theorem live_sound_on_class mw ps sg L ss pre lv st f s s' t :
  sigs_ok mw ps sg = true -> dsafe sg ss = true ->
  at_node sg L ss pre lv st ->
  exec_tr ps f pre s = Some (s', t) ->
  (forall x, In x L -> In x lv) /\
  (forall l, In l (fst t) -> In (lname l) lv \/ In (lname l) (dovars pre)).
Proof.
  intros Hok Hs Hn E. destruct (at_node_live _ _ _ _ _ _ Hn) as [A B]. split; [exact A|].
  intros l Hl.
  destruct (defines_sound_aux mw ps sg Hok _ _ _ _ _ E (at_node_dsafe _ _ _ _ _ _ Hn Hs) _ Hl) as [H|H]; auto.
Qed.

(** * Counterexamples

    The [misses_use]/[misses_def] witnesses are boolean tests on a concrete run, evaluated by the
    kernel's virtual machine; the final store (a closure) stays inside the test and is never read
    back.  [live_refuted] and [class_nonempty] evaluate summaries and observations directly. *)
Definition st0 (sc : list (string * Z)) (cells : list (string * list Z * Z)) : store := init_store sc cells.

(** [l] is read before it is written by the run, but its name is not in [uses_of] *)
Definition misses_use (ps : procs) (sg : sigs) (f : nat) (ss : list stmt) (s : store) (l : loc) : bool :=
  match exec_tr ps f ss s with
  | Some (_, t) => mem_loc l (snd t) && negb (mem (lname l) (uses_of sg ss))
  | None => false
  end.

Lemma misses_use_spec ps sg f ss s l :
  misses_use ps sg f ss s l = true ->
  exists s' t, exec_tr ps f ss s = Some (s', t) /\ In l (snd t) /\ ~ In (lname l) (uses_of sg ss).
Proof.
  unfold misses_use. destruct (exec_tr ps f ss s) as [[s' t]|]; [|discriminate].
  rewrite andb_true_iff, negb_true_iff, mem_loc_In, mem_false. eauto.
Qed.

(** the scalar [x] is written by the run and has another value afterwards, but is not in [defines_of] *)
Definition misses_def (ps : procs) (sg : sigs) (f : nat) (ss : list stmt) (s : store) (x : string) : bool :=
  match exec_tr ps f ss s with
  | Some (s', t) => mem_loc (LS x) (fst t) && negb (mem x (defines_of sg ss)) && negb (sv s' x =? sv s x)
  | None => false
  end.

Lemma misses_def_spec ps sg f ss s x :
  misses_def ps sg f ss s x = true ->
  exists s' t, exec_tr ps f ss s = Some (s', t) /\
               In (LS x) (fst t) /\ ~ In x (defines_of sg ss) /\ sv s' x <> sv s x.
Proof.
  unfold misses_def. destruct (exec_tr ps f ss s) as [[s' t]|]; [|discriminate].
  rewrite !andb_true_iff, !negb_true_iff, mem_loc_In, mem_false, Z.eqb_neq. intros [[A B] C]. eauto 6.
Qed.

Lemma run_summary ps f ss s t : option_map snd (exec_tr ps f ss s) = Some t -> exists s', exec_tr ps f ss s = Some (s', t).
Proof.
  destruct (exec_tr ps f ss s) as [[s' t']|]; cbn; [|discriminate]. intros E. inversion E; subst. now exists s'.
Qed.

(** F9: a definition in one branch is subtracted from the later use *)
Definition wit_cond : list stmt :=
  [SIf (ECmp Cgt (EVar "c") (EInt 0)) [SAssign "x" (EInt 1)] []; SAssign "y" (EVar "x")].

Lemma uses_refuted :
  exists ss s s' t l, exec_tr [] 5 ss s = Some (s', t) /\ In l (snd t) /\ ~ In (lname l) (uses_of [] ss).
Proof.
  destruct (misses_use_spec [] [] 5 wit_cond (st0 [("c"%string, 0)] []) (LS "x")) as (s' & t & H);
    [vm_compute; reflexivity|].
  exists wit_cond, (st0 [("c"%string, 0)] []), s', t, (LS "x"). exact H.
Qed.

(** F9: a definition in a loop that makes no trip *)
Definition wit_zero : list stmt :=
  [SDo "i" (EInt 1) (EVar "n") None [SAssign "x" (EInt 1)]; SAssign "y" (EVar "x")].

Lemma uses_refuted_zero_trip :
  exists s s' t l, exec_tr [] 5 wit_zero s = Some (s', t) /\ In l (snd t) /\ ~ In (lname l) (uses_of [] wit_zero).
Proof.
  destruct (misses_use_spec [] [] 5 wit_zero (st0 [("n"%string, 0)] []) (LS "x")) as (s' & t & H); [vm_compute; reflexivity|].
  exists (st0 [("n"%string, 0)] []), s', t, (LS "x"). exact H.
Qed.

(** F9: an assignment to one array element hides the later read of another element *)
Definition wit_part : list stmt :=
  [SStore "a" [EInt 1] (EInt 1); SAssign "y" (ECall "a" [EInt 2])].

Lemma uses_refuted_partial_array :
  exists s s' t l, exec_tr [] 5 wit_part s = Some (s', t) /\ In l (snd t) /\ ~ In (lname l) (uses_of [] wit_part).
Proof.
  destruct (misses_use_spec [] [] 5 wit_part (st0 [] []) (LA "a" [2])) as (s' & t & H); [vm_compute; reflexivity|].
  exists (st0 [] []), s', t, (LA "a" [2]). exact H.
Qed.

(** the DO variable read by its own bounds is removed from the loop's uses *)
Definition wit_bounds : list stmt := [SDo "i" (EVar "i") (EInt 3) None [SAssign "y" (EVar "i")]].

Lemma uses_refuted_do_bounds :
  exists s s' t l, exec_tr [] 5 wit_bounds s = Some (s', t) /\ In l (snd t) /\ ~ In (lname l) (uses_of [] wit_bounds).
Proof.
  destruct (misses_use_spec [] [] 5 wit_bounds (st0 [("i"%string, 2)] []) (LS "i")) as (s' & t & H); [vm_compute; reflexivity|].
  exists (st0 [("i"%string, 2)] []), s', t, (LS "i"). exact H.
Qed.

(** the DO variable is changed by the loop but is not in its defines *)
Definition wit_dovar : list stmt := [SDo "i" (EInt 1) (EInt 2) None [SAssign "x" (EVar "i")]].

Lemma defines_refuted_do_variable :
  exists s s' t, exec_tr [] 5 wit_dovar s = Some (s', t) /\ In (LS "i") (fst t) /\
                 ~ In "i"%string (defines_of [] wit_dovar) /\ sv s' "i" <> sv s "i".
Proof.
  destruct (misses_def_spec [] [] 5 wit_dovar (st0 [] []) "i") as (s' & t & H); [vm_compute; reflexivity|].
  exists (st0 [] []), s', t. exact H.
Qed.

(** an enriched callee with a dummy that has no intent: the actual is neither defined nor used *)
Definition ps_noint : procs :=
  [("sub0"%string, {| p_params := [("p0"%string, false); ("p1"%string, false)];
                      p_body := [SAssign "p1" (ESum false [EVar "p1"; EVar "p0"])] |})].
Definition sg_noint : sigs := [("sub0"%string, [IIn; INone])].
Definition wit_noint : list stmt := [SCall "sub0" [EVar "x"; EVar "y"]].

Lemma call_refuted_no_intent :
  exists s s' t, exec_tr ps_noint 5 wit_noint s = Some (s', t) /\
    In (LS "y") (fst t) /\ ~ In "y"%string (defines_of sg_noint wit_noint) /\ sv s' "y" <> sv s "y" /\
    In (LS "y") (snd t) /\ ~ In "y"%string (uses_of sg_noint wit_noint).
Proof.
  set (s := st0 [("x"%string, 1); ("y"%string, 2)] []).
  destruct (misses_def_spec ps_noint sg_noint 5 wit_noint s "y") as (s' & t & E & D); [vm_compute; reflexivity|].
  destruct (misses_use_spec ps_noint sg_noint 5 wit_noint s (LS "y")) as (s2 & t2 & E2 & U); [vm_compute; reflexivity|].
  rewrite E in E2. injection E2 as <- <-. exists s, s', t. tauto.
Qed.

(** an intent(out) actual that also is a subscript of another written actual is dropped from the defines *)
Definition ps_subscr : procs :=
  [("sub0"%string, {| p_params := [("p0"%string, false); ("p1"%string, false)]; p_body := [SAssign "p0" (EInt 3)] |})].
Definition sg_subscr : sigs := [("sub0"%string, [IOut; IInOut])].
Definition wit_subscr : list stmt := [SCall "sub0" [EVar "n"; ECall "a" [EVar "n"]]].

Lemma call_refuted_out_actual_in_subscript :
  exists s s' t, exec_tr ps_subscr 5 wit_subscr s = Some (s', t) /\
    In (LS "n") (fst t) /\ ~ In "n"%string (defines_of sg_subscr wit_subscr) /\ sv s' "n" <> sv s "n".
Proof.
  destruct (misses_def_spec ps_subscr sg_subscr 5 wit_subscr (st0 [("n"%string, 1)] []) "n") as (s' & t & H); [vm_compute; reflexivity|].
  exists (st0 [("n"%string, 1)] []), s', t. exact H.
Qed.

(** live: in the second iteration the IF node of the loop body is entered while [x] holds the value
    written by the last statement of the first iteration, but its live set is {i, y} *)
Definition wit_if : stmt := SIf (ECmp Cgt (EVar "i") (EInt 1)) [SAssign "y" (EVar "x")] [].
Definition wit_live : list stmt :=
  [SAssign "y" (EInt 0); SDo "i" (EInt 1) (EInt 2) None [wit_if; SAssign "x" (EVar "i")]].
(** what has been executed when the IF is entered for the second time, and the rest of the run *)
Definition wit_live_pre2 : list stmt :=
  [SAssign "y" (EInt 0); SAssign "i" (EInt 1); wit_if; SAssign "x" (EVar "i"); SAssign "i" (EInt 2)].
Definition wit_live_rest2 : list stmt := [wit_if; SAssign "x" (EVar "i"); SAssign "i" (EInt 3)].

Lemma live_refuted :
  (exists d u lv, nth_error (annot_routine [] [("y"%string, IOut)] wit_live) 3 = Some (d, u, lv) /\
                  d = fst (du_stmt [] wit_if) /\ set_eqb lv ["i"%string; "y"%string] = true /\ ~ In "x"%string lv) /\
  (exists s' t, exec_tr [] 10 wit_live_pre2 (st0 [] []) = Some (s', t) /\ In (LS "x") (fst t)) /\
  run_observe [] 10 (wit_live_pre2 ++ wit_live_rest2) [] [] ["x"%string; "y"%string; "i"%string] [] =
  run_observe [] 10 wit_live [] [] ["x"%string; "y"%string; "i"%string] [] /\
  ~ In "x"%string (dovars wit_live).
Proof.
  split; [|split; [|split]].
  - exists ["y"%string], ["i"%string; "x"%string], ["i"%string; "y"%string].
    split; [vm_compute; reflexivity|]. split; [reflexivity|]. split; [vm_compute; reflexivity|].
    intros [H|[H|[]]]; discriminate.
  - destruct (run_summary [] 10 wit_live_pre2 (st0 [] []) ([LS "y"; LS "i"; LS "x"; LS "i"], [])) as [s' E]; [vm_compute; reflexivity|].
    exists s', ([LS "y"; LS "i"; LS "x"; LS "i"], []). split; [exact E|]. cbn. auto.
  - vm_compute. reflexivity.
  - vm_compute. intros [H|[]]. discriminate.
Qed.

(** the hypotheses of the class theorems are satisfiable by programs with loops, branches and calls:
    [sigs_ok] and [dsafe] hold of [ex_prog], [definite] of its first three statements; the whole
    program is deliberately outside [definite] (its last statement reads what a loop may define) *)
Definition ex_ps : procs :=
  [("sub0"%string, {| p_params := [("p0"%string, false); ("p1"%string, false); ("q2"%string, true)];
                      p_body := [SAssign "p1" (ESum false [EVar "p0"; ECall "q2" [EInt 1]]);
                                 SStore "q2" [EInt 2] (EVar "p1")] |})].
Definition ex_sg : sigs := [("sub0"%string, [IIn; IOut; IInOut])].
Definition ex_mw : musts := [("sub0"%string, [false; true; false])].
Definition ex_prog : list stmt :=
  [SAssign "x" (EInt 2);
   SCall "sub0" [ESum false [EVar "x"; EInt 1]; EVar "y"; EVar "a"];
   SDo "i" (EInt 1) (EVar "y") None
     [SIf (ECmp Cgt (ECall "a" [EVar "i"]) (EInt 0)) [SAssign "z" (EVar "y")] [SAssign "z" (EInt 0)];
      SStore "b" [EVar "i"] (EVar "z")];
   SAssign "w" (EVar "z")].

Example class_nonempty :
  sigs_ok ex_mw ex_ps ex_sg = true /\ dsafe ex_sg ex_prog = true /\
  definite ex_mw ex_ps ex_sg (firstn 3 ex_prog) = true /\ definite ex_mw ex_ps ex_sg ex_prog = false /\
  exists s' t, exec_tr ex_ps 10 ex_prog (st0 [] []) = Some (s', t).
Proof.
  repeat split; try (vm_compute; reflexivity).
  destruct (exec_tr ex_ps 10 ex_prog (st0 [] [])) as [[s' t]|] eqn:E; [eauto|].
  exfalso. assert (option_map (fun _ => tt) (exec_tr ex_ps 10 ex_prog (st0 [] [])) = Some tt) as A by (vm_compute; reflexivity).
  rewrite E in A. discriminate.
Qed.
