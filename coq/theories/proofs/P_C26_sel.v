(** C26 — proofs, part 6: the IF/ELSE-IF encoding of SELECT CASE has the sets of visit_MultiConditional
    and the tags do not change the value of the conditions. *)
From Coq Require Import ZArith List Bool String Lia.
From LV Require Import Base.Expr Base.MiniF Base.ListFacts models.M_C26 proofs.P_C26 proofs.P_C26_def.
Import ListNotations.
Open Scope Z_scope.

Lemma evalB_sel_head rho c : evalB rho (sel_head c) = evalB rho c.
Proof. unfold sel_head. cbn [evalB fold_right obind]. destruct (evalB rho c) as [[|]|]; reflexivity. Qed.

Lemma evalB_sel_cont rho c : evalB rho (sel_cont c) = evalB rho c.
Proof. unfold sel_cont. cbn [evalB fold_right obind]. destruct (evalB rho c) as [[|]|]; reflexivity. Qed.

Lemma evars_sel_head c x : In x (evars (sel_head c)) <-> In x (evars c).
Proof. unfold sel_head. cbn [evars flat_map]. rewrite !in_app_iff. cbn. tauto. Qed.

Lemma evars_sel_cont c x : In x (evars (sel_cont c)) <-> In x (evars c).
Proof. unfold sel_cont. cbn [evars flat_map]. rewrite !in_app_iff. cbn. tauto. Qed.

Lemma evars_case_cond sel vals x :
  vals <> [] -> (In x (evars (case_cond sel vals)) <-> In x (evars sel) \/ In x (flat_map evars vals)).
Proof.
  intros Hne. unfold case_cond. cbn [evars]. rewrite flat_map_concat_map, map_map, <- flat_map_concat_map.
  cbn [evars]. rewrite in_flat_map_app, in_flat_map_const. tauto.
Qed.

Section Sel.
  Variable sg : sigs.

  (** visit_MultiConditional in closed form: every body is visited with fresh defines, so nothing
      is subtracted from the uses *)
  Lemma select_fold : forall (cases : list (list expr * list stmt)) D U,
    fold_left (fun (acc : names * names) (cb : list expr * list stmt) =>
                 let du := du_body sg (snd cb) [] (snd acc) in (fst acc ++ fst du, snd du)) cases (D, U) =
    (D ++ flat_map (fun cb => Db sg (snd cb)) cases, U ++ flat_map (fun cb => Ub sg (snd cb)) cases).
  Proof.
    induction cases as [|[vals b] r IH]; intros D U; cbn [fold_left flat_map]; [now rewrite !app_nil_r|].
    cbn zeta. rewrite du_body_eq, diff_nil. cbn [fst snd app]. now rewrite IH, <- !app_assoc.
  Qed.

  Lemma select_du_eq sel cases dflt :
    select_du sg sel cases dflt =
    (flat_map (fun cb => Db sg (snd cb)) cases ++ Db sg dflt,
     ((evars sel ++ flat_map (fun cb => flat_map evars (fst cb)) cases) ++
      flat_map (fun cb => Ub sg (snd cb)) cases) ++ Ub sg dflt).
  Proof. unfold select_du. cbn zeta. now rewrite select_fold, du_body_eq, diff_nil. Qed.

  (** the sets of the encoding: the defines are those of the bodies, in order; every link adds the
      selector and its values to the uses *)
  Lemma chain_Db sel : forall cases tag dflt,
    Db sg (sel_chain_from tag sel cases dflt) = flat_map (fun cb => Db sg (snd cb)) cases ++ Db sg dflt.
  Proof.
    induction cases as [|[vals b] r IH]; intros tag dflt; cbn [sel_chain_from flat_map snd]; [reflexivity|].
    rewrite Db_single, du_if. cbn [fst]. now rewrite IH, <- app_assoc.
  Qed.

  Lemma chain_Ub sel : forall cases tag dflt x,
    (forall c y, In y (evars (tag c)) <-> In y (evars c)) -> Forall (fun cb => fst cb <> []) cases ->
    (In x (Ub sg (sel_chain_from tag sel cases dflt)) <->
     In x (flat_map (fun cb => evars sel ++ flat_map evars (fst cb) ++ Ub sg (snd cb)) cases) \/ In x (Ub sg dflt)).
  Proof.
    induction cases as [|[vals b] r IH]; intros tag dflt x Htag Hne; cbn [sel_chain_from flat_map fst snd]; [cbn; tauto|].
    inversion Hne as [|? ? Hv Hne']; subst. cbn [fst] in Hv.
    rewrite Ub_single, du_if. cbn [snd].
    rewrite !in_app_iff, Htag, (evars_case_cond sel vals x Hv), (IH sel_cont dflt x evars_sel_cont Hne'). tauto.
  Qed.

  (** the SELECT node of the encoding carries exactly the sets of visit_MultiConditional *)
  Theorem select_chain_sets sel cases dflt st :
    cases <> [] -> (forall cb, In cb cases -> fst cb <> []) ->
    sel_chain sel cases dflt = [st] ->
    forall x, (In x (fst (du_stmt sg st)) <-> In x (fst (select_du sg sel cases dflt))) /\
              (In x (snd (du_stmt sg st)) <-> In x (snd (select_du sg sel cases dflt))).
  Proof.
    intros Hc Hne Est x. apply Forall_forall in Hne. unfold sel_chain in Est.
    pose proof (chain_Db sel cases sel_head dflt) as C.
    pose proof (chain_Ub sel cases sel_head dflt x evars_sel_head Hne) as D.
    rewrite Est, Db_single in C. rewrite Est, Ub_single in D.
    rewrite select_du_eq, C, D. cbn [fst snd]. split; [reflexivity|].
    rewrite !in_app_iff, !in_flat_map_app, in_flat_map_const. tauto.
  Qed.
End Sel.
