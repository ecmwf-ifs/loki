(** C26 — proofs, part 4: reads of expressions, must-defines, array names, soundness of [uses] on
    the class [definite]. *)
From Coq Require Import ZArith List Bool String Lia.
From LV Require Import Base.Expr Base.MiniF Base.ListFacts Base.MiniFFacts models.M_C26 proofs.P_C26 proofs.P_C26_def.
Import ListNotations.
Open Scope Z_scope.

Lemma in_flat_map_impl {B C} (F : expr -> list B) (G : expr -> list C) (b : B) (c : C) cs :
  Forall (fun e => In b (F e) -> In c (G e)) cs -> In b (flat_map F cs) -> In c (flat_map G cs).
Proof.
  intros HF H. apply in_flat_map in H. destruct H as [e [He Hl]].
  apply in_flat_map. exists e. split; [exact He|]. rewrite Forall_forall in HF. auto.
Qed.

Lemma ereads_evars s l : forall e, In l (ereads s e) -> In (lname l) (evars e).
Proof.
  induction e using expr_ind'; cbn [ereads evars]; try contradiction;
    try (now apply in_flat_map_impl); try (rewrite !in_app_iff; tauto).
  - (* EVar *) intros [<-|[]]. now left.
  - (* ENot *) exact IHe.
  - (* ECall: a read in a subscript, or of the element itself *)
    rewrite !in_app_iff. intros [A|A].
    + right. now apply (in_flat_map_impl (ereads s) evars l (lname l)).
    + left. destruct (is_intrinsic f); [contradiction|].
      destruct (eval_idx s args); [|contradiction]. destruct A as [<-|[]]. now left.
Qed.

Lemma ereads_anames s a i : forall e, In (LA a i) (ereads s e) -> In a (eanames e).
Proof.
  induction e using expr_ind'; cbn [ereads eanames]; try contradiction;
    try (now apply in_flat_map_impl); try (rewrite !in_app_iff; tauto).
  - (* EVar *) intros [A|[]]. discriminate.
  - (* ENot *) exact IHe.
  - (* ECall: a read in a subscript, or of the element itself *)
    rewrite !in_app_iff. intros [A|A].
    + right. now apply (in_flat_map_impl (ereads s) eanames (LA a i) a).
    + left. destruct (is_intrinsic f); [contradiction|].
      destruct (eval_idx s args); [|contradiction]. destruct A as [A|[]]. inversion A. now left.
Qed.

Lemma ereads_list_evars s l es : In l (flat_map (ereads s) es) -> In (lname l) (flat_map evars es).
Proof.
  apply in_flat_map_impl. apply Forall_forall. intros e _. apply ereads_evars.
Qed.

Lemma ereads_list_anames s a i es : In (LA a i) (flat_map (ereads s) es) -> In a (flat_map eanames es).
Proof.
  apply in_flat_map_impl. apply Forall_forall. intros e _. apply ereads_anames.
Qed.

Lemma bound_reads_evars s lo hi stp l :
  In l (ereads s lo ++ ereads s hi ++ step_reads s stp) -> In (lname l) (bound_vars lo hi stp).
Proof.
  unfold bound_vars. rewrite !in_app_iff. intros [H|[H|H]]; [| |destruct stp; [|contradiction]];
    apply ereads_evars in H; auto.
Qed.

Lemma scvars_sub n : forall e, In n (scvars e) -> In n (evars e).
Proof.
  induction e using expr_ind'; cbn [scvars evars]; try contradiction;
    try (now apply in_flat_map_impl); try (rewrite !in_app_iff; tauto); try tauto.
  (* ECall *) intros A. apply in_app_iff. right. now apply (in_flat_map_impl scvars evars n n).
Qed.

Lemma subs_sc_sub n : forall e, In n (subs_sc e) -> In n (subs_all e).
Proof.
  induction e using expr_ind'; cbn [subs_sc subs_all]; try contradiction;
    try (now apply in_flat_map_impl); try (rewrite !in_app_iff; tauto); try tauto.
  (* ECall *) rewrite !in_app_iff. intros [A|A].
  - left. destruct (is_intrinsic f); [contradiction|].
    revert A. apply in_flat_map_impl. apply Forall_forall. intros e _. apply scvars_sub.
  - right. now apply (in_flat_map_impl subs_sc subs_all n n).
Qed.

Lemma arg_reads_inv s : forall params args l,
  In l (arg_reads s params args) ->
  exists k d e, nth_error params k = Some (d, false) /\ nth_error args k = Some e /\
                (forall x, e <> EVar x) /\ In l (ereads s e).
Proof.
  induction params as [|[d b] ps IH]; intros [|a r] l H; cbn [arg_reads] in H; try contradiction;
    try (destruct b; contradiction).
  destruct b.
  - apply IH in H. destruct H as [k [d' [e H]]]. exists (S k), d', e. exact H.
  - apply in_app_iff in H. destruct H as [H|H].
    + exists 0%nat, d, a. cbn. repeat split; auto.
      * intros x ->. contradiction.
      * destruct a; try exact H. contradiction.
    + apply IH in H. destruct H as [k [d' [e H]]]. exists (S k), d', e. exact H.
Qed.

Lemma call_anames_e : forall params args k d e a,
  nth_error params k = Some (d, false) -> nth_error args k = Some e -> In a (eanames e) ->
  In a (call_anames params args).
Proof.
  induction params as [|[d0 b0] ps IH]; intros [|a0 r] [|k] d e a E1 E2 H; cbn in E1, E2; try discriminate.
  - inversion E1; inversion E2; subst. cbn [call_anames]. apply in_app_iff. now left.
  - destruct b0; cbn [call_anames].
    + destruct a0; try (eapply IH; eauto). right. eapply IH; eauto.
    + apply in_app_iff. right. eapply IH; eauto.
Qed.

Lemma call_anames_a : forall params args k d a,
  nth_error params k = Some (d, true) -> nth_error args k = Some (EVar a) -> In a (call_anames params args).
Proof.
  induction params as [|[d0 b0] ps IH]; intros [|a0 r] [|k] d a E1 E2; cbn in E1, E2; try discriminate.
  - inversion E1; inversion E2; subst. cbn [call_anames]. now left.
  - destruct b0; cbn [call_anames].
    + destruct a0; try (eapply IH; eauto). right. eapply IH; eauto.
    + apply in_app_iff. right. eapply IH; eauto.
Qed.

(** an array location has its name in [N]; nothing is asked of scalars *)
Definition Pred (N : names) (l : loc) : Prop := match l with LA a _ => In a N | LS _ => True end.

Lemma Pred_mono N M l : incl N M -> Pred N l -> Pred M l.
Proof. destruct l; cbn; auto. Qed.

Lemma Pred_ereads s e N l : In l (ereads s e) -> incl (eanames e) N -> Pred N l.
Proof. destruct l; [exact (fun _ _ => I)|]. intros H HN. eapply HN, ereads_anames, H. Qed.

Lemma Pred_ereads_list s es l : In l (flat_map (ereads s) es) -> Pred (flat_map eanames es) l.
Proof. destruct l; [exact (fun _ => I)|apply ereads_list_anames]. Qed.

Section Anames.
  Variable ps : procs.

  Lemma step_anames rec :
    (forall ss s s' t, rec ss s = Some (s', t) -> forall l, touched t l -> Pred (anames ps ss) l) ->
    forall st s s' t, step_tr ps rec st s = Some (s', t) ->
    forall l, touched t l -> Pred (anames_stmt ps st) l.
  Proof.
    intros IH st s s' t E l Hl. apply step_tr_inv in E.
    destruct st as [x e|a idx e|v lo hi stp body|c body|c tb eb|g args|lab]; cbn [anames_stmt].
    - destruct E as (v & _ & _ & ->). apply touched_rd in Hl. destruct Hl as [Hl|Hl].
      + eapply Pred_ereads; [exact Hl|apply incl_refl].
      + apply touched_wr in Hl. now subst.
    - destruct E as (i & v & _ & _ & _ & ->). apply touched_rd in Hl. destruct Hl as [Hl|Hl].
      + apply (Pred_mono (flat_map eanames idx ++ eanames e)); [auto with datatypes|].
        apply in_app_iff in Hl. destruct Hl as [Hl|Hl].
        * apply Pred_ereads_list in Hl. revert Hl. apply Pred_mono. auto with datatypes.
        * eapply Pred_ereads; [exact Hl|auto with datatypes].
      + apply touched_wr in Hl. subst. now left.
    - destruct E as (a & b & d & t2 & _ & _ & _ & _ & E & ->). apply touched_rd in Hl.
      rewrite !in_app_iff in Hl. destruct Hl as [[Hl|[Hl|Hl]]|Hl].
      + eapply Pred_ereads; [exact Hl|auto with datatypes].
      + eapply Pred_ereads; [exact Hl|auto with datatypes].
      + destruct stp as [e|]; [|contradiction]. eapply Pred_ereads; [exact Hl|auto with datatypes].
      + apply (Pred_mono (anames ps body)); [unfold anames; auto with datatypes|].
        exact (do_loop_tr_any (Pred (anames ps body)) _ _ _ (IH body) I _ _ _ _ _ E l Hl).
    - destruct E as [(_ & _ & ->)|(s1 & t1 & t2 & _ & E1 & E2 & ->)].
      + destruct Hl as [[]|Hl]. eapply Pred_ereads; [exact Hl|auto with datatypes].
      + apply touched_rd in Hl. destruct Hl as [Hl|Hl]; [|apply touched_seqT in Hl; destruct Hl as [Hl|Hl]].
        * eapply Pred_ereads; [exact Hl|auto with datatypes].
        * apply (IH _ _ _ _ E1) in Hl. revert Hl. apply Pred_mono. unfold anames. auto with datatypes.
        * apply (IH _ _ _ _ E2) in Hl. revert Hl. apply Pred_mono.
          unfold anames. cbn [flat_map anames_stmt]. rewrite app_nil_r. apply incl_refl.
    - destruct E as (b & t1 & _ & E1 & ->). apply touched_rd in Hl. destruct Hl as [Hl|Hl].
      + eapply Pred_ereads; [exact Hl|auto with datatypes].
      + apply (IH _ _ _ _ E1) in Hl. revert Hl. apply Pred_mono. unfold anames. destruct b; auto with datatypes.
    - destruct E as (p & s0 & s1 & tc & Ep & E0 & E2 & _ & ->). rewrite Ep. apply touched_rd in Hl.
      assert (In l (arg_reads s (p_params p) args) \/ exists l', In l (back (p_params p) args l')) as [A|[l' A]].
      { destruct Hl as [Hl|[Hl|Hl]]; [auto| |]; apply in_flat_map in Hl; destruct Hl as [l' [_ Hl]]; eauto. }
      + apply arg_reads_inv in A. destruct A as [k [d [e [Epk [Ea [_ A]]]]]].
        destruct l as [x|a i]; cbn; [exact I|]. eapply call_anames_e; eauto. eapply ereads_anames; eauto.
      + apply back_inv in A. destruct A as [k [d [b [x [Epk [Ea [[_ [_ ->]]|[-> [i [_ ->]]]]]]]]]]; cbn; [exact I|].
        eapply call_anames_a; eauto.
    - destruct E as [_ ->]. destruct Hl as [[]|[]].
  Qed.

  Lemma anames_sound : forall f ss s s' t,
    exec_tr ps f ss s = Some (s', t) -> forall l, In l (fst t) \/ In l (snd t) -> Pred (anames ps ss) l.
  Proof.
    apply (exec_tr_ind ps (fun ss _ _ t => forall l, touched t l -> Pred (anames ps ss) l)).
    - intros _ l [[]|[]].
    - intros f st rest s s1 t1 s' t2 IH E1 E2 l Hl. apply touched_seqT in Hl. destruct Hl as [Hl|Hl].
      + apply (step_anames _ IH _ _ _ _ E1) in Hl. revert Hl. apply Pred_mono. unfold anames. cbn. auto with datatypes.
      + apply (IH _ _ _ _ E2) in Hl. revert Hl. apply Pred_mono. unfold anames. cbn. auto with datatypes.
  Qed.
End Anames.

Lemma definite_cons mw ps sg x r :
  definite mw ps sg (x :: r) =
  definite_stmt mw ps sg x && definite mw ps sg r &&
  forallb (fun n => mem n (snd (du_stmt sg x)) || (mem n (mdef_stmt mw x) && negb (mem n (anames ps r))))
          (inter (uses_of sg r) (fst (du_stmt sg x))).
Proof. reflexivity. Qed.

Section Uses.
  Variables (mw : musts) (ps : procs) (sg : sigs).
  Hypothesis Hok : sigs_ok mw ps sg = true.

  Lemma step_mdef rec :
    (forall ss s s' t, rec ss s = Some (s', t) -> forall x, In x (mdef mw ss) -> In (LS x) (fst t)) ->
    forall st s s' t, step_tr ps rec st s = Some (s', t) ->
    forall x, In x (mdef_stmt mw st) -> In (LS x) (fst t).
  Proof.
    intros IH st s s' t E x Hx. apply step_tr_inv in E.
    destruct st as [y e|a idx e|v lo hi stp body|c body|c tb eb|g args|lab]; cbn [mdef_stmt] in Hx; try contradiction.
    - destruct E as (v & _ & _ & ->). destruct Hx as [->|[]]. now left.
    - destruct E as (b & t1 & _ & E1 & ->). apply In_inter in Hx. destruct Hx as [H1 H2].
      rewrite seqT_rd_w. destruct b; eapply IH; eauto.
    - (* a flagged scalar dummy is assigned by the callee, hence the variable actual bound to it *)
      destruct E as (p & s0 & s1 & tc & Ep & E0 & E2 & _ & ->).
      destruct (find_must mw g) as [fl|] eqn:Em; [|contradiction].
      apply in_flat_map in Hx. destruct Hx as [[b a] [Hc Hx]].
      destruct b; [|contradiction]. destruct a; try contradiction. destruct Hx as [->|[]].
      apply In_combine_nth in Hc. destruct Hc as [k [Ef Ea]].
      pose proof (find_proc_ok _ _ _ _ _ Hok Ep) as Hp.
      destruct (nth_error_len args (p_params p) k _ (eq_sym (copy_in_len _ _ _ _ _ E0)) Ea) as [[d isarr] Epk].
      destruct (proc_ok_must _ _ _ _ _ _ Hp Em k d isarr Ef Epk) as [-> Hd].
      rewrite seqT_rd_w. apply in_flat_map. exists (LS d). split.
      + eapply IH; eauto.
      + exact (back_intro _ _ k d (LS x) Epk Ea).
  Qed.

  Lemma mdef_sound : forall f ss s s' t,
    exec_tr ps f ss s = Some (s', t) -> forall x, In x (mdef mw ss) -> In (LS x) (fst t).
  Proof.
    apply (exec_tr_ind ps (fun ss _ _ t => forall x, In x (mdef mw ss) -> In (LS x) (fst t))).
    - intros _ x [].
    - intros f st rest s s1 t1 s' t2 IH E1 E2 x Hx.
      unfold mdef in Hx. cbn [flat_map] in Hx. apply in_app_iff in Hx. apply seqT_w.
      destruct Hx as [Hx|Hx]; [left; eapply (step_mdef _ IH); eauto|right; eapply IH; eauto].
  Qed.

  Lemma in_inv_vals (its : list intent) (args : list expr) k it (e : expr) :
    nth_error its k = Some it -> nth_error args k = Some e -> is_in it = true ->
    In e (map snd (filter (fun p => is_in (fst p)) (combine its args))).
  Proof.
    intros E1 E2 Hi. apply in_map_iff. exists (it, e). split; [reflexivity|].
    apply filter_In. split; [|exact Hi]. eapply nth_error_In. apply nth_combine; eauto.
  Qed.

  Lemma evars_in_uses_none args n :
    In n (flat_map evars args) -> In n (snd (call_du None args)).
  Proof.
    intros H. cbn [call_du snd]. apply in_app_iff.
    destruct (mem n (flat_map subs_sc args)) eqn:E.
    - right. apply mem_In in E. apply in_flat_map in E. destruct E as [e [He Hn]].
      apply in_flat_map. exists e. split; [exact He|]. now apply subs_sc_sub.
    - left. apply In_diff. split; [exact H|]. now apply mem_false.
  Qed.

  Lemma step_use f :
    (forall ss s s' t, exec_tr ps f ss s = Some (s', t) -> definite mw ps sg ss = true ->
                       forall l, In l (snd t) -> In (lname l) (Ub sg ss)) ->
    forall st s s' t, step_tr ps (exec_tr ps f) st s = Some (s', t) -> definite_stmt mw ps sg st = true ->
    forall l, In l (snd t) -> In (lname l) (snd (du_stmt sg st)).
  Proof.
    intros IH st s s' t E Hd l Hl. apply step_tr_inv in E.
    destruct st as [x e|a idx e|v lo hi stp body|c body|c tb eb|g args|lab]; cbn [definite_stmt] in Hd.
    - destruct E as (v & _ & _ & ->). apply seqT_rd_r in Hl. destruct Hl as [Hl|[]]. now apply ereads_evars in Hl.
    - destruct E as (i & v & _ & _ & _ & ->). apply seqT_rd_r in Hl. destruct Hl as [Hl|[]].
      cbn [du_stmt snd]. rewrite in_app_iff in *.
      destruct Hl as [Hl|Hl]; [left; now apply ereads_list_evars in Hl|right; now apply ereads_evars in Hl].
    - destruct E as (a & b & d & t2 & _ & _ & _ & _ & E & ->).
      rewrite !andb_true_iff, !negb_true_iff, !mem_false in Hd.
      destruct Hd as [[Hvb Hva] Hdb]. fold (definite mw ps sg body) in Hdb.
      rewrite du_do. apply In_rem1. rewrite in_app_iff. apply seqT_rd_r in Hl. destruct Hl as [Hl|Hl].
      + apply bound_reads_evars in Hl. split; [now left|]. intros Ev. apply Hvb. now rewrite <- Ev.
      + (* a read of the loop is a read of some iteration and is not the DO variable: not the scalar
           (written first in every iteration), not an array of that name ([definite]) *)
        destruct (do_loop_tr_r (fun l => In (lname l) (Ub sg body)) _ v d
                    (fun s0 s1 t1 R l0 Hl0 => IH _ _ _ _ R Hdb l0 Hl0) _ _ _ _ _ E l Hl) as [HU Hne].
        split; [now right|]. intros Ev.
        pose proof (do_loop_tr_any (Pred (anames ps body)) _ v d
                      (fun s0 s1 t1 R => anames_sound ps _ _ _ _ _ R) I _ _ _ _ _ E l (or_intror Hl)) as HA.
        destruct l as [y|y i]; cbn [lname] in Ev; subst y; [now apply Hne|]. contradiction.
    - fold (definite mw ps sg body) in Hd. rewrite du_while. cbn [snd]. rewrite in_app_iff.
      destruct E as [(_ & _ & ->)|(s1 & t1 & t2 & _ & E1 & E2 & ->)].
      + left. now apply ereads_evars in Hl.
      + apply seqT_rd_r in Hl. destruct Hl as [Hl|Hl]; [left; now apply ereads_evars in Hl|].
        apply seqT_r_weak in Hl. destruct Hl as [Hl|Hl]; [right; eapply IH; eauto|].
        assert (definite mw ps sg [SWhile c body] = true) as Hd'.
        { rewrite definite_cons. cbn [definite_stmt]. fold (definite mw ps sg body). now rewrite Hd. }
        apply (IH _ _ _ _ E2 Hd') in Hl. rewrite Ub_single, du_while in Hl. now apply in_app_iff in Hl.
    - destruct E as (b & t1 & _ & E1 & ->).
      apply andb_true_iff in Hd. destruct Hd as [Ht He].
      fold (definite mw ps sg tb) in Ht. fold (definite mw ps sg eb) in He.
      rewrite du_if. cbn [snd]. rewrite !in_app_iff. apply seqT_rd_r in Hl.
      destruct Hl as [Hl|Hl]; [left; left; now apply ereads_evars in Hl|].
      destruct b; [left; right|right]; eapply IH; eauto.
    - destruct E as (p & s0 & s1 & tc & Ep & E0 & E2 & _ & ->).
      cbn [du_stmt]. unfold call_usafe in Hd.
      pose proof (find_proc_ok _ _ _ _ _ Hok Ep) as Hp.
      apply seqT_rd_r in Hl.
      assert ((exists k d e, nth_error (p_params p) k = Some (d, false) /\ nth_error args k = Some e /\
                 (forall x, e <> EVar x) /\ In (lname l) (evars e)) \/
              (exists k d b l', nth_error (p_params p) k = Some (d, b) /\ nth_error args k = Some (EVar (lname l)) /\
                 In l' (snd tc) /\ lname l' = d)) as Hcase.
      { destruct Hl as [Hl|Hl].
        - left. apply arg_reads_inv in Hl. destruct Hl as (k & d & e & Epk & Ea & Hne & Hl).
          apply ereads_evars in Hl. eauto 8.
        - right. apply in_flat_map in Hl. destruct Hl as [l' [Hl' Hb]].
          apply back_names in Hb. destruct Hb as (k & b & Epk & Ea). eauto 8. }
      destruct (find_sig sg g) as [its|] eqn:Es.
      + (* with call context: reads come through dummies of intent in/inout *)
        destruct (proc_ok_sig _ _ _ _ _ _ Hp Es) as [Hl1 _ Hdef _ Hnoin].
        apply andb_true_iff in Hd. destruct Hd as [Hl2 Hf]. apply Nat.eqb_eq in Hl2.
        cbn [call_du snd]. apply in_app_iff. right. apply in_flat_map.
        destruct Hcase as [(k & d & e & Epk & Ea & Hne & Hl')|(k & d & b & l' & Epk & Ea & Hl' & Hd')].
        * destruct (nth_error_len args its k e (eq_sym Hl2) Ea) as [it Eit].
          pose proof (forallb_combine_nth _ _ _ k it e Hf Eit Ea) as Hi. cbn beta iota in Hi.
          assert (is_in it = true) as Hin by (destruct e; try exact Hi; exfalso; eapply Hne; reflexivity).
          exists e. split; [eapply in_inv_vals; eauto|exact Hl'].
        * destruct (nth_error_len (p_params p) its k (d, b) (eq_sym Hl1) Epk) as [it Eit].
          pose proof (IH _ _ _ _ E2 Hdef _ Hl') as HU. rewrite Hd' in HU.
          destruct (is_in it) eqn:Ei; [|exfalso; exact (Hnoin k it d b Eit Epk Ei HU)].
          exists (EVar (lname l)). split; [eapply in_inv_vals; eauto|now left].
      + apply evars_in_uses_none. apply in_flat_map.
        destruct Hcase as [(k & d & e & _ & Ea & _ & Hl')|(k & d & b & l' & _ & Ea & _)].
        * exists e. split; [eapply nth_error_In; eauto|exact Hl'].
        * exists (EVar (lname l)). split; [eapply nth_error_In; eauto|now left].
    - destruct E as [_ ->]. contradiction.
  Qed.

  Lemma uses_sound_aux : forall f ss s s' t,
    exec_tr ps f ss s = Some (s', t) -> definite mw ps sg ss = true ->
    forall l, In l (snd t) -> In (lname l) (Ub sg ss).
  Proof.
    apply (exec_tr_ind ps (fun ss _ _ t => definite mw ps sg ss = true -> forall l, In l (snd t) -> In (lname l) (Ub sg ss))).
    - intros _ _ l [].
    - intros f st rest s s1 t1 s' t2 IH E1 E2 Hd l Hl.
      rewrite definite_cons, !andb_true_iff in Hd. destruct Hd as [[Hd1 Hd2] Hf].
      cbn [Ub]. apply in_app_iff. apply seqT_r in Hl. destruct Hl as [Hl|[Hl Hn]].
      + left. eapply (step_use f IH); eauto.
      + (* a read of the rest that [st] did not write: if the attacher subtracts it, it is a must-define
           of [st] ([definite]), so [st] wrote the scalar, and the name is no array in the rest *)
        pose proof (IH _ _ _ _ E2 Hd2 _ Hl) as HU.
        destruct (mem (lname l) (fst (du_stmt sg st))) eqn:Em.
        * apply mem_In in Em. rewrite forallb_forall in Hf.
          assert (In (lname l) (inter (uses_of sg rest) (fst (du_stmt sg st)))) as Hi
            by (apply In_inter; split; [now rewrite uses_of_eq|exact Em]).
          specialize (Hf _ Hi). apply orb_true_iff in Hf. destruct Hf as [Hf|Hf]; [left; now apply mem_In|].
          exfalso. apply andb_true_iff in Hf. destruct Hf as [Hm Ha].
          apply mem_In in Hm. apply negb_true_iff, mem_false in Ha.
          pose proof (step_mdef _ (mdef_sound f) _ _ _ _ E1 _ Hm) as Hw.
          destruct l as [x|a i]; cbn [lname] in *.
          -- now apply Hn.
          -- apply Ha. exact (anames_sound ps _ _ _ _ _ E2 (LA a i) (or_intror Hl)).
        * right. apply In_diff. split; [exact HU|now apply mem_false].
  Qed.

  Theorem uses_sound_on_class f ss s s' t :
    exec_tr ps f ss s = Some (s', t) -> definite mw ps sg ss = true ->
    forall l, In l (snd t) -> In (lname l) (uses_of sg ss).
  Proof.
    rewrite uses_of_eq. apply uses_sound_aux.
  Qed.
End Uses.
