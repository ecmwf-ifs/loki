(** C27 — proofs, part 1: completeness of loop_carried_dependencies on the class; structural facts
    about the FindReads pass.  Defines [fd], which the statement of [T_C27.C27_raw_split] mentions. *)
From Coq Require Import ZArith List Bool String Lia.
From LV Require Import Base.Expr Base.MiniF Base.MiniFFacts models.M_C26 models.M_C27
     proofs.P_C26 proofs.P_C26_def proofs.P_C26_use.
Import ListNotations.
Open Scope Z_scope.

Lemma iters_tr_nth run v d : forall n i s its k t,
  iters_tr run v d n i s = Some its -> nth_error its k = Some t ->
  exists s0 s1 tb, run s0 = Some (s1, tb) /\ t = seqT (wrT (LS v)) tb.
Proof.
  induction n as [|n IH]; intros i s its k t E Hk; cbn [iters_tr] in E.
  - inversion E; subst. destruct k; discriminate.
  - inv_obind E. destruct r as [s1 t1]. cbn [fst snd] in *. inversion E; subst.
    destruct k as [|k]; cbn in Hk.
    + inversion Hk; subst. eauto.
    + eapply IH; eauto.
Qed.

(** the iterations listed by [loop_iters] are those of the run of the loop *)
Lemma do_loop_iters run v d : forall n i s s' t,
  do_loop_tr run v d n i s = Some (s', t) ->
  exists its, iters_tr run v d n i s = Some its /\ List.length its = n /\
              (forall l, In l (fst t) <-> l = LS v \/ exists ti, In ti its /\ In l (fst ti)).
Proof.
  induction n as [|n IH]; intros i s s' t E; cbn [do_loop_tr] in E.
  - inversion E; subst. exists []. repeat split; auto.
    + intros H. apply wrT_w in H. auto.
    + intros [->|[ti [[] _]]]. now apply wrT_w.
  - inv_obind E. destruct r as [s1 t1], r0 as [s2 t2]. cbn [fst snd] in *. inversion E; subst.
    destruct (IH _ _ _ _ E1) as [its [Ei [Hlen Hw]]].
    exists (seqT (wrT (LS v)) t1 :: its). cbn [iters_tr]. rewrite E0. cbn [obind fst snd]. rewrite Ei. cbn [obind].
    split; [reflexivity|]. split; [cbn; now rewrite Hlen|].
    intros l. rewrite seqT_w, Hw. split.
    + intros [H|[H|[ti [H1 H2]]]]; auto.
      * right. exists (seqT (wrT (LS v)) t1). split; [now left|exact H].
      * right. exists ti. split; [now right|exact H2].
    + intros [H|[ti [[<-|H1] H2]]]; auto. right. right. eauto.
Qed.

Lemma loop_iters_of_run ps f v lo hi stp body s s' t :
  step_tr ps (exec_tr ps f) (SDo v lo hi stp body) s = Some (s', t) ->
  exists its, loop_iters ps f v lo hi stp body s = Some its /\
              (forall l, In l (fst t) <-> l = LS v \/ exists ti, In ti its /\ In l (fst ti)).
Proof.
  intros E. apply step_tr_inv in E. destruct E as (a & b & d & t2 & Ea & Eb & Ed & Ed0 & E & ->).
  unfold loop_iters. rewrite Ea, Eb, Ed. cbn [obind]. rewrite Ed0.
  destruct (do_loop_iters _ _ _ _ _ _ _ _ E) as [its [Ei [_ Hw]]]. exists its. split; [exact Ei|exact Hw].
Qed.

Section Lcd.
  Variables (mw : musts) (ps : procs) (sg : sigs).
  Hypothesis Hok : sigs_ok mw ps sg = true.

  Theorem lcd_complete_on_class f v lo hi stp body s its x :
    loop_iters ps f v lo hi stp body s = Some its ->
    definite_stmt mw ps sg (SDo v lo hi stp body) = true -> dsafe sg body = true ->
    carried x its -> ~ In x (dovars body) ->
    In x (lcd sg (SDo v lo hi stp body)).
  Proof.
    intros E Hd Hs [j [k [tj [tk [l [Hjk [Ej [Ek [Hw [Hr Hx]]]]]]]]]] Hnv.
    unfold loop_iters in E. inv_obind E. destruct (r1 =? 0); [discriminate|].
    cbn [definite_stmt] in Hd. rewrite !andb_true_iff, !negb_true_iff, !mem_false in Hd.
    destruct Hd as [[Hvb Hva] Hdb]. fold (definite mw ps sg body) in Hdb.
    destruct (iters_tr_nth _ _ _ _ _ _ _ _ _ E Ej) as [s0 [s1 [tb [Rj ->]]]].
    destruct (iters_tr_nth _ _ _ _ _ _ _ _ _ E Ek) as [s2 [s3 [tb' [Rk ->]]]].
    (* the read in iteration k: of the body, not of the DO variable *)
    apply seqT_r in Hr. destruct Hr as [[]|[Hr Hn]].
    assert (l <> LS v) as Hlv by (intros ->; apply Hn; now left).
    pose proof (uses_sound_aux mw ps sg Hok _ _ _ _ _ Rk Hdb _ Hr) as HU.
    pose proof (anames_sound ps _ _ _ _ _ Rk l (or_intror Hr)) as HA.
    assert (x <> v) as Hxv.
    { intros ->. destruct l as [y|y i]; cbn [lname] in Hx; subst y; [now apply Hlv|]. contradiction. }
    rewrite seqT_w, wrT_w in Hw. destruct Hw as [->|Hw]; [cbn in Hx; congruence|].
    destruct (defines_sound_aux mw ps sg Hok _ _ _ _ _ Rj Hs _ Hw) as [HD|HD]; rewrite Hx in HD; [|contradiction].
    unfold lcd. rewrite du_do. cbn [fst snd]. rewrite In_inter, !In_rem1, in_app_iff. rewrite Hx in HU. auto.
  Qed.
End Lcd.

(** the state of a FindReads pass: active flag, candidates, reads found *)
Definition fa (a : frs) : bool := fst (fst a).
Definition fc (a : frs) : names := snd (fst a).
Definition fd (a : frs) : names := snd a.

Lemma fr_body_cons sg x r a : fr_body sg (x :: r) a = fr_body sg r (fr_stmt sg a x).
Proof. reflexivity. Qed.

Lemma fr_body_app sg a1 a2 a : fr_body sg (a1 ++ a2) a = fr_body sg a2 (fr_body sg a1 a).
Proof. unfold fr_body. apply fold_left_app. Qed.

(** what the proofs need of a FindReads pass [run] over statements with DO variables [dv]: once active
    it stays active, its candidates do not depend on the reads found so far, those reads are kept up
    to [dv] (visit_Loop discards the loop variable from them), and without a marker an inactive pass
    does nothing *)
Record fr_facts (sg : sigs) (dv : names) (nm : bool) (run : frs -> frs) : Prop := {
  ff_act : forall C Rd, fa (run (true, C, Rd)) = true;
  ff_indep : forall C Rd Rd2, fc (run (true, C, Rd2)) = fc (run (true, C, Rd));
  ff_reads : forall C Rd n, In n Rd -> ~ In n dv -> In n (fd (run (true, C, Rd)));
  ff_idle : nm = true -> forall C Rd, run (false, C, Rd) = (false, C, Rd)
}.

Lemma frs_eta (a : frs) : a = (fa a, fc a, fd a).
Proof. now destruct a as [[? ?] ?]. Qed.

Lemma fr_facts_body sg : forall ss,
  Forall (fun st => fr_facts sg (dovars_stmt st) (nomark_stmt st) (fun a => fr_stmt sg a st)) ss ->
  fr_facts sg (dovars ss) (nomark ss) (fr_body sg ss).
Proof.
  induction ss as [|st r IH]; intros HF.
  - constructor; cbn; auto.
  - inversion HF as [|? ? Hst Hr]; subst. specialize (IH Hr). destruct Hst as [A1 B1 C1 E1]. destruct IH as [A2 B2 C2 E2].
    constructor.
    + intros C Rd. rewrite fr_body_cons, (frs_eta (fr_stmt sg _ st)), A1. apply A2.
    + intros C Rd Rd2. rewrite !fr_body_cons, (frs_eta (fr_stmt sg (true, C, Rd) st)), (frs_eta (fr_stmt sg (true, C, Rd2) st)), !A1, (B1 C Rd Rd2).
      apply B2.
    + intros C Rd n Hn Hd. unfold dovars in Hd. cbn [flat_map] in Hd. rewrite in_app_iff in Hd.
      rewrite fr_body_cons, (frs_eta (fr_stmt sg _ st)), A1. apply C2; [apply C1|]; tauto.
    + intros Hnm C Rd. rewrite fr_body_cons. cbn [nomark forallb] in Hnm. apply andb_true_iff in Hnm. destruct Hnm as [N1 N2].
      rewrite (E1 N1). apply (E2 N2).
Qed.

Lemma fr_stmt_do sg act C Rd v lo hi stp b :
  fr_stmt sg (act, C, Rd) (SDo v lo hi stp b) =
  let r := fr_body sg b (act, (if act then rem1 v C else C), (if act then Rd ++ inter (bound_vars lo hi stp) C else Rd)) in
  (fa r, fc r, if act then rem1 v (fd r) else fd r).
Proof.
  unfold fr_body. cbn [fr_stmt is_mark]. rewrite orb_false_r. cbn zeta.
  destruct (fold_left (fr_stmt sg) b _) as [[a2 c2] r2]. reflexivity.
Qed.

Lemma fr_stmt_while sg act C Rd c b :
  fr_stmt sg (act, C, Rd) (SWhile c b) = fr_body sg b (act, C, (if act then Rd ++ inter (evars c) C else Rd)).
Proof. cbn [fr_stmt is_mark]. now rewrite orb_false_r. Qed.

Lemma fr_stmt_if sg act C Rd c tb eb :
  fr_stmt sg (act, C, Rd) (SIf c tb eb) =
  let r1 := fr_body sg tb (act, C, (if act then Rd ++ inter (evars c) C else Rd)) in
  let r2 := fr_body sg eb (fa r1, C, fd r1) in
  (fa r2, (if fa r2 then fc r2 ++ fc r1 else C), fd r2).
Proof.
  unfold fr_body. cbn [fr_stmt is_mark]. rewrite orb_false_r. cbn zeta.
  destruct (fold_left (fr_stmt sg) tb _) as [[a1 c1] r1]. cbn [fa fc fd fst snd].
  destruct (fold_left (fr_stmt sg) eb _) as [[a2 c2] r2]. reflexivity.
Qed.

Definition is_leaf (st : stmt) : bool :=
  match st with SDo _ _ _ _ _ | SWhile _ _ | SIf _ _ _ => false | _ => true end.

Lemma fr_stmt_leaf sg act0 C Rd st :
  is_leaf st = true ->
  fr_stmt sg (act0, C, Rd) st =
  let act := act0 || is_mark st in
  (act, (if act then diff C (fst (du_stmt sg st)) else C), (if act then Rd ++ inter (snd (du_stmt sg st)) C else Rd)).
Proof. destruct st; cbn [is_leaf]; try discriminate; reflexivity. Qed.

Lemma fr_facts_stmt sg : forall st, fr_facts sg (dovars_stmt st) (nomark_stmt st) (fun a => fr_stmt sg a st).
Proof.
  induction st as [x e|x i e|v lo hi stp b IHb|c b IHb|c t e IHt IHe|g args|lab] using stmt_ind'.
  1, 2, 6, 7: (* the leaves: SAssign, SStore, SCall, SSkip *)
    (constructor;
     [ intros C Rd; rewrite fr_stmt_leaf by reflexivity; reflexivity
     | intros C Rd Rd2; rewrite !fr_stmt_leaf by reflexivity; reflexivity
     | intros C Rd n Hn _; rewrite fr_stmt_leaf by reflexivity; apply in_app_iff; now left
     | intros Hnm C Rd; rewrite fr_stmt_leaf by reflexivity; cbn [nomark_stmt] in Hnm;
       apply andb_true_iff in Hnm; destruct Hnm as [Hnm _]; apply negb_true_iff in Hnm; rewrite Hnm; reflexivity ]).
  - pose proof (fr_facts_body sg b IHb) as [A B Cc E].
    constructor.
    + intros C Rd. rewrite fr_stmt_do. apply A.
    + intros C Rd Rd2. rewrite !fr_stmt_do. apply B.
    + intros C Rd n Hn Hd. rewrite fr_stmt_do. cbn [dovars_stmt In] in Hd. fold (dovars b) in Hd.
      apply In_rem1. split; [apply Cc; [apply in_app_iff; now left|tauto]|intros ->; tauto].
    + intros Hnm C Rd. rewrite fr_stmt_do. cbn [nomark_stmt is_mark negb andb] in Hnm. fold (nomark b) in Hnm.
      cbn zeta. rewrite (E Hnm). reflexivity.
  - pose proof (fr_facts_body sg b IHb) as [A B Cc E].
    constructor.
    + intros C Rd. rewrite fr_stmt_while. apply A.
    + intros C Rd Rd2. rewrite !fr_stmt_while. apply B.
    + intros C Rd n Hn Hd. rewrite fr_stmt_while. apply Cc; [apply in_app_iff; now left|exact Hd].
    + intros Hnm C Rd. rewrite fr_stmt_while. cbn [nomark_stmt is_mark negb andb] in Hnm. exact (E Hnm C Rd).
  - (* IF: the else branch starts active, with the reads of the then branch *)
    pose proof (fr_facts_body sg t IHt) as [A1 B1 C1 E1].
    pose proof (fr_facts_body sg e IHe) as [A2 B2 C2 E2].
    constructor.
    + intros C Rd. rewrite fr_stmt_if. cbn zeta. cbn [fa fst]. rewrite A1. apply A2.
    + intros C Rd Rd2. rewrite !fr_stmt_if. cbn zeta. cbn [fc fst snd]. rewrite !A1, !A2.
      f_equal; [apply B2|apply B1].
    + intros C Rd n Hn Hd. rewrite fr_stmt_if. cbn zeta. cbn [fd snd]. rewrite A1.
      cbn [dovars_stmt] in Hd. fold (dovars t) in Hd. fold (dovars e) in Hd. rewrite in_app_iff in Hd.
      apply C2; [apply C1; [apply in_app_iff; now left|]|]; tauto.
    + intros Hnm C Rd. rewrite fr_stmt_if. cbn [nomark_stmt is_mark negb andb] in Hnm.
      fold (nomark t) in Hnm. fold (nomark e) in Hnm. apply andb_true_iff in Hnm. destruct Hnm as [N1 N2].
      cbn zeta. rewrite (E1 N1). cbn [fa fd fst snd]. rewrite (E2 N2). reflexivity.
Qed.

Lemma fr_facts_all sg ss : fr_facts sg (dovars ss) (nomark ss) (fr_body sg ss).
Proof. apply fr_facts_body. apply Forall_forall. intros st _. apply fr_facts_stmt. Qed.

(** an active pass stays active, ends with the candidates [fr_cands] whatever reads it started with,
    and keeps the reads it started with, up to DO variables *)
Lemma fr_body_true sg C Rd ss :
  fr_body sg ss (true, C, Rd) = (true, fr_cands sg C ss, fd (fr_body sg ss (true, C, Rd))).
Proof.
  rewrite (frs_eta (fr_body sg ss (true, C, Rd))) at 1. destruct (fr_facts_all sg ss) as [A B _ _].
  now rewrite A, (B C [] Rd).
Qed.

Lemma fr_keeps sg C Rd ss n : In n Rd -> ~ In n (dovars ss) -> In n (fd (fr_body sg ss (true, C, Rd))).
Proof. destruct (fr_facts_all sg ss) as [_ _ K _]. apply K. Qed.
