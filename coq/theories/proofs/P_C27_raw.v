(** C27 — proofs, part 2: structural facts about the FindWrites pass, completeness of
    read_after_write_vars on the class; the counterexamples of both queries (they use the store [st0]
    of P_C26_live) and their witness programs, which the statements of T_C27 mention. *)
From Coq Require Import ZArith List Bool String Lia.
From LV Require Import Base.Expr Base.MiniF Base.MiniFFacts models.M_C26 models.M_C27
     proofs.P_C26 proofs.P_C26_def proofs.P_C26_use proofs.P_C26_live proofs.P_C27.
Import ListNotations.
Open Scope Z_scope.

Lemma fw_body_cons sg x r a : fw_body sg (x :: r) a = fw_body sg r (fw_stmt sg a x).
Proof. reflexivity. Qed.

Lemma fw_body_app sg a1 a2 a : fw_body sg (a1 ++ a2) a = fw_body sg a2 (fw_body sg a1 a).
Proof. unfold fw_body. apply fold_left_app. Qed.

Record fw_facts (dv : names) (nm : bool) (D : names) (run : bool * names -> bool * names) : Prop := {
  fwf_idle : forall W, run (false, W) = (false, W);
  fwf_act : nm = true -> forall W, fst (run (true, W)) = true /\
            forall x, In x W \/ In x D -> ~ In x dv -> In x (snd (run (true, W)))
}.

Lemma fw_facts_body sg : forall ss,
  Forall (fun st => fw_facts (dovars_stmt st) (nomark_stmt st) (fst (du_stmt sg st)) (fun a => fw_stmt sg a st)) ss ->
  fw_facts (dovars ss) (nomark ss) (Db sg ss) (fw_body sg ss).
Proof.
  induction ss as [|st r IH]; intros HF.
  - constructor; [reflexivity|]. intros _ W. split; [reflexivity|]. cbn. tauto.
  - inversion HF as [|? ? Hst Hr]; subst. specialize (IH Hr). destruct Hst as [A1 B1]. destruct IH as [A2 B2].
    constructor.
    + intros W. rewrite fw_body_cons, A1. apply A2.
    + intros Hnm W. cbn [nomark forallb] in Hnm. apply andb_true_iff in Hnm. destruct Hnm as [N1 N2].
      rewrite fw_body_cons. destruct (B1 N1 W) as [Ha Hx].
      destruct (fw_stmt sg (true, W) st) as [a1 W1]. cbn [fst snd] in *. subst a1.
      destruct (B2 N2 W1) as [Ha2 Hx2]. split; [exact Ha2|].
      intros x Hin Hd. unfold dovars in Hd. cbn [flat_map] in Hd. rewrite in_app_iff in Hd.
      unfold Db in Hin. cbn [flat_map] in Hin. rewrite in_app_iff in Hin.
      apply Hx2; [|tauto]. destruct Hin as [Hin|[Hin|Hin]]; [left; apply Hx; tauto|left; apply Hx; tauto|right; exact Hin].
Qed.

Lemma fw_stmt_do sg act W v lo hi stp b :
  fw_stmt sg (act, W) (SDo v lo hi stp b) = fw_body sg b (act, if act then rem1 v W else W).
Proof. cbn [fw_stmt is_mark negb fst snd]. now rewrite andb_true_r. Qed.

Lemma fw_stmt_while sg act W c b : fw_stmt sg (act, W) (SWhile c b) = fw_body sg b (act, W).
Proof. cbn [fw_stmt is_mark negb fst snd]. now rewrite andb_true_r. Qed.

(** FindWrites goes through an IF as through the two branches in sequence *)
Lemma fw_stmt_if sg act W c tb eb : fw_stmt sg (act, W) (SIf c tb eb) = fw_body sg (tb ++ eb) (act, W).
Proof. rewrite fw_body_app. cbn [fw_stmt is_mark negb fst snd]. now rewrite andb_true_r. Qed.

Lemma fw_facts_stmt sg : forall st,
  fw_facts (dovars_stmt st) (nomark_stmt st) (fst (du_stmt sg st)) (fun a => fw_stmt sg a st).
Proof.
  induction st as [x e|x i e|v lo hi stp b IHb|c b IHb|c t e IHt IHe|g args|lab] using stmt_ind'.
  1, 2, 6, 7: (* the leaves: SAssign, SStore, SCall, SSkip *)
    (constructor;
     [ intros W; reflexivity
     | intros Hnm W; cbn [nomark_stmt] in Hnm; apply andb_true_iff in Hnm; destruct Hnm as [Hnm _];
       cbn [fw_stmt fst snd]; rewrite Hnm; cbn [andb fst snd]; split; [reflexivity|];
       intros y0 Hin _; apply in_app_iff; exact Hin ]).
  - pose proof (fw_facts_body sg b IHb) as [A B].
    constructor.
    + intros W. rewrite fw_stmt_do. apply A.
    + intros Hnm W. rewrite fw_stmt_do, du_do. destruct (B Hnm (rem1 v W)) as [Ha Hx]. split; [exact Ha|].
      intros x Hin Hd. cbn [dovars_stmt In] in Hd. fold (dovars b) in Hd. cbn [fst] in Hin. rewrite !In_rem1 in *.
      apply Hx; [|tauto]. rewrite In_rem1. assert (x <> v) by (intros ->; tauto). tauto.
  - pose proof (fw_facts_body sg b IHb) as [A B].
    constructor; [intros W; rewrite fw_stmt_while; apply A|intros Hnm W; rewrite fw_stmt_while, du_while; exact (B Hnm W)].
  - pose proof (fw_facts_body sg (t ++ e) (proj2 (Forall_app _ t e) (conj IHt IHe))) as [A B].
    rewrite dovars_app, Db_app in B. unfold nomark in B. rewrite forallb_app in B.
    constructor; [intros W; rewrite fw_stmt_if; apply A|intros Hnm W; rewrite fw_stmt_if, du_if; exact (B Hnm W)].
Qed.

Lemma fw_facts_all sg ss : fw_facts (dovars ss) (nomark ss) (Db sg ss) (fw_body sg ss).
Proof. apply fw_facts_body. apply Forall_forall. intros st _. apply fw_facts_stmt. Qed.

(** with a top-level marker the query is: FindWrites over [pre], then an active FindReads over [post] *)
Lemma raw_split sg pre post :
  nomark pre = true ->
  raw sg (pre ++ SSkip MARK :: post) = fd (fr_body sg post (true, snd (fw_body sg pre (true, [])), [])).
Proof.
  intros Hnm. unfold raw.
  destruct (fw_facts_all sg pre) as [_ Bp]. destruct (Bp Hnm []) as [Ha _].
  rewrite fw_body_app, fw_body_cons. revert Ha. unfold names in *.
  destruct (fw_body sg pre (true, [])) as [a W]. cbn [fst snd]. intros ->.
  cbn [fw_stmt is_mark fst snd]. rewrite String.eqb_refl. cbn [negb andb].
  destruct (fw_facts_all sg post) as [Ap _]. rewrite Ap. cbn [snd].
  rewrite fr_body_app, fr_body_cons.
  destruct (fr_facts_all sg pre) as [_ _ _ E]. rewrite (E Hnm).
  cbn [fr_stmt is_mark]. rewrite String.eqb_refl. cbn [orb du_stmt fst snd inter filter]. rewrite diff_nil.
  reflexivity.
Qed.

Lemma rawok_cons mw ps sg C x r :
  rawok mw ps sg C (x :: r) =
  rawok_stmt mw ps sg C x && disjointb (diff C (fr_cands sg C [x])) (anames ps r) && rawok mw ps sg (fr_cands sg C [x]) r.
Proof. reflexivity. Qed.

(** the names of [vs] among the candidates are registered when [vs] is read *)
Lemma reg_in (Rd vs C : names) n : In n vs -> In n C -> In n (Rd ++ inter vs C).
Proof. intros. apply in_app_iff. right. now apply In_inter. Qed.

Section Raw.
  Variables (mw : musts) (ps : procs) (sg : sigs).
  Hypothesis Hok : sigs_ok mw ps sg = true.

  (** invariant of an active FindReads pass [r] from candidates [C] along a run with summary [t]: every
      location read before written whose name is a candidate (and no DO variable) is registered in the
      reads of [r]; a candidate that [r] has cleared was certainly written as a scalar by the run *)
  Definition RI (dv : names) (t : summary) (C : names) (r : frs) : Prop :=
    (forall l, In l (snd t) -> In (lname l) C -> ~ In (lname l) dv -> In (lname l) (fd r)) /\
    (forall n, In n C -> ~ In n (fc r) -> In (LS n) (fst t)).

  Lemma RI_rd dv R t C r :
    (forall l, In l R -> In (lname l) C -> ~ In (lname l) dv -> In (lname l) (fd r)) ->
    RI dv t C r -> RI dv (seqT (rdT R) t) C r.
  Proof. intros HR [A B]. split; [|exact B]. intros l Hl. apply seqT_rd_r in Hl. destruct Hl; auto. Qed.

  Lemma step_raw f :
    (forall ss s s' t C Rd, exec_tr ps f ss s = Some (s', t) -> rawok mw ps sg C ss = true ->
                            RI (dovars ss) t C (fr_body sg ss (true, C, Rd))) ->
    forall st s s' t C Rd, step_tr ps (exec_tr ps f) st s = Some (s', t) -> rawok_stmt mw ps sg C st = true ->
                           RI (dovars_stmt st) t C (fr_stmt sg (true, C, Rd) st).
  Proof.
    intros IH st s s' t C Rd E Hr.
    assert (is_leaf st = true ->
            RI (dovars_stmt st) t C (fr_stmt sg (true, C, Rd) st)) as Hleaf.
    { (* a leaf registers its uses (sound on [definite]) and clears only what it certainly assigns *)
      intros Hlf. rewrite (fr_stmt_leaf _ _ _ _ _ Hlf). cbn [orb].
      assert (definite_stmt mw ps sg st = true /\ subset (inter (fst (du_stmt sg st)) C) (mdef_stmt mw st) = true) as [Hd Hs].
      { destruct st; cbn [is_leaf] in Hlf; try discriminate; cbn [rawok_stmt] in Hr; now apply andb_true_iff in Hr. }
      split.
      - intros l Hl HC _. apply reg_in; [|exact HC].
        eapply (step_use mw ps sg Hok f (uses_sound_aux mw ps sg Hok f)); eauto.
      - intros n HC Hn. cbn [fc fst snd] in Hn. rewrite In_diff in Hn.
        assert (In n (fst (du_stmt sg st))) as Hd' by (destruct (mem n (fst (du_stmt sg st))) eqn:Em; [now apply mem_In|apply mem_false in Em; tauto]).
        rewrite subset_In in Hs. assert (In n (mdef_stmt mw st)) as Hm by (apply Hs; apply In_inter; auto).
        eapply (step_mdef mw ps sg Hok _ (mdef_sound mw ps sg Hok f)); eauto. }
    destruct st as [x e|a idx e|v lo hi stp body|c body|c tb eb|g args|lab]; try (apply Hleaf; reflexivity); clear Hleaf;
      apply step_tr_inv in E.
    - (* DO: the only candidate a loop may clear is its variable, which every run of the loop sets *)
      change (rawok_stmt mw ps sg C (SDo v lo hi stp body))
        with (rawok mw ps sg (rem1 v C) body && subset (rem1 v C) (fr_cands sg (rem1 v C) body)) in Hr.
      apply andb_true_iff in Hr. destruct Hr as [Hrb Hsub]. rewrite subset_In in Hsub.
      destruct E as (a & b & d & t2 & _ & _ & _ & _ & E & ->).
      rewrite fr_stmt_do. cbn zeta. set (Rd1 := Rd ++ inter (bound_vars lo hi stp) C).
      rewrite fr_body_true. cbn [fa fc fd fst snd dovars_stmt]. fold (dovars body).
      assert (forall l, ~ In (lname l) (v :: dovars body) -> lname l <> v /\ ~ In (lname l) (dovars body)) as Hv
        by (intros l H; split; [intros Ev|intros H']; apply H; [left; now rewrite Ev|now right]).
      apply RI_rd; [|split].
      + intros l Hl HC Hdv. apply Hv in Hdv. apply In_rem1. split; [|tauto].
        apply fr_keeps; [|tauto]. apply reg_in; [now apply bound_reads_evars in Hl|exact HC].
      + intros l Hl HC Hdv. apply Hv in Hdv. apply In_rem1. split; [|tauto].
        destruct (do_loop_tr_r (fun l => In (lname l) (rem1 v C) -> ~ In (lname l) (dovars body) ->
                                          In (lname l) (fd (fr_body sg body (true, rem1 v C, Rd1)))) _ v d
                    (fun s0 s1 t1 R => proj1 (IH _ _ _ _ _ Rd1 R Hrb)) _ _ _ _ _ E l Hl) as [HP _].
        apply HP; [apply In_rem1|]; tauto.
      + intros n HC Hn. destruct (string_dec n v) as [->|Ev]; [eapply do_loop_tr_writes_v; eauto|].
        exfalso. apply Hn, Hsub, In_rem1. auto.
    - (* WHILE: the loop clears nothing *)
      change (rawok_stmt mw ps sg C (SWhile c body))
        with (rawok mw ps sg C body && subset C (fr_cands sg C body)) in Hr.
      pose proof Hr as Hr0. apply andb_true_iff in Hr. destruct Hr as [Hrb Hsub]. rewrite subset_In in Hsub.
      rewrite fr_stmt_while. set (Rd1 := Rd ++ inter (evars c) C). rewrite fr_body_true.
      assert (forall l, In l (ereads s c) -> In (lname l) C -> ~ In (lname l) (dovars body) ->
                        In (lname l) (fd (fr_body sg body (true, C, Rd1)))) as Hcond.
      { intros l Hl HC Hdv. apply fr_keeps; [|exact Hdv]. apply reg_in; [now apply ereads_evars in Hl|exact HC]. }
      split; [|intros n HC Hn; exfalso; auto].
      destruct E as [(_ & _ & ->)|(s1 & t1 & t2 & _ & E1 & E2 & ->)]; [exact Hcond|].
      intros l Hl HC Hdv. cbn [dovars_stmt] in Hdv. fold (dovars body) in Hdv.
      apply seqT_rd_r in Hl. destruct Hl as [Hl|Hl]; [now apply Hcond|].
      apply seqT_r_weak in Hl. destruct Hl as [Hl|Hl].
      + exact (proj1 (IH _ _ _ _ _ Rd1 E1 Hrb) l Hl HC Hdv).
      + assert (rawok mw ps sg C [SWhile c body] = true) as Hr1.
        { rewrite rawok_cons. change (rawok_stmt mw ps sg C (SWhile c body))
            with (rawok mw ps sg C body && subset C (fr_cands sg C body)). now rewrite Hr0, disjointb_nil. }
        pose proof (proj1 (IH _ _ _ _ C Rd E2 Hr1) l Hl HC) as H1.
        unfold fr_body in H1. cbn [fold_left] in H1. rewrite fr_stmt_while in H1.
        apply H1. unfold dovars. cbn [flat_map dovars_stmt]. now rewrite app_nil_r.
    - (* IF: the pass goes through both branches, the run through one.  Reads registered in the then
         branch survive the pass over the else branch ([fr_keeps]); a candidate missing from the
         union of the two candidate sets is missing from that of the branch that ran.
         The model writes the pass state with [frs]/[names] in some places and with their unfoldings
         in others; [unfold frs, names in *] makes [Et], [Ee] match the goal syntactically. *)
      change (rawok_stmt mw ps sg C (SIf c tb eb)) with (rawok mw ps sg C tb && rawok mw ps sg C eb) in Hr.
      apply andb_true_iff in Hr. destruct Hr as [Hrt Hre].
      destruct E as (b & t1 & _ & E1 & ->).
      rewrite fr_stmt_if. cbn zeta. cbv iota. set (Rd1 := Rd ++ inter (evars c) C).
      set (Rd2 := fd (fr_body sg tb (true, C, Rd1))).
      pose proof (fr_body_true sg C Rd1 tb) as Et. pose proof (fr_body_true sg C Rd2 eb) as Ee.
      unfold frs, names in *. rewrite Et. cbn [fa fc fd fst snd]. fold Rd2. rewrite Ee.
      cbn [fa fc fd fst snd dovars_stmt]. fold (dovars tb). fold (dovars eb).
      apply RI_rd.
      + intros l Hl HC Hdv. rewrite in_app_iff in Hdv. apply fr_keeps; [apply fr_keeps|]; try tauto.
        apply reg_in; [now apply ereads_evars in Hl|exact HC].
      + destruct b.
        * destruct (IH _ _ _ _ C Rd1 E1 Hrt) as [I1 I2]. rewrite Et in I1, I2.
          split; [intros l Hl HC Hdv|intros n HC Hn]; cbn [fc fd fst snd] in *; rewrite in_app_iff in *; [apply fr_keeps; [apply I1|]|apply I2]; tauto.
        * destruct (IH _ _ _ _ C Rd2 E1 Hre) as [I1 I2]. rewrite Ee in I1, I2.
          split; [intros l Hl HC Hdv|intros n HC Hn]; cbn [fc fd fst snd] in *; rewrite in_app_iff in *; [apply I1|apply I2]; tauto.
  Qed.

  Lemma raw_invariant : forall f ss s s' t,
    exec_tr ps f ss s = Some (s', t) -> forall C Rd, rawok mw ps sg C ss = true ->
    RI (dovars ss) t C (fr_body sg ss (true, C, Rd)).
  Proof.
    apply (exec_tr_ind ps (fun ss _ _ t => forall C Rd, rawok mw ps sg C ss = true ->
                                           RI (dovars ss) t C (fr_body sg ss (true, C, Rd)))).
    - intros _ C Rd _. split; [intros l []|]. intros n HC Hn. contradiction.
    - intros f st rest s s1 t1 s' t2 IH E1 E2 C Rd Hr.
      rewrite rawok_cons, !andb_true_iff in Hr. destruct Hr as [[Hr1 Hdj] Hr2].
      pose proof (step_raw f (fun ss s s' t C Rd E => IH ss s s' t E C Rd) _ _ _ _ C Rd E1 Hr1) as [I1 I2].
      rewrite fr_body_cons. change (fr_stmt sg (true, C, Rd) st) with (fr_body sg [st] (true, C, Rd)) in *.
      rewrite fr_body_true in *. cbn [fc fd fst snd] in I1, I2.
      pose proof (IH _ _ _ _ E2 (fr_cands sg C [st]) (fd (fr_body sg [st] (true, C, Rd))) Hr2) as [J1 J2].
      unfold dovars. cbn [flat_map]. split.
      + intros l Hl HC Hdv. rewrite in_app_iff in Hdv. apply seqT_r in Hl. destruct Hl as [Hl|[Hl Hnw]].
        * apply fr_keeps; [|tauto]. apply I1; tauto.
        * (* a read of the rest that [st] did not write: its candidate is still there, or [st] cleared it,
             hence wrote the scalar, and the name is no array in the rest *)
          destruct (mem (lname l) (fr_cands sg C [st])) eqn:Em.
          -- apply mem_In in Em. apply J1; tauto.
          -- apply mem_false in Em. exfalso.
             pose proof (I2 _ HC Em) as Hw.
             destruct l as [x|a i]; cbn [lname] in *; [now apply Hnw|].
             pose proof (anames_sound ps _ _ _ _ _ E2 (LA a i) (or_intror Hl)) as HA. cbn in HA.
             apply (disjointb_spec _ _ Hdj a); [|exact HA]. apply In_diff. auto.
      + intros n HC Hn. apply seqT_w.
        destruct (mem n (fr_cands sg C [st])) eqn:Em.
        * apply mem_In in Em. right. apply J2; auto.
        * apply mem_false in Em. left. apply I2; auto.
  Qed.

  (** read_after_write_vars(pre ++ marker :: post, marker) contains every variable with a location
      that [pre] writes and [post] reads before overwriting it (class: [raw_class]; DO variables excepted) *)
  Theorem raw_complete_on_class pre post f1 f2 s s1 t1 s2 t2 l :
    raw_class mw ps sg pre post = true ->
    exec_tr ps f1 pre s = Some (s1, t1) -> exec_tr ps f2 post s1 = Some (s2, t2) ->
    In l (fst t1) -> In l (snd t2) ->
    ~ In (lname l) (dovars pre) -> ~ In (lname l) (dovars post) ->
    In (lname l) (raw sg (pre ++ SSkip MARK :: post)).
  Proof.
    unfold raw_class. rewrite !andb_true_iff. intros [[Hnm Hds] Hr] E1 E2 Hw Hrd Hd1 Hd2.
    rewrite (raw_split sg pre post Hnm).
    apply (proj1 (raw_invariant _ _ _ _ _ E2 _ [] Hr) l Hrd); [|exact Hd2].
    destruct (fw_facts_all sg pre) as [_ B]. destruct (B Hnm []) as [_ Hx]. apply Hx; [|exact Hd1].
    right. destruct (defines_sound_aux mw ps sg Hok _ _ _ _ _ E1 Hds _ Hw) as [H|H]; [exact H|contradiction].
  Qed.

  Corollary raw_dep_reported pre post s x :
    raw_class mw ps sg pre post = true -> raw_dep ps x pre post s ->
    ~ In x (dovars pre) -> ~ In x (dovars post) ->
    In x (raw sg (pre ++ SSkip MARK :: post)).
  Proof.
    intros Hc [f [s1 [t1 [s2 [t2 [l [E1 [E2 [Hw [Hr <-]]]]]]]]]] H1 H2.
    eapply raw_complete_on_class; eauto.
  Qed.
End Raw.

(** F9 inherited by loop_carried_dependencies *)
Definition wit_lcd_body : list stmt :=
  [SIf (ECmp Ceq (EVar "i") (EInt 1)) [SAssign "x" (EInt 5)] []; SAssign "y" (EVar "x")].

Lemma lcd_refuted :
  exists its, loop_iters [] 5 "i" (EInt 1) (EInt 2) None wit_lcd_body (st0 [] []) = Some its /\
              carried "x" its /\ ~ In "x"%string (lcd [] (SDo "i" (EInt 1) (EInt 2) None wit_lcd_body)).
Proof.
  exists [([LS "i"; LS "x"; LS "y"], []); ([LS "i"; LS "y"], [LS "x"])].
  split; [vm_compute; reflexivity|]. split.
  - exists 0%nat, 1%nat, ([LS "i"; LS "x"; LS "y"], []), ([LS "i"; LS "y"], [LS "x"]), (LS "x").
    repeat split; cbn; auto.
  - vm_compute. intros [].
Qed.

(** the final value of an inner DO variable is carried to the next outer iteration *)
Definition wit_lcd_inner : list stmt :=
  [SAssign "y" (EVar "c"); SDo "c" (EInt 1) (EInt 2) None [SAssign "x" (EVar "c")]].

Lemma lcd_refuted_do_variable :
  exists its, loop_iters [] 6 "i" (EInt 1) (EInt 2) None wit_lcd_inner (st0 [] []) = Some its /\
              carried "c" its /\ ~ In "c"%string (lcd [] (SDo "i" (EInt 1) (EInt 2) None wit_lcd_inner)).
Proof.
  set (t := ([LS "i"; LS "y"; LS "c"; LS "x"; LS "c"; LS "x"; LS "c"], [LS "c"])).
  exists [t; t].
  split; [vm_compute; reflexivity|]. split.
  - exists 0%nat, 1%nat, t, t, (LS "c"). repeat split; cbn; auto.
  - vm_compute. intros [].
Qed.

(** F9, second half: an element store after the inspection point clears the whole array *)
Definition wit_raw_pre : list stmt := [SStore "a" [EInt 1] (EInt 1); SStore "a" [EInt 2] (EInt 2)].
Definition wit_raw_post : list stmt := [SStore "a" [EInt 1] (EInt 5); SAssign "y" (ECall "a" [EInt 2])].

(** the location [l] is written by [pre] and read by [post] before being overwritten, but its name is
    not reported (a boolean test on the two runs; the stores stay inside it) *)
Definition misses_raw (f : nat) (pre post : list stmt) (s : store) (l : loc) : bool :=
  match exec_tr [] f pre s with
  | Some (s1, t1) =>
      match exec_tr [] f post s1 with
      | Some (_, t2) => mem_loc l (fst t1) && mem_loc l (snd t2) &&
                        negb (mem (lname l) (raw [] (pre ++ SSkip MARK :: post)))
      | None => false
      end
  | None => false
  end.

Lemma misses_raw_spec f pre post s l :
  misses_raw f pre post s l = true ->
  raw_dep [] (lname l) pre post s /\ ~ In (lname l) (raw [] (pre ++ SSkip MARK :: post)).
Proof.
  unfold misses_raw, raw_dep. destruct (exec_tr [] f pre s) as [[s1 t1]|] eqn:E1; [|discriminate].
  destruct (exec_tr [] f post s1) as [[s2 t2]|] eqn:E2; [|discriminate].
  rewrite !andb_true_iff, negb_true_iff, !mem_loc_In, mem_false. intros [[A B] C].
  split; [|exact C]. exists f, s1, t1, s2, t2, l. auto.
Qed.

Lemma raw_partial_write_refuted :
  raw_dep [] "a" wit_raw_pre wit_raw_post (st0 [] []) /\
  ~ In "a"%string (raw [] (wit_raw_pre ++ SSkip MARK :: wit_raw_post)).
Proof. apply (misses_raw_spec 5 _ _ _ (LA "a" [2])). vm_compute. reflexivity. Qed.

(** an assignment in a loop that makes no trip clears the candidate *)
Definition wit_raw0_pre : list stmt := [SAssign "x" (EInt 3)].
Definition wit_raw0_post : list stmt := [SDo "i" (EInt 1) (EVar "n") None [SAssign "x" (EInt 2)]; SAssign "y" (EVar "x")].

Lemma raw_zero_trip_refuted :
  raw_dep [] "x" wit_raw0_pre wit_raw0_post (st0 [] []) /\
  ~ In "x"%string (raw [] (wit_raw0_pre ++ SSkip MARK :: wit_raw0_post)).
Proof. apply (misses_raw_spec 5 _ _ _ (LS "x")). vm_compute. reflexivity. Qed.

(** a later loop over i removes i from the reads already found *)
Definition wit_rawv_pre : list stmt := [SAssign "i" (EInt 7)].
Definition wit_rawv_post : list stmt := [SAssign "y" (EVar "i"); SDo "i" (EInt 1) (EInt 2) None [SAssign "x" (EVar "i")]].

Lemma raw_do_variable_refuted :
  raw_dep [] "i" wit_rawv_pre wit_rawv_post (st0 [] []) /\
  ~ In "i"%string (raw [] (wit_rawv_pre ++ SSkip MARK :: wit_rawv_post)).
Proof. apply (misses_raw_spec 5 _ _ _ (LS "i")). vm_compute. reflexivity. Qed.

(** the classes are inhabited *)
Definition ex_pre : list stmt := [SAssign "x" (EInt 1); SStore "a" [EInt 1] (EVar "x"); SAssign "z" (EInt 0)].
Definition ex_post : list stmt :=
  [SAssign "z" (EInt 2);
   SIf (ECmp Cgt (EVar "x") (EInt 0)) [SAssign "x" (EInt 5)] [SAssign "x" (EInt 6)];
   SDo "i" (EInt 1) (EInt 2) None [SAssign "y" (ESum false [ECall "a" [EVar "i"]; EVar "z"])]].

Example raw_class_nonempty :
  raw_class [] [] [] ex_pre ex_post = true /\ sigs_ok [] [] [] = true /\
  set_eqb (raw [] (ex_pre ++ SSkip MARK :: ex_post)) ["x"%string; "a"%string] = true.
Proof. repeat split; vm_compute; reflexivity. Qed.
