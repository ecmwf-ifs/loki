(** C28 — main results: [class_sim], the substitution lemma on the decidable class; inlining a call in the class
    [inlinable] preserves behaviour modulo the hoisted locals ([inline_call_sound], fuel for fuel; [inline_sub_lockstep] and
    [inline_sub_preserves_on_class] for MiniF's CALL); constant parameters; the offset arithmetic of [_map_unbound_dims];
    refutation witnesses (F10) and the examples [ex_callee], [inlinable_nontrivial], [const_ok_nontrivial]. *)
From Coq Require Import ZArith List Bool String Lia.
From LV Require Import Base.Expr Base.ListFacts Base.ExprFacts Base.MiniF Base.MiniFFacts models.M_C28
     proofs.P_C28_norm proofs.P_C28_subst proofs.P_C28_sim proofs.P_C28_frame.
Import ListNotations.
Open Scope Z_scope.

Lemma assoc_app {A} (l1 l2 : list (string * A)) x :
  assoc (l1 ++ l2) x = match assoc l1 x with Some v => Some v | None => assoc l2 x end.
Proof. induction l1 as [|[k v] r IH]; cbn; [reflexivity|]. destruct (String.eqb k x); [reflexivity|exact IH]. Qed.

Lemma in_sdummies ce d : In (d, false) (ce_params ce) -> In d (sdummies ce).
Proof. intros H. unfold sdummies. apply in_flat_map. exists (d, false). split; [exact H|cbn; now left]. Qed.
Lemma in_adummies ce d : In (d, true) (ce_params ce) -> In d (adummies ce).
Proof. intros H. unfold adummies. apply in_flat_map. exists (d, true). split; [exact H|cbn; now left]. Qed.

(** the decidable conditions [c2], [c3], [c4] say what the simulation asks of the written names *)
Lemma c4_sound m A : c4 m A = true -> forall a, In a A ->
  all_off (snd (lk_a m a)) = true /\ intrinsic_name a = false /\ intrinsic_name (fst (lk_a m a)) = false.
Proof.
  intros H a Ha. pose proof (proj1 (forallb_forall _ _) H a Ha) as K.
  apply andb_prop in K as [K H3]. apply andb_prop in K as [H1 H2]. apply negb_true_iff in H2, H3. auto.
Qed.

Lemma c2_sound m Vall W : c2 m Vall W = true -> forall x, In x W -> goodS m Vall x.
Proof.
  intros H x Hx. pose proof (proj1 (forallb_forall _ _) H x Hx) as K. cbn beta in K.
  destruct (lk_s m x) as [| |tx| | | | | | | | | |] eqn:E; try discriminate.
  exists tx. split; [exact E|]. intros y Hy Hne. pose proof (proj1 (forallb_forall _ _) K y Hy) as G.
  cbn beta in G. apply String.eqb_neq in Hne. rewrite Hne in G. exact G.
Qed.

Lemma c3_sound m Vall A W : c3 m Vall A W = true -> forall a, In a W -> goodA m Vall A a.
Proof.
  intros H a Ha. pose proof (proj1 (forallb_forall _ _) H a Ha) as K. apply andb_prop in K as [G1 G2]. split.
  - intros b Hb Hne. pose proof (proj1 (forallb_forall _ _) G1 b Hb) as G. cbn beta in G. apply String.eqb_neq in Hne. rewrite Hne in G.
    apply String.eqb_neq, negb_true_iff, G.
  - exact (proj1 (forallb_forall _ _) G2).
Qed.

(** the substitution lemma for statements on the class: the form in which inlining of calls and of constants use it *)
Theorem class_sim m Vall A V V' body Q ps :
  c2 m Vall (wrs body) = true -> c3 m Vall A (wra body) = true -> c4 m A = true ->
  da_stmts Vall A V body = Some V' -> subst_stmts m body = Some Q ->
  forall fuel sc s, Rel m Vall A V sc s -> orel (Rel m Vall A V) (exec ps fuel body sc) (exec ps fuel Q s).
Proof.
  intros H2 H3 H4 Hda HQ fuel sc s.
  exact (sim m Vall A ps (c4_sound _ _ H4) fuel body V V' Q sc s Hda HQ (c2_sound _ _ _ H2) (c3_sound _ _ _ _ H3)).
Qed.

Section Main.
  Variables (cvars : list string) (ce : callee) (amap : list (string * (string * list dspec)))
            (args : list expr) (Q : list stmt).
  Hypothesis Hin : inlinable_m cvars ce amap args = true.
  Hypothesis HQ : inline_call_m cvars ce amap args = Some Q.

  Let m := call_smap cvars ce amap args.
  Let Vall := (sdummies ce ++ ce_locals ce)%list.
  Let A := adummies ce.
  Let offs := amap_offs amap.
  Let Hs := hoisted_s cvars ce.

  Lemma inlinable_m_inv :
    List.length args = List.length (ce_params ce) /\ arr_args_ok (ce_params ce) args = true /\
    NoDup (map fst (ce_params ce)) /\
    c2 m Vall (wrs (ce_body ce)) = true /\ c3 m Vall A (wra (ce_body ce)) = true /\ c4 m A = true /\
    amap_ok amap (ce_params ce) args = true /\
    (exists V', da_stmts Vall A (sdummies ce) (ce_body ce) = Some V') /\
    forallb (fun z => mem z (actual_vars (ce_params ce) args) || mem z Hs) (wrs Q) = true /\
    forallb (fun a => mem a (actual_arrs (ce_params ce) args)) (wra Q) = true.
  Proof.
    (* [inlinable_m] is, in this order: arity, [arr_args_ok], [nodupb] of dummies and locals, no local arrays, no CALL in the body,
       [c1], [c2], [c3], [c4], [amap_ok], [da_stmts], the two write checks on [Q]; the fourth to sixth are not needed below *)
    pose proof Hin as H0. unfold inlinable_m in H0. cbv zeta in H0. rewrite HQ in H0.
    apply andb_prop in H0 as [H0 HQw]. apply andb_prop in HQw as [HQs HQa].
    apply andb_prop in H0 as [H0 Hda]. apply andb_prop in H0 as [H0 Hok]. apply andb_prop in H0 as [H0 H4].
    apply andb_prop in H0 as [H0 H3]. apply andb_prop in H0 as [H0 H2]. apply andb_prop in H0 as [H0 _].
    apply andb_prop in H0 as [H0 _]. apply andb_prop in H0 as [H0 _]. apply andb_prop in H0 as [H0 Hnd].
    apply andb_prop in H0 as [Hlen Harr].
    refine (conj _ (conj Harr (conj _ (conj H2 (conj H3 (conj H4 (conj Hok (conj _ (conj HQs HQa))))))))).
    - apply Nat.eqb_eq, Hlen.
    - exact (proj1 (NoDup_app_inv _ _ (proj1 (ListFacts.nodupb_NoDup _) Hnd))).
    - revert Hda. unfold Vall, A. destruct (da_stmts _ _ _ _) as [V'|]; [eauto|discriminate].
  Qed.

  Lemma inlinable_shape :
    List.length args = List.length (ce_params ce) /\ arr_args_ok (ce_params ce) args = true /\ NoDup (map fst (ce_params ce)).
  Proof. destruct inlinable_m_inv as (H1 & H2 & H3 & _). auto. Qed.

  Lemma inlinable_class :
    c2 m Vall (wrs (ce_body ce)) = true /\ c3 m Vall A (wra (ce_body ce)) = true /\ c4 m A = true /\
    exists V', da_stmts Vall A (sdummies ce) (ce_body ce) = Some V'.
  Proof. destruct inlinable_m_inv as (_ & _ & _ & H2 & H3 & H4 & _ & Hda & _). auto. Qed.

  Lemma inlinable_amap_ok : amap_ok amap (ce_params ce) args = true.
  Proof. apply inlinable_m_inv. Qed.

  Lemma inlinable_writes :
    forallb (fun z => mem z (actual_vars (ce_params ce) args) || mem z Hs) (wrs Q) = true /\
    forallb (fun a => mem a (actual_arrs (ce_params ce) args)) (wra Q) = true.
  Proof. destruct inlinable_m_inv as (_ & _ & _ & _ & _ & _ & _ & _ & H). exact H. Qed.

  Lemma inlinable_subst : subst_stmts m (ce_body ce) = Some Q.
  Proof.
    destruct inlinable_shape as (Hlen & _). unfold inline_call_m in HQ. fold m in HQ.
    apply Nat.eqb_eq in Hlen. rewrite Hlen in HQ. exact HQ.
  Qed.

  Lemma lk_s_dummy d e : In ((d, false), e) (combine (ce_params ce) args) -> lk_s m d = e.
  Proof.
    destruct inlinable_shape as (_ & _ & Hnd). intros H. unfold lk_s, m, call_smap. cbn [sm_s].
    rewrite assoc_app, (argmap_s_assoc _ _ _ _ Hnd H). reflexivity.
  Qed.

  Lemma lk_a_dummy d a : In ((d, true), EVar a) (combine (ce_params ce) args) ->
    exists t, lk_a m d = (a, t) /\ offs d = offs_of t.
  Proof.
    pose proof inlinable_amap_ok as Hok. intros H.
    destruct (amap_ok_in _ _ _ _ _ Hok H) as [t Ht]. exists t. unfold lk_a, m, call_smap, offs, amap_offs. cbn [sm_a].
    rewrite assoc_app, Ht. split; reflexivity.
  Qed.

  Lemma copy_in_Rel s sc0 :
    copy_in_o s (ce_params ce) args offs empty_store = Some sc0 -> Rel m Vall A (sdummies ce) sc0 s.
  Proof.
    intros Hci. destruct inlinable_shape as (Hlen & Harr & Hnd).
    destruct (copy_in_o_spec s offs _ _ _ _ Hci Hnd) as [_ [P2 P3]]. split.
    - intros y Hy _. destruct (sdummies_in_combine _ _ _ Hlen Hy) as [e He].
      rewrite (lk_s_dummy y e He). apply P2; exact He.
    - intros a Ha idx. destruct (adummies_in_combine _ _ _ Harr Ha) as [a' Ha'].
      destruct (lk_a_dummy a a' Ha') as [t [E1 E2]]. rewrite E1. cbn [fst snd]. rewrite <- E2. apply P3; exact Ha'.
  Qed.

  Theorem subst_stmt_sound_m ps fuel s sc0 :
    Rel m Vall A (sdummies ce) sc0 s ->
    orel (Rel m Vall A (sdummies ce)) (exec ps fuel (ce_body ce) sc0) (exec ps fuel Q s).
  Proof.
    destruct inlinable_class as (H2 & H3 & H4 & [V' Hda]).
    exact (class_sim m Vall A (sdummies ce) V' (ce_body ce) Q ps H2 H3 H4 Hda inlinable_subst fuel sc0 s).
  Qed.

  (** copy-in sets up [Rel] ([copy_in_Rel]), the body keeps it ([subst_stmt_sound_m]), and copy-out carries it back to the
      caller: what the inlined code wrote are the variable actuals and the hoisted locals, everything else is left alone
      by both sides ([exec_frame]) *)
  Theorem inline_call_sound ps fuel s sc0 :
    copy_in_o s (ce_params ce) args offs empty_store = Some sc0 ->
    orel (agree_except Hs [])
         (obind (exec ps fuel (ce_body ce) sc0) (fun s1 => Some (copy_out_o s1 (ce_params ce) args offs s)))
         (exec ps fuel Q s).
  Proof.
    intros Hci. pose proof (subst_stmt_sound_m ps fuel s sc0 (copy_in_Rel s sc0 Hci)) as Hsim.
    destruct inlinable_writes as (HQs & HQa).
    destruct (exec ps fuel (ce_body ce) sc0) as [sc1|]; destruct (exec ps fuel Q s) as [s2|] eqn:E2;
      cbn in Hsim; try contradiction; cbn; [|exact I].
    destruct Hsim as [RS RA]. destruct (exec_frame ps fuel Q s s2 E2) as [F1 F2].
    apply copy_out_agree.
    - intros d x Hd. assert (Hd' : In d (sdummies ce)).
      { apply in_sdummies. apply in_combine_l in Hd. exact Hd. }
      assert (Hv : In d Vall) by (unfold Vall; apply in_or_app; now left).
      pose proof (RS d Hd' Hv) as K. rewrite (lk_s_dummy d (EVar x) Hd) in K. cbn in K. congruence.
    - intros d a Hd j. assert (Hd' : In d A).
      { apply in_adummies. apply in_combine_l in Hd. exact Hd. }
      destruct (lk_a_dummy d a Hd) as [t [T1 T2]].
      rewrite (RA d Hd' (shiftz (map Z.opp (offs d)) j)). rewrite T1. cbn [fst snd]. rewrite <- T2, shiftz_inv. reflexivity.
    - intros z Hz1 Hz2. symmetry. apply F1. intro Hw. rewrite forallb_forall in HQs. specialize (HQs z Hw).
      apply orb_prop in HQs. destruct HQs as [K|K]; apply mem_In in K; contradiction.
    - intros a Ha j. symmetry. apply F2. intro Hw. rewrite forallb_forall in HQa. specialize (HQa a Hw).
      apply mem_In in HQa. contradiction.
  Qed.
End Main.

Lemma plain_amap_snd ps : forall args d t, assoc (plain_amap ps args) d = Some t -> snd t = [].
Proof.
  induction ps as [|[d0 b] ps IH]; intros args d t H; [discriminate|].
  destruct args as [|e r]; [destruct b; discriminate|].
  destruct b; [destruct e|]; cbn [plain_amap] in H; try (eapply IH; exact H).
  cbn [assoc] in H. destruct (String.eqb d0 d); [inversion H; reflexivity|eapply IH; exact H].
Qed.

Lemma plain_offs ps args d : amap_offs (plain_amap ps args) d = [].
Proof.
  unfold amap_offs. destruct (assoc (plain_amap ps args) d) as [t|] eqn:E; [|reflexivity].
  rewrite (plain_amap_snd _ _ _ _ E). reflexivity.
Qed.

Theorem inline_sub_lockstep cvars ce args Q ps :
  inlinable cvars ce args = true -> inline_plain cvars ce args = Some Q ->
  find_proc ps (ce_name ce) = Some (proc_of ce) ->
  forall fuel s, copy_in s (ce_params ce) args empty_store <> None ->
  orel (agree_except (hoisted_s cvars ce) []) (exec1 ps fuel (SCall (ce_name ce) args) s) (exec ps fuel Q s).
Proof.
  intros Hin HQ Hf fuel s Hci. cbn [exec1]. rewrite Hf. cbn [obind proc_of p_params p_body].
  destruct (copy_in s (ce_params ce) args empty_store) as [sc0|] eqn:E; [|congruence]. cbn [obind].
  pose proof (inline_call_sound cvars ce _ args Q Hin HQ ps fuel s sc0) as K.
  rewrite (copy_in_o_plain s _ (plain_offs _ _)) in K. specialize (K E).
  destruct (exec ps fuel (ce_body ce) sc0) as [sc1|]; cbn [obind] in *; [|exact K].
  rewrite (copy_out_o_plain sc1 _ (plain_offs _ _)) in K. exact K.
Qed.

Lemma call_runs_copy_in ps ce args fuel s s1 :
  find_proc ps (ce_name ce) = Some (proc_of ce) -> exec1 ps fuel (SCall (ce_name ce) args) s = Some s1 ->
  copy_in s (ce_params ce) args empty_store <> None.
Proof.
  intros Hf E K. cbn [exec1] in E. rewrite Hf in E. cbn [obind proc_of p_params] in E. rewrite K in E. discriminate.
Qed.

Theorem inline_sub_preserves_on_class cvars ce args Q ps :
  inlinable cvars ce args = true -> inline_plain cvars ce args = Some Q ->
  find_proc ps (ce_name ce) = Some (proc_of ce) ->
  forall s,
    (forall s1, runs ps [SCall (ce_name ce) args] s s1 ->
       exists s2, runs ps Q s s2 /\ agree_except (hoisted_s cvars ce) [] s1 s2) /\
    (copy_in s (ce_params ce) args empty_store <> None ->
     forall s2, runs ps Q s s2 ->
       exists s1, runs ps [SCall (ce_name ce) args] s s1 /\ agree_except (hoisted_s cvars ce) [] s1 s2).
Proof.
  intros Hin HQ Hf s. split.
  - intros s1 Hr. apply runs_single in Hr. destruct Hr as [fuel E].
    pose proof (inline_sub_lockstep cvars ce args Q ps Hin HQ Hf fuel s (call_runs_copy_in _ _ _ _ _ _ Hf E)) as L.
    rewrite E in L. destruct (exec ps fuel Q s) as [s2|] eqn:E2; cbn in L; [|contradiction].
    exists s2. split; [exists fuel; exact E2|exact L].
  - intros Hci s2 [fuel E2].
    pose proof (inline_sub_lockstep cvars ce args Q ps Hin HQ Hf fuel s Hci) as L. rewrite E2 in L.
    destruct (exec1 ps fuel (SCall (ce_name ce) args) s) as [s1|] eqn:E1; cbn in L; [|contradiction].
    exists s1. split; [apply runs_single; exists fuel; exact E1|exact L].
Qed.

(** the same with declared lower-bound offsets (own call semantics [call_sem]) *)
Theorem inline_sub_offsets_preserves cvars ce amap args Q ps :
  inlinable_m cvars ce amap args = true -> inline_call_m cvars ce amap args = Some Q ->
  forall fuel s, copy_in_o s (ce_params ce) args (amap_offs amap) empty_store <> None ->
  orel (agree_except (hoisted_s cvars ce) []) (call_sem ps fuel (proc_of ce) (amap_offs amap) args s) (exec ps fuel Q s).
Proof.
  intros Hin HQ fuel s Hci. unfold call_sem. cbn [proc_of p_params p_body].
  destruct (copy_in_o s (ce_params ce) args (amap_offs amap) empty_store) as [sc0|] eqn:E; [|congruence]. cbn [obind].
  exact (inline_call_sound cvars ce amap args Q Hin HQ ps fuel s sc0 E).
Qed.

(** constant parameters: the caller's store related to itself, the parameters read through their initialisers *)
Theorem inline_const_preserves cmap Vall A body Q ps :
  const_ok cmap Vall A body = true -> inline_const cmap body = Some Q ->
  forall fuel s,
    (forall y, In y Vall -> evalZ (env_st s) (lk_s {| sm_s := cmap; sm_a := [] |} y) = Some (sv s y)) ->
    orel (fun s1 s2 => (forall y, In y Vall -> assoc cmap y = None -> sv s1 y = sv s2 y) /\
                       (forall a, In a A -> forall i, av s1 a i = av s2 a i))
         (exec ps fuel body s) (exec ps fuel Q s).
Proof.
  intros Hok HQ fuel s Hs. unfold const_ok in Hok. cbv zeta in Hok. set (m := {| sm_s := cmap; sm_a := [] |}) in *.
  apply andb_prop in Hok as [Hok Hda]. apply andb_prop in Hok as [Hok H4]. apply andb_prop in Hok as [Hok H3].
  apply andb_prop in Hok as [_ H2].
  destruct (da_stmts Vall A Vall body) as [V'|] eqn:Hda'; [|discriminate].
  eapply orel_impl; [apply (class_sim m Vall A Vall V' body Q ps H2 H3 H4 Hda' HQ fuel s s)|].
  - split; [intros y Hy _; apply Hs; exact Hy|]. intros a Ha idx. reflexivity.
  - intros s1 s2 [RS RA]. split.
    + intros y Hy Hn. pose proof (RS y Hy Hy) as E. unfold lk_s, m in E. cbn [sm_s] in E. rewrite Hn in E. cbn in E. congruence.
    + intros a Ha i. apply (RA a Ha i).
Qed.

Lemma dim_map_aux Lv Ld (all : list secdim) : forall (dims pre : list secdim) p r seen,
  all = (pre ++ dims)%list -> List.length pre = p -> (seen = false -> p = r) ->
  dims_ok_aux Lv p seen dims = true ->
  loki_tmpl_aux Lv Ld all r dims = true_tmpl_aux Lv Ld p r dims.
Proof.
  induction dims as [|d q IH]; intros pre p r seen Hall Hlen Hpr Hok; [reflexivity|].
  destruct d as [e|lo]; cbn [loki_tmpl_aux true_tmpl_aux dims_ok_aux] in *.
  - f_equal. apply (IH (pre ++ [SdFix e])%list (S p) r true).
    + rewrite <- app_assoc. exact Hall.
    + rewrite app_length. cbn. lia.
    + discriminate.
    + exact Hok.
  - apply andb_prop in Hok. destruct Hok as [Hok H3]. apply andb_prop in Hok. destruct Hok as [H1 H2].
    apply negb_true_iff in H1. specialize (Hpr H1). subst seen. subst r.
    f_equal.
    + f_equal. unfold loki_off, true_off. subst all. rewrite <- Hlen. rewrite nth_middle.
      destruct lo as [l|]; [|reflexivity].
      destruct (l =? 0) eqn:El; [|reflexivity].
      apply Z.eqb_eq in El. subst l. cbn in H2. apply Z.eqb_eq in H2. rewrite Hlen in *. lia.
    + apply (IH (pre ++ [SdRange lo])%list (S p) (S p) false).
      * rewrite <- app_assoc. exact Hall.
      * rewrite app_length. cbn. lia.
      * reflexivity.
      * exact H3.
Qed.

Theorem dim_map_correct Lv Ld dims : dims_ok Lv dims = true -> loki_tmpl Lv Ld dims = true_tmpl Lv Ld dims.
Proof. intros H. unfold loki_tmpl, true_tmpl. apply (dim_map_aux Lv Ld dims dims [] 0%nat 0%nat false); auto. Qed.

(** what the "true" offset means: subscript [i] of the dummy (declared lower bound [Ld_r]) is the
    [(i - Ld_r)]-th element after the lower bound of the section *)
Lemma true_off_meaning Lv Ld p r lo i :
  i + true_off Lv Ld p r lo = (match lo with Some l => l | None => nth p Lv 1 end) + (i - nth r Ld 1).
Proof. unfold true_off. lia. Qed.

Lemma dim_map_zero_lower_refuted :
  exists Lv Ld dims, loki_tmpl Lv Ld dims <> true_tmpl Lv Ld dims.
Proof. exists [-2], [1], [SdRange (Some 0)]. vm_compute. discriminate. Qed.

Lemma dim_map_misaligned_refuted :
  exists Lv Ld dims, (forall lo, ~ In (SdRange (Some lo)) dims) /\ loki_tmpl Lv Ld dims <> true_tmpl Lv Ld dims.
Proof.
  exists [0; 1], [1], [SdFix (EVar "j"); SdRange None]. split.
  - intros lo [K|[K|K]]; try discriminate; contradiction.
  - vm_compute. discriminate.
Qed.

(** F10: the expression actual is re-evaluated after the callee changed one of its variables *)
Open Scope string_scope.
Lemma inline_expr_actual_refuted :
  exists cvars ce args q s s1 s2,
    inline_plain cvars ce args = Some q /\
    exec [(ce_name ce, proc_of ce)] 5 [SCall (ce_name ce) args] s = Some s1 /\
    exec [(ce_name ce, proc_of ce)] 5 q s = Some s2 /\
    sv s1 "y" <> sv s2 "y".
Proof.
  exists ["x"; "y"], f10_callee, f10_args,
         [SAssign "x" (EInt 0); SAssign "y" (ESum false [EVar "x"; EInt 1])], f10_store,
         (set_sv "y" 6 (set_sv "x" 0 f10_store)), (set_sv "y" 1 (set_sv "x" 0 f10_store)).
  split; [vm_compute; reflexivity|]. split; [vm_compute; reflexivity|].
  split; [vm_compute; reflexivity|]. vm_compute. discriminate.
Qed.

Example const_ok_nontrivial :
  const_ok [("n", EInt 4); ("k", ESum false [EInt 1; EInt 2])] ["x"; "y"; "i"; "n"; "k"] ["a"]
           [SAssign "x" (ESum false [EVar "n"; EVar "y"]);
            SDo "i" (EInt 1) (EVar "k") None [SStore "a" [EVar "i"] (EProd false [EVar "n"; EVar "x"])]] = true.
Proof. vm_compute. reflexivity. Qed.

(** the class is not empty: a callee with a written scalar, a local that clashes, an array dummy and a loop *)
Definition ex_callee : callee :=
  {| ce_name := "f"; ce_params := [("p", false); ("q", false); ("v", true)]; ce_locals := ["t"; "i"]; ce_larrs := [];
     ce_lbs := [("v", [1])];
     ce_body := [SAssign "t" (ESum false [EVar "p"; EInt 1]);
                 SDo "i" (EInt 1) (EInt 3) None [SStore "v" [EVar "i"] (ESum false [ECall "v" [EVar "i"]; EVar "t"])];
                 SAssign "q" (EProd false [EVar "t"; EVar "q"])] |}.
Example inlinable_nontrivial :
  inlinable ["x"; "y"; "t"; "a"] ex_callee [ESum false [EVar "x"; EInt 2]; EVar "y"; EVar "a"] = true.
Proof. vm_compute. reflexivity. Qed.
