(** C28 — inlining every call of a callee inside a caller body: the surrounding statements are a congruence
    as long as they do not mention the hoisted callee locals ([exec_agree], [inline_body_sound]); the model function
    [inline_body] that the correspondence compares with Loki is [inline_body_p] when the declared lower bounds agree at
    every call site ([inline_body_plain], [inline_body_tied_preserves]); [body_ok_nontrivial].
    Defines the vocabulary of these statements: [nh], [ctx_ok], [agreeH], [inline_stmt_p], [inline_body_p], [body_ok],
    [nil_tmpl], [plain_site], [sites_plain]. *)
From Coq Require Import ZArith List Bool String Lia.
From LV Require Import Base.Expr Base.ExprFacts Base.MiniF Base.MiniFFacts Base.Lockstep models.M_C28
     proofs.P_C28_norm proofs.P_C28_subst proofs.P_C28_sim proofs.P_C28_frame proofs.P_C28.
Import ListNotations.
Open Scope Z_scope.

Definition nh (H : list string) : string -> bool := fun y => negb (mem y H).

(** [ctx_ok H s]: the statement neither reads nor writes a name of [H] *)
Fixpoint ctx_ok (H : list string) (s : stmt) : bool :=
  match s with
  | SAssign x e => nh H x && e_ok (nh H) (nh H) e
  | SStore a idx e => nh H a && forallb (e_ok (nh H) (nh H)) idx && e_ok (nh H) (nh H) e
  | SDo v lo hi st b => nh H v && e_ok (nh H) (nh H) lo && e_ok (nh H) (nh H) hi && oe_ok (nh H) (nh H) st && forallb (ctx_ok H) b
  | SWhile c b => e_ok (nh H) (nh H) c && forallb (ctx_ok H) b
  | SIf c t e => e_ok (nh H) (nh H) c && forallb (ctx_ok H) t && forallb (ctx_ok H) e
  | SCall _ args => forallb (e_ok (nh H) (nh H)) args
  | SSkip _ => true
  end.

Definition agreeH (H : list string) : store -> store -> Prop := agree_except H H.

(** [inline_body_p]: every call of [ce] in a caller body replaced, with MiniF's own CALL semantics in mind (no offsets) *)
Section BodyDefs.
  Variables (cvars : list string) (ce : callee).

  Fixpoint inline_stmt_p (s : stmt) : option (list stmt) :=
    let fix go (l : list stmt) : option (list stmt) :=
      match l with
      | [] => Some []
      | x :: r => match inline_stmt_p x, go r with Some a, Some b => Some (a ++ b)%list | _, _ => None end
      end in
    match s with
    | SCall g args => if String.eqb g (ce_name ce) then inline_plain cvars ce args else Some [s]
    | SDo v lo hi st b => match go b with Some b' => Some [SDo v lo hi st b'] | None => None end
    | SWhile c b => match go b with Some b' => Some [SWhile c b'] | None => None end
    | SIf c t e => match go t, go e with Some t', Some e' => Some [SIf c t' e'] | _, _ => None end
    | _ => Some [s]
    end.

  Fixpoint inline_body_p (l : list stmt) : option (list stmt) :=
    match l with
    | [] => Some []
    | x :: r => match inline_stmt_p x, inline_body_p r with Some a, Some b => Some (a ++ b)%list | _, _ => None end
    end.

  (** every call of [ce] is in the class, nothing else mentions the hoisted locals *)
  Fixpoint body_ok (s : stmt) : bool :=
    let H := hoisted_s cvars ce in
    match s with
    | SCall g args => forallb (e_ok (nh H) (nh H)) args && (if String.eqb g (ce_name ce) then inlinable cvars ce args else true)
    | SDo v lo hi st b => nh H v && e_ok (nh H) (nh H) lo && e_ok (nh H) (nh H) hi && oe_ok (nh H) (nh H) st && forallb body_ok b
    | SWhile c b => e_ok (nh H) (nh H) c && forallb body_ok b
    | SIf c t e => e_ok (nh H) (nh H) c && forallb body_ok t && forallb body_ok e
    | _ => ctx_ok H s
    end.
End BodyDefs.

(** a call site whose template is empty: declared lower bounds of actual and dummy agree *)
Definition nil_tmpl (e : string * (string * list dspec)) : bool := match snd (snd e) with [] => true | _ => false end.

Definition plain_site (lbc : list (string * list Z)) (ce : callee) (args : list expr) : bool :=
  match argmap_a lbc ce (ce_params ce) (map AExp args) with
  | Some amap => forallb nil_tmpl amap
  | None => false
  end.

Fixpoint sites_plain (lbc : list (string * list Z)) (ce : callee) (s : stmt) : bool :=
  match s with
  | SCall g args => if String.eqb g (ce_name ce) then plain_site lbc ce args else true
  | SDo _ _ _ _ b | SWhile _ b => forallb (sites_plain lbc ce) b
  | SIf _ t e => forallb (sites_plain lbc ce) t && forallb (sites_plain lbc ce) e
  | _ => true
  end.

(** [agree_except Hs Ha s1 s2] is [unchanged Hs Ha s2 s1]: reflexivity, transitivity and weakening are those of [unchanged] *)
Lemma agreeH_refl H s : agreeH H s s.
Proof. apply unchanged_refl. Qed.

Lemma agreeH_trans H s1 s2 s3 : agreeH H s1 s2 -> agreeH H s2 s3 -> agreeH H s1 s3.
Proof. intros A B. exact (unchanged_trans H H s3 s2 s1 B A). Qed.

Lemma agree_except_agreeH Hs s1 s2 : agree_except Hs [] s1 s2 -> agreeH Hs s1 s2.
Proof. apply unchanged_weaken; [apply incl_refl|apply incl_nil_l]. Qed.

Lemma nh_true H y : nh H y = true -> ~ In y H.
Proof. unfold nh. intros E. apply negb_true_iff in E. now apply mem_false_In. Qed.

Lemma agree_eval H s1 s2 e :
  agreeH H s1 s2 -> e_ok (nh H) (nh H) e = true ->
  evalZ (env_st s1) e = evalZ (env_st s2) e /\ evalB (env_st s1) e = evalB (env_st s2) e.
Proof.
  intros [A1 A2] Hok. apply (e_ok_agree _ _ _ _ _ Hok).
  - intros y Hy. cbn. apply A1. now apply nh_true.
  - intros a Ha vs. cbn. f_equal. apply A2. now apply nh_true.
Qed.

Lemma agree_eval_idx H s1 s2 idx :
  agreeH H s1 s2 -> forallb (e_ok (nh H) (nh H)) idx = true -> eval_idx s1 idx = eval_idx s2 idx.
Proof.
  intros HA Hok. unfold eval_idx. apply omap_list_ext. apply Forall_forall. intros c Hc.
  rewrite forallb_forall in Hok. apply (agree_eval H s1 s2 c HA (Hok c Hc)).
Qed.

Lemma agree_set_sv H s1 s2 x v : agreeH H s1 s2 -> agreeH H (set_sv x v s1) (set_sv x v s2).
Proof.
  intros [A1 A2]. split.
  - intros y Hy. cbn. destruct (String.eqb y x); [reflexivity|apply A1; exact Hy].
  - intros a Ha i. cbn. apply A2; exact Ha.
Qed.

Lemma agree_set_av H s1 s2 a i v : agreeH H s1 s2 -> agreeH H (set_av a i v s1) (set_av a i v s2).
Proof.
  intros [A1 A2]. split.
  - intros y Hy. cbn. apply A1; exact Hy.
  - intros b Hb j. cbn. destruct (String.eqb b a && list_z_eqb j i); [reflexivity|apply A2; exact Hb].
Qed.

Lemma nh_nil y : nh [] y = true.
Proof. reflexivity. Qed.

Lemma ctx_ok_nil : forall s, ctx_ok [] s = true.
Proof.
  assert (E : forall e, e_ok (nh []) (nh []) e = true) by (intros e; apply e_ok_true).
  assert (FE : forall l, forallb (e_ok (nh []) (nh [])) l = true) by (intros l; apply forallb_forall; intros c _; apply E).
  assert (OE : forall o, oe_ok (nh []) (nh []) o = true) by (intros [e|]; cbn; [apply E|reflexivity]).
  assert (FS : forall l, Forall (fun s => ctx_ok [] s = true) l -> forallb (ctx_ok []) l = true).
  { intros l Hl. apply forallb_forall. rewrite Forall_forall in Hl. exact Hl. }
  induction s using stmt_ind'; cbn [ctx_ok]; rewrite ?nh_nil, ?E, ?FE, ?OE; cbn [andb]; try reflexivity.
  - apply FS; assumption.
  - apply FS; assumption.
  - rewrite (FS _ H), (FS _ H0). reflexivity.
Qed.

Lemma copy_in_agree H s1 s2 params : forall args c1 c2,
  agreeH H s1 s2 -> forallb (e_ok (nh H) (nh H)) args = true -> agreeH [] c1 c2 ->
  orel (agreeH []) (copy_in s1 params args c1) (copy_in s2 params args c2).
Proof.
  induction params as [|[d b] ps IH]; intros args c1 c2 HA Hok HC; destruct args as [|e r]; cbn [copy_in]; try exact I.
  - exact HC.
  - destruct b; exact I.
  - cbn [forallb] in Hok. apply andb_prop in Hok. destruct Hok as [He Hr]. destruct b.
    + destruct e; try exact I. apply IH; [exact HA|exact Hr|].
      destruct HC as [C1 C2]. destruct HA as [A1 A2]. split.
      * intros y Hy. cbn. apply C1; exact Hy.
      * intros a Ha i. cbn. destruct (String.eqb a d); [|apply C2; exact Ha].
        apply A2. cbn in He. now apply nh_true.
    + rewrite (proj1 (agree_eval H s1 s2 e HA He)). destruct (evalZ (env_st s2) e); [|exact I].
      apply IH; [exact HA|exact Hr|]. apply agree_set_sv. exact HC.
Qed.

Lemma copy_out_agree_ctx H c1 c2 params : forall args s1 s2,
  agreeH [] c1 c2 -> agreeH H s1 s2 -> agreeH H (copy_out c1 params args s1) (copy_out c2 params args s2).
Proof.
  induction params as [|[d b] ps IH]; intros args s1 s2 HC HA; destruct args as [|e r]; cbn [copy_out]; try exact HA.
  - destruct b; exact HA.
  - destruct b; destruct e as [v0|v0|x|b0|p0 cs|p0 cs|p0 n0 d0|p0 b0 e0|op l0 r0|cs|cs|e0|f0 cs];
      cbn [copy_out]; try (apply IH; assumption); apply IH; try assumption;
      destruct HC as [C1 C2]; destruct HA as [A1 A2].
    + split.
      * intros y Hy. cbn. apply A1; exact Hy.
      * intros a Ha i. cbn. destruct (String.eqb a x); [apply C2; intros K; exact K|apply A2; exact Ha].
    + rewrite (C1 d (fun K => K)). apply agree_set_sv. split; assumption.
Qed.

Lemma agree_lock ps : forall f H P, forallb (ctx_ok H) P = true -> lock_at ps ps (agreeH H) (agreeH H) f P P.
Proof.
  induction f as [|f IH]; intros H P Hok; [apply lock_at_0|].
  destruct P as [|st rest]; [apply lock_nil|].
  cbn [forallb] in Hok. apply andb_prop in Hok as [Hst Hrest]. apply (lock_cons _ _ _ (agreeH H)); [|apply IH, Hrest].
  pose proof (fun e He s s' HA => proj1 (agree_eval H s s' e HA He)) as EZ.
  pose proof (fun e He s s' HA => proj2 (agree_eval H s s' e HA He)) as EB.
  destruct st as [x e|a idx e|v lo hi stp b|c b|c tb eb|g args|l]; cbn [ctx_ok] in Hst.
  - apply andb_prop in Hst as [_ He]. apply lock1_assign; [exact (EZ e He)|intros; now apply agree_set_sv].
  - apply andb_prop in Hst as [Hst He]. apply andb_prop in Hst as [_ Hi].
    apply lock1_store_id; [|exact (EZ e He)|intros; now apply agree_set_av].
    intros s s' HA. exact (agree_eval_idx H s s' idx HA Hi).
  - apply andb_prop in Hst as [Hst Hb]. apply andb_prop in Hst as [Hst Hs].
    apply andb_prop in Hst as [Hst Hhi]. apply andb_prop in Hst as [_ Hlo].
    apply lock1_do; [exact (EZ lo Hlo)|exact (EZ hi Hhi)| |intros; now apply agree_set_sv|apply IH, Hb].
    intros s s' HA. destruct stp as [e|]; [exact (EZ e Hs s s' HA)|reflexivity].
  - apply andb_prop in Hst as [Hc Hb]. apply lock1_while; [exact (EB c Hc)|apply IH, Hb|apply IH].
    cbn [forallb ctx_ok]. rewrite Hc, Hb. reflexivity.
  - apply andb_prop in Hst as [Hst He]. apply andb_prop in Hst as [Hc Ht].
    apply lock1_if; [exact (EB c Hc)|apply IH, Ht|apply IH, He].
  - (* the callee starts from stores that agree everywhere and mentions nothing of [H] = [[]] *)
    apply (lock1_call _ _ (agreeH []) (agreeH [])); [reflexivity| | |].
    + intros p s s' HA. apply (copy_in_agree H); [exact HA|exact Hst|apply agreeH_refl].
    + intros p _. apply IH, forallb_forall. intros x _. apply ctx_ok_nil.
    + intros p s s' c c' HA Hc. now apply copy_out_agree_ctx.
  - apply lock1_skip.
Qed.

Lemma exec_agree ps : forall f H P s1 s2,
  forallb (ctx_ok H) P = true -> agreeH H s1 s2 -> orel (agreeH H) (exec ps f P s1) (exec ps f P s2).
Proof. intros f H P s1 s2 Hok. exact (agree_lock ps f H P Hok s1 s2). Qed.

Lemma inline_stmt_p_do cvars ce v lo hi st b :
  inline_stmt_p cvars ce (SDo v lo hi st b) = match inline_body_p cvars ce b with Some b' => Some [SDo v lo hi st b'] | None => None end.
Proof. reflexivity. Qed.
Lemma inline_stmt_p_while cvars ce c b :
  inline_stmt_p cvars ce (SWhile c b) = match inline_body_p cvars ce b with Some b' => Some [SWhile c b'] | None => None end.
Proof. reflexivity. Qed.
Lemma inline_stmt_p_if cvars ce c t e :
  inline_stmt_p cvars ce (SIf c t e) =
  match inline_body_p cvars ce t, inline_body_p cvars ce e with Some t', Some e' => Some [SIf c t' e'] | _, _ => None end.
Proof. reflexivity. Qed.

Lemma stmt_agree_runs ps H st s1 s2 s1m :
  ctx_ok H st = true -> agreeH H s1 s2 -> runs1 ps st s1 s1m ->
  exists s2m, runs1 ps st s2 s2m /\ agreeH H s1m s2m.
Proof.
  intros Hok HA R. apply runs_single in R. destruct R as [f E].
  pose proof (exec_agree ps f H [st] s1 s2) as K. cbn [forallb] in K. rewrite Hok in K. specialize (K eq_refl HA).
  rewrite E in K. destruct (exec ps f [st] s2) as [s2m|] eqn:E2; [|contradiction].
  exists s2m. split; [apply runs_single; exists f; exact E2|exact K].
Qed.

Section BodyThm.
  Variables (cvars : list string) (ce : callee) (ps : procs).
  Hypothesis Hf : find_proc ps (ce_name ce) = Some (proc_of ce).
  Let Hs := hoisted_s cvars ce.

  (** forward simulation by induction on the fuel of the original: statements other than calls of [ce] run alike
      ([stmt_agree_runs]), a call of [ce] is first moved to the other store and then replaced
      ([inline_sub_preserves_on_class]), compound statements recurse *)
  Theorem inline_body_sound : forall f P P',
    forallb (body_ok cvars ce) P = true -> inline_body_p cvars ce P = Some P' ->
    sim_at ps ps (agreeH Hs) (agreeH Hs) f P P'.
  Proof.
    induction f as [|f IH]; intros P P' Hok Hin; [apply sim_at_0|].
    destruct P as [|st rest]; [cbn in Hin; injection Hin as <-; apply sim_nil|].
    cbn [forallb] in Hok. apply andb_prop in Hok as [Hst Hrest].
    cbn [inline_body_p] in Hin. destruct (inline_stmt_p cvars ce st) as [a|] eqn:Ha; [|discriminate].
    destruct (inline_body_p cvars ce rest) as [b|] eqn:Hb; [|discriminate]. injection Hin as <-.
    apply (sim_cons _ _ _ (agreeH Hs)); [|now apply IH].
    assert (Plain : ctx_ok Hs st = true -> a = [st] -> sim1_at ps ps (agreeH Hs) (agreeH Hs) f st a).
    { intros Hc -> s s' s1 HA E1. destruct (stmt_agree_runs ps Hs st s s' s1 Hc HA (ex_intro _ f E1)) as [s2m [T1 T2]].
      exists s2m. split; [apply runs_single; exact T1|exact T2]. }
    pose proof (fun e He s s' HA => proj1 (agree_eval Hs s s' e HA He)) as EZ.
    pose proof (fun e He s s' HA => proj2 (agree_eval Hs s s' e HA He)) as EB.
    destruct st as [x e|ar idx e|v lo hi stp body|c body|c tb eb|g args|l].
    - apply Plain; [exact Hst|cbn in Ha; congruence].
    - apply Plain; [exact Hst|cbn in Ha; congruence].
    - cbn [body_ok] in Hst. fold Hs in Hst. apply andb_prop in Hst as [Hst Hbody]. apply andb_prop in Hst as [Hst Hstp].
      apply andb_prop in Hst as [Hst Hhi]. apply andb_prop in Hst as [_ Hlo].
      rewrite inline_stmt_p_do in Ha. destruct (inline_body_p cvars ce body) as [body'|] eqn:Hbd; [|discriminate].
      injection Ha as <-.
      apply sim1_do; [exact (EZ lo Hlo)|exact (EZ hi Hhi)| |intros; now apply agree_set_sv|now apply IH].
      intros s s' HA. destruct stp as [e|]; [exact (EZ e Hstp s s' HA)|reflexivity].
    - cbn [body_ok] in Hst. fold Hs in Hst. apply andb_prop in Hst as [Hc Hbody].
      rewrite inline_stmt_p_while in Ha. destruct (inline_body_p cvars ce body) as [body'|] eqn:Hbd; [|discriminate].
      injection Ha as <-.
      apply sim1_while; [exact (EB c Hc)|now apply IH|apply IH].
      + cbn [forallb body_ok]. fold Hs. rewrite Hc, Hbody. reflexivity.
      + cbn [inline_body_p]. rewrite inline_stmt_p_while, Hbd. reflexivity.
    - cbn [body_ok] in Hst. fold Hs in Hst. apply andb_prop in Hst as [Hst He]. apply andb_prop in Hst as [Hc Ht].
      rewrite inline_stmt_p_if in Ha. destruct (inline_body_p cvars ce tb) as [tb'|] eqn:Htb; [|discriminate].
      destruct (inline_body_p cvars ce eb) as [eb'|] eqn:Heb; [|discriminate]. injection Ha as <-.
      apply sim1_if; [exact (EB c Hc)|now apply IH|now apply IH].
    - cbn [body_ok] in Hst. fold Hs in Hst. apply andb_prop in Hst as [Hargs Hcls].
      cbn [inline_stmt_p] in Ha. destruct (String.eqb_spec g (ce_name ce)) as [->|_]; [|apply Plain; [exact Hargs|congruence]].
      intros s s' s1 HA E1.
      destruct (stmt_agree_runs ps Hs (SCall (ce_name ce) args) s s' s1 Hargs HA (ex_intro _ f E1)) as [s2c [T1 T2]].
      apply runs_single in T1.
      destruct (proj1 (inline_sub_preserves_on_class cvars ce args a ps Hcls Ha Hf s') s2c T1) as [s2q [R L]].
      exists s2q. split; [exact R|]. eapply agreeH_trans; [exact T2|apply agree_except_agreeH; exact L].
    - apply Plain; [exact Hst|cbn in Ha; congruence].
  Qed.

  Corollary inline_body_preserves P P' s s1 :
    forallb (body_ok cvars ce) P = true -> inline_body_p cvars ce P = Some P' ->
    runs ps P s s1 -> exists s2, runs ps P' s s2 /\ agreeH Hs s1 s2.
  Proof. intros Hok Hin [f E]. exact (inline_body_sound f P P' Hok Hin s s s1 (agreeH_refl _ _) E). Qed.
End BodyThm.

(** the tied model [inline_body] coincides with [inline_body_p] when all declared lower bounds agree *)
Lemma argmap_a_plain lbc ce : forall ps args amap,
  argmap_a lbc ce ps (map AExp args) = Some amap -> forallb nil_tmpl amap = true -> amap = plain_amap ps args.
Proof.
  induction ps as [|[d b] ps IH]; intros args amap H Hn.
  - destruct args; cbn in H; [inversion H; reflexivity|discriminate].
  - destruct args as [|e r]; [destruct b; discriminate|]. cbn [map] in H. destruct b.
    + destruct e; try discriminate. cbn [argmap_a] in H.
      destruct (argmap_a lbc ce ps (map AExp r)) as [rest|] eqn:Er; [|discriminate]. inversion H. subst amap. clear H.
      cbn [forallb] in Hn. apply andb_prop in Hn. destruct Hn as [H1 H2]. unfold nil_tmpl in H1. cbn [snd] in H1.
      destruct (tmpl_clean _) eqn:Et; [|discriminate]. cbn [plain_amap]. f_equal. apply IH; [exact Er|exact H2].
    + cbn [argmap_a] in H. destruct e; cbn [plain_amap]; apply IH; assumption.
Qed.

Lemma scalar_args_AExp args : scalar_args (map AExp args) = args.
Proof. induction args as [|e r IH]; cbn; [reflexivity|]. f_equal. exact IH. Qed.

Lemma inline_call_plain cvars lbc ce args :
  plain_site lbc ce args = true -> inline_call cvars lbc ce args = inline_plain cvars ce args.
Proof.
  unfold plain_site, inline_call, inline_call_src, inline_plain. intros H.
  destruct (argmap_a lbc ce (ce_params ce) (map AExp args)) as [amap|] eqn:E; [|discriminate].
  rewrite (argmap_a_plain lbc ce _ _ _ E H), scalar_args_AExp. reflexivity.
Qed.

Lemma inline_stmt_go cvars lbc ce b :
  (fix go (l : list stmt) : option (list stmt) :=
     match l with
     | [] => Some []
     | x :: r => match inline_stmt cvars lbc ce x, go r with Some a, Some b => Some (a ++ b)%list | _, _ => None end
     end) b = inline_body cvars lbc ce b.
Proof. induction b as [|x r IH]; [reflexivity|]. cbn [inline_body]. rewrite <- IH. reflexivity. Qed.

Lemma inline_stmt_do_eq cvars lbc ce v lo hi st b :
  inline_stmt cvars lbc ce (SDo v lo hi st b) = match inline_body cvars lbc ce b with Some b' => Some [SDo v lo hi st b'] | None => None end.
Proof. rewrite <- inline_stmt_go. reflexivity. Qed.
Lemma inline_stmt_while_eq cvars lbc ce c b :
  inline_stmt cvars lbc ce (SWhile c b) = match inline_body cvars lbc ce b with Some b' => Some [SWhile c b'] | None => None end.
Proof. rewrite <- inline_stmt_go. reflexivity. Qed.
Lemma inline_stmt_if_eq cvars lbc ce c t e :
  inline_stmt cvars lbc ce (SIf c t e) =
  match inline_body cvars lbc ce t, inline_body cvars lbc ce e with Some t', Some e' => Some [SIf c t' e'] | _, _ => None end.
Proof. rewrite <- !inline_stmt_go. reflexivity. Qed.

Lemma inline_body_plain cvars lbc ce : forall P,
  forallb (sites_plain lbc ce) P = true -> inline_body cvars lbc ce P = inline_body_p cvars ce P.
Proof.
  assert (Lift : forall b,
    Forall (fun s => sites_plain lbc ce s = true -> inline_stmt cvars lbc ce s = inline_stmt_p cvars ce s) b ->
    forallb (sites_plain lbc ce) b = true -> inline_body cvars lbc ce b = inline_body_p cvars ce b).
  { induction 1 as [|x r Hx _ IHr]; intros Hs; [reflexivity|].
    cbn [forallb] in Hs. apply andb_prop in Hs. destruct Hs as [H1 H2].
    cbn [inline_body inline_body_p]. rewrite (Hx H1), (IHr H2). reflexivity. }
  assert (St : forall s, sites_plain lbc ce s = true -> inline_stmt cvars lbc ce s = inline_stmt_p cvars ce s).
  { induction s using stmt_ind'; intros Hs; try reflexivity; cbn [sites_plain] in Hs.
    - rewrite inline_stmt_do_eq, inline_stmt_p_do, (Lift b H Hs). reflexivity.
    - rewrite inline_stmt_while_eq, inline_stmt_p_while, (Lift b H Hs). reflexivity.
    - apply andb_prop in Hs. destruct Hs as [Ht He].
      rewrite inline_stmt_if_eq, inline_stmt_p_if, (Lift t H Ht), (Lift e H0 He). reflexivity.
    - cbn [inline_stmt inline_stmt_p].
      destruct (String.eqb f (ce_name ce)); [apply inline_call_plain; exact Hs|reflexivity]. }
  intros P HP. apply Lift; [|exact HP]. apply Forall_forall. intros s _. apply St.
Qed.

(** the body theorem for the model function that the correspondence ties to Loki *)
Theorem inline_body_tied_preserves cvars lbc ce ps :
  find_proc ps (ce_name ce) = Some (proc_of ce) ->
  forall P P' s s1,
    forallb (body_ok cvars ce) P = true -> forallb (sites_plain lbc ce) P = true ->
    inline_body cvars lbc ce P = Some P' ->
    runs ps P s s1 -> exists s2, runs ps P' s s2 /\ agreeH (hoisted_s cvars ce) s1 s2.
Proof.
  intros Hf P P' s s1 Hok Hpl Hin Hr. rewrite (inline_body_plain cvars lbc ce P Hpl) in Hin.
  exact (inline_body_preserves cvars ce ps Hf P P' s s1 Hok Hin Hr).
Qed.

Open Scope string_scope.
Example body_ok_nontrivial :
  forallb (body_ok ["x"; "y"; "t"; "a"] ex_callee)
    [SAssign "t" (EInt 1);
     SIf (ECmp Cgt (EVar "x") (EInt 0)) [SCall "f" [ESum false [EVar "x"; EInt 2]; EVar "y"; EVar "a"]] [];
     SDo "k" (EInt 1) (EInt 2) None [SCall "f" [EVar "k"; EVar "x"; EVar "a"]]] = true
  /\ exists P', inline_body_p ["x"; "y"; "t"; "a"] ex_callee
    [SAssign "t" (EInt 1);
     SIf (ECmp Cgt (EVar "x") (EInt 0)) [SCall "f" [ESum false [EVar "x"; EInt 2]; EVar "y"; EVar "a"]] [];
     SDo "k" (EInt 1) (EInt 2) None [SCall "f" [EVar "k"; EVar "x"; EVar "a"]]] = Some P'.
Proof.
  split; [vm_compute; reflexivity|].
  destruct (inline_body_p _ _ _) as [P'|] eqn:E; [exists P'; reflexivity|vm_compute in E; discriminate].
Qed.
