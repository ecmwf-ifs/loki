(** C28 — frame lemma (what a program does not write stays unchanged) and the copy-in / copy-out lemmas. *)
From Coq Require Import ZArith List Bool String Lia.
From LV Require Import Base.Expr Base.MiniF Base.MiniFFacts models.M_C28 proofs.P_C28_norm proofs.P_C28_subst.
Import ListNotations.
Open Scope Z_scope.

Definition unchanged (Ws Wa : list string) (s s' : store) : Prop :=
  (forall z, ~ In z Ws -> sv s' z = sv s z) /\ (forall a, ~ In a Wa -> forall i, av s' a i = av s a i).

Lemma unchanged_refl Ws Wa s : unchanged Ws Wa s s.
Proof. split; intros; reflexivity. Qed.

Lemma unchanged_trans Ws Wa s1 s2 s3 : unchanged Ws Wa s1 s2 -> unchanged Ws Wa s2 s3 -> unchanged Ws Wa s1 s3.
Proof.
  intros [A1 A2] [B1 B2]. split.
  - intros z Hz. rewrite (B1 z Hz). apply A1; exact Hz.
  - intros a Ha i. rewrite (B2 a Ha i). apply A2; exact Ha.
Qed.

Lemma unchanged_weaken Ws Wa Ws' Wa' s s' :
  incl Ws Ws' -> incl Wa Wa' -> unchanged Ws Wa s s' -> unchanged Ws' Wa' s s'.
Proof. intros H1 H2 [A1 A2]. split; intros; [apply A1|apply A2]; auto. Qed.

(** the three ways a store is written *)
Lemma unchanged_set_sv Ws Wa x v s : In x Ws -> unchanged Ws Wa s (set_sv x v s).
Proof.
  intros Hx. split; [|intros; reflexivity]. intros z Hz. cbn.
  destruct (String.eqb_spec z x) as [->|_]; [contradiction|reflexivity].
Qed.

Lemma unchanged_set_av Ws Wa a i v s : In a Wa -> unchanged Ws Wa s (set_av a i v s).
Proof.
  intros Ha. split; [intros; reflexivity|]. intros b Hb j. cbn.
  destruct (String.eqb_spec b a) as [->|_]; [contradiction|reflexivity].
Qed.

Lemma unchanged_set_arr Ws Wa a f s : In a Wa -> unchanged Ws Wa s (set_arr a f s).
Proof.
  intros Ha. split; [intros; reflexivity|]. intros b Hb j. cbn.
  destruct (String.eqb_spec b a) as [->|_]; [contradiction|reflexivity].
Qed.

(** the names a CALL may write: the body of [wr_s]/[wr_a] at [SCall], to which it is convertible *)
Definition arg_vars (args : list expr) : list string :=
  flat_map (fun a => match a with EVar x => [x] | _ => [] end) args.

Lemma copy_out_unchanged callee params : forall args caller,
  unchanged (arg_vars args) (arg_vars args) caller (copy_out callee params args caller).
Proof.
  induction params as [|[d b] ps IH]; intros args caller; destruct args as [|e r]; cbn [copy_out]; try apply unchanged_refl.
  - destruct b; apply unchanged_refl.
  - assert (Hr : forall c, unchanged (arg_vars (e :: r)) (arg_vars (e :: r)) c (copy_out callee ps r c)).
    { intros c. eapply unchanged_weaken; [| |apply IH]; unfold arg_vars; cbn [flat_map]; apply incl_appr, incl_refl. }
    destruct e; try (destruct b; apply Hr).
    destruct b; (eapply unchanged_trans; [|apply Hr]); [apply unchanged_set_arr|apply unchanged_set_sv]; cbn; now left.
Qed.

Lemma do_loop_unchanged Ws Wa (run : store -> option store) v d :
  In v Ws -> (forall s s', run s = Some s' -> unchanged Ws Wa s s') ->
  forall n i s s', do_loop run v d n i s = Some s' -> unchanged Ws Wa s s'.
Proof.
  intros Hv Hrun. induction n as [|n IH]; intros i s s' H; cbn [do_loop] in H.
  - injection H as <-. apply unchanged_set_sv, Hv.
  - apply obind_some in H. destruct H as [s2 [H1 H2]].
    eapply unchanged_trans; [apply unchanged_set_sv, Hv|].
    eapply unchanged_trans; [apply Hrun; exact H1|]. eapply IH; exact H2.
Qed.

Lemma exec_frame ps : forall f ss s s', exec ps f ss s = Some s' -> unchanged (wrs ss) (wra ss) s s'.
Proof.
  induction f as [|f IH]; intros ss s s' H; [discriminate|].
  destruct ss as [|st rest]; [injection H as <-; apply unchanged_refl|].
  rewrite exec_unfold in H. apply obind_some in H. destruct H as [s1 [H1 H2]].
  change (wrs (st :: rest)) with (wr_s st ++ wrs rest)%list. change (wra (st :: rest)) with (wr_a st ++ wra rest)%list.
  apply (unchanged_trans _ _ s s1 s').
  2:{ eapply unchanged_weaken; [| |exact (IH rest s1 s' H2)]; apply incl_appr, incl_refl. }
  eapply unchanged_weaken; [apply incl_appl, incl_refl|apply incl_appl, incl_refl|].
  destruct st as [x e|a idx e|v lo hi stp b|c b|c tb eb|g args|l]; cbn [exec1] in H1; cbn [wr_s wr_a].
  - apply obind_some in H1. destruct H1 as [v [_ [= <-]]]. apply unchanged_set_sv. now left.
  - apply obind_some in H1. destruct H1 as [i [_ E]]. apply obind_some in E. destruct E as [v [_ [= <-]]].
    apply unchanged_set_av. now left.
  - apply obind_some in H1. destruct H1 as [a0 [_ E]]. apply obind_some in E. destruct E as [b0 [_ E]].
    apply obind_some in E. destruct E as [d [_ E]]. destruct (d =? 0); [discriminate|].
    eapply (do_loop_unchanged _ _ (exec ps f b)); [now left| |exact E].
    intros t t' Ht. eapply unchanged_weaken; [apply incl_tl, incl_refl|apply incl_refl|exact (IH b t t' Ht)].
  - apply obind_some in H1. destruct H1 as [[|] [_ E]]; [|injection E as <-; apply unchanged_refl].
    apply obind_some in E. destruct E as [t [E1 E2]].
    apply (unchanged_trans _ _ s t s1); [exact (IH b s t E1)|].
    pose proof (IH [SWhile c b] t s1 E2) as K. unfold wrs, wra in K. cbn [flat_map wr_s wr_a] in K.
    rewrite !app_nil_r in K. exact K.
  - apply obind_some in H1. destruct H1 as [[|] [_ E]].
    + eapply unchanged_weaken; [apply incl_appl, incl_refl|apply incl_appl, incl_refl|exact (IH tb s s1 E)].
    + eapply unchanged_weaken; [apply incl_appr, incl_refl|apply incl_appr, incl_refl|exact (IH eb s s1 E)].
  - apply obind_some in H1. destruct H1 as [p [_ E]]. apply obind_some in E. destruct E as [s0 [_ E]].
    apply obind_some in E. destruct E as [s2 [_ [= <-]]]. apply copy_out_unchanged.
  - injection H1 as <-. apply unchanged_refl.
Qed.

Lemma copy_in_o_spec s offs : forall params args callee sc0,
  copy_in_o s params args offs callee = Some sc0 -> NoDup (map fst params) ->
  (forall z, ~ In z (map fst params) -> sv sc0 z = sv callee z /\ forall i, av sc0 z i = av callee z i) /\
  (forall d e, In ((d, false), e) (combine params args) -> evalZ (env_st s) e = Some (sv sc0 d)) /\
  (forall d a, In ((d, true), EVar a) (combine params args) -> forall i, av sc0 d i = av s a (shiftz (offs d) i)).
Proof.
  induction params as [|[d b] ps IH]; intros args callee sc0 H Hnd.
  - destruct args; [|discriminate]. inversion H. subst. repeat split; intros; try reflexivity; contradiction.
  - destruct args as [|e r]; [destruct b; discriminate|].
    cbn [map fst] in Hnd. inversion Hnd as [|? ? Hnotin Hnd']. subst.
    destruct b.
    + destruct e; try discriminate. cbn [copy_in_o] in H.
      destruct (IH r _ sc0 H Hnd') as [P1 [P2 P3]]. split; [|split].
      * intros z Hz. cbn [map fst] in Hz. destruct (P1 z) as [Q1 Q2]; [intro; apply Hz; now right|].
        split; [rewrite Q1; reflexivity|]. intros i. rewrite Q2. cbn.
        destruct (String.eqb z d) eqn:E; [|reflexivity]. apply String.eqb_eq in E. subst. exfalso. apply Hz. now left.
      * intros d0 e0 Hin. cbn [combine] in Hin. destruct Hin as [Hin|Hin]; [inversion Hin|]. apply P2; exact Hin.
      * intros d0 a0 Hin. cbn [combine] in Hin. destruct Hin as [Hin|Hin].
        -- inversion Hin. subst. intros i. destruct (P1 d0 Hnotin) as [_ Q2]. rewrite Q2. cbn. rewrite String.eqb_refl. reflexivity.
        -- apply P3; exact Hin.
    + cbn [copy_in_o] in H. destruct (evalZ (env_st s) e) as [v|] eqn:Ev; [|discriminate].
      destruct (IH r _ sc0 H Hnd') as [P1 [P2 P3]]. split; [|split].
      * intros z Hz. cbn [map fst] in Hz. destruct (P1 z) as [Q1 Q2]; [intro; apply Hz; now right|].
        split; [|intros i; rewrite Q2; reflexivity]. rewrite Q1. cbn.
        destruct (String.eqb z d) eqn:E; [|reflexivity]. apply String.eqb_eq in E. subst. exfalso. apply Hz. now left.
      * intros d0 e0 Hin. cbn [combine] in Hin. destruct Hin as [Hin|Hin].
        -- inversion Hin. subst. destruct (P1 d0 Hnotin) as [Q1 _]. rewrite Q1. cbn. rewrite String.eqb_refl. exact Ev.
        -- apply P2; exact Hin.
      * intros d0 a0 Hin. cbn [combine] in Hin. destruct Hin as [Hin|Hin]; [inversion Hin|]. apply P3; exact Hin.
Qed.

Lemma argmap_s_assoc params : forall (args : list expr) d e,
  NoDup (map fst params) -> In ((d, false), e) (combine params args) -> assoc (argmap_s params args) d = Some e.
Proof.
  induction params as [|[d0 b] ps IH]; intros args d e Hnd Hin; [contradiction|].
  destruct args as [|e0 r]; [contradiction|]. cbn [map fst] in Hnd. inversion Hnd as [|? ? Hnotin Hnd']. subst.
  cbn [combine] in Hin. destruct Hin as [Hin|Hin].
  - inversion Hin. subst. cbn. rewrite String.eqb_refl. reflexivity.
  - assert (Hne : d0 <> d).
    { intro. subst. apply Hnotin. apply in_combine_l in Hin. apply (in_map (@fst string bool)) in Hin. exact Hin. }
    destruct b; cbn [argmap_s]; [apply IH; assumption|].
    cbn [assoc]. apply String.eqb_neq in Hne. rewrite Hne. apply IH; assumption.
Qed.

Lemma sdummies_in_combine params : forall (args : list expr) d,
  List.length args = List.length params -> In d (flat_map (fun p : string * bool => if snd p then [] else [fst p]) params) ->
  exists e, In ((d, false), e) (combine params args).
Proof.
  induction params as [|[d0 b] ps IH]; intros args d Hlen Hin; [contradiction|].
  destruct args as [|e0 r]; [discriminate|]. cbn in Hlen. injection Hlen as Hlen.
  cbn [flat_map snd fst] in Hin. destruct b.
  - cbn in Hin. destruct (IH r d Hlen Hin) as [e He]. exists e. cbn. now right.
  - cbn in Hin. destruct Hin as [Hin|Hin].
    + subst. exists e0. cbn. now left.
    + destruct (IH r d Hlen Hin) as [e He]. exists e. cbn. now right.
Qed.

Lemma adummies_in_combine params : forall args d,
  arr_args_ok params args = true -> In d (flat_map (fun p : string * bool => if snd p then [fst p] else []) params) ->
  exists a, In ((d, true), EVar a) (combine params args).
Proof.
  induction params as [|[d0 b] ps IH]; intros args d Hok Hin; [contradiction|].
  destruct args as [|e0 r]; [destruct b; discriminate|].
  cbn [flat_map snd fst] in Hin. destruct b.
  - destruct e0; try discriminate. cbn [arr_args_ok] in Hok. cbn in Hin. destruct Hin as [Hin|Hin].
    + subst. exists x. cbn. now left.
    + destruct (IH r d Hok Hin) as [a Ha]. exists a. cbn. now right.
  - cbn [arr_args_ok] in Hok. cbn in Hin. destruct (IH r d Hok Hin) as [a Ha]. exists a. cbn. now right.
Qed.

Lemma amap_ok_in amap params : forall args d a,
  amap_ok amap params args = true -> In ((d, true), EVar a) (combine params args) ->
  exists t, assoc amap d = Some (a, t).
Proof.
  induction params as [|[d0 b] ps IH]; intros args d a Hok Hin; [contradiction|].
  destruct args as [|e0 r]; [contradiction|]. cbn [combine] in Hin. destruct Hin as [Hin|Hin].
  - inversion Hin. subst. cbn [amap_ok] in Hok. apply andb_prop in Hok. destruct Hok as [H1 _].
    destruct (assoc amap d) as [[a' t]|]; [|discriminate]. cbn in H1. apply String.eqb_eq in H1. subst. eauto.
  - apply (IH r d a); [|exact Hin]. destruct b; [|exact Hok]. destruct e0; try exact Hok.
    cbn [amap_ok] in Hok. apply andb_prop in Hok. apply Hok.
Qed.

Definition agree_except (Hs Ha : list string) (s1 s2 : store) : Prop :=
  (forall x, ~ In x Hs -> sv s1 x = sv s2 x) /\ (forall a, ~ In a Ha -> forall i, av s1 a i = av s2 a i).

(** one binding of copy-out, and the names it may write *)
Lemma copy_out_o_cons sc1 d b ps e r offs cur :
  copy_out_o sc1 ((d, b) :: ps) (e :: r) offs cur =
  copy_out_o sc1 ps r offs
    match e with
    | EVar x => if b then set_arr x (fun j => av sc1 d (shiftz (map Z.opp (offs d)) j)) cur else set_sv x (sv sc1 d) cur
    | _ => cur
    end.
Proof. destruct b, e; reflexivity. Qed.

Lemma actual_vars_cons (d : string) b ps e r :
  actual_vars ((d, b) :: ps) (e :: r) =
  match e with EVar x => if b then actual_vars ps r else x :: actual_vars ps r | _ => actual_vars ps r end.
Proof. destruct b, e; reflexivity. Qed.

Lemma actual_arrs_cons (d : string) b ps e r :
  actual_arrs ((d, b) :: ps) (e :: r) =
  match e with EVar x => if b then x :: actual_arrs ps r else actual_arrs ps r | _ => actual_arrs ps r end.
Proof. destruct b, e; reflexivity. Qed.

(** [cur] already agrees with [s2] except on the actuals still to be written; each binding writes the value [s2] has *)
Lemma copy_out_agree Hs sc1 s2 offs : forall params args cur,
  (forall d x, In ((d, false), EVar x) (combine params args) -> sv sc1 d = sv s2 x) ->
  (forall d a, In ((d, true), EVar a) (combine params args) -> forall j, av sc1 d (shiftz (map Z.opp (offs d)) j) = av s2 a j) ->
  (forall z, ~ In z Hs -> ~ In z (actual_vars params args) -> sv cur z = sv s2 z) ->
  (forall a, ~ In a (actual_arrs params args) -> forall j, av cur a j = av s2 a j) ->
  agree_except Hs [] (copy_out_o sc1 params args offs cur) s2.
Proof.
  induction params as [|[d b] ps IH]; intros args cur P1 P2 P3 P4.
  - split; [intros z Hz; apply P3; [exact Hz|] | intros a _ j; apply P4]; destruct args; intros [].
  - destruct args as [|e r].
    + replace (copy_out_o sc1 ((d, b) :: ps) [] offs cur) with cur by (destruct b; reflexivity).
      split; [intros z Hz; apply P3; [exact Hz|] | intros a _ j; apply P4]; destruct b; intros [].
    + rewrite copy_out_o_cons. rewrite actual_vars_cons in P3. rewrite actual_arrs_cons in P4.
      apply IH.
      * intros d0 x Hin. apply P1. now right.
      * intros d0 a Hin. apply P2. now right.
      * destruct e as [| |x| | | | | | | | | |]; try exact P3. destruct b; [exact P3|].
        intros z Hz Hz2. cbn. destruct (String.eqb_spec z x) as [->|Hne].
        -- apply (P1 d x). now left.
        -- apply P3; [exact Hz|]. intros [K|K]; [congruence|contradiction].
      * destruct e as [| |x| | | | | | | | | |]; try exact P4. destruct b; [|exact P4].
        intros a Ha j. cbn. destruct (String.eqb_spec a x) as [->|Hne].
        -- apply (P2 d x). now left.
        -- apply P4. intros [K|K]; [congruence|contradiction].
Qed.

(** MiniF's own call semantics is the offset semantics with empty offsets *)
Lemma copy_in_o_plain caller offs : (forall d, offs d = []) ->
  forall params args callee, copy_in_o caller params args offs callee = copy_in caller params args callee.
Proof.
  intros Ho. induction params as [|[d b] ps IH]; intros args callee; destruct args as [|e r]; cbn [copy_in_o copy_in]; try reflexivity.
  destruct b.
  - destruct e; try reflexivity. rewrite (Ho d). cbn [shiftz]. apply IH.
  - destruct (evalZ (env_st caller) e); [apply IH|reflexivity].
Qed.

Lemma copy_out_o_plain callee offs : (forall d, offs d = []) ->
  forall params args caller, copy_out_o callee params args offs caller = copy_out callee params args caller.
Proof.
  intros Ho. induction params as [|[d b] ps IH]; intros args caller; destruct args as [|e r]; cbn [copy_out_o copy_out]; try reflexivity.
  destruct b; destruct e; try apply IH. rewrite (Ho d). cbn [map shiftz]. apply IH.
Qed.
