(** C28 — soundness of the subscript normalisation [norm_stmts] used by the correspondence. *)
From Coq Require Import ZArith List Bool String Lia.
From LV Require Import Base.Expr Base.ExprFacts Base.MiniF Base.MiniFFacts Base.Lockstep models.M_C28.
Import ListNotations.
Open Scope Z_scope.

Lemma Forall_and_l {A} (P Q : A -> Prop) l : Forall (fun x => P x /\ Q x) l -> Forall P l.
Proof. induction 1; constructor; tauto. Qed.
Lemma Forall_and_r {A} (P Q : A -> Prop) l : Forall (fun x => P x /\ Q x) l -> Forall Q l.
Proof. induction 1; constructor; tauto. Qed.

Lemma msum_cons rho y c r : msum rho ((y, c) :: r) = c * rho y + msum rho r.
Proof. reflexivity. Qed.
Lemma msum_nil rho : msum rho [] = 0.
Proof. reflexivity. Qed.

Lemma msum_madd rho x k l : msum rho (madd x k l) = k * rho x + msum rho l.
Proof.
  induction l as [|[y c] r IH]; cbn [madd].
  - destruct (Z.eqb_spec k 0) as [->|_]; rewrite ?msum_cons, msum_nil; ring.
  - destruct (String.eqb_spec x y) as [<-|_].
    + destruct (Z.eqb_spec (c + k) 0) as [E|_]; rewrite !msum_cons; [|ring].
      replace (k * rho x + (c * rho x + msum rho r)) with ((c + k) * rho x + msum rho r) by ring.
      rewrite E. ring.
    + destruct (String.ltb x y).
      * destruct (Z.eqb_spec k 0) as [->|_]; rewrite ?msum_cons; ring.
      * rewrite !msum_cons, IH. ring.
Qed.

Lemma peval_padd rho p q : peval rho (padd p q) = peval rho p + peval rho q.
Proof.
  destruct p as [c l], q as [d m]. unfold padd, peval. cbn [fst snd].
  induction l as [|[x k] r IH]; cbn [fold_right fst snd].
  - rewrite msum_nil. ring.
  - rewrite msum_madd, msum_cons. lia.
Qed.

Lemma msum_scale rho c l : msum rho (map (fun xk : string * Z => (fst xk, c * snd xk)) l) = c * msum rho l.
Proof.
  induction l as [|[x k] r IH]; cbn [map fst snd]; [rewrite msum_nil; ring|].
  rewrite !msum_cons, IH. ring.
Qed.

Lemma peval_pscale rho c p : peval rho (pscale c p) = c * peval rho p.
Proof.
  destruct p as [d l]. unfold pscale, peval. destruct (Z.eqb_spec c 0) as [->|_]; cbn [fst snd].
  - rewrite msum_nil. ring.
  - rewrite msum_scale. ring.
Qed.

(** a product is linear only when one factor is a constant *)
Lemma peval_pmul rho p q r : pmul p q = Some r -> peval rho r = peval rho p * peval rho q.
Proof.
  unfold pmul. destruct p as [c l], q as [d m]; cbn [fst snd].
  destruct l as [|a l]; [|destruct m as [|b m]; [|discriminate]];
    intros [= <-]; rewrite peval_pscale; unfold peval; cbn [fst snd]; rewrite msum_nil; ring.
Qed.

Lemma lin_sound rho e : forall p, lin e = Some p -> evalZ rho e = Some (peval (ev_var rho) p).
Proof.
  induction e using expr_ind'; intros q Hq; cbn [lin] in Hq; try discriminate.
  1-3: injection Hq as <-; unfold peval; cbn [fst snd evalZ]; rewrite ?msum_cons, msum_nil; f_equal; lia.
  - cbn [evalZ]. revert q Hq.
    induction H as [|c cs Hc _ IH]; intros q Hq; cbn [fold_right] in *.
    + injection Hq as <-. reflexivity.
    + destruct (lin c) as [pc|]; [|discriminate].
      match type of Hq with match ?X with _ => _ end = _ => destruct X as [pr|]; [|discriminate] end.
      injection Hq as <-. rewrite (Hc pc eq_refl), (IH pr eq_refl). cbn [obind]. rewrite peval_padd. reflexivity.
  - cbn [evalZ]. revert q Hq.
    induction H as [|c cs Hc _ IH]; intros q Hq; cbn [fold_right] in *.
    + injection Hq as <-. reflexivity.
    + destruct (lin c) as [pc|]; [|discriminate].
      match type of Hq with match ?X with _ => _ end = _ => destruct X as [pr|]; [|discriminate] end.
      rewrite (Hc pc eq_refl), (IH pr eq_refl). cbn [obind]. rewrite (peval_pmul _ _ _ _ Hq). reflexivity.
Qed.

Lemma emit_terms rho l :
  fold_right (fun c acc => obind (evalZ rho c) (fun v => obind acc (fun a => Some (v + a)))) (Some 0)
             (map (fun xk : string * Z => EProd false [EInt (snd xk); EVar (fst xk)]) l)
  = Some (msum (ev_var rho) l).
Proof.
  induction l as [|[x k] r IH]; cbn [map fold_right]; [reflexivity|].
  rewrite IH. cbn. f_equal. fold (msum (ev_var rho) r). ring.
Qed.

Lemma emit_sound rho p : evalZ rho (emit p) = Some (peval (ev_var rho) p).
Proof. unfold emit. cbn [evalZ fold_right]. rewrite emit_terms. reflexivity. Qed.

Lemma emit_lin rho a p : lin a = Some p -> evalZ rho (emit p) = evalZ rho a.
Proof. intros El. rewrite emit_sound. symmetry. apply lin_sound, El. Qed.

Lemma norm_e_sound rho e : evalZ rho (norm_e e) = evalZ rho e /\ evalB rho (norm_e e) = evalB rho e.
Proof.
  induction e using expr_ind'; cbn [norm_e]; try (split; reflexivity).
  1,2,6,7: split; try reflexivity; cbn [evalZ evalB]; apply fold_obind_map_ext;
           (eapply Forall_impl; [|exact H]); intros c Hc; apply Hc.
  1-3: split; try reflexivity; cbn [evalZ evalB]; rewrite (proj1 IHe1), (proj1 IHe2); reflexivity.
  - split; [reflexivity|]. cbn [evalB]. rewrite (proj2 IHe). reflexivity.
  - split; [|reflexivity]. rewrite !evalZ_call. f_equal.
    apply omap_list_map_ext. eapply Forall_impl; [|exact H]. intros c Hc. cbn beta.
    destruct (lin c) as [p|] eqn:El; [apply emit_lin, El|apply Hc].
Qed.

Lemma norm_i_sound rho a : evalZ rho (norm_i a) = evalZ rho a.
Proof. unfold norm_i. destruct (lin a) as [p|] eqn:El; [apply emit_lin, El|apply norm_e_sound]. Qed.

Lemma eval_idx_norm s idx : eval_idx s (map norm_i idx) = eval_idx s idx.
Proof.
  unfold eval_idx. apply omap_list_map_ext. apply Forall_forall. intros c _. apply norm_i_sound.
Qed.

(** argument passing looks at the shape of an actual: [norm_e] keeps variables and makes none *)
Lemma norm_e_var e : (exists x, e = EVar x /\ norm_e e = EVar x) \/ ((forall x, e <> EVar x) /\ (forall x, norm_e e <> EVar x)).
Proof. destruct e; cbn; try (right; split; intros; discriminate). left. eauto. Qed.

Lemma copy_in_norm caller params : forall args callee,
  copy_in caller params (map norm_e args) callee = copy_in caller params args callee.
Proof.
  induction params as [|[d b] ps IH]; intros args callee; destruct args as [|e r]; cbn [map copy_in]; try reflexivity.
  destruct b.
  - destruct (norm_e_var e) as [[x [E1 E2]]|[N1 N2]].
    + rewrite E2. subst e. apply IH.
    + destruct e; try reflexivity; try (exfalso; eapply N1; reflexivity).
  - rewrite (proj1 (norm_e_sound (env_st caller) e)).
    destruct (evalZ (env_st caller) e); [apply IH|reflexivity].
Qed.

Lemma copy_out_norm callee params : forall args caller,
  copy_out callee params (map norm_e args) caller = copy_out callee params args caller.
Proof.
  induction params as [|[d b] ps IH]; intros args caller; destruct args as [|e r]; cbn [map copy_out]; try reflexivity.
  destruct (norm_e_var e) as [[x [E1 E2]]|[N1 N2]].
  - rewrite E2. subst e. destruct b; apply IH.
  - destruct b; destruct e; cbn [norm_e]; try apply IH; exfalso; eapply N1; reflexivity.
Qed.

Lemma norm_lock ps : forall f ss, lock_at ps ps eq eq f (norm_stmts ss) ss.
Proof.
  unfold norm_stmts. induction f as [|f IH]; intros ss; [apply lock_at_0|].
  destruct ss as [|st rest]; [apply lock_nil|]. cbn [map]. apply (lock_cons _ _ _ eq); [|apply IH].
  destruct st as [x e|a idx e|v lo hi stp body|c body|c tb eb|g args|l]; cbn [norm_stmt].
  - apply lock1_assign; [intros s s' <-; apply norm_e_sound|intros s s' v <-; reflexivity].
  - apply lock1_store_id; [intros s s' <-; apply eval_idx_norm|intros s s' <-; apply norm_e_sound|intros s s' i v <-; reflexivity].
  - apply lock1_do; [intros s s' <-; apply norm_e_sound|intros s s' <-; apply norm_e_sound| |intros s s' i <-; reflexivity|apply IH].
    intros s s' <-. destruct stp; cbn; [apply norm_e_sound|reflexivity].
  - apply lock1_while; [intros s s' <-; apply norm_e_sound|apply IH|apply (IH [SWhile c body])].
  - apply lock1_if; [intros s s' <-; apply norm_e_sound|apply IH|apply IH].
  - apply (lock1_call _ _ eq eq); [reflexivity| | |].
    + intros p s s' <-. rewrite copy_in_norm. now apply orel_eq.
    + intros p _ s s' <-. now apply orel_eq.
    + intros p s s' c c' <- <-. now rewrite copy_out_norm.
  - apply lock1_skip.
Qed.

Lemma norm_exec ps f ss s : exec ps f (norm_stmts ss) s = exec ps f ss s.
Proof. apply orel_eq, (norm_lock ps f ss s s eq_refl). Qed.

Lemma norm_sound ps p : equiv ps (norm_stmts p) p.
Proof. intros s s'. unfold runs. split; intros [f E]; exists f; [rewrite <- norm_exec|rewrite norm_exec]; exact E. Qed.
