(** C28 — the substitution lemma for statements: executing the substituted body in the caller's store
    simulates, fuel for fuel, the execution of the body in a callee store whose variables alias the caller's.
    Section [Sim] defines the vocabulary of [T_C28.C28_subst_stmt_sound]: [Rel m Vall A V sc s] (every scalar [y] of [V] has in
    the callee store [sc] the value of its image [lk_s m y] in the caller store [s], every array of [A] is the shifted image
    array) and [goodS], [goodA] (a written name's image is written by nothing else). *)
From Coq Require Import ZArith List Bool String Lia.
From LV Require Import Base.Expr Base.ExprFacts Base.MiniF Base.MiniFFacts Base.Lockstep models.M_C28 proofs.P_C28_norm proofs.P_C28_subst.
Import ListNotations.
Open Scope Z_scope.

(** [Base.ExprFacts.orel] under the name the theorems of C28 are stated with (convertible): [orel_bind], [orel_impl] there
    and the [lock_at] scheme of [Base.Lockstep] apply to it *)
Definition orel {A B} (R : A -> B -> Prop) (o1 : option A) (o2 : option B) : Prop :=
  match o1, o2 with
  | Some a, Some b => R a b
  | None, None => True
  | _, _ => False
  end.

(** unfolding equations of the nested fixpoints *)
Lemma subst_stmt_do m v lo hi st b :
  subst_stmt m (SDo v lo hi st b) =
  match lhs_of (lk_s m v), subst_stmts m b with
  | LVar y, Some b' => Some (SDo y (subst_e m lo) (subst_e m hi) (option_map (subst_e m) st) b')
  | _, _ => None
  end.
Proof. reflexivity. Qed.
Lemma subst_stmt_while m c b :
  subst_stmt m (SWhile c b) = match subst_stmts m b with Some b' => Some (SWhile (subst_e m c) b') | None => None end.
Proof. reflexivity. Qed.
Lemma subst_stmt_if m c t e :
  subst_stmt m (SIf c t e) =
  match subst_stmts m t, subst_stmts m e with Some t', Some e' => Some (SIf (subst_e m c) t' e') | _, _ => None end.
Proof. reflexivity. Qed.

Lemma da_stmt_do Vall A V v lo hi st b :
  da_stmt Vall A V (SDo v lo hi st b) =
  if e_ok (okv Vall V) (oka A) lo && e_ok (okv Vall V) (oka A) hi && oe_ok (okv Vall V) (oka A) st && mem v Vall
  then match da_stmts Vall A (v :: V) b with Some _ => Some (v :: V) | None => None end
  else None.
Proof. reflexivity. Qed.
Lemma da_stmt_while Vall A V c b :
  da_stmt Vall A V (SWhile c b) =
  if e_ok (okv Vall V) (oka A) c then match da_stmts Vall A V b with Some _ => Some V | None => None end else None.
Proof. reflexivity. Qed.
Lemma da_stmt_if Vall A V c t e :
  da_stmt Vall A V (SIf c t e) =
  if e_ok (okv Vall V) (oka A) c
  then match da_stmts Vall A V t, da_stmts Vall A V e with Some _, Some _ => Some V | _, _ => None end
  else None.
Proof. reflexivity. Qed.

Lemma da_stmt_incl Vall A V st V1 : da_stmt Vall A V st = Some V1 -> forall y, In y V -> In y V1.
Proof.
  intros H y Hy. enough (V1 = V \/ exists x, V1 = x :: V) as [->|[x ->]]; [exact Hy|now right|].
  clear y Hy. revert H.
  destruct st as [x e|a idx e|v lo hi stp body|c body|c tb eb|g args|l].
  - cbn [da_stmt]. destruct (_ && _); [|discriminate]. intros [= <-]. right; eauto.
  - cbn [da_stmt]. destruct (_ && _); [|discriminate]. intros [= <-]. now left.
  - rewrite da_stmt_do. destruct (_ && _); [|discriminate]. destruct (da_stmts _ _ _ _); [|discriminate].
    intros [= <-]. right; eauto.
  - rewrite da_stmt_while. destruct (e_ok _ _ _); [|discriminate]. destruct (da_stmts _ _ _ _); [|discriminate].
    intros [= <-]. now left.
  - rewrite da_stmt_if. destruct (e_ok _ _ _); [|discriminate].
    destruct (da_stmts _ _ _ tb); [|discriminate]. destruct (da_stmts _ _ _ eb); [|discriminate].
    intros [= <-]. now left.
  - discriminate.
  - intros [= <-]. now left.
Qed.

Section Sim.
  Variables (m : smap) (Vall A : list string) (ps : procs).

  Definition RelS (V : list string) (sc s : store) : Prop :=
    forall y, In y V -> In y Vall -> evalZ (env_st s) (lk_s m y) = Some (sv sc y).
  Definition RelA (sc s : store) : Prop :=
    forall a, In a A -> forall idx, av sc a idx = av s (fst (lk_a m a)) (shiftz (offs_of (snd (lk_a m a))) idx).
  Definition Rel (V : list string) (sc s : store) : Prop := RelS V sc s /\ RelA sc s.

  Hypothesis HA : forall a, In a A ->
    all_off (snd (lk_a m a)) = true /\ intrinsic_name a = false /\ intrinsic_name (fst (lk_a m a)) = false.

  Definition goodS (x : string) : Prop :=
    exists tx, lk_s m x = EVar tx /\
      forall y, In y Vall -> y <> x -> e_ok (fun z => negb (String.eqb z tx)) (fun _ => true) (lk_s m y) = true.
  Definition goodA (a : string) : Prop :=
    (forall b, In b A -> b <> a -> fst (lk_a m b) <> fst (lk_a m a)) /\
    forall y, In y Vall -> e_ok (fun _ => true) (fun b => negb (String.eqb b (fst (lk_a m a)))) (lk_s m y) = true.

  Lemma Rel_mono V V1 sc s : (forall y, In y V -> In y V1) -> Rel V1 sc s -> Rel V sc s.
  Proof. intros Hi [H1 H2]. split; [|exact H2]. intros y Hy Hy'. apply H1; auto. Qed.

  (** writing a scalar whose image is the variable [tx], which no other image mentions, keeps the relation *)
  Lemma rel_set_sv V sc s x tx v :
    Rel V sc s -> lk_s m x = EVar tx ->
    (forall y, In y Vall -> y <> x -> e_ok (fun z => negb (String.eqb z tx)) (fun _ => true) (lk_s m y) = true) ->
    Rel (x :: V) (set_sv x v sc) (set_sv tx v s).
  Proof.
    intros [HS HAr] Hx Hg. split.
    - intros y Hy Hyall. destruct (String.eqb_spec y x) as [->|Hne].
      + rewrite Hx. cbn. rewrite !String.eqb_refl. reflexivity.
      + destruct Hy as [Hy|Hy]; [congruence|].
        cbn [sv set_sv]. rewrite (proj2 (String.eqb_neq y x) Hne), <- (HS y Hy Hyall).
        apply (e_ok_agree _ _ _ _ _ (Hg y Hyall Hne)).
        * intros z Hz. cbn. apply negb_true_iff in Hz. rewrite Hz. reflexivity.
        * intros a _ vs. reflexivity.
    - intros a Ha idx. cbn [av set_sv]. apply HAr; exact Ha.
  Qed.

  Lemma rel_set_av V sc s a i v :
    Rel V sc s -> In a A -> goodA a ->
    Rel V (set_av a i v sc) (set_av (fst (lk_a m a)) (shiftz (offs_of (snd (lk_a m a))) i) v s).
  Proof.
    intros [HS HAr] Ha [Hg1 Hg2]. split.
    - intros y Hy Hyall. cbn [sv set_av]. rewrite <- (HS y Hy Hyall).
      apply (e_ok_agree _ _ _ _ _ (Hg2 y Hyall)).
      + intros z _. reflexivity.
      + intros b Hb vs. cbn. apply negb_true_iff in Hb. rewrite Hb. reflexivity.
    - intros b Hb idx. cbn [av set_av].
      destruct (String.eqb_spec b a) as [->|Hne].
      + rewrite String.eqb_refl. cbn [andb].
        rewrite shiftz_eqb. destruct (list_z_eqb idx i); [reflexivity|]. apply HAr; exact Ha.
      + apply (Hg1 b Hb), String.eqb_neq in Hne. rewrite Hne. cbn [andb]. apply HAr; exact Hb.
  Qed.

  Lemma rel_eval V sc s e :
    Rel V sc s -> e_ok (okv Vall V) (oka A) e = true ->
    evalZ (env_st sc) e = evalZ (env_st s) (subst_e m e) /\ evalB (env_st sc) e = evalB (env_st s) (subst_e m e).
  Proof.
    intros [HS HAr] Hok. enough (K : evalZ (env_st s) (subst_e m e) = evalZ (env_st sc) e /\
                                     evalB (env_st s) (subst_e m e) = evalB (env_st sc) e) by (split; symmetry; apply K).
    apply (subst_e_sound m _ _ _ _ _ Hok).
    - intros y Hy. unfold okv in Hy. apply andb_prop in Hy. destruct Hy as [H1 H2].
      apply HS; apply mem_In; assumption.
    - intros a Ha _. unfold oka in Ha. apply mem_In in Ha. destruct (HA a Ha) as [H1 [H2 H3]].
      repeat split; try assumption. intros vs. cbn. f_equal. apply HAr; exact Ha.
  Qed.

  Lemma rel_eval_idx V sc s idx :
    Rel V sc s -> forallb (e_ok (okv Vall V) (oka A)) idx = true ->
    eval_idx sc idx = eval_idx s (map (subst_e m) idx).
  Proof.
    intros HR Hok. symmetry. unfold eval_idx. apply omap_list_map_ext. apply Forall_forall. intros c Hc.
    rewrite forallb_forall in Hok. symmetry. apply (rel_eval V sc s c HR (Hok c Hc)).
  Qed.

  (** the simulation, by induction on the fuel; every written name is good, which splits along the program *)
  Lemma sim_lock : forall f body V V' Q,
    da_stmts Vall A V body = Some V' -> subst_stmts m body = Some Q ->
    Forall goodS (wrs body) -> Forall goodA (wra body) -> lock_at ps ps (Rel V) (Rel V) f body Q.
  Proof.
    induction f as [|f IH]; intros body V V' Q Hda Hsub HgS HgA; [apply lock_at_0|].
    destruct body as [|st rest]; [cbn in Hsub; injection Hsub as <-; apply lock_nil|].
    cbn [da_stmts] in Hda. destruct (da_stmt Vall A V st) as [V1|] eqn:Hd1; [|discriminate].
    cbn [subst_stmts] in Hsub. destruct (subst_stmt m st) as [st'|] eqn:Hs1; [|discriminate].
    destruct (subst_stmts m rest) as [rest'|] eqn:Hs2; [|discriminate]. injection Hsub as <-.
    change (wrs (st :: rest)) with (wr_s st ++ wrs rest)%list in HgS. apply Forall_app in HgS. destruct HgS as [HgS1 HgS2].
    change (wra (st :: rest)) with (wr_a st ++ wra rest)%list in HgA. apply Forall_app in HgA. destruct HgA as [HgA1 HgA2].
    apply (lock_cons _ _ _ (Rel V1)).
    2:{ intros sc1 s1 HR1. eapply orel_impl; [exact (IH rest V1 V' rest' Hda Hs2 HgS2 HgA2 sc1 s1 HR1)|].
        intros a b. apply Rel_mono. exact (da_stmt_incl _ _ _ _ _ Hd1). }
    pose proof (fun e Hok sc s HR => proj1 (rel_eval V sc s e HR Hok)) as EZ.
    pose proof (fun e Hok sc s HR => proj2 (rel_eval V sc s e HR Hok)) as EB.
    destruct st as [x e|a idx e|v lo hi stp b|c b|c tb eb|g args|l].
    - cbn [da_stmt] in Hd1. destruct (e_ok (okv Vall V) (oka A) e && mem x Vall) eqn:Eok; [|discriminate].
      injection Hd1 as <-. apply andb_prop in Eok as [Eok _].
      cbn [wr_s] in HgS1. destruct (Forall_inv HgS1) as [tx [Hx Hg]].
      cbn [subst_stmt] in Hs1. rewrite Hx in Hs1. cbn [lhs_of] in Hs1. injection Hs1 as <-.
      apply lock1_assign; [exact (EZ e Eok)|intros sc s v HR; now apply rel_set_sv].
    - cbn [da_stmt] in Hd1.
      destruct (mem a A && forallb (e_ok (okv Vall V) (oka A)) idx && e_ok (okv Vall V) (oka A) e) eqn:Eok; [|discriminate].
      injection Hd1 as <-. apply andb_prop in Eok as [Eok E3]. apply andb_prop in Eok as [E1 E2]. apply mem_In in E1.
      cbn [subst_stmt] in Hs1. injection Hs1 as <-. destruct (HA a E1) as [Hall _]. cbn [wr_a] in HgA1.
      apply (lock1_store _ _ (shiftz (offs_of (snd (lk_a m a))))); [|exact (EZ e E3)|].
      + intros sc s HR. unfold eval_idx. rewrite (fill_eval _ _ Hall). f_equal. exact (rel_eval_idx V sc s idx HR E2).
      + intros sc s i v HR. exact (rel_set_av V sc s a i v HR E1 (Forall_inv HgA1)).
    - rewrite da_stmt_do in Hd1.
      destruct (e_ok (okv Vall V) (oka A) lo && e_ok (okv Vall V) (oka A) hi && oe_ok (okv Vall V) (oka A) stp && mem v Vall) eqn:Eok; [|discriminate].
      destruct (da_stmts Vall A (v :: V) b) as [Vb|] eqn:Hdb; [|discriminate]. injection Hd1 as <-.
      apply andb_prop in Eok as [Eok _]. apply andb_prop in Eok as [Eok E3]. apply andb_prop in Eok as [E1 E2].
      cbn [wr_s] in HgS1. destruct (Forall_inv HgS1) as [tv [Hv Hg]]. apply Forall_inv_tail in HgS1.
      rewrite subst_stmt_do, Hv in Hs1. cbn [lhs_of] in Hs1.
      destruct (subst_stmts m b) as [b'|] eqn:Hsb; [|discriminate]. injection Hs1 as <-.
      apply lock1_do; [exact (EZ lo E1)|exact (EZ hi E2)| |intros sc s i HR; now apply rel_set_sv|].
      + intros sc s HR. destruct stp as [e|]; [exact (EZ e E3 sc s HR)|reflexivity].
      + intros sc1 s1 HR1. eapply orel_impl; [exact (IH b (v :: V) Vb b' Hdb Hsb HgS1 HgA1 sc1 s1 HR1)|].
        intros x y. apply Rel_mono. intros z Hz. now right.
    - rewrite da_stmt_while in Hd1. destruct (e_ok (okv Vall V) (oka A) c) eqn:Eok; [|discriminate].
      destruct (da_stmts Vall A V b) as [Vb|] eqn:Hdb; [|discriminate]. injection Hd1 as <-.
      rewrite subst_stmt_while in Hs1. destruct (subst_stmts m b) as [b'|] eqn:Hsb; [|discriminate].
      injection Hs1 as <-.
      apply lock1_while; [exact (EB c Eok)|exact (IH b V Vb b' Hdb Hsb HgS1 HgA1)|].
      (* one more round of the same loop with the remaining fuel *)
      apply (IH [SWhile c b] V V [SWhile (subst_e m c) b']).
      + cbn [da_stmts]. rewrite da_stmt_while, Eok, Hdb. reflexivity.
      + cbn [subst_stmts]. rewrite subst_stmt_while, Hsb. reflexivity.
      + unfold wrs. cbn [flat_map]. rewrite app_nil_r. exact HgS1.
      + unfold wra. cbn [flat_map]. rewrite app_nil_r. exact HgA1.
    - rewrite da_stmt_if in Hd1. destruct (e_ok (okv Vall V) (oka A) c) eqn:Eok; [|discriminate].
      destruct (da_stmts Vall A V tb) as [Vt|] eqn:Hdt; [|discriminate].
      destruct (da_stmts Vall A V eb) as [Ve|] eqn:Hde; [|discriminate]. injection Hd1 as <-.
      rewrite subst_stmt_if in Hs1. destruct (subst_stmts m tb) as [tb'|] eqn:Hst; [|discriminate].
      destruct (subst_stmts m eb) as [eb'|] eqn:Hse; [|discriminate]. injection Hs1 as <-.
      cbn [wr_s] in HgS1. apply Forall_app in HgS1. destruct HgS1 as [HgSt HgSe].
      cbn [wr_a] in HgA1. apply Forall_app in HgA1. destruct HgA1 as [HgAt HgAe].
      apply lock1_if; [exact (EB c Eok)|exact (IH tb V Vt tb' Hdt Hst HgSt HgAt)|exact (IH eb V Ve eb' Hde Hse HgSe HgAe)].
    - discriminate.
    - cbn in Hd1, Hs1. injection Hd1 as <-. injection Hs1 as <-. apply lock1_skip.
  Qed.

  Lemma sim : forall f body V V' Q sc s,
    da_stmts Vall A V body = Some V' -> subst_stmts m body = Some Q ->
    (forall x, In x (wrs body) -> goodS x) -> (forall a, In a (wra body) -> goodA a) ->
    Rel V sc s -> orel (Rel V) (exec ps f body sc) (exec ps f Q s).
  Proof.
    intros f body V V' Q sc s Hda Hsub HgS HgA.
    exact (sim_lock f body V V' Q Hda Hsub (proj2 (Forall_forall _ _) HgS) (proj2 (Forall_forall _ _) HgA) sc s).
  Qed.
End Sim.
