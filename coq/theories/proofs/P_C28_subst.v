(** C28 — expression-level lemmas: the substitution lemma, agreement of evaluations, statement functions.
    Defines [sf_consistent], the hypothesis of [T_C28.C28_inline_stmtfunc_preserves]. *)
From Coq Require Import ZArith List Bool String Lia.
From LV Require Import Base.Expr Base.ListFacts Base.ExprFacts Base.MiniF Base.MiniFFacts models.M_C28 proofs.P_C28_norm.
Import ListNotations.
Open Scope Z_scope.

(** an environment in which every statement function means its body *)
Definition sf_consistent (defs : list (string * sfdef)) (rho : env) : Prop :=
  forall f d, assoc defs f = Some d -> intrinsic_name f = false ->
  forall vs, ev_fun rho f vs = evalZ (upd_env rho (sf_params d) vs) (sf_body d).

Lemma mem_In x l : mem x l = true <-> In x l.
Proof. apply existsb_eqb_In. Qed.

Lemma mem_false_In x l : mem x l = false -> ~ In x l.
Proof. apply existsb_eqb_false. Qed.

Lemma offs_of_cons o t : offs_of (DOff o :: t) = o :: offs_of t.
Proof. reflexivity. Qed.

Lemma fill_eval rho t : all_off t = true -> forall l,
  omap_list (evalZ rho) (fill t l) = option_map (shiftz (offs_of t)) (omap_list (evalZ rho) l).
Proof.
  induction t as [|d t IH]; intros Hall l.
  - cbn. destruct (omap_list (evalZ rho) l); reflexivity.
  - destruct d as [o|e]; [|discriminate]. cbn in Hall.
    rewrite offs_of_cons. destruct l as [|i q]; [reflexivity|].
    cbn [fill omap_list]. rewrite (IH Hall q).
    cbn [evalZ fold_right]. destruct (evalZ rho i) as [v|]; cbn [obind]; [|reflexivity].
    destruct (omap_list (evalZ rho) q) as [vs|]; cbn [obind option_map shiftz]; [|reflexivity].
    rewrite Z.add_0_r. reflexivity.
Qed.

Lemma shiftz_eqb o : forall a b, list_z_eqb (shiftz o a) (shiftz o b) = list_z_eqb a b.
Proof.
  induction o as [|k o IH]; intros a b; [reflexivity|].
  destruct a as [|x a], b as [|y b]; cbn [shiftz list_z_eqb]; try reflexivity.
  rewrite IH. f_equal.
  destruct (Z.eqb_spec x y), (Z.eqb_spec (x + k) (y + k)); try reflexivity; exfalso; lia.
Qed.

Lemma shiftz_inv o : forall j, shiftz o (shiftz (map Z.opp o) j) = j.
Proof.
  induction o as [|k o IH]; intros j; [reflexivity|].
  destruct j as [|x j]; cbn [map shiftz]; [reflexivity|]. rewrite IH. f_equal. lia.
Qed.

Section SubstE.
  Variable m : smap.

  (** [rho1] is the callee's environment, [rho2] the caller's: a scalar has the value of its image, an array is read
      through its image array at the shifted subscripts *)
  Lemma subst_e_sound pv pa rho1 rho2 e :
    e_ok pv pa e = true ->
    (forall y, pv y = true -> evalZ rho2 (lk_s m y) = Some (ev_var rho1 y)) ->
    (forall a, pa a = true -> intrinsic_name a = false ->
       intrinsic_name (fst (lk_a m a)) = false /\ all_off (snd (lk_a m a)) = true /\
       forall vs, ev_fun rho1 a vs = ev_fun rho2 (fst (lk_a m a)) (shiftz (offs_of (snd (lk_a m a))) vs)) ->
    evalZ rho2 (subst_e m e) = evalZ rho1 e /\ evalB rho2 (subst_e m e) = evalB rho1 e.
  Proof.
    intros Hok Hv Ha. revert Hok.
    induction e using expr_ind'; cbn [e_ok subst_e]; intros Hok; try (split; reflexivity).
    (* sum, prod, and, or *)
    2,3,7,8: split; try reflexivity; cbn [evalZ evalB]; apply fold_obind_map_ext;
             (eapply Forall_impl; [|exact (Forall_impl_forallb _ _ _ H Hok)]); intros c Hc; apply Hc.
    (* quot, pow, cmp *)
    2-4: apply andb_prop in Hok; destruct Hok as [H1 H2]; split; try reflexivity; cbn [evalZ evalB];
         rewrite (proj1 (IHe1 H1)), (proj1 (IHe2 H2)); reflexivity.
    - pose proof (Hv x Hok) as E. split; [exact E|]. cbn [evalB]. eapply evalZ_some_evalB_none; exact E.
    - split; [reflexivity|]. cbn [evalB]. rewrite (proj2 (IHe Hok)). reflexivity.
    - apply andb_prop in Hok. destruct Hok as [H1 H2].
      assert (E : omap_list (evalZ rho2) (map (subst_e m) args) = omap_list (evalZ rho1) args).
      { apply omap_list_map_ext. eapply Forall_impl; [|exact (Forall_impl_forallb _ _ _ H H2)]. intros c Hc; apply Hc. }
      destruct (intrinsic_name f) eqn:Ei.
      + split; [|reflexivity]. rewrite !evalZ_call, E.
        destruct (omap_list (evalZ rho1) args) as [vs|]; cbn [obind]; [|reflexivity].
        destruct (intrinsic_some f vs Ei) as [r Er]. rewrite Er. reflexivity.
      + cbn in H1. destruct (Ha f H1 Ei) as [Hn [Hall Hf]].
        split; [|reflexivity]. rewrite !evalZ_call, (fill_eval rho2 _ Hall), E.
        destruct (omap_list (evalZ rho1) args) as [vs|]; cbn [option_map obind]; [|reflexivity].
        rewrite (intrinsic_none _ _ Hn), (intrinsic_none _ _ Ei). symmetry. apply Hf.
  Qed.
End SubstE.

(** agreement: an expression only depends on the variables / arrays it mentions.
    This is the substitution lemma for the identity map. *)
Definition id_smap : smap := {| sm_s := []; sm_a := [] |}.

Lemma subst_e_id e : subst_e id_smap e = e.
Proof.
  induction e using expr_ind'; cbn [subst_e]; try reflexivity.
  1,2,6,7: f_equal; apply map_id_Forall; exact H.
  1-3: rewrite IHe1, IHe2; reflexivity.
  - rewrite IHe. reflexivity.
  - change (lk_a id_smap f) with (f, @nil dspec). cbn [fst snd fill].
    destruct (intrinsic_name f); f_equal; apply map_id_Forall; exact H.
Qed.

Lemma e_ok_agree pv pa rho1 rho2 e :
  e_ok pv pa e = true ->
  (forall y, pv y = true -> ev_var rho1 y = ev_var rho2 y) ->
  (forall a, pa a = true -> forall vs, ev_fun rho1 a vs = ev_fun rho2 a vs) ->
  evalZ rho1 e = evalZ rho2 e /\ evalB rho1 e = evalB rho2 e.
Proof.
  intros Hok Hv Ha. pose proof (subst_e_sound id_smap pv pa rho2 rho1 e Hok) as K.
  rewrite subst_e_id in K. apply K.
  - intros y Hy. change (lk_s id_smap y) with (EVar y). cbn [evalZ]. f_equal. apply Hv, Hy.
  - intros a Hp Hi. change (lk_a id_smap a) with (a, @nil dspec).
    split; [exact Hi|split; [reflexivity|]]. intros vs. symmetry. apply Ha, Hp.
Qed.

Lemma e_ok_true e : e_ok (fun _ => true) (fun _ => true) e = true.
Proof.
  induction e using expr_ind'; cbn [e_ok]; try reflexivity;
    try (apply forallb_forall; intros c Hc; rewrite Forall_forall in H; now apply H);
    try (rewrite IHe1, IHe2; reflexivity); try assumption.
  rewrite orb_true_r. cbn. apply forallb_forall. intros c Hc. rewrite Forall_forall in H. now apply H.
Qed.

Lemma assoc_combine_upd rho ps : forall (args : list expr) vs,
  omap_list (evalZ rho) args = Some vs ->
  forall y, evalZ rho (lk_s {| sm_s := combine ps args; sm_a := [] |} y) = Some (ev_var (upd_env rho ps vs) y).
Proof.
  unfold lk_s, upd_env. cbn [sm_s ev_var].
  induction ps as [|p ps IH]; intros args vs Hev y.
  - cbn. reflexivity.
  - destruct args as [|a args].
    + cbn in Hev. inversion Hev. cbn. reflexivity.
    + cbn [omap_list] in Hev.
      destruct (evalZ rho a) as [v|] eqn:Ea; [|discriminate]. cbn [obind] in Hev.
      destruct (omap_list (evalZ rho) args) as [vs'|] eqn:Er; [|discriminate]. cbn [obind] in Hev.
      inversion Hev. subst vs. cbn [combine assoc].
      destruct (String.eqb p y); [exact Ea|]. apply IH. exact Er.
Qed.

(** [Base.ExprFacts.omap_list_length] and [Base.ListFacts.Forall_all] (arguments in another order) under the names of this file *)
Lemma omap_list_length {A B} (f : A -> option B) l vs : omap_list f l = Some vs -> List.length vs = List.length l.
Proof. apply ExprFacts.omap_list_length. Qed.

Lemma Forall_all {A} (P : A -> Prop) l : (forall x, P x) -> Forall P l.
Proof. intros H. induction l; constructor; auto. Qed.

Lemma inline_sf_sound defs rho :
  sf_consistent defs rho ->
  forall n e,
    (forall v, evalZ rho e = Some v -> evalZ rho (inline_sf n defs e) = Some v) /\
    (forall b, evalB rho e = Some b -> evalB rho (inline_sf n defs e) = Some b).
Proof.
  intros Hc. induction n as [|n IH]; intros e; [split; intros; assumption|].
  pose proof (fun c v => proj1 (IH c) v) as IHZ. pose proof (fun c b => proj2 (IH c) b) as IHB.
  destruct e; cbn [inline_sf]; try (split; intros; assumption).
  1,2: split; [|intros; assumption]; intros v; cbn [evalZ]; apply fold_obind_mono, Forall_all, IHZ.
  1-3: split; try (intros; assumption); intros v; cbn [evalZ evalB]; intros H;
       destruct (evalZ rho e1) as [a|] eqn:E1; [|discriminate]; destruct (evalZ rho e2) as [b|] eqn:E2; [|discriminate];
       rewrite (IHZ e1 a E1), (IHZ e2 b E2); exact H.
  1,2: split; [intros; assumption|]; intros v; cbn [evalB]; apply fold_obind_mono, Forall_all, IHB.
  - split; [intros; assumption|]. intros v. cbn [evalB]. intros H.
    destruct (evalB rho e) as [a|] eqn:E1; [|discriminate]. rewrite (IHB e a E1). exact H.
  - (* a call of a statement function [f(args)] becomes [body[params := args']], inlined again with the remaining fuel *)
    pose proof (fun cs => omap_list_mono (evalZ rho) (evalZ rho) (inline_sf n defs) cs (Forall_all _ cs IHZ)) as IHargs.
    assert (CallSame : forall v, evalZ rho (ECall f args) = Some v ->
                                 evalZ rho (ECall f (map (inline_sf n defs) args)) = Some v).
    { intros v. rewrite !evalZ_call. intros H.
      destruct (omap_list (evalZ rho) args) as [vs|] eqn:Ea; [|discriminate].
      rewrite (IHargs args vs Ea). exact H. }
    destruct (assoc defs f) as [d|] eqn:Ed; [|split; [exact CallSame|intros; assumption]].
    destruct (intrinsic_name f) eqn:Ei; [split; [exact CallSame|intros; assumption]|].
    split; [|intros b Hb; discriminate].
    intros v. rewrite evalZ_call. intros H.
    destruct (omap_list (evalZ rho) args) as [vs|] eqn:Ea; [|discriminate]. cbn [obind] in H.
    rewrite (intrinsic_none f vs Ei), (Hc f d Ed Ei vs) in H.
    apply IHZ. rewrite <- H.
    apply (subst_e_sound {| sm_s := combine (sf_params d) (map (inline_sf n defs) args); sm_a := [] |}
                         (fun _ => true) (fun _ => true) (upd_env rho (sf_params d) vs) rho (sf_body d)).
    + apply e_ok_true.
    + intros y _. apply assoc_combine_upd, IHargs, Ea.
    + intros a _ Hia. unfold lk_a. cbn [sm_a assoc fst snd]. repeat split; try reflexivity. exact Hia.
Qed.
