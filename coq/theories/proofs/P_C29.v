(** C29 — the invariant [agree] between run-time bindings and the substitution, evaluation through the bindings
    = evaluation of the substituted expression / selector, the frame property of the target interpreter and the
    stability of bindings under writes elsewhere.  Defines [agree], [sg_ok], [same_on], [stableP]. *)
From Coq Require Import ZArith List Bool String Lia.
From LV Require Import Base.Expr Base.ExprFacts Base.ListFacts Base.MiniF Base.MiniFFacts models.M_C29.
Import ListNotations.
Open Scope Z_scope.

Lemma env_a_nil s : env_a [] s = env_st s.
Proof. reflexivity. Qed.

(** the invariant of both simulations: every run-time binding in [rho] is what the resolved selector of the same
    name in [sg] evaluates to, outside all blocks, in the store [s] *)
Inductive agree (s : store) : aenv -> smap -> Prop :=
| agree_nil : agree s [] []
| agree_cons x b sl rho sg :
    bind_of [] s sl = Some b -> agree s rho sg -> agree s ((x, b) :: rho) ((x, sl) :: sg).

Lemma agree_lookup s rho sg : agree s rho sg -> forall x,
  match lookup rho x, lookup sg x with
  | None, None => True
  | Some b, Some sl => bind_of [] s sl = Some b
  | _, _ => False
  end.
Proof.
  induction 1 as [|y b sl rho sg Hb _ IH]; intros x; cbn; [exact I|].
  destruct (String.eqb y x); [exact Hb|apply IH].
Qed.

Lemma agree_app s r1 g1 r2 g2 : agree s r1 g1 -> agree s r2 g2 -> agree s (r1 ++ r2) (g1 ++ g2).
Proof. induction 1; cbn; [auto|]. intros. constructor; auto. Qed.

(** every resolved selector is one the substitution can use (no intrinsic's name, no bound shift) *)
Definition sg_ok (sg : smap) : Prop := Forall (fun p => sel_ok (snd p) = true) sg.

Lemma sg_ok_lookup sg x sl : sg_ok sg -> lookup sg x = Some sl -> sel_ok sl = true.
Proof.
  induction 1 as [|[k v] r H _ IH]; cbn; [discriminate|].
  destruct (String.eqb k x); [intros E; inversion E; subst; exact H|exact IH].
Qed.

Lemma fille_eval s : forall ds bds args idx,
  omap_list (eval_dim [] s) ds = Some bds -> forallb unshifted ds = true -> fille ds args = Some idx ->
  omap_list (evalZ (env_st s)) idx = obind (omap_list (evalZ (env_st s)) args) (fillz bds).
Proof.
  induction ds as [|d r IH]; intros bds args idx Hb Hu Hf.
  - cbn in Hb. inversion Hb; subst. destruct args; cbn in Hf; [|discriminate]. inversion Hf; subst. reflexivity.
  - cbn [omap_list] in Hb. apply obind_some in Hb. destruct Hb as [bd [Hd Hb]].
    apply obind_some in Hb. destruct Hb as [br [Hr Hb]]. inversion Hb; subst; clear Hb.
    cbn [forallb] in Hu. apply andb_prop in Hu. destruct Hu as [Hu1 Hu2].
    destruct d as [e|off].
    + cbn [fille] in Hf. destruct (fille r args) as [idx'|] eqn:Hf'; [|discriminate]. inversion Hf; subst; clear Hf.
      cbn [eval_dim] in Hd. rewrite env_a_nil in Hd.
      destruct (evalZ (env_st s) e) as [v|] eqn:Ev; [|discriminate]. inversion Hd; subst; clear Hd.
      cbn [omap_list]. rewrite Ev. cbn [obind]. rewrite (IH _ _ _ Hr Hu2 Hf').
      destruct (omap_list (evalZ (env_st s)) args) as [va|]; cbn [obind fillz]; [|reflexivity].
      destruct (fillz br va); reflexivity.
    + cbn [eval_dim] in Hd. inversion Hd; subst; clear Hd.
      cbn [unshifted] in Hu1. apply Z.eqb_eq in Hu1. subst off.
      cbn [fille] in Hf. destruct args as [|a ar]; [discriminate|].
      destruct (fille r ar) as [idx'|] eqn:Hf'; [|discriminate]. inversion Hf; subst; clear Hf.
      cbn [omap_list]. destruct (evalZ (env_st s) a) as [x|]; cbn [obind]; [|reflexivity].
      rewrite (IH _ _ _ Hr Hu2 Hf').
      destruct (omap_list (evalZ (env_st s)) ar) as [va|]; cbn [obind fillz]; [|reflexivity].
      rewrite Z.add_0_r. destruct (fillz br va); reflexivity.
Qed.

Lemma fillz_nil_some s : forall ds bds idx,
  omap_list (eval_dim [] s) ds = Some bds -> fille ds [] = Some idx -> exists i, fillz bds [] = Some i.
Proof.
  induction ds as [|d r IH]; intros bds idx Hb Hf.
  - cbn in Hb. inversion Hb; subst. cbn. eauto.
  - cbn [omap_list] in Hb. apply obind_some in Hb. destruct Hb as [bd [Hd Hb]].
    apply obind_some in Hb. destruct Hb as [br [Hr Hb]]. inversion Hb; subst; clear Hb.
    destruct d as [e|off]; [|discriminate].
    cbn [fille] in Hf. destruct (fille r []) as [idx'|] eqn:Hf'; [|discriminate].
    cbn [eval_dim] in Hd. destruct (evalZ (env_a [] s) e) as [v|]; [|discriminate]. inversion Hd; subst.
    destruct (IH _ idx' Hr eq_refl) as [i Hi]. cbn [fillz]. rewrite Hi. cbn. eauto.
Qed.

Lemma filld_eval s : forall ds0 bds0 ds r,
  omap_list (eval_dim [] s) ds0 = Some bds0 -> forallb unshifted ds0 = true -> filld ds0 ds = Some r ->
  omap_list (eval_dim [] s) r = obind (omap_list (eval_dim [] s) ds) (compose bds0).
Proof.
  induction ds0 as [|d r0 IH]; intros bds0 ds r Hb Hu Hf.
  - cbn in Hb. inversion Hb; subst. destruct ds; cbn in Hf; [|discriminate]. inversion Hf; subst. reflexivity.
  - cbn [omap_list] in Hb. apply obind_some in Hb. destruct Hb as [bd [Hd Hb]].
    apply obind_some in Hb. destruct Hb as [br [Hr Hb]]. inversion Hb; subst; clear Hb.
    cbn [forallb] in Hu. apply andb_prop in Hu. destruct Hu as [Hu1 Hu2].
    destruct d as [e|off].
    + cbn [filld] in Hf. destruct (filld r0 ds) as [r'|] eqn:Hf'; [|discriminate]. inversion Hf; subst; clear Hf.
      cbn [omap_list]. rewrite Hd. cbn [obind]. rewrite (IH _ _ _ Hr Hu2 Hf').
      cbn [eval_dim] in Hd. destruct (evalZ (env_a [] s) e) as [v|]; [|discriminate]. inversion Hd; subst; clear Hd.
      destruct (omap_list (eval_dim [] s) ds) as [bds|]; cbn [obind compose]; [|reflexivity].
      destruct (compose br bds); reflexivity.
    + cbn [eval_dim] in Hd. inversion Hd; subst; clear Hd.
      cbn [unshifted] in Hu1. apply Z.eqb_eq in Hu1. subst off.
      cbn [filld] in Hf. destruct ds as [|d' dr]; [discriminate|].
      destruct (filld r0 dr) as [r'|] eqn:Hf'; [|discriminate]. inversion Hf; subst; clear Hf.
      cbn [omap_list]. destruct (eval_dim [] s d') as [bd'|] eqn:Ed; cbn [obind]; [|reflexivity].
      rewrite (IH _ _ _ Hr Hu2 Hf').
      destruct (omap_list (eval_dim [] s) dr) as [bdr|]; cbn [obind]; [|reflexivity].
      destruct bd' as [i|off]; cbn [compose]; rewrite Z.add_0_r; destruct (compose br bdr); reflexivity.
Qed.

Lemma is_some_true {A} (o : option A) : is_some o = true -> exists a, o = Some a.
Proof. destruct o; [eauto|discriminate]. Qed.

(** a name bound to a section reads [a(idx)] with the free ranges filled ([fille_eval]); the target of a section
    or a renaming is not an intrinsic ([sg_ok]), so the rewritten call reads the same array *)
Lemma subst_evalZ s rho sg : agree s rho sg -> sg_ok sg -> forall e, okE sg e = true ->
  evalZ (env_a rho s) e = evalZ (env_st s) (subst sg e).
Proof.
  intros Hag Hok. induction e using expr_ind'; intros Hk; try reflexivity.
  - pose proof (agree_lookup _ _ _ Hag x) as L. cbn [subst okE] in *.
    cbn [evalZ env_a ev_var]. unfold var_of.
    destruct (lookup rho x) as [b|] eqn:Lr; destruct (lookup sg x) as [sl|] eqn:Ls; try contradiction; [|reflexivity].
    pose proof (sg_ok_lookup _ _ _ Hok Ls) as Hs.
    destruct sl as [y|a ds|e'].
    + cbn in L. inversion L; subst. reflexivity.
    + cbn [bind_of lookup] in L. apply obind_some in L. destruct L as [bds [Hb L]]. inversion L; subst; clear L.
      cbn [sel_ok] in Hs. apply andb_prop in Hs. destruct Hs as [Hi Hu].
      apply is_some_true in Hk. destruct Hk as [idx Hf]. rewrite Hf.
      rewrite evalZ_call. rewrite (fille_eval s ds bds [] idx Hb Hu Hf). cbn [omap_list obind].
      destruct (fillz_nil_some s ds bds idx Hb Hf) as [i Hi']. rewrite Hi'. cbn [obind].
      rewrite intrinsic_none; [reflexivity|]. now apply negb_true_iff in Hi.
    + cbn [bind_of] in L. rewrite env_a_nil in L. destruct (evalZ (env_st s) e') as [v|]; [|discriminate].
      cbn in L. inversion L; subst. reflexivity.
  - cbn [okE] in Hk. cbn [subst evalZ]. apply fold_obind_ext.
    eapply Forall_impl_forallb; [|exact Hk]. exact H.
  - cbn [okE] in Hk. cbn [subst evalZ]. apply fold_obind_ext.
    eapply Forall_impl_forallb; [|exact Hk]. exact H.
  - cbn [okE] in Hk. apply andb_prop in Hk. destruct Hk as [H1 H2].
    cbn [subst evalZ]. now rewrite IHe1, IHe2.
  - cbn [okE] in Hk. apply andb_prop in Hk. destruct Hk as [H1 H2].
    cbn [subst evalZ]. now rewrite IHe1, IHe2.
  - cbn [okE] in Hk. apply andb_prop in Hk. destruct Hk as [Hargs Hk].
    assert (Ea : omap_list (evalZ (env_a rho s)) args = omap_list (evalZ (env_st s)) (map (subst sg) args)).
    { apply omap_list_ext_map. eapply Forall_impl_forallb; [|exact Hargs]. exact H. }
    cbn [subst]. rewrite evalZ_call, Ea.
    destruct (is_intr f) eqn:Hif.
    + rewrite evalZ_call.
      destruct (omap_list (evalZ (env_st s)) (map (subst sg) args)) as [vs|]; cbn [obind]; [|reflexivity].
      destruct (intrinsic_some f vs Hif) as [r Hr]. now rewrite Hr.
    + pose proof (agree_lookup _ _ _ Hag f) as L.
      cbn [env_a ev_fun]. unfold fun_of.
      destruct (lookup rho f) as [b|] eqn:Lr; destruct (lookup sg f) as [sl|] eqn:Ls; try contradiction.
      * pose proof (sg_ok_lookup _ _ _ Hok Ls) as Hs.
        destruct sl as [y|a ds|e'].
        -- cbn in L. inversion L; subst. rewrite evalZ_call.
           destruct (omap_list (evalZ (env_st s)) (map (subst sg) args)) as [vs|]; cbn [obind]; [|reflexivity].
           cbn [sel_ok] in Hs. apply negb_true_iff in Hs.
           rewrite (intrinsic_none f vs Hif), (intrinsic_none y vs Hs). reflexivity.
        -- cbn [bind_of lookup] in L. apply obind_some in L. destruct L as [bds [Hb L]]. inversion L; subst; clear L.
           cbn [sel_ok] in Hs. apply andb_prop in Hs. destruct Hs as [Hi Hu]. apply negb_true_iff in Hi.
           apply is_some_true in Hk. destruct Hk as [idx Hf]. rewrite Hf.
           rewrite evalZ_call. rewrite (fille_eval s ds bds _ idx Hb Hu Hf).
           destruct (omap_list (evalZ (env_st s)) (map (subst sg) args)) as [vs|]; cbn [obind]; [|reflexivity].
           rewrite (intrinsic_none f vs Hif).
           destruct (fillz bds vs) as [i|]; cbn [obind option_map]; [|reflexivity].
           now rewrite (intrinsic_none a i Hi).
        -- discriminate.
      * rewrite evalZ_call.
        destruct (omap_list (evalZ (env_st s)) (map (subst sg) args)) as [vs|]; cbn [obind]; reflexivity.
Qed.

Lemma subst_evalB s rho sg : agree s rho sg -> sg_ok sg -> forall e, okE sg e = true ->
  evalB (env_a rho s) e = evalB (env_st s) (subst sg e).
Proof.
  intros Hag Hok. induction e using expr_ind'; intros Hk; try reflexivity.
  - pose proof (agree_lookup _ _ _ Hag x) as L. cbn [subst okE] in *. cbn [evalB].
    destruct (lookup rho x) as [b|] eqn:Lr; destruct (lookup sg x) as [sl|] eqn:Ls; try contradiction; [|reflexivity].
    destruct sl as [y|a ds|e']; [reflexivity| |].
    + destruct (fille ds []); reflexivity.
    + cbn [bind_of] in L. rewrite env_a_nil in L. destruct (evalZ (env_st s) e') as [v|] eqn:Ev; [|discriminate].
      symmetry. eapply evalZ_some_evalB_none; exact Ev.
  - cbn [okE] in Hk. apply andb_prop in Hk. destruct Hk as [H1 H2].
    cbn [subst evalB]. now rewrite (subst_evalZ s rho sg Hag Hok e1 H1), (subst_evalZ s rho sg Hag Hok e2 H2).
  - cbn [okE] in Hk. cbn [subst evalB]. apply fold_obind_ext. eapply Forall_impl_forallb; [|exact Hk]. exact H.
  - cbn [okE] in Hk. cbn [subst evalB]. apply fold_obind_ext. eapply Forall_impl_forallb; [|exact Hk]. exact H.
  - cbn [okE] in Hk. cbn [subst evalB]. now rewrite IHe.
  - cbn [subst]. destruct (is_intr f); [reflexivity|].
    destruct (lookup sg f) as [[y|a ds|e']|]; try reflexivity.
    destruct (fille ds (map (subst sg) args)); reflexivity.
Qed.

Lemma subst_idx s rho sg : agree s rho sg -> sg_ok sg -> forall idx, forallb (okE sg) idx = true ->
  omap_list (evalZ (env_a rho s)) idx = omap_list (evalZ (env_st s)) (map (subst sg) idx).
Proof.
  intros Hag Hok idx Hk. apply omap_list_ext_map.
  eapply Forall_impl_forallb; [|exact Hk]. apply Forall_forall. intros e _ He. now apply subst_evalZ.
Qed.

Lemma bind_subst s rho sg : agree s rho sg -> sg_ok sg -> forall sl, okS sg sl = true ->
  bind_of rho s sl = bind_of [] s (subst_sel sg sl).
Proof.
  intros Hag Hok sl Hk. destruct sl as [y|a ds|e].
  - pose proof (agree_lookup _ _ _ Hag y) as L. cbn [bind_of subst_sel].
    destruct (lookup rho y) as [b|]; destruct (lookup sg y) as [sl|]; try contradiction; [now rewrite L|reflexivity].
  - cbn [okS] in Hk. apply andb_prop in Hk. destruct Hk as [Hd Hk].
    assert (Ed : omap_list (eval_dim rho s) ds = omap_list (eval_dim [] s) (map (subst_dim sg) ds)).
    { apply omap_list_ext_map. eapply Forall_impl_forallb; [|exact Hd].
      apply Forall_forall. intros d _ Hd'. destruct d as [e|off]; [|reflexivity].
      cbn [okD] in Hd'. cbn [eval_dim subst_dim]. rewrite env_a_nil. now rewrite (subst_evalZ s rho sg Hag Hok e Hd'). }
    pose proof (agree_lookup _ _ _ Hag a) as L. cbn [bind_of subst_sel]. rewrite Ed.
    destruct (lookup rho a) as [b|] eqn:Lr; destruct (lookup sg a) as [sl|] eqn:Ls; try contradiction; [|reflexivity].
    pose proof (sg_ok_lookup _ _ _ Hok Ls) as Hs.
    destruct sl as [y|b0 ds0|e'].
    + cbn in L. inversion L; subst. reflexivity.
    + cbn [bind_of lookup] in L. apply obind_some in L. destruct L as [bds0 [Hb L]]. inversion L; subst; clear L.
      cbn [sel_ok] in Hs. apply andb_prop in Hs. destruct Hs as [_ Hu].
      apply is_some_true in Hk. destruct Hk as [r Hf]. rewrite Hf.
      cbn [bind_of lookup]. rewrite (filld_eval s ds0 bds0 _ r Hb Hu Hf).
      destruct (omap_list (eval_dim [] s) (map (subst_dim sg) ds)) as [bds|]; cbn [obind]; [|reflexivity].
      destruct (compose bds0 bds); reflexivity.
    + discriminate.
  - cbn [okS] in Hk. cbn [bind_of subst_sel]. rewrite env_a_nil. now rewrite (subst_evalZ s rho sg Hag Hok e Hk).
Qed.

Lemma bind_all_subst s rho sg : agree s rho sg -> sg_ok sg -> forall l,
  forallb (fun p => okS sg (snd p)) l = true ->
  bind_all rho s l = bind_all [] s (subst_assocs sg l).
Proof.
  intros Hag Hok. induction l as [|[x sl] r IH]; intros Hk; [reflexivity|].
  cbn [forallb snd] in Hk. apply andb_prop in Hk. destruct Hk as [H1 H2].
  cbn [bind_all subst_assocs map fst snd]. rewrite (bind_subst s rho sg Hag Hok sl H1).
  fold (subst_assocs sg r). now rewrite (IH H2).
Qed.

Lemma bind_all_agree s : forall l beta, bind_all [] s l = Some beta -> agree s beta l.
Proof.
  induction l as [|[x sl] r IH]; intros beta H; cbn in H.
  - inversion H. constructor.
  - apply obind_some in H. destruct H as [b [Hb H]]. apply obind_some in H. destruct H as [bs [Hbs H]].
    inversion H; subst. constructor; auto.
Qed.

(** [s'] agrees with [s] on the scalar and on the array called [n] *)
Definition same_on (n : string) (s s' : store) : Prop := sv s' n = sv s n /\ forall i, av s' n i = av s n i.

Lemma same_on_refl n s : same_on n s s. Proof. split; auto. Qed.
Lemma same_on_trans n s1 s2 s3 : same_on n s1 s2 -> same_on n s2 s3 -> same_on n s1 s3.
Proof. intros [A B] [C D]. split; [congruence|]. intros i. now rewrite D, B. Qed.

Lemma same_on_set_sv n x v s : n <> x -> same_on n s (set_sv x v s).
Proof. intros H. split; [now apply sv_set_other|reflexivity]. Qed.

Lemma same_on_set_av n a i v s : n <> a -> same_on n s (set_av a i v s).
Proof. intros H. split; [reflexivity|]. intros j. apply av_set_other. now left. Qed.

Lemma writes_app p q : writes (p ++ q) = writes p ++ writes q.
Proof. unfold writes. apply flat_map_app. Qed.

Lemma writes_do v lo hi stp b : writes [SDo v lo hi stp b] = v :: writes b.
Proof. unfold writes. cbn [flat_map writes_stmt]. now rewrite app_nil_r. Qed.

Lemma writes_if c t e : writes [SIf c t e] = writes t ++ writes e.
Proof. unfold writes. cbn [flat_map writes_stmt]. now rewrite app_nil_r. Qed.

(** a run changes only names it writes (no CALL: the table is empty) *)
Lemma exec_frame f : forall p s s', exec [] f p s = Some s' -> forall n, ~ In n (writes p) -> same_on n s s'.
Proof.
  induction f as [|f IH]; intros p s s' E n Hn; [discriminate|].
  destruct p as [|st rest]; [inversion E; apply same_on_refl|].
  rewrite exec_unfold in E. apply obind_some in E. destruct E as [s1 [E1 E2]].
  change (writes (st :: rest)) with (writes_stmt st ++ writes rest) in Hn.
  assert (Hn1 : ~ In n (writes_stmt st)) by (intros X; apply Hn; apply in_or_app; now left).
  assert (Hn2 : ~ In n (writes rest)) by (intros X; apply Hn; apply in_or_app; now right).
  eapply same_on_trans; [|eapply IH; eassumption].
  clear E2 Hn Hn2.
  destruct st as [x e|a idx e|v lo hi stp body|c body|c tb eb|g args|l]; cbn [exec1] in E1.
  - apply obind_some in E1. destruct E1 as [v [_ E1]]. inversion E1; subst.
    apply same_on_set_sv. intros ->. apply Hn1. now left.
  - apply obind_some in E1. destruct E1 as [i [_ E1]]. apply obind_some in E1. destruct E1 as [v [_ E1]].
    inversion E1; subst. apply same_on_set_av. intros ->. apply Hn1. now left.
  - apply obind_some in E1. destruct E1 as [a [_ E1]]. apply obind_some in E1. destruct E1 as [b [_ E1]].
    apply obind_some in E1. destruct E1 as [d [_ E1]]. destruct (d =? 0); [discriminate|].
    cbn [writes_stmt] in Hn1.
    assert (Hv : n <> v) by (intros ->; apply Hn1; now left).
    assert (Hb : ~ In n (writes body)) by (intros X; apply Hn1; now right).
    clear Hn1. remember (Z.to_nat (trip_count a b d)) as k eqn:Hk. clear Hk. revert a s E1.
    induction k as [|k IHk]; intros i s E1; cbn [do_loop] in E1.
    + inversion E1; subst. now apply same_on_set_sv.
    + apply obind_some in E1. destruct E1 as [s2 [Ea Eb]].
      eapply same_on_trans; [apply same_on_set_sv; exact Hv|].
      eapply same_on_trans; [eapply IH; eassumption|]. eapply IHk; eassumption.
  - apply obind_some in E1. destruct E1 as [b [_ E1]]. destruct b; [|inversion E1; apply same_on_refl].
    apply obind_some in E1. destruct E1 as [s2 [Ea Eb]].
    cbn [writes_stmt] in Hn1.
    eapply same_on_trans; [eapply IH; eassumption|].
    eapply IH; [exact Eb|]. unfold writes. cbn [flat_map writes_stmt]. now rewrite app_nil_r.
  - apply obind_some in E1. destruct E1 as [b [_ E1]]. cbn [writes_stmt] in Hn1.
    eapply IH; [exact E1|]. intros X. apply Hn1. apply in_or_app. destruct b; [now left|now right].
  - cbn in E1. discriminate.
  - inversion E1; apply same_on_refl.
Qed.

Lemma runs_frame p s s' : runs [] p s s' -> forall n, ~ In n (writes p) -> same_on n s s'.
Proof. intros [f E]. eapply exec_frame; exact E. Qed.

Lemma evalZ_same s s' : forall e, (forall n, In n (fv e) -> same_on n s s') ->
  evalZ (env_st s') e = evalZ (env_st s) e.
Proof.
  induction e using expr_ind'; intros Hs; try reflexivity.
  - cbn. f_equal. apply (Hs x). now left.
  - cbn [evalZ fv] in *. rewrite <- (map_id cs) at 1. symmetry. apply fold_obind_ext.
    apply Forall_forall. intros c Hc. symmetry. rewrite Forall_forall in H. apply H; [exact Hc|].
    intros n Hn. apply Hs. apply in_flat_map. eauto.
  - cbn [evalZ fv] in *. rewrite <- (map_id cs) at 1. symmetry. apply fold_obind_ext.
    apply Forall_forall. intros c Hc. symmetry. rewrite Forall_forall in H. apply H; [exact Hc|].
    intros n Hn. apply Hs. apply in_flat_map. eauto.
  - cbn [evalZ fv] in *. rewrite IHe1, IHe2; [reflexivity| |]; intros n Hn; apply Hs; apply in_or_app; auto.
  - cbn [evalZ fv] in *. rewrite IHe1, IHe2; [reflexivity| |]; intros n Hn; apply Hs; apply in_or_app; auto.
  - rewrite !evalZ_call. cbn [fv] in Hs.
    assert (Ea : omap_list (evalZ (env_st s')) args = omap_list (evalZ (env_st s)) args).
    { apply omap_list_ext. apply Forall_forall. intros c Hc. rewrite Forall_forall in H. apply H; [exact Hc|].
      intros n Hn. apply Hs. right. apply in_flat_map. eauto. }
    rewrite Ea. destruct (omap_list (evalZ (env_st s)) args) as [vs|]; cbn [obind]; [|reflexivity].
    destruct (intrinsic f vs); [reflexivity|]. cbn. f_equal. apply (Hs f). now left.
Qed.

Lemma bind_same s s' sl : (forall n, In n (dyn_fv sl) -> same_on n s s') -> bind_of [] s' sl = bind_of [] s sl.
Proof.
  intros Hs. destruct sl as [y|a ds|e]; [reflexivity| |].
  - cbn [bind_of lookup]. f_equal. apply omap_list_ext. apply Forall_forall. intros d Hd.
    destruct d as [e|off]; [|reflexivity]. cbn [eval_dim]. rewrite !env_a_nil. f_equal.
    apply evalZ_same. intros n Hn. apply Hs. cbn [dyn_fv]. apply in_flat_map. exists (DFix e). split; [exact Hd|exact Hn].
  - cbn [bind_of]. rewrite !env_a_nil. f_equal. apply evalZ_same. exact Hs.
Qed.

(** no name on which a selector of [sg] depends at run time is among the written names [w]: the bindings
    established at block entry stay what the resolved selectors evaluate to *)
Definition stableP (sg : smap) (w : list string) : Prop :=
  forall p, In p sg -> forall n, In n (dyn_fv (snd p)) -> ~ In n w.

Lemma agree_same s s' rho sg : agree s rho sg ->
  (forall p, In p sg -> forall n, In n (dyn_fv (snd p)) -> same_on n s s') -> agree s' rho sg.
Proof.
  induction 1 as [|x b sl rho sg Hb _ IH]; intros Hs; constructor.
  - rewrite (bind_same s s' sl); [exact Hb|]. intros n Hn. apply (Hs (x, sl)); [now left|exact Hn].
  - apply IH. intros p Hp. apply Hs. now right.
Qed.

Lemma agree_runs s s' rho sg p : agree s rho sg -> runs [] p s s' -> stableP sg (writes p) -> agree s' rho sg.
Proof.
  intros Hag Hr Hst. eapply agree_same; [exact Hag|].
  intros q Hq n Hn. eapply runs_frame; [exact Hr|]. eapply Hst; eassumption.
Qed.

Lemma stableP_incl sg w w' : stableP sg w -> incl w' w -> stableP sg w'.
Proof. intros H Hi p Hp n Hn X. eapply H; eauto. Qed.

Lemma stableP_app sg1 sg2 w : stableP sg1 w -> stableP sg2 w -> stableP (sg1 ++ sg2) w.
Proof. intros H1 H2 p Hp. apply in_app_or in Hp. destruct Hp; [now apply H1|now apply H2]. Qed.

Lemma disjointb_spec l1 l2 : disjointb l1 l2 = true -> forall n, In n l1 -> ~ In n l2.
Proof.
  unfold disjointb. intros H n Hn. rewrite forallb_forall in H. specialize (H n Hn).
  apply negb_true_iff in H. now apply existsb_eqb_false.
Qed.

Lemma stable_sels_spec sgn w : stable_sels sgn w = true -> stableP sgn w.
Proof.
  unfold stable_sels. intros H p Hp n Hn. rewrite forallb_forall in H. specialize (H p Hp).
  eapply disjointb_spec; eassumption.
Qed.

Lemma sg_ok_app sg1 sg2 : sg_ok sg1 -> sg_ok sg2 -> sg_ok (sg1 ++ sg2).
Proof. unfold sg_ok. intros. apply Forall_app. split; assumption. Qed.

Lemma sg_ok_of_forallb sgn : forallb (fun p => sel_ok (snd p)) sgn = true -> sg_ok sgn.
Proof. unfold sg_ok. intros H. apply Forall_forall. intros p Hp. rewrite forallb_forall in H. now apply H. Qed.

Lemma agree_set_sv s rho sg x v w : agree s rho sg -> stableP sg w -> In x w -> agree (set_sv x v s) rho sg.
Proof.
  intros Hag Hst Hx. eapply agree_same; [exact Hag|]. intros p Hp n Hn.
  apply same_on_set_sv. intros ->. eapply Hst; eassumption.
Qed.
