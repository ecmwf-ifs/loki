(** C29 — fuel monotonicity of the source interpreter, the converse simulation (a run of the resolved program
    => a run of the source) for selectors whose evaluation cannot fail, and the theorems of the property that
    put the two directions together ([resolve_preserves_on_class], [_iff_on_class], [_no_error]). *)
From Coq Require Import ZArith List Bool String Lia.
From LV Require Import Base.Expr Base.ExprFacts Base.ListFacts Base.MiniF Base.MiniFFacts models.M_C29 proofs.P_C29 proofs.P_C29_fwd.
Import ListNotations.
Open Scope Z_scope.

Lemma aexec1_with_mono (run1 run2 : aenv -> list astmt -> store -> option store) :
  (forall rho ss s s', run1 rho ss s = Some s' -> run2 rho ss s = Some s') ->
  forall rho st s s', aexec1_with run1 rho st s = Some s' -> aexec1_with run2 rho st s = Some s'.
Proof.
  intros H rho st s s' E.
  destruct st as [x e|a idx e|v lo hi stp body|c tb eb|l|assocs body]; cbn [aexec1_with] in *; try exact E.
  - apply obind_some in E. destruct E as [v' [E0 E]]. rewrite E0. cbn [obind].
    apply obind_some in E. destruct E as [a [Ea E]]. rewrite Ea. cbn [obind].
    apply obind_some in E. destruct E as [b [Eb E]]. rewrite Eb. cbn [obind].
    apply obind_some in E. destruct E as [d [Ed E]]. rewrite Ed. cbn [obind].
    destruct (d =? 0); [discriminate|].
    eapply do_loop_mono; [|exact E]. intros; now apply H.
  - apply obind_some in E. destruct E as [b [Eb E]]. rewrite Eb. cbn [obind]. now apply H.
  - apply obind_some in E. destruct E as [beta [Eb E]]. rewrite Eb. cbn [obind]. now apply H.
Qed.

Lemma aexec_fuel_S f : forall rho ss s s', aexec f rho ss s = Some s' -> aexec (S f) rho ss s = Some s'.
Proof.
  induction f as [|f IH]; intros rho ss s s' E; [discriminate|].
  destruct ss as [|st rest]; [exact E|].
  cbn [aexec] in E. apply obind_some in E. destruct E as [s1 [E1 E2]].
  change (aexec (S (S f)) rho (st :: rest) s) with
    (obind (aexec1_with (aexec (S f)) rho st s) (fun s' => aexec (S f) rho rest s')).
  rewrite (aexec1_with_mono (aexec f) (aexec (S f)) IH _ _ _ _ E1). cbn [obind]. now apply IH.
Qed.

Lemma aexec_fuel_mono f f' rho ss s s' : aexec f rho ss s = Some s' -> (f <= f')%nat -> aexec f' rho ss s = Some s'.
Proof. intros E Hle. induction Hle as [|m Hle IH]; [exact E|]. now apply aexec_fuel_S. Qed.

Lemma aexec1_fuel_mono f f' rho st s s' : aexec1 f rho st s = Some s' -> (f <= f')%nat -> aexec1 f' rho st s = Some s'.
Proof.
  intros E Hle. unfold aexec1 in *. eapply aexec1_with_mono; [|exact E].
  intros. eapply aexec_fuel_mono; eassumption.
Qed.

Lemma aexec_cons rho st rest s s1 s' f1 f2 :
  aexec1 f1 rho st s = Some s1 -> aexec f2 rho rest s1 = Some s' ->
  aexec (S (Nat.max f1 f2)) rho (st :: rest) s = Some s'.
Proof.
  intros E1 E2. cbn [aexec]. fold (aexec1 (Nat.max f1 f2) rho st s).
  rewrite (aexec1_fuel_mono f1 _ _ _ _ _ E1 (Nat.le_max_l _ _)). cbn [obind].
  eapply aexec_fuel_mono; [exact E2|apply Nat.le_max_r].
Qed.

Lemma aruns_det rho ss s s1 s2 : aruns rho ss s s1 -> aruns rho ss s s2 -> s1 = s2.
Proof.
  intros [f1 E1] [f2 E2].
  pose proof (aexec_fuel_mono f1 (Nat.max f1 f2) _ _ _ _ E1 (Nat.le_max_l _ _)) as A.
  pose proof (aexec_fuel_mono f2 (Nat.max f1 f2) _ _ _ _ E2 (Nat.le_max_r _ _)) as B.
  congruence.
Qed.

Lemma totalE_eval s : forall e, totalE e = true -> exists v, evalZ (env_st s) e = Some v.
Proof.
  induction e using expr_ind'; intros Ht; try discriminate; try (cbn; eauto; fail).
  - cbn [totalE] in Ht. cbn [evalZ].
    induction H as [|c cs Hc _ IHcs]; cbn [fold_right]; [eauto|].
    cbn [forallb] in Ht. apply andb_prop in Ht. destruct Ht as [H1 H2].
    destruct (Hc H1) as [v Ev]. destruct (IHcs H2) as [w Ew]. rewrite Ev, Ew. cbn. eauto.
  - cbn [totalE] in Ht. cbn [evalZ].
    induction H as [|c cs Hc _ IHcs]; cbn [fold_right]; [eauto|].
    cbn [forallb] in Ht. apply andb_prop in Ht. destruct Ht as [H1 H2].
    destruct (Hc H1) as [v Ev]. destruct (IHcs H2) as [w Ew]. rewrite Ev, Ew. cbn. eauto.
  - cbn [totalE] in Ht. apply andb_prop in Ht. destruct Ht as [Hi Ha]. apply negb_true_iff in Hi.
    rewrite evalZ_call.
    assert (exists vs, omap_list (evalZ (env_st s)) args = Some vs) as [vs Evs].
    { clear Hi. induction H as [|c cs Hc _ IHcs]; cbn [omap_list]; [eauto|].
      cbn [forallb] in Ha. apply andb_prop in Ha. destruct Ha as [H1 H2].
      destruct (Hc H1) as [v Ev]. destruct (IHcs H2) as [w Ew]. rewrite Ev, Ew. cbn. eauto. }
    rewrite Evs. cbn [obind]. rewrite (intrinsic_none f vs Hi). cbn. eauto.
Qed.

Lemma total_bind s sl : total_sel sl = true -> exists b, bind_of [] s sl = Some b.
Proof.
  destruct sl as [y|a ds|e]; cbn [total_sel bind_of lookup]; intros Ht.
  - eauto.
  - assert (exists bds, omap_list (eval_dim [] s) ds = Some bds) as [bds E].
    { induction ds as [|d r IH]; cbn [omap_list]; [eauto|].
      cbn [forallb] in Ht. apply andb_prop in Ht. destruct Ht as [H1 H2]. destruct (IH H2) as [br Er].
      destruct d as [e|off]; cbn [eval_dim total_dim] in *.
      - rewrite env_a_nil. destruct (totalE_eval s e H1) as [v Ev]. rewrite Ev, Er. cbn. eauto.
      - rewrite Er. cbn. eauto. }
    rewrite E. cbn. eauto.
  - rewrite env_a_nil. destruct (totalE_eval s e Ht) as [v Ev]. rewrite Ev. cbn. eauto.
Qed.

Lemma total_bind_all s : forall l, forallb (fun p => total_sel (snd p)) l = true -> exists beta, bind_all [] s l = Some beta.
Proof.
  induction l as [|[x sl] r IH]; cbn [forallb bind_all snd]; intros Ht; [eauto|].
  apply andb_prop in Ht. destruct Ht as [H1 H2].
  destruct (total_bind s sl H1) as [b Eb]. destruct (IH H2) as [bs Ebs]. rewrite Eb, Ebs. cbn. eauto.
Qed.

Lemma safe_stmt_do sg v lo hi stp body : safe_stmt sg (ADo v lo hi stp body) = forallb (safe_stmt sg) body.
Proof. reflexivity. Qed.
Lemma safe_stmt_if sg c tb eb : safe_stmt sg (AIf c tb eb) = forallb (safe_stmt sg) tb && forallb (safe_stmt sg) eb.
Proof. reflexivity. Qed.
Lemma safe_stmt_assoc sg assocs body :
  safe_stmt sg (AAssoc assocs body) =
  forallb (fun p => total_sel (snd p)) (subst_assocs sg assocs) && forallb (safe_stmt (subst_assocs sg assocs ++ sg)) body.
Proof. reflexivity. Qed.

(** The converse goes by induction on the source statement: the fuel of the target run says nothing about the
    evaluation of selectors the resolved code never evaluates.  [Pst]/[Pls]: what is proved of a statement / a list. *)
Definition Pst (st : astmt) : Prop := forall rho sg s s1,
  runs [] (resolve_stmt sg st) s s1 -> agree s rho sg -> sg_ok sg -> cls_stmt sg st = true ->
  safe_stmt sg st = true -> stableP sg (writes (resolve_stmt sg st)) -> exists f, aexec1 f rho st s = Some s1.

Definition Pls (ss : list astmt) : Prop := forall rho sg s s',
  runs [] (resolve_list sg ss) s s' -> agree s rho sg -> sg_ok sg -> cls sg ss = true ->
  forallb (safe_stmt sg) ss = true -> stableP sg (writes (resolve_list sg ss)) -> exists f, aexec f rho ss s = Some s'.

Lemma bwd_list ss : Forall Pst ss -> Pls ss.
Proof.
  induction 1 as [|st rest Hst _ IH]; intros rho sg s s' R Hag Hok Hc Hsf Hsb.
  - apply runs_nil_inv in R. subst. now exists 1%nat.
  - rewrite resolve_list_cons in *. rewrite writes_app in Hsb.
    apply runs_app_inv in R. destruct R as [s1 [R1 R2]].
    unfold cls in Hc. cbn [forallb] in Hc, Hsf.
    apply andb_prop in Hc. destruct Hc as [Hc1 Hc2]. apply andb_prop in Hsf. destruct Hsf as [Hs1 Hs2].
    assert (Hsb1 : stableP sg (writes (resolve_stmt sg st))) by (eapply stableP_incl; [exact Hsb|apply incl_appl, incl_refl]).
    assert (Hsb2 : stableP sg (writes (resolve_list sg rest))) by (eapply stableP_incl; [exact Hsb|apply incl_appr, incl_refl]).
    destruct (Hst rho sg s s1 R1 Hag Hok Hc1 Hs1 Hsb1) as [f1 E1].
    assert (Hag1 : agree s1 rho sg) by (eapply agree_runs; eassumption).
    destruct (IH rho sg s1 s' R2 Hag1 Hok Hc2 Hs2 Hsb2) as [f2 E2].
    eexists. eapply aexec_cons; eassumption.
Qed.

Lemma loop_bwd rho sg body v' d :
  Pls body -> sg_ok sg -> cls sg body = true -> forallb (safe_stmt sg) body = true ->
  stableP sg (v' :: writes (resolve_list sg body)) ->
  forall n i s s1, loop_runs [] (resolve_list sg body) v' d n i s s1 -> agree s rho sg ->
  exists f, do_loop (aexec f rho body) v' d n i s = Some s1.
Proof.
  intros HP Hok Hc Hsf Hsb.
  assert (Hstb : stableP sg (writes (resolve_list sg body))).
  { eapply stableP_incl; [exact Hsb|]. intros n Hn. now right. }
  intros n i s s1 R. induction R as [i s|n i s s2 s' R1 R2 IHR]; intros Hag.
  - exists 0%nat. reflexivity.
  - assert (Hag1 : agree (set_sv v' i s) rho sg) by (eapply agree_set_sv; [exact Hag|exact Hsb|now left]).
    destruct (HP rho sg _ _ R1 Hag1 Hok Hc Hsf Hstb) as [f1 E1].
    assert (Hag2 : agree s2 rho sg) by (eapply agree_runs; eassumption).
    destruct (IHR Hag2) as [f2 E2].
    exists (Nat.max f1 f2). cbn [do_loop].
    rewrite (aexec_fuel_mono f1 _ _ _ _ _ E1 (Nat.le_max_l _ _)). cbn [obind].
    eapply do_loop_mono; [|exact E2]. intros; eapply aexec_fuel_mono; [eassumption|apply Nat.le_max_r].
Qed.

Lemma bwd_stmt : forall st, Pst st.
Proof.
  induction st as [| |? ? ? ? b IHb|? t e IHt IHe| |? b IHb] using astmt_ind'; intros rho sg s s1 R Hag Hok Hc Hsf Hsb.
  - cbn [cls_stmt] in Hc. apply andb_prop in Hc. destruct Hc as [He Hw].
    cbn [resolve_stmt] in R. apply runs_single in R. destruct R as [f R].
    rewrite (resolve_assign_exec s rho sg x _ f Hag Hok Hw) in R.
    exists 0%nat. unfold aexec1. cbn [aexec1_with]. now rewrite (subst_evalZ s rho sg Hag Hok e He).
  - cbn [cls_stmt] in Hc. apply andb_prop in Hc. destruct Hc as [Hc Hw]. apply andb_prop in Hc. destruct Hc as [Hi He].
    cbn [resolve_stmt] in R. apply runs_single in R. destruct R as [f R].
    rewrite (resolve_store_exec s rho sg a _ _ f Hag Hok Hw) in R.
    exists 0%nat. unfold aexec1. cbn [aexec1_with].
    now rewrite (subst_evalZ s rho sg Hag Hok e He), (subst_idx s rho sg Hag Hok i Hi).
  - rewrite cls_stmt_do in Hc. apply andb_prop in Hc. destruct Hc as [Hc Hcb].
    repeat (apply andb_prop in Hc; destruct Hc as [Hc ?]).
    rewrite safe_stmt_do in Hsf.
    rewrite resolve_do in *. apply runs_single in R. apply runs1_do in R.
    destruct R as [a [b0 [d [Ea [Eb [Ed [Hd R]]]]]]].
    rewrite writes_do in Hsb.
    destruct (loop_bwd rho sg b (subst_name sg v) d (bwd_list b IHb) Hok Hcb Hsf Hsb _ _ _ _ R Hag) as [f L].
    exists f. unfold aexec1. cbn [aexec1_with].
    rewrite (dovar_of_subst s rho sg v Hag Hc). cbn [obind].
    rewrite (subst_evalZ s rho sg Hag Hok lo) by assumption. rewrite Ea. cbn [obind].
    rewrite (subst_evalZ s rho sg Hag Hok hi) by assumption. rewrite Eb. cbn [obind].
    assert (Ed' : match st with Some e => evalZ (env_a rho s) e | None => Some 1 end = Some d).
    { destruct st as [e|]; [|exact Ed]. cbn [option_map] in Ed. now rewrite (subst_evalZ s rho sg Hag Hok e). }
    rewrite Ed'. cbn [obind]. apply Z.eqb_neq in Hd. rewrite Hd. exact L.
  - rewrite cls_stmt_if in Hc. apply andb_prop in Hc. destruct Hc as [Hc Hce]. apply andb_prop in Hc. destruct Hc as [Hcc Hct].
    rewrite safe_stmt_if in Hsf. apply andb_prop in Hsf. destruct Hsf as [Hst Hse].
    rewrite resolve_if in *. apply runs_single in R.
    rewrite writes_if in Hsb.
    destruct R as [f R]. cbn [exec1] in R. apply obind_some in R. destruct R as [b [Eb R]].
    assert (R' : runs [] (if b then resolve_list sg t else resolve_list sg e) s s1) by (now exists f).
    assert (L : exists f', aexec f' rho (if b then t else e) s = Some s1).
    { destruct b.
      - eapply (bwd_list t IHt); try eassumption. eapply stableP_incl; [exact Hsb|]. intros n Hn. apply in_or_app. now left.
      - eapply (bwd_list e IHe); try eassumption. eapply stableP_incl; [exact Hsb|]. intros n Hn. apply in_or_app. now right. }
    destruct L as [f' L]. exists f'. unfold aexec1. cbn [aexec1_with].
    rewrite (subst_evalB s rho sg Hag Hok c Hcc), Eb. cbn [obind]. exact L.
  - cbn [resolve_stmt] in R. apply runs_single in R. destruct R as [f R]. cbn in R. exists 0%nat. exact R.
  - rewrite cls_stmt_assoc in Hc. repeat (apply andb_prop in Hc; destruct Hc as [Hc ?]).
    rewrite safe_stmt_assoc in Hsf. apply andb_prop in Hsf. destruct Hsf as [Ht Hsf].
    rewrite resolve_assoc in *.
    destruct (total_bind_all s _ Ht) as [beta Eb].
    assert (L : exists f, aexec f (beta ++ rho) b s = Some s1).
    { eapply (bwd_list b IHb); try eassumption.
      - apply agree_app; [now apply bind_all_agree|exact Hag].
      - apply sg_ok_app; [now apply sg_ok_of_forallb|exact Hok].
      - apply stableP_app; [now apply stable_sels_spec|exact Hsb]. }
    destruct L as [f L]. exists f. unfold aexec1. cbn [aexec1_with].
    rewrite (bind_all_subst s rho sg Hag Hok a Hc), Eb. cbn [obind]. exact L.
Qed.

Theorem resolve_preserves_bwd ss : selectors_stable ss = true -> selectors_safe ss = true ->
  forall s s', runs [] (resolve ss) s s' -> aruns [] ss s s'.
Proof.
  intros Hc Hs s s' R.
  assert (HP : Pls ss) by (apply bwd_list; apply Forall_forall; intros st _; apply bwd_stmt).
  eapply HP; [exact R|constructor|constructor|exact Hc|exact Hs|]. intros p Hp. inversion Hp.
Qed.

(** C29, do_resolve_associates, start_depth = 0 *)
Theorem resolve_preserves_on_class ss : selectors_stable ss = true ->
  forall s s', aruns [] ss s s' -> runs [] (resolve ss) s s'.
Proof. exact (resolve_preserves_fwd ss). Qed.

Theorem resolve_preserves_iff_on_class ss : selectors_stable ss = true -> selectors_safe ss = true ->
  forall s s', aruns [] ss s s' <-> runs [] (resolve ss) s s'.
Proof.
  intros Hc Hs s s'. split; [now apply resolve_preserves_fwd|now apply resolve_preserves_bwd].
Qed.

(** without the safety side condition the converse still holds for stores on which the source does not go wrong *)
Theorem resolve_preserves_no_error ss : selectors_stable ss = true ->
  forall s s', (exists t, aruns [] ss s t) -> (aruns [] ss s s' <-> runs [] (resolve ss) s s').
Proof.
  intros Hc s s' [t Ht]. split; [now apply resolve_preserves_fwd|].
  intros R. pose proof (resolve_preserves_fwd ss Hc s t Ht) as R'.
  now rewrite (runs_det [] _ _ _ _ R R').
Qed.
