(** C29 — forward simulation (source run => run of the resolved program). *)
From Coq Require Import ZArith List Bool String Lia.
From LV Require Import Base.Expr Base.ExprFacts Base.ListFacts Base.MiniF Base.MiniFFacts models.M_C29 proofs.P_C29.
Import ListNotations.
Open Scope Z_scope.

Lemma resolve_list_cons sg st rest : resolve_list sg (st :: rest) = resolve_stmt sg st ++ resolve_list sg rest.
Proof. reflexivity. Qed.
Lemma resolve_do sg v lo hi stp body :
  resolve_stmt sg (ADo v lo hi stp body) =
  [SDo (subst_name sg v) (subst sg lo) (subst sg hi) (option_map (subst sg) stp) (resolve_list sg body)].
Proof. reflexivity. Qed.
Lemma resolve_if sg c tb eb :
  resolve_stmt sg (AIf c tb eb) = [SIf (subst sg c) (resolve_list sg tb) (resolve_list sg eb)].
Proof. reflexivity. Qed.
Lemma resolve_assoc sg assocs body :
  resolve_stmt sg (AAssoc assocs body) = resolve_list (subst_assocs sg assocs ++ sg) body.
Proof. reflexivity. Qed.

Lemma cls_stmt_do sg v lo hi stp body :
  cls_stmt sg (ADo v lo hi stp body) =
  okV sg v && okE sg lo && okE sg hi && (match stp with Some e => okE sg e | None => true end) && cls sg body.
Proof. reflexivity. Qed.
Lemma cls_stmt_if sg c tb eb : cls_stmt sg (AIf c tb eb) = okE sg c && cls sg tb && cls sg eb.
Proof. reflexivity. Qed.
Lemma cls_stmt_assoc sg assocs body :
  cls_stmt sg (AAssoc assocs body) =
  forallb (fun p => okS sg (snd p)) assocs && forallb (fun p => sel_ok (snd p)) (subst_assocs sg assocs)
  && stable_sels (subst_assocs sg assocs) (writes (resolve_list (subst_assocs sg assocs ++ sg) body))
  && cls (subst_assocs sg assocs ++ sg) body.
Proof. reflexivity. Qed.

(** assignments: the resolved statement computes, at any fuel, what the source statement does through the
    bindings; both simulations read this equation, one in each direction *)
Lemma resolve_assign_exec s rho sg x rhs f : agree s rho sg -> sg_ok sg -> okW sg x = true ->
  exec1 [] f (resolve_assign sg x rhs) s = obind (evalZ (env_st s) rhs) (fun v => write_scalar rho x v s).
Proof.
  intros Hag Hok Hw. pose proof (agree_lookup _ _ _ Hag x) as L.
  unfold resolve_assign, write_scalar, okW in *.
  destruct (lookup rho x) as [b|] eqn:Lr; destruct (lookup sg x) as [sl|] eqn:Ls; try contradiction; [|reflexivity].
  pose proof (sg_ok_lookup _ _ _ Hok Ls) as Hs.
  destruct sl as [y|a ds|e']; [| |discriminate].
  - cbn in L. inversion L; subst. reflexivity.
  - cbn [bind_of lookup] in L. apply obind_some in L. destruct L as [bds [Hb L]]. inversion L; subst; clear L.
    apply is_some_true in Hw. destruct Hw as [ix Hf]. rewrite Hf.
    cbn [sel_ok] in Hs. apply andb_prop in Hs. destruct Hs as [_ Hu].
    cbn [exec1]. unfold eval_idx. rewrite (fille_eval s ds bds [] ix Hb Hu Hf). cbn [omap_list obind].
    destruct (fillz bds []), (evalZ (env_st s) rhs); reflexivity.
Qed.

Lemma resolve_store_exec s rho sg a idx rhs f : agree s rho sg -> sg_ok sg -> okWa sg a idx = true ->
  exec1 [] f (resolve_store sg a idx rhs) s =
  obind (omap_list (evalZ (env_st s)) idx) (fun i => obind (evalZ (env_st s) rhs) (fun v => write_elem rho a i v s)).
Proof.
  intros Hag Hok Hw. pose proof (agree_lookup _ _ _ Hag a) as L.
  unfold resolve_store, write_elem, okWa in *.
  destruct (lookup rho a) as [b|] eqn:Lr; destruct (lookup sg a) as [sl|] eqn:Ls; try contradiction; [|reflexivity].
  pose proof (sg_ok_lookup _ _ _ Hok Ls) as Hs.
  destruct sl as [y|a0 ds|e']; [| |discriminate].
  - cbn in L. inversion L; subst. reflexivity.
  - cbn [bind_of lookup] in L. apply obind_some in L. destruct L as [bds [Hb L]]. inversion L; subst; clear L.
    apply is_some_true in Hw. destruct Hw as [ix Hf]. rewrite Hf.
    cbn [sel_ok] in Hs. apply andb_prop in Hs. destruct Hs as [_ Hu].
    cbn [exec1]. unfold eval_idx. rewrite (fille_eval s ds bds idx ix Hb Hu Hf).
    destruct (omap_list (evalZ (env_st s)) idx) as [vi|]; cbn [obind]; [|reflexivity].
    destruct (fillz bds vi), (evalZ (env_st s) rhs); reflexivity.
Qed.

Lemma dovar_of_subst s rho sg v : agree s rho sg -> okV sg v = true -> dovar rho v = Some (subst_name sg v).
Proof.
  intros Hag Hk. pose proof (agree_lookup _ _ _ Hag v) as L. unfold okV, dovar, subst_name in *.
  destruct (lookup rho v) as [b|]; destruct (lookup sg v) as [sl|]; try contradiction; [|reflexivity].
  destruct sl as [y| |]; try discriminate. cbn in L. now inversion L.
Qed.

Lemma dovar_subst s rho sg v v' : agree s rho sg -> okV sg v = true -> dovar rho v = Some v' -> subst_name sg v = v'.
Proof. intros Hag Hk Hd. rewrite (dovar_of_subst s rho sg v Hag Hk) in Hd. now inversion Hd. Qed.

(** the statement lemma is stated with the theorem at fuel [f] as a hypothesis, so that it can precede it *)
Section Step.
  Variable f : nat.
  Hypothesis IH : forall rho sg ss s s',
    aexec f rho ss s = Some s' -> agree s rho sg -> sg_ok sg -> cls sg ss = true ->
    stableP sg (writes (resolve_list sg ss)) -> runs [] (resolve_list sg ss) s s'.

  Lemma fwd_sim_stmt rho sg st s s1 :
    aexec1 f rho st s = Some s1 -> agree s rho sg -> sg_ok sg -> cls_stmt sg st = true ->
    stableP sg (writes (resolve_stmt sg st)) -> runs [] (resolve_stmt sg st) s s1.
  Proof.
    intros E Hag Hok Hc Hst. unfold aexec1 in E.
    destruct st as [x e|a idx e|v lo hi stp body|c tb eb|l|assocs body]; cbn [aexec1_with] in E.
    - cbn [cls_stmt] in Hc. apply andb_prop in Hc. destruct Hc as [He Hw].
      rewrite (subst_evalZ s rho sg Hag Hok e He) in E.
      cbn [resolve_stmt]. apply runs_single. exists 0%nat. now rewrite (resolve_assign_exec s rho sg x _ 0 Hag Hok Hw).
    - cbn [cls_stmt] in Hc. apply andb_prop in Hc. destruct Hc as [Hc Hw]. apply andb_prop in Hc. destruct Hc as [Hi He].
      rewrite (subst_evalZ s rho sg Hag Hok e He), (subst_idx s rho sg Hag Hok idx Hi) in E.
      cbn [resolve_stmt]. apply runs_single. exists 0%nat. now rewrite (resolve_store_exec s rho sg a _ _ 0 Hag Hok Hw).
    - apply obind_some in E. destruct E as [v' [Ed E]]. apply obind_some in E. destruct E as [a [Ea E]].
      apply obind_some in E. destruct E as [b [Eb E]]. apply obind_some in E. destruct E as [d [Edd E]].
      destruct (d =? 0) eqn:Ez; [discriminate|].
      rewrite cls_stmt_do in Hc. repeat (apply andb_prop in Hc; destruct Hc as [Hc ?]).
      rewrite resolve_do in *. rewrite (dovar_subst s rho sg v v' Hag Hc Ed) in *.
      apply runs_single. apply runs1_do. exists a, b, d.
      rewrite <- (subst_evalZ s rho sg Hag Hok lo) by assumption.
      rewrite <- (subst_evalZ s rho sg Hag Hok hi) by assumption.
      repeat split; try assumption.
      + destruct stp as [e|]; [|exact Edd]. cbn [option_map]. now rewrite <- (subst_evalZ s rho sg Hag Hok e).
      + now apply Z.eqb_neq.
      + rewrite writes_do in Hst.
        assert (Hstb : stableP sg (writes (resolve_list sg body))).
        { eapply stableP_incl; [exact Hst|]. intros n Hn. now right. }
        clear Ea Eb Edd. revert Hag E. generalize (Z.to_nat (trip_count a b d)) as k. intros k. revert a s.
        induction k as [|k IHk]; intros i s Hag E; cbn [do_loop] in E.
        * inversion E; subst. constructor.
        * apply obind_some in E. destruct E as [s2 [E1 E2]].
          assert (Hag1 : agree (set_sv v' i s) rho sg) by (eapply agree_set_sv; [exact Hag|exact Hst|now left]).
          assert (R : runs [] (resolve_list sg body) (set_sv v' i s) s2) by (eapply IH; eassumption).
          econstructor; [exact R|]. apply IHk; [|exact E2].
          eapply agree_runs; eassumption.
    - apply obind_some in E. destruct E as [b [Eb E]].
      rewrite cls_stmt_if in Hc. apply andb_prop in Hc. destruct Hc as [Hc Hce]. apply andb_prop in Hc. destruct Hc as [Hcc Hct].
      rewrite resolve_if in *. rewrite (subst_evalB s rho sg Hag Hok c Hcc) in Eb.
      apply runs_single. apply (runs1_if [] _ _ _ s s1 b Eb).
      rewrite writes_if in Hst.
      destruct b; (eapply IH; [exact E|exact Hag|exact Hok|assumption|]);
        (eapply stableP_incl; [exact Hst|]); intros n Hn; apply in_or_app; [left|right]; exact Hn.
    - inversion E; subst. apply runs_single. apply runs1_skip.
    - apply obind_some in E. destruct E as [beta [Eb E]].
      rewrite cls_stmt_assoc in Hc. repeat (apply andb_prop in Hc; destruct Hc as [Hc ?]).
      rewrite resolve_assoc in *.
      rewrite (bind_all_subst s rho sg Hag Hok assocs Hc) in Eb.
      eapply IH; [exact E| | |assumption|].
      + apply agree_app; [now apply bind_all_agree|exact Hag].
      + apply sg_ok_app; [now apply sg_ok_of_forallb|exact Hok].
      + apply stableP_app; [now apply stable_sels_spec|exact Hst].
  Qed.
End Step.

Lemma fwd_sim : forall f rho sg ss s s',
  aexec f rho ss s = Some s' -> agree s rho sg -> sg_ok sg -> cls sg ss = true ->
  stableP sg (writes (resolve_list sg ss)) -> runs [] (resolve_list sg ss) s s'.
Proof.
  induction f as [|f IH]; intros rho sg ss s s' E Hag Hok Hc Hst; [discriminate|].
  destruct ss as [|st rest]; [inversion E; apply runs_nil|].
  cbn [aexec] in E. apply obind_some in E. destruct E as [s1 [E1 E2]].
  unfold cls in Hc. cbn [forallb] in Hc. apply andb_prop in Hc. destruct Hc as [Hc1 Hc2].
  rewrite resolve_list_cons in *. rewrite writes_app in Hst.
  assert (Hst1 : stableP sg (writes (resolve_stmt sg st))) by (eapply stableP_incl; [exact Hst|apply incl_appl, incl_refl]).
  assert (Hst2 : stableP sg (writes (resolve_list sg rest))) by (eapply stableP_incl; [exact Hst|apply incl_appr, incl_refl]).
  assert (R1 : runs [] (resolve_stmt sg st) s s1) by (eapply fwd_sim_stmt; eassumption).
  eapply runs_app; [exact R1|].
  eapply IH; [exact E2| |exact Hok|exact Hc2|exact Hst2].
  eapply agree_runs; eassumption.
Qed.

(** the forward half of C29 for do_resolve_associates (start_depth = 0) *)
Theorem resolve_preserves_fwd ss : selectors_stable ss = true ->
  forall s s', aruns [] ss s s' -> runs [] (resolve ss) s s'.
Proof.
  intros Hc s s' [f E]. eapply fwd_sim; [exact E|constructor|constructor|exact Hc|].
  intros p Hp. inversion Hp.
Qed.
