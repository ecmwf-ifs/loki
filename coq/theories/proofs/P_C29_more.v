(** C29 — witnesses of the defects, the theorem about merging in validated form (the class [merge_ok] contains
    [resolve (merge ss) = resolve ss], computed per routine), idempotence of full resolution, the start_depth = 0
    link, shadowing, and example programs inside the classes ([ex_prog], [ex_merge]). *)
From Coq Require Import ZArith List Bool String Lia.
From LV Require Import Base.Expr Base.ExprFacts Base.ListFacts Base.MiniF Base.MiniFFacts models.M_C29 proofs.P_C29 proofs.P_C29_fwd proofs.P_C29_bwd.
Import ListNotations.
Open Scope Z_scope.
Open Scope string_scope.

(** final stores of the witnesses; 30 is fuel enough for each of them *)
Definition run_src (ss : list astmt) (s : store) : store :=
  match aexec 30 [] ss s with Some s' => s' | None => s end.
Definition run_tgt (p : list stmt) (s : store) : store :=
  match exec [] 30 p s with Some s' => s' | None => s end.

Lemma run_src_ok ss s : is_some (aexec 30 [] ss s) = true -> aruns [] ss s (run_src ss s).
Proof. unfold run_src. destruct (aexec 30 [] ss s) eqn:E; [intros _; now exists 30%nat|discriminate]. Qed.
Lemma run_tgt_ok p s : is_some (exec [] 30 p s) = true -> runs [] p s (run_tgt p s).
Proof. unfold run_tgt. destruct (exec [] 30 p s) eqn:E; [intros _; now exists 30%nat|discriminate]. Qed.

(** F17: [associate(s => a + b); a = 10; y = s] *)
Definition w_f17 : list astmt :=
  [AAssoc [("s", SVal (ESum false [EVar "a"; EVar "b"]))] [AAssign "a" (EInt 10); AAssign "y" (EVar "s")]].
Definition s_f17 : store := init_store [("a", 1); ("b", 2)] [].

Theorem resolve_expr_selector_refuted :
  exists ss s s1 s2, valid ss = true /\ aruns [] ss s s1 /\ runs [] (resolve ss) s s2 /\ sv s1 "y" <> sv s2 "y".
Proof.
  exists w_f17, s_f17, (run_src w_f17 s_f17), (run_tgt (resolve w_f17) s_f17).
  split; [vm_compute; reflexivity|]. split; [apply run_src_ok; vm_compute; reflexivity|].
  split; [apply run_tgt_ok; vm_compute; reflexivity|]. vm_compute. discriminate.
Qed.

Example f17_outside_class : selectors_stable w_f17 = false.
Proof. vm_compute. reflexivity. Qed.

(** the same with a variable selector whose subscript changes: [associate(x => arr(k)); k = 2; x = 5] *)
Definition w_f17b : list astmt :=
  [AAssoc [("x", SSec "arr" [DFix (EVar "k")])] [AAssign "k" (EInt 2); AAssign "x" (EInt 5)]].
Definition s_f17b : store := init_store [("k", 1)] [].

Theorem resolve_subscript_refuted :
  exists ss s s1 s2, valid ss = true /\ aruns [] ss s s1 /\ runs [] (resolve ss) s s2 /\ av s1 "arr" [1] <> av s2 "arr" [1].
Proof.
  exists w_f17b, s_f17b, (run_src w_f17b s_f17b), (run_tgt (resolve w_f17b) s_f17b).
  split; [vm_compute; reflexivity|]. split; [apply run_src_ok; vm_compute; reflexivity|].
  split; [apply run_tgt_ok; vm_compute; reflexivity|]. vm_compute. discriminate.
Qed.

(** bound shift of a section: [associate(q => arr(2:4)); q(1) = 7] becomes [arr(1) = 7] *)
Definition w_shift : list astmt := [AAssoc [("q", SSec "arr" [DFree 1])] [AStore "q" [EInt 1] (EInt 7)]].

Theorem resolve_bounds_shift_refuted :
  exists ss s s1 s2, valid ss = true /\ aruns [] ss s s1 /\ runs [] (resolve ss) s s2 /\ av s1 "arr" [2] <> av s2 "arr" [2].
Proof.
  exists w_shift, empty_store, (run_src w_shift empty_store), (run_tgt (resolve w_shift) empty_store).
  split; [vm_compute; reflexivity|]. split; [apply run_src_ok; vm_compute; reflexivity|].
  split; [apply run_tgt_ok; vm_compute; reflexivity|]. vm_compute. discriminate.
Qed.

(** merging: [associate(p => b); k = 2; associate(x => arr(k)); x = 5] -- the inner association is moved
    in front of [k = 2] although the code's own test (head symbol not defined by the parent) is satisfied *)
Definition w_merge : list astmt :=
  [AAssoc [("p", SName "b")]
     [AAssign "k" (EInt 2); AAssoc [("x", SSec "arr" [DFix (EVar "k")])] [AAssign "x" (EInt 5)]]].

Theorem merge_refuted :
  exists ss m s s1 s2, merge_list ss = Some m /\ selectors_stable ss = true /\
    aruns [] ss s s1 /\ aruns [] m s s2 /\ av s1 "arr" [2] <> av s2 "arr" [2].
Proof.
  exists w_merge, (merge w_merge), s_f17b, (run_src w_merge s_f17b), (run_src (merge w_merge) s_f17b).
  split; [vm_compute; reflexivity|]. split; [vm_compute; reflexivity|].
  split; [apply run_src_ok; vm_compute; reflexivity|].
  split; [apply run_src_ok; vm_compute; reflexivity|]. vm_compute. discriminate.
Qed.

Theorem merge_preserves_on_class ss : merge_ok ss = true ->
  forall s s', aruns [] ss s s' <-> aruns [] (merge ss) s s'.
Proof.
  unfold merge_ok. intros H.
  apply andb_prop in H. destruct H as [H He]. apply andb_prop in H. destruct H as [H Hs2].
  apply andb_prop in H. destruct H as [H Hc2]. apply andb_prop in H. destruct H as [Hc1 Hs1].
  apply stmts_eqb_eq in He. intros s s'.
  rewrite (resolve_preserves_iff_on_class ss Hc1 Hs1 s s').
  rewrite (resolve_preserves_iff_on_class (merge ss) Hc2 Hs2 s s'). now rewrite He.
Qed.

Lemma subst_nil : forall e, subst [] e = e.
Proof.
  induction e using expr_ind'; cbn [subst lookup]; try reflexivity;
    try (now rewrite (map_id_Forall _ _ H)); try (now rewrite IHe1, IHe2); try (now rewrite IHe).
  rewrite (map_id_Forall _ _ H). now destruct (is_intr f).
Qed.

Fixpoint is_core (st : stmt) : bool :=
  match st with
  | SAssign _ _ | SStore _ _ _ | SSkip _ => true
  | SDo _ _ _ _ b => forallb is_core b
  | SIf _ t e => forallb is_core t && forallb is_core e
  | SWhile _ _ | SCall _ _ => false
  end.

Lemma resolve_embed_list p :
  Forall (fun st => is_core st = true -> resolve_stmt [] (embed_stmt st) = [st]) p ->
  forallb is_core p = true -> resolve_list [] (embed p) = p.
Proof.
  induction 1 as [|st r H _ IH]; cbn [forallb]; intros Hc; [reflexivity|].
  apply andb_prop in Hc. destruct Hc as [H1 H2].
  unfold embed. cbn [map]. rewrite resolve_list_cons. rewrite (H H1). fold (embed r). now rewrite (IH H2).
Qed.

Lemma resolve_embed : forall st, is_core st = true -> resolve_stmt [] (embed_stmt st) = [st].
Proof.
  induction st using stmt_ind'; cbn [is_core]; intros Hc; try discriminate.
  - cbn [embed_stmt resolve_stmt]. unfold resolve_assign. cbn [lookup]. now rewrite subst_nil.
  - cbn [embed_stmt resolve_stmt]. unfold resolve_store. cbn [lookup]. rewrite subst_nil.
    rewrite (map_id_Forall (subst [])); [reflexivity|]. apply Forall_forall. intros x _. apply subst_nil.
  - cbn [embed_stmt]. rewrite resolve_do. fold (embed b). rewrite (resolve_embed_list b H Hc).
    unfold subst_name. cbn [lookup]. rewrite !subst_nil. destruct st as [e|]; cbn [option_map]; [now rewrite subst_nil|reflexivity].
  - apply andb_prop in Hc. destruct Hc as [H1 H2].
    cbn [embed_stmt]. rewrite resolve_if. fold (embed t) (embed e).
    now rewrite (resolve_embed_list t H H1), (resolve_embed_list e H0 H2), subst_nil.
  - reflexivity.
Qed.

Lemma resolve_core_list ss :
  Forall (fun st => forall sg, forallb is_core (resolve_stmt sg st) = true) ss ->
  forall sg, forallb is_core (resolve_list sg ss) = true.
Proof.
  induction 1 as [|st r H _ IH]; intros sg; [reflexivity|].
  rewrite resolve_list_cons, forallb_app, H. apply IH.
Qed.

Lemma resolve_core : forall st sg, forallb is_core (resolve_stmt sg st) = true.
Proof.
  induction st using astmt_ind'; intros sg.
  - cbn [resolve_stmt]. unfold resolve_assign.
    destruct (lookup sg x) as [[y|a ds|e']|]; try reflexivity. destruct (fille ds []); reflexivity.
  - cbn [resolve_stmt]. unfold resolve_store.
    destruct (lookup sg a) as [[y|a0 ds|e']|]; try reflexivity. destruct (fille ds (map (subst sg) i)); reflexivity.
  - rewrite resolve_do. cbn [forallb is_core]. now rewrite (resolve_core_list b H sg).
  - rewrite resolve_if. cbn [forallb is_core]. now rewrite (resolve_core_list t H sg), (resolve_core_list e H0 sg).
  - reflexivity.
  - rewrite resolve_assoc. apply (resolve_core_list b H).
Qed.

Theorem resolve_idempotent ss : resolve (embed (resolve ss)) = resolve ss.
Proof.
  unfold resolve. apply resolve_embed_list.
  - apply Forall_forall. intros st _. apply resolve_embed.
  - apply resolve_core_list. apply Forall_forall. intros st _. apply resolve_core.
Qed.

Lemma flat_map_embed (f : astmt -> list astmt) (g : astmt -> list stmt) l :
  Forall (fun st => f st = embed (g st)) l -> flat_map f l = embed (flat_map g l).
Proof.
  induction 1 as [|x r H _ IH]; cbn [flat_map]; [reflexivity|].
  unfold embed in *. rewrite map_app. now rewrite H, IH.
Qed.

Lemma core_of_embed st : match st with SAssign _ _ | SStore _ _ _ => True | _ => False end -> core_of st = embed_stmt st.
Proof. destruct st; intros H; try contradiction; reflexivity. Qed.

Lemma resolve_sd_zero_stmt : forall st d sg, resolve_sd_stmt 0 (S d) sg st = embed (resolve_stmt sg st).
Proof.
  induction st using astmt_ind'; intros d sg.
  - cbn [resolve_sd_stmt resolve_stmt embed map]. f_equal. apply core_of_embed.
    unfold resolve_assign. destruct (lookup sg x) as [[y|a ds|e']|]; try exact I. destruct (fille ds []); exact I.
  - cbn [resolve_sd_stmt resolve_stmt embed map]. f_equal. apply core_of_embed.
    unfold resolve_store. destruct (lookup sg a) as [[y|a0 ds|e']|]; try exact I. destruct (fille ds (map (subst sg) i)); exact I.
  - cbn [resolve_sd_stmt]. rewrite resolve_do. cbn [embed map embed_stmt]. do 2 f_equal.
    apply flat_map_embed. apply Forall_forall. intros x Hx. rewrite Forall_forall in H. now apply H.
  - cbn [resolve_sd_stmt]. rewrite resolve_if. cbn [embed map embed_stmt]. f_equal. f_equal.
    + apply flat_map_embed. apply Forall_forall. intros x Hx. rewrite Forall_forall in H. now apply H.
    + apply flat_map_embed. apply Forall_forall. intros x Hx. rewrite Forall_forall in H0. now apply H0.
  - reflexivity.
  - cbn [resolve_sd_stmt Nat.leb]. rewrite resolve_assoc.
    apply flat_map_embed. apply Forall_forall. intros x Hx. rewrite Forall_forall in H. now apply H.
Qed.

Theorem resolve_sd_zero ss : resolve_sd 0 ss = embed (resolve ss).
Proof.
  unfold resolve_sd, resolve, resolve_list. apply flat_map_embed.
  apply Forall_forall. intros st _. apply resolve_sd_zero_stmt.
Qed.

Corollary resolve_sd_zero_idempotent ss : resolve_sd 0 (resolve_sd 0 ss) = resolve_sd 0 ss.
Proof. now rewrite !resolve_sd_zero, resolve_idempotent. Qed.

Lemma lookup_app {A} (l1 l2 : list (string * A)) x :
  lookup (l1 ++ l2) x = match lookup l1 x with Some v => Some v | None => lookup l2 x end.
Proof.
  induction l1 as [|[k v] r IH]; cbn; [reflexivity|]. destruct (String.eqb k x); [reflexivity|exact IH].
Qed.

Lemma subst_ext sg1 sg2 : (forall x, lookup sg1 x = lookup sg2 x) -> forall e, subst sg1 e = subst sg2 e.
Proof.
  intros L. induction e using expr_ind'; cbn [subst]; try reflexivity;
    try (f_equal; apply map_ext_Forall; exact H); try (now rewrite IHe1, IHe2); try (now rewrite IHe).
  - now rewrite L.
  - rewrite (map_ext_Forall _ _ H), L. reflexivity.
Qed.

Lemma subst_sel_ext sg1 sg2 : (forall x, lookup sg1 x = lookup sg2 x) -> forall sl, subst_sel sg1 sl = subst_sel sg2 sl.
Proof.
  intros L [y|a ds|e]; cbn [subst_sel].
  - now rewrite L.
  - assert (E : map (subst_dim sg1) ds = map (subst_dim sg2) ds).
    { apply map_ext. intros [e|off]; cbn [subst_dim]; [|reflexivity]. now rewrite (subst_ext sg1 sg2 L). }
    now rewrite E, L.
  - now rewrite (subst_ext sg1 sg2 L).
Qed.

Lemma resolve_ext_list ss :
  Forall (fun st => forall sg1 sg2, (forall x, lookup sg1 x = lookup sg2 x) -> resolve_stmt sg1 st = resolve_stmt sg2 st) ss ->
  forall sg1 sg2, (forall x, lookup sg1 x = lookup sg2 x) -> resolve_list sg1 ss = resolve_list sg2 ss.
Proof.
  induction 1 as [|st r H _ IH]; intros sg1 sg2 L; [reflexivity|].
  rewrite !resolve_list_cons. now rewrite (H sg1 sg2 L), (IH sg1 sg2 L).
Qed.

Lemma resolve_ext : forall st sg1 sg2, (forall x, lookup sg1 x = lookup sg2 x) -> resolve_stmt sg1 st = resolve_stmt sg2 st.
Proof.
  induction st using astmt_ind'; intros sg1 sg2 L.
  - cbn [resolve_stmt]. unfold resolve_assign. now rewrite L, (subst_ext sg1 sg2 L).
  - cbn [resolve_stmt]. unfold resolve_store. rewrite L, (subst_ext sg1 sg2 L).
    now rewrite (map_ext _ _ (subst_ext sg1 sg2 L)).
  - rewrite !resolve_do. unfold subst_name. rewrite L, (subst_ext sg1 sg2 L lo), (subst_ext sg1 sg2 L hi).
    rewrite (resolve_ext_list b H sg1 sg2 L). destruct st as [e|]; cbn [option_map]; [now rewrite (subst_ext sg1 sg2 L)|reflexivity].
  - rewrite !resolve_if. now rewrite (subst_ext sg1 sg2 L), (resolve_ext_list t H sg1 sg2 L), (resolve_ext_list e H0 sg1 sg2 L).
  - reflexivity.
  - rewrite !resolve_assoc. apply (resolve_ext_list b H).
    assert (E : subst_assocs sg1 a = subst_assocs sg2 a).
    { unfold subst_assocs. apply map_ext. intros p. now rewrite (subst_sel_ext sg1 sg2 L). }
    intros x. rewrite !lookup_app, E. destruct (lookup (subst_assocs sg2 a) x); [reflexivity|apply L].
Qed.

(** inside a block that re-associates [x], the enclosing association of [x] is irrelevant *)
Theorem shadowing_inner_wins x v2 v1 sg body :
  resolve_list ((x, v2) :: (x, v1) :: sg) body = resolve_list ((x, v2) :: sg) body.
Proof.
  apply resolve_ext_list; [apply Forall_forall; intros st _; apply resolve_ext|].
  intros y. cbn [lookup]. destruct (String.eqb x y); reflexivity.
Qed.

Corollary shadowing_nested_blocks sg x s1 s2 body :
  resolve_stmt sg (AAssoc [(x, s1)] [AAssoc [(x, s2)] body]) =
  resolve_list ((x, subst_sel ((x, subst_sel sg s1) :: sg) s2) :: sg) body.
Proof.
  rewrite resolve_assoc. cbn [subst_assocs map app fst snd]. unfold resolve_list at 1. cbn [flat_map].
  rewrite app_nil_r, resolve_assoc. cbn [subst_assocs map app fst snd]. apply shadowing_inner_wins.
Qed.

(** nested blocks, an inner selector built from an outer associate name, shadowing of [x], an expression
    selector whose variables the body leaves alone, a section and an element of it *)
Definition ex_prog : list astmt :=
  [AAssoc [("x", SName "a"); ("w", SSec "m" [DFree 0; DFix (EVar "k")]); ("s", SVal (ESum false [EVar "n"; EInt 1]))]
     [AAssign "x" (ESum false [EVar "x"; EVar "s"]);
      ADo "i" (EInt 1) (EInt 3) None
        [AAssoc [("x", SSec "w" [DFix (EVar "i")]); ("z", SName "x")]
           [AAssign "x" (ESum false [EVar "z"; ECall "w" [EInt 1]]); AStore "w" [EInt 2] (EVar "x")]]]].

Example ex_prog_in_class : selectors_stable ex_prog = true /\ selectors_safe ex_prog = true.
Proof. split; vm_compute; reflexivity. Qed.

Example ex_prog_resolved :
  resolve ex_prog =
  [SAssign "a" (ESum false [EVar "a"; ESum false [EVar "n"; EInt 1]]);
   SDo "i" (EInt 1) (EInt 3) None
     [SStore "m" [EVar "i"; EVar "k"] (ESum false [EVar "a"; ECall "m" [EInt 1; EVar "k"]]);
      SStore "m" [EInt 2; EVar "k"] (ECall "m" [EVar "i"; EVar "k"])]].
Proof. vm_compute. reflexivity. Qed.

Definition ex_merge : list astmt :=
  [AAssoc [("p", SName "b")]
     [AAssign "p" (EInt 1);
      AAssoc [("x", SSec "arr" [DFix (EVar "k")]); ("q", SName "p")] [AAssign "x" (ESum false [EVar "q"; EInt 5])]]].

Example ex_merge_in_class : merge_ok ex_merge = true /\ astmts_eqb (merge ex_merge) ex_merge = false.
Proof. split; vm_compute; reflexivity. Qed.
