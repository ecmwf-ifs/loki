(** C30 — proofs about the index-normalising transformations (Part C of the model):
    column-major flattening (injectivity in bounds, range, store-level preservation), the generic
    re-indexing simulation instantiated for shift_to_zero_indexing and invert_array_indices,
    bound-normalisation arithmetic, explicit-dimension round trips.
    The definitions that the statements (also those of T_C30) are phrased in come first; [vstmt_ind'] is the induction
    principle of [vstmt] through its nested lists. *)
From Coq Require Import ZArith List Bool String Lia.
From LV Require Import Base.Expr Base.ListFacts Base.ExprFacts Base.MiniF Base.MiniFFacts Base.Lockstep models.M_C30 proofs.P_C30_lin proofs.P_C30.
Import ListNotations.
Open Scope Z_scope.

(** [flat_offset] on reversed lists with an accumulator, as the code computes it *)
Fixpoint flat_rev (c accv : Z) (rvals rns : list Z) : Z :=
  match rvals, rns with
  | v :: rv, n :: rn => flat_rev c (v + n * (accv - c)) rv rn
  | _, _ => accv
  end.

(** one flattened array: element (i1,..,ik) of [a] in [s] lives at the flattened subscript in [s'] *)
Definition flat_rel (c : Z) (a : string) (ns : list Z) (s s' : store) : Prop :=
  forall i, in_box c ns i -> av s' a [flat_offset c ns i] = av s a i.

(** declared bounds denoted by a shape entry *)
Definition dshape_bounds (rho : env) (d : dshape) : option (Z * Z) :=
  match d with
  | DSize n => option_map (fun h => (1, h)) (evalZ rho n)
  | DRange lo hi => obind (evalZ rho lo) (fun l => option_map (fun h => (l, h)) (evalZ rho hi))
  end.

(** [Base.ExprFacts.orel] at stores, by conversion *)
Definition rel_opt (R : store -> store -> Prop) (o o' : option store) : Prop :=
  match o, o' with Some t, Some t' => R t t' | None, None => True | _, _ => False end.

Definition phi_shift (ds : decls) (a : string) (i : list Z) : list Z :=
  if is_array ds a then map (fun x => x - 1) i else i.
Definition phi_unshift (ds : decls) (a : string) (i : list Z) : list Z :=
  if is_array ds a then map (fun x => x + 1) i else i.
Definition phi_invert (ds : decls) (a : string) (i : list Z) : list Z :=
  if is_array ds a then rev i else i.

Definition arrays_not_intrinsic (ds : decls) : Prop := forall a, is_array ds a = true -> is_intrinsic_name a = false.

Definition phi_zero_inv (ds : decls) (a : string) (i : list Z) : list Z := phi_invert ds a (phi_shift ds a i).

Definition in_bounds (box : list (Z * Z)) (i : list Z) : Prop := Forall2 (fun x b => fst b <= x <= snd b) i box.

Section vstmt_ind'.
  Variable P : vstmt -> Prop.
  Hypothesis HP : forall s, P (VPlain s).
  Hypothesis HA : forall a i r, P (VAssign a i r).
  Hypothesis HD : forall v lo hi st b, Forall P b -> P (VDo v lo hi st b).
  Hypothesis HI : forall c t e, Forall P t -> Forall P e -> P (VIf c t e).
  Hypothesis HW : forall c b e, Forall P b -> Forall P e -> P (VWhere c b e).
  Fixpoint vstmt_ind' (s : vstmt) : P s :=
    let fix go (l : list vstmt) : Forall P l :=
      match l with [] => Forall_nil P | x :: r => Forall_cons x (vstmt_ind' x) (go r) end in
    match s with
    | VPlain s => HP s
    | VAssign a i r => HA a i r
    | VDo v lo hi st b => HD v lo hi st b (go b)
    | VIf c t e => HI c t e (go t) (go e)
    | VWhere c b e => HW c b e (go b) (go e)
    end.
End vstmt_ind'.

Lemma flat_offset_cons c n q i j r : flat_offset c (n :: q) (i :: j :: r) = i + n * (flat_offset c q (j :: r) - c).
Proof. reflexivity. Qed.

Lemma prodZ_pos c ns idx : in_box c ns idx -> idx <> [] -> 0 < prodZ ns.
Proof.
  revert idx. induction ns as [|n q IH]; intros [|i r] B NE; cbn in B; try contradiction; try congruence.
  destruct B as [B1 B2]. cbn [prodZ]. destruct r as [|j r].
  - destruct q; [cbn; lia|contradiction].
  - assert (0 < prodZ q) by (apply (IH (j :: r)); [exact B2|discriminate]). nia.
Qed.

(** in bounds, the flattened subscript lies in c .. c + size - 1 *)
Theorem flatten_index_in_range c : forall ns idx, in_box c ns idx -> idx <> [] ->
  c <= flat_offset c ns idx <= c + prodZ ns - 1.
Proof.
  induction ns as [|n q IH]; intros [|i r] B NE; cbn in B; try contradiction; try congruence.
  destruct B as [B1 B2]. destruct r as [|j r].
  - destruct q; [|contradiction]. cbn. lia.
  - rewrite flat_offset_cons. cbn [prodZ].
    assert (NE' : j :: r <> []) by discriminate.
    specialize (IH _ B2 NE'). pose proof (prodZ_pos c q (j :: r) B2 NE'). nia.
Qed.

(** in bounds, the offset formula is injective: distinct elements never share a flattened subscript *)
Theorem flatten_index_injective_in_bounds c : forall ns i i',
  in_box c ns i -> in_box c ns i' -> flat_offset c ns i = flat_offset c ns i' -> i = i'.
Proof.
  induction ns as [|n q IH]; intros [|x r] [|y r'] B B' E; cbn in B, B'; try contradiction; [reflexivity|].
  destruct B as [B1 B2], B' as [B1' B2'].
  destruct r as [|j r], r' as [|j' r'].
  - cbn in E. now subst.
  - destruct q; cbn in B2, B2'; contradiction.
  - destruct q; cbn in B2, B2'; contradiction.
  - rewrite !flat_offset_cons in E.
    assert (NE : j :: r <> []) by discriminate. assert (NE' : j' :: r' <> []) by discriminate.
    pose proof (flatten_index_in_range c q _ B2 NE) as R1. pose proof (flatten_index_in_range c q _ B2' NE') as R2.
    assert (F : flat_offset c q (j :: r) = flat_offset c q (j' :: r')) by nia.
    assert (X : x = y) by nia. subst. f_equal. now apply IH.
Qed.

Lemma flat_rev_snoc c : forall xs ys acc i n, List.length xs = List.length ys ->
  flat_rev c acc (xs ++ [i]) (ys ++ [n]) = i + n * (flat_rev c acc xs ys - c).
Proof.
  induction xs as [|x xs IH]; intros [|y ys] acc i n L; cbn in L; try discriminate; [reflexivity|].
  cbn [app flat_rev]. apply IH. lia.
Qed.

Lemma flat_rev_offset c : forall init ns_init last nlast, List.length init = List.length ns_init ->
  flat_rev c last (rev init) (rev ns_init) = flat_offset c (ns_init ++ [nlast]) (init ++ [last]).
Proof.
  induction init as [|i r IH]; intros [|n q] last nlast L; cbn in L; try discriminate; [reflexivity|].
  cbn [rev]. rewrite flat_rev_snoc by (rewrite !rev_length; lia).
  rewrite (IH q last nlast) by lia. cbn [app].
  destruct (r ++ [last]) eqn:E; [destruct r; discriminate|]. reflexivity.
Qed.

Lemma sum_snoc_eval rho p cs x :
  evalZ rho (ESum p (cs ++ [x])) =
  obind (evalZ rho (ESum p cs)) (fun a => obind (evalZ rho x) (fun b => Some (a + b))).
Proof.
  cbn [evalZ]. induction cs as [|c cs IH]; cbn [app fold_right].
  - destruct (evalZ rho x); cbn; [f_equal; lia|reflexivity].
  - rewrite IH. destruct (evalZ rho c); cbn [obind]; [|reflexivity].
    destruct (fold_right _ (Some 0) cs); cbn [obind]; [|reflexivity].
    destruct (evalZ rho x); cbn [obind]; [f_equal; lia|reflexivity].
Qed.

Lemma sub_py_eval rho d c : evalZ rho (sub_py d c) = option_map (fun x => x - c) (evalZ rho d).
Proof.
  unfold sub_py. destruct (c =? 0) eqn:E0.
  - apply Z.eqb_eq in E0. subst. destruct (evalZ rho d); cbn; [f_equal; lia|reflexivity].
  - assert (G : evalZ rho (if is_falsy d then EPy (- c) else ESum false [d; EPy (- c)]) = option_map (fun x => x - c) (evalZ rho d)).
    { destruct (is_falsy d) eqn:F.
      - destruct d; cbn in F; try discriminate. apply Z.eqb_eq in F. subst. cbn. f_equal.
      - cbn. destruct (evalZ rho d); cbn; [f_equal; lia|reflexivity]. }
    destruct d; try exact G.
    rewrite sum_snoc_eval. fold (evalZ rho (ESum paren cs)).
    assert (S : evalZ rho (ESum false cs) = evalZ rho (ESum paren cs)) by reflexivity. rewrite S.
    destruct (evalZ rho (ESum paren cs)); cbn; [f_equal; lia|reflexivity].
Qed.

Lemma sub_lit1_eval rho d : evalZ rho (sub_lit1 d) = option_map (fun x => x - 1) (evalZ rho d).
Proof.
  unfold sub_lit1.
  assert (M : evalZ rho m1 = Some (-1)) by reflexivity.
  assert (G : evalZ rho (if is_falsy d then m1 else ESum false [d; m1]) = option_map (fun x => x - 1) (evalZ rho d)).
  { destruct (is_falsy d) eqn:F.
    - destruct d; cbn in F; try discriminate. apply Z.eqb_eq in F. subst. reflexivity.
    - cbn [evalZ fold_right]. fold (evalZ rho m1). rewrite M. destruct (evalZ rho d); cbn; [f_equal; lia|reflexivity]. }
  destruct d; try exact G.
  rewrite sum_snoc_eval, M.
  assert (S : evalZ rho (ESum false cs) = evalZ rho (ESum paren cs)) by reflexivity. rewrite S.
  destruct (evalZ rho (ESum paren cs)); cbn; [f_equal; lia|reflexivity].
Qed.

(** the syntactic result of the model of flatten_arrays evaluates to the offset formula *)
Lemma flat_go_eval rho c : forall rd rs acc accv rvals rns e,
  flat_go c acc rd rs = Some e -> evalZ rho acc = Some accv ->
  omap_list (evalZ rho) rd = Some rvals ->
  omap_list (fun s => match s with DSize n => evalZ rho n | DRange _ _ => None end) (firstn (List.length rd) rs) = Some rns ->
  evalZ rho e = Some (flat_rev c accv rvals rns).
Proof.
  induction rd as [|d rd IH]; intros rs acc accv rvals rns e G Ea Ed En.
  - cbn in G, Ed. inversion G. inversion Ed. subst. cbn. exact Ea.
  - cbn [flat_go] in G. destruct rs as [|[n|] rs]; try discriminate.
    cbn [omap_list] in Ed. apply obind_some in Ed. destruct Ed as [v [Ev Ed]]. apply obind_some in Ed. destruct Ed as [vs [Evs Ed]].
    inversion Ed. subst. cbn [List.length firstn omap_list] in En.
    apply obind_some in En. destruct En as [nv [Env En]]. apply obind_some in En. destruct En as [nvs [Envs En]]. inversion En. subst.
    cbn [flat_rev]. apply (IH rs _ (v + nv * (accv - c)) vs nvs e G); [|exact Evs|exact Envs].
    cbn [evalZ fold_right]. rewrite Ev, Env, sub_py_eval, Ea. cbn. f_equal. lia.
Qed.

(** in-bounds reads agree and in-bounds writes keep [flat_rel]; injectivity is what makes the write case work *)
Theorem flatten_preserves_partial c a ns s s' i v :
  flat_rel c a ns s s' -> in_box c ns i ->
  av s' a [flat_offset c ns i] = av s a i /\
  flat_rel c a ns (set_av a i v s) (set_av a [flat_offset c ns i] v s').
Proof.
  intros R B. split; [now apply R|].
  intros j Bj. cbn. rewrite String.eqb_refl. cbn [andb list_z_eqb].
  destruct (list_z_eqb j i) eqn:E.
  - apply list_z_eqb_eq in E. subst. now rewrite Z.eqb_refl.
  - destruct (flat_offset c ns j =? flat_offset c ns i) eqn:F; cbn [andb].
    + apply Z.eqb_eq in F. apply (flatten_index_injective_in_bounds c ns j i Bj B) in F. subst.
      assert (list_z_eqb i i = true) by now apply list_z_eqb_eq. congruence.
    + now apply R.
Qed.


(** normalize_array_shape_and_access: per dimension the map i |-> i - lo + 1 is a bijection of the declared
    range lo:hi onto 1:(hi-lo+1), which is exactly the new declaration *)
Theorem normalize_shape_access_bijection lo hi :
  (forall i, lo <= i <= hi <-> 1 <= i - lo + 1 <= hi - lo + 1) /\
  (forall i i', i - lo + 1 = i' - lo + 1 -> i = i') /\
  (forall k, 1 <= k <= hi - lo + 1 -> exists i, lo <= i <= hi /\ i - lo + 1 = k).
Proof. repeat split; intros; try lia. exists (k + lo - 1). lia. Qed.

Lemma norm_sub_eval rho i lo vi vl : evalZ rho i = Some vi -> evalZ rho lo = Some vl ->
  evalZ rho (norm_sub i lo) = Some (vi - vl + 1).
Proof. intros Ei El. unfold norm_sub. cbn [evalZ fold_right]. rewrite Ei, El. cbn [obind]. f_equal. lia. Qed.

(** normalize_range_indexing only rewrites declarations 1:n to n: the declared bounds are unchanged, so no
    access has to change (and the code changes none) *)
Theorem normalize_range_decl_sound rho d : dshape_bounds rho (normrange_shape d) = dshape_bounds rho d.
Proof.
  destruct d as [n|lo hi]; [reflexivity|]. cbn [normrange_shape]. destruct (is_one lo) eqn:E; [|reflexivity].
  destruct lo; cbn in E; try discriminate. apply Z.eqb_eq in E. subst. reflexivity.
Qed.

(** normalize_array_shape_and_access on a declaration: 1:(hi-lo+1) *)
Theorem normshape_decl_bounds rho d l h : dshape_bounds rho d = Some (l, h) ->
  dshape_bounds rho (normshape_shape d) = Some (1, h - l + 1).
Proof.
  destruct d as [n|lo hi]; cbn [dshape_bounds normshape_shape].
  - intros E. apply option_map_some in E. destruct E as [x [E1 E2]]. inversion E2. subst. rewrite E1. cbn [option_map].
    do 2 f_equal. lia.
  - intros E. apply obind_some in E. destruct E as [vl [El E]]. apply option_map_some in E. destruct E as [vh [Eh E]].
    inversion E. subst vl vh.
    destruct (is_one lo) eqn:O.
    + destruct lo; cbn in O; try discriminate. apply Z.eqb_eq in O. subst. cbn in El. inversion El. subst.
      cbn [dshape_bounds]. rewrite Eh. cbn [option_map]. do 2 f_equal. lia.
    + cbn [dshape_bounds]. rewrite (norm_sub_eval rho hi lo h l Eh El). reflexivity.
Qed.


Lemma no_calls_eval r1 r2 : (forall x, ev_var r1 x = ev_var r2 x) -> forall e, no_calls e = true -> evalZ r1 e = evalZ r2 e.
Proof.
  intros Hv. induction e using expr_ind'; intros C; cbn [no_calls] in C; try reflexivity.
  - cbn. f_equal. apply Hv.
  - rewrite !evalZ_sum, (omap_list_ext _ _ _ (Forall_impl_forallb _ _ _ H C)). reflexivity.
  - rewrite !evalZ_prod, (omap_list_ext _ _ _ (Forall_impl_forallb _ _ _ H C)). reflexivity.
  - apply andb_prop in C as [C1 C2]. cbn [evalZ]. now rewrite (IHe1 C1), (IHe2 C2).
  - apply andb_prop in C as [C1 C2]. cbn [evalZ]. now rewrite (IHe1 C1), (IHe2 C2).
  - apply andb_prop in C as [C1 C2]. rewrite !evalZ_call, (omap_list_ext _ _ _ (Forall_impl_forallb _ _ _ H C2)).
    destruct (omap_list (evalZ r2) args) as [vs|]; cbn [obind]; [|reflexivity].
    destruct (intrinsic_some f vs C1) as [r Hr]. now rewrite Hr.
Qed.

Lemma no_calls_omap r1 r2 : (forall x, ev_var r1 x = ev_var r2 x) -> forall es, forallb no_calls es = true ->
  omap_list (evalZ r1) es = omap_list (evalZ r2) es.
Proof.
  intros Hv es C. apply omap_list_ext, Forall_forall. intros e He.
  apply (no_calls_eval r1 r2 Hv), (proj1 (forallb_forall _ _) C), He.
Qed.

Lemma no_calls_flat_subs e : no_calls e = true -> flat_subs e = true.
Proof.
  induction e using expr_ind'; intros C; cbn [no_calls flat_subs] in *; try reflexivity.
  - apply forallb_Forall, (Forall_impl_forallb _ _ _ H C).
  - apply forallb_Forall, (Forall_impl_forallb _ _ _ H C).
  - apply andb_prop in C. destruct C. now rewrite IHe1, IHe2.
  - apply andb_prop in C. destruct C. now rewrite IHe1, IHe2.
  - apply andb_prop in C. destruct C. now rewrite IHe1, IHe2.
  - apply forallb_Forall, (Forall_impl_forallb _ _ _ H C).
  - apply forallb_Forall, (Forall_impl_forallb _ _ _ H C).
  - auto.
  - apply andb_prop in C. destruct C as [C1 C2]. rewrite C1.
    apply forallb_Forall, (Forall_impl_forallb _ _ _ H C2).
Qed.

Section sim.
  Variable T : string -> list expr -> tres.
  Variable phi : string -> list Z -> list Z.
  Hypothesis phi_inj : forall a i j, phi a i = phi a j -> i = j.
  Hypothesis T_name : forall a idx idx', T a idx = TNew idx' -> is_intrinsic_name a = false.
  Hypothesis T_new : forall a idx idx' rho, T a idx = TNew idx' -> forallb no_calls idx = true ->
    forallb no_calls idx' = true /\
    omap_list (evalZ rho) idx' = option_map (phi a) (omap_list (evalZ rho) idx).
  Hypothesis T_keep : forall a idx rho vs, T a idx = TKeep -> omap_list (evalZ rho) idx = Some vs -> phi a vs = vs.

  Let R := reidx_rel phi.

  Lemma reidx_env_var s s' : R s s' -> forall x, ev_var (env_st s') x = ev_var (env_st s) x.
  Proof. intros [H _] x. apply H. Qed.

  Lemma reidx_set_sv s s' x v : R s s' -> R (set_sv x v s) (set_sv x v s').
  Proof. intros [H1 H2]. split; intros; cbn; [now rewrite H1|apply H2]. Qed.

  Lemma reidx_set_av s s' a i v : R s s' -> R (set_av a i v s) (set_av a (phi a i) v s').
  Proof.
    intros [H1 H2]. split; [intros; cbn; apply H1|]. intros b j. cbn.
    destruct (String.eqb b a) eqn:E; cbn [andb]; [|apply H2].
    apply String.eqb_eq in E. subst b.
    destruct (list_z_eqb j i) eqn:Eji.
    - apply list_z_eqb_eq in Eji. subst. assert (list_z_eqb (phi a i) (phi a i) = true) by now apply list_z_eqb_eq.
      now rewrite H.
    - destruct (list_z_eqb (phi a j) (phi a i)) eqn:Ep; [|apply H2].
      apply list_z_eqb_eq in Ep. apply phi_inj in Ep. subst.
      assert (list_z_eqb i i = true) by now apply list_z_eqb_eq. congruence.
  Qed.

  (** the list traversal nested in [tr_expr], and [tr_list], are [omap_list] *)
  Lemma tr_expr_go_omap cs :
    (fix go (l : list expr) : option (list expr) :=
       match l with
       | [] => Some []
       | x :: r => obind (tr_expr T x) (fun y => obind (go r) (fun ys => Some (y :: ys)))
       end) cs = omap_list (tr_expr T) cs.
  Proof. induction cs as [|c cs IH]; [reflexivity|]. cbn [omap_list]. now rewrite IH. Qed.

  Lemma tr_list_omap cs : tr_list T cs = omap_list (tr_expr T) cs.
  Proof. induction cs as [|c cs IH]; [reflexivity|]. cbn [tr_list omap_list]. now rewrite IH. Qed.

  Definition sim_e (s s' : store) (e e' : expr) : Prop :=
    evalZ (env_st s') e' = evalZ (env_st s) e /\ evalB (env_st s') e' = evalB (env_st s) e.

  Lemma tr_expr_sim s s' : R s s' -> forall e, flat_subs e = true -> forall e', tr_expr T e = Some e' -> sim_e s s' e e'.
  Proof.
    intros HR. pose proof (reidx_env_var s s' HR) as HV.
    (* the children of an n-ary node or call, by the induction hypothesis *)
    assert (K : forall cs, Forall (fun e => flat_subs e = true -> forall e', tr_expr T e = Some e' -> sim_e s s' e e') cs ->
                forallb flat_subs cs = true -> forall rs, omap_list (tr_expr T) cs = Some rs ->
                omap_list (evalZ (env_st s')) rs = omap_list (evalZ (env_st s)) cs /\
                omap_list (evalB (env_st s')) rs = omap_list (evalB (env_st s)) cs).
    { intros cs F C rs E. pose proof (Forall_impl_forallb _ _ _ F C) as G.
      split; apply (omap_list_through _ _ _ _ _ E); (eapply Forall_impl; [|exact G]); intros c Hc r Er; apply (Hc r Er). }
    induction e using expr_ind'; intros C e' E; cbn [flat_subs] in C; cbn [tr_expr] in E; rewrite ?tr_expr_go_omap in E.
    - injection E as <-. split; reflexivity.
    - injection E as <-. split; reflexivity.
    - injection E as <-. split; [cbn; f_equal; apply HV|reflexivity].
    - injection E as <-. split; reflexivity.
    - apply option_map_some in E. destruct E as [rs [E1 ->]].
      split; [|reflexivity]. now rewrite !evalZ_sum, (proj1 (K _ H C _ E1)).
    - apply option_map_some in E. destruct E as [rs [E1 ->]].
      split; [|reflexivity]. now rewrite !evalZ_prod, (proj1 (K _ H C _ E1)).
    - apply obind_some in E. destruct E as [x [E1 E]]. apply obind_some in E. destruct E as [y [E2 [= <-]]].
      apply andb_prop in C as [C1 C2]. split; [|reflexivity]. cbn [evalZ].
      now rewrite (proj1 (IHe1 C1 _ E1)), (proj1 (IHe2 C2 _ E2)).
    - apply obind_some in E. destruct E as [x [E1 E]]. apply obind_some in E. destruct E as [y [E2 [= <-]]].
      apply andb_prop in C as [C1 C2]. split; [|reflexivity]. cbn [evalZ].
      now rewrite (proj1 (IHe1 C1 _ E1)), (proj1 (IHe2 C2 _ E2)).
    - apply obind_some in E. destruct E as [x [E1 E]]. apply obind_some in E. destruct E as [y [E2 [= <-]]].
      apply andb_prop in C as [C1 C2]. split; [reflexivity|]. cbn [evalB].
      now rewrite (proj1 (IHe1 C1 _ E1)), (proj1 (IHe2 C2 _ E2)).
    - apply option_map_some in E. destruct E as [rs [E1 ->]].
      split; [reflexivity|]. now rewrite !evalB_and, (proj2 (K _ H C _ E1)).
    - apply option_map_some in E. destruct E as [rs [E1 ->]].
      split; [reflexivity|]. now rewrite !evalB_or, (proj2 (K _ H C _ E1)).
    - apply option_map_some in E. destruct E as [x [E1 ->]]. split; [reflexivity|]. cbn [evalB].
      now rewrite (proj2 (IHe C _ E1)).
    - destruct (T f args) as [|idx'|] eqn:ET; [| |discriminate].
      + apply option_map_some in E. destruct E as [rs [E1 ->]].
        assert (C' : forallb flat_subs args = true).
        { destruct (is_intrinsic_name f); [exact C|].
          apply forallb_forall. intros x Hx. apply no_calls_flat_subs. rewrite forallb_forall in C. now apply C. }
        split; [|reflexivity]. rewrite !evalZ_call, (proj1 (K _ H C' _ E1)).
        destruct (omap_list (evalZ (env_st s)) args) as [vs|] eqn:Ev; cbn [obind]; [|reflexivity].
        destruct (intrinsic f vs); [reflexivity|]. cbn. f_equal.
        rewrite <- (T_keep f args (env_st s) vs ET Ev) at 1. apply HR.
      + injection E as <-.
        pose proof (T_name f args idx' ET) as EI. rewrite EI in C.
        destruct (T_new f args idx' (env_st s') ET C) as [NC' EQ].
        split; [|reflexivity]. rewrite !evalZ_call. rewrite EQ.
        rewrite (no_calls_omap (env_st s') (env_st s) HV args C).
        destruct (omap_list (evalZ (env_st s)) args) as [vs|]; cbn [option_map obind]; [|reflexivity].
        rewrite !intrinsic_none by exact EI. cbn. f_equal. apply HR.
  Qed.

  Lemma tr_list_sim s s' : R s s' -> forall idx i', forallb no_calls idx = true -> tr_list T idx = Some i' ->
    eval_idx s' i' = eval_idx s idx.
  Proof.
    intros HR idx i' C E. rewrite tr_list_omap in E. apply (omap_list_through _ _ _ _ _ E), Forall_forall.
    intros c Hc r Er. apply (tr_expr_sim s s' HR c); [|exact Er].
    apply no_calls_flat_subs, (proj1 (forallb_forall _ _) C), Hc.
  Qed.

  Lemma store_idx_sim s s' a idx i' : R s s' -> forallb no_calls idx = true ->
    (match T a idx with TNew i => Some i | TErr => None | TKeep => tr_list T idx end) = Some i' ->
    option_map (phi a) (eval_idx s idx) = eval_idx s' i'.
  Proof.
    intros HR C E. symmetry. destruct (T a idx) as [|i|] eqn:ET; [| |discriminate].
    - rewrite (tr_list_sim s s' HR idx i' C E). unfold eval_idx.
      destruct (omap_list (evalZ (env_st s)) idx) as [vs|] eqn:Ev; [|reflexivity].
      cbn. now rewrite (T_keep a idx (env_st s) vs ET Ev).
    - inversion E. subst i'. unfold eval_idx.
      destruct (T_new a idx i (env_st s') ET C) as [_ EQ]. rewrite EQ.
      now rewrite (no_calls_omap (env_st s') (env_st s) (reidx_env_var s s' HR) idx C).
  Qed.

  Lemma tr_stmt_unfold s :
    tr_stmt T s =
    match s with
    | SAssign x e => option_map (SAssign x) (tr_expr T e)
    | SStore a idx e =>
        obind (match T a idx with TNew i => Some i | TErr => None | TKeep => tr_list T idx end) (fun i =>
        obind (tr_expr T e) (fun v => Some (SStore a i v)))
    | SDo v lo hi st b =>
        obind (tr_expr T lo) (fun l => obind (tr_expr T hi) (fun h =>
        obind (match st with None => Some None | Some e => option_map Some (tr_expr T e) end) (fun st' =>
        obind (tr_stmts T b) (fun b' => Some (SDo v l h st' b')))))
    | SWhile c b => obind (tr_expr T c) (fun c' => obind (tr_stmts T b) (fun b' => Some (SWhile c' b')))
    | SIf c t e => obind (tr_expr T c) (fun c' => obind (tr_stmts T t) (fun t' => obind (tr_stmts T e) (fun e' => Some (SIf c' t' e'))))
    | SCall f args => option_map (SCall f) (tr_list T args)
    | SSkip l => Some (SSkip l)
    end.
  Proof. destruct s; reflexivity. Qed.

  Lemma tr_expr_Z e e' : flat_subs e = true -> tr_expr T e = Some e' ->
    forall s s', R s s' -> evalZ (env_st s) e = evalZ (env_st s') e'.
  Proof. intros C E s s' HR. symmetry. apply (tr_expr_sim s s' HR e C e' E). Qed.

  Lemma tr_expr_B e e' : flat_subs e = true -> tr_expr T e = Some e' ->
    forall s s', R s s' -> evalB (env_st s) e = evalB (env_st s') e'.
  Proof. intros C E s s' HR. symmetry. apply (tr_expr_sim s s' HR e C e' E). Qed.

  Lemma reidx_lock : forall f p p', forallb flat_subs_stmt p = true -> tr_stmts T p = Some p' -> lock_at [] [] R R f p p'.
  Proof.
    induction f as [|f IH]; intros p p' C E; [apply lock_at_0|].
    destruct p as [|st rest]; [injection E as <-; apply lock_nil|].
    cbn [tr_stmts] in E. apply obind_some in E. destruct E as [st' [Est E]].
    apply obind_some in E. destruct E as [rest' [Erest [= <-]]].
    cbn [forallb] in C. apply andb_prop in C as [Cst Crest]. apply (lock_cons _ _ _ R); [|now apply IH].
    rewrite tr_stmt_unfold in Est.
    destruct st as [x e|a idx e|v lo hi stp b|c b|c tb eb|g args|l]; cbn [flat_subs_stmt] in Cst.
    - apply option_map_some in Est. destruct Est as [e' [E1 ->]].
      apply lock1_assign; [exact (tr_expr_Z _ _ Cst E1)|intros; now apply reidx_set_sv].
    - apply obind_some in Est. destruct Est as [i' [E1 Est]]. apply obind_some in Est. destruct Est as [e' [E2 [= <-]]].
      apply andb_prop in Cst as [Cst C3]. apply andb_prop in Cst as [C1 C2].
      apply (lock1_store _ _ (phi a)); [|exact (tr_expr_Z _ _ C3 E2)|intros; now apply reidx_set_av].
      intros s s' HR. exact (store_idx_sim s s' a idx i' HR C2 E1).
    - apply obind_some in Est. destruct Est as [lo' [E1 Est]]. apply obind_some in Est. destruct Est as [hi' [E2 Est]].
      apply obind_some in Est. destruct Est as [stp' [E3 Est]]. apply obind_some in Est. destruct Est as [b' [E4 [= <-]]].
      apply andb_prop in Cst as [Cst C4]. apply andb_prop in Cst as [Cst C3]. apply andb_prop in Cst as [C1 C2].
      apply lock1_do; [exact (tr_expr_Z _ _ C1 E1)|exact (tr_expr_Z _ _ C2 E2)| |intros; now apply reidx_set_sv|now apply IH].
      intros s s' HR. destruct stp as [e|]; [|injection E3 as <-; reflexivity].
      apply option_map_some in E3. destruct E3 as [e' [E3 ->]]. exact (tr_expr_Z _ _ C3 E3 s s' HR).
    - apply obind_some in Est. destruct Est as [c' [E1 Est]]. apply obind_some in Est. destruct Est as [b' [E2 [= <-]]].
      apply andb_prop in Cst as [C1 C2]. apply lock1_while; [exact (tr_expr_B _ _ C1 E1)|now apply IH|apply IH].
      + cbn [forallb flat_subs_stmt]. now rewrite C1, C2.
      + cbn [tr_stmts]. rewrite tr_stmt_unfold, E1, E2. reflexivity.
    - apply obind_some in Est. destruct Est as [c' [E1 Est]]. apply obind_some in Est. destruct Est as [tb' [E2 Est]].
      apply obind_some in Est. destruct Est as [eb' [E3 [= <-]]].
      apply andb_prop in Cst as [Cst C3]. apply andb_prop in Cst as [C1 C2].
      apply lock1_if; [exact (tr_expr_B _ _ C1 E1)|now apply IH|now apply IH].
    - discriminate.
    - injection Est as <-. apply lock1_skip.
  Qed.

  Lemma exec_sim : forall f p p' s s', R s s' -> forallb flat_subs_stmt p = true -> tr_stmts T p = Some p' ->
    rel_opt R (exec [] f p s) (exec [] f p' s').
  Proof. intros f p p' s s' HR C E. exact (reidx_lock f p p' C E s s' HR). Qed.

  (** the transformed program on the re-indexed store runs exactly like the original, and ends in the
      re-indexed final store *)
  Theorem reindex_preserves p p' s s' :
    R s s' -> forallb flat_subs_stmt p = true -> tr_stmts T p = Some p' ->
    (forall t, runs [] p s t -> exists t', runs [] p' s' t' /\ R t t') /\
    (forall t', runs [] p' s' t' -> exists t, runs [] p s t /\ R t t').
  Proof.
    intros HR C E. split.
    - intros t [f Hf]. pose proof (exec_sim f p p' s s' HR C E) as S. rewrite Hf in S.
      destruct (exec [] f p' s') as [t'|] eqn:E'; [|contradiction]. exists t'. split; [now exists f|exact S].
    - intros t' [f Hf]. pose proof (exec_sim f p p' s s' HR C E) as S. rewrite Hf in S.
      destruct (exec [] f p s) as [t|] eqn:E'; [|contradiction]. exists t. split; [now exists f|exact S].
  Qed.
End sim.


Lemma map_pred_inj : forall i j : list Z, map (fun x => x - 1) i = map (fun x => x - 1) j -> i = j.
Proof.
  induction i as [|x i IH]; intros [|y j] E; cbn in E; try discriminate; [reflexivity|].
  inversion E. f_equal; [lia|now apply IH].
Qed.

Lemma no_calls_sub_lit1 d : no_calls d = true -> no_calls (sub_lit1 d) = true.
Proof.
  intros C. unfold sub_lit1.
  assert (G : no_calls (if is_falsy d then m1 else ESum false [d; m1]) = true).
  { destruct (is_falsy d); [reflexivity|]. cbn [no_calls forallb]. now rewrite C. }
  destruct d; try exact G.
  cbn [no_calls] in *. rewrite forallb_app, C. reflexivity.
Qed.

Lemma omap_sub_lit1 rho : forall idx,
  omap_list (evalZ rho) (map sub_lit1 idx) = option_map (map (fun x => x - 1)) (omap_list (evalZ rho) idx).
Proof.
  induction idx as [|d idx IH]; [reflexivity|]. cbn [map omap_list]. rewrite sub_lit1_eval, IH.
  destruct (evalZ rho d); cbn; [|reflexivity]. destruct (omap_list (evalZ rho) idx); reflexivity.
Qed.

Lemma omap_rev {A B} (f : A -> option B) l : omap_list f (rev l) = option_map (@rev B) (omap_list f l).
Proof.
  induction l as [|x l IH]; [reflexivity|]. cbn [rev]. rewrite omap_list_app, IH. cbn [omap_list].
  destruct (f x); destruct (omap_list f l); reflexivity.
Qed.

Theorem shift_to_zero_preserves ds p p' s s' :
  arrays_not_intrinsic ds -> reidx_rel (phi_shift ds) s s' ->
  forallb flat_subs_stmt p = true -> tr_stmts (T_shift ds) p = Some p' ->
  (forall t, runs [] p s t -> exists t', runs [] p' s' t' /\ reidx_rel (phi_shift ds) t t') /\
  (forall t', runs [] p' s' t' -> exists t, runs [] p s t /\ reidx_rel (phi_shift ds) t t').
Proof.
  intros HA. apply reindex_preserves.
  - intros a i j. unfold phi_shift. destruct (is_array ds a); [apply map_pred_inj|auto].
  - intros a idx idx'. unfold T_shift. destruct (is_array ds a) eqn:E; [|discriminate]. intros _. now apply HA.
  - intros a idx idx' rho. unfold T_shift, phi_shift. destruct (is_array ds a); [|discriminate].
    intros E C. inversion E. subst. split; [|apply omap_sub_lit1].
    apply forallb_forall. intros x Hx. apply in_map_iff in Hx. destruct Hx as [d [Hd Hin]]. subst.
    apply no_calls_sub_lit1. rewrite forallb_forall in C. now apply C.
  - intros a idx rho vs. unfold T_shift, phi_shift. destruct (is_array ds a); [discriminate|reflexivity].
Qed.

Theorem invert_indices_preserves ds p p' s s' :
  arrays_not_intrinsic ds -> reidx_rel (phi_invert ds) s s' ->
  forallb flat_subs_stmt p = true -> tr_stmts (T_invert ds) p = Some p' ->
  (forall t, runs [] p s t -> exists t', runs [] p' s' t' /\ reidx_rel (phi_invert ds) t t') /\
  (forall t', runs [] p' s' t' -> exists t, runs [] p s t /\ reidx_rel (phi_invert ds) t t').
Proof.
  intros HA. apply reindex_preserves.
  - intros a i j. unfold phi_invert. destruct (is_array ds a); [|auto].
    intros E. rewrite <- (rev_involutive i), <- (rev_involutive j). now rewrite E.
  - intros a idx idx'. unfold T_invert. destruct (is_array ds a) eqn:E; [|discriminate]. intros _. now apply HA.
  - intros a idx idx' rho. unfold T_invert, phi_invert. destruct (is_array ds a); [|discriminate].
    intros E C. inversion E. subst. split; [|apply omap_rev].
    apply forallb_forall. intros x Hx. apply in_rev in Hx. rewrite forallb_forall in C. now apply C.
  - intros a idx rho vs. unfold T_invert, phi_invert. destruct (is_array ds a); [discriminate|reflexivity].
Qed.

(** shift_to_zero_indexing followed by invert_array_indices (the C-backend pipeline): the composed re-indexing
    i |-> rev (i - 1) relates initial and final stores of original and doubly transformed program *)
Theorem zero_shift_invert_preserves ds p p1 p2 s s2 :
  arrays_not_intrinsic ds -> reidx_rel (phi_zero_inv ds) s s2 ->
  forallb flat_subs_stmt p = true -> tr_stmts (T_shift ds) p = Some p1 ->
  forallb flat_subs_stmt p1 = true -> tr_stmts (T_invert ds) p1 = Some p2 ->
  (forall t, runs [] p s t -> exists t2, runs [] p2 s2 t2 /\ reidx_rel (phi_zero_inv ds) t t2) /\
  (forall t2, runs [] p2 s2 t2 -> exists t, runs [] p s t /\ reidx_rel (phi_zero_inv ds) t t2).
Proof.
  intros HA [R1 R2] C E1 C1 E2.
  set (mid := fun u : store => {| sv := sv u; av := fun a j => av u a (phi_unshift ds a j) |}).
  assert (UN : forall a i, phi_unshift ds a (phi_shift ds a i) = i).
  { intros a i. unfold phi_unshift, phi_shift. destruct (is_array ds a); [|reflexivity].
    rewrite map_map. rewrite <- (map_id i) at 2. apply map_ext. intros; lia. }
  assert (SH : forall a j, phi_shift ds a (phi_unshift ds a j) = j).
  { intros a j. unfold phi_unshift, phi_shift. destruct (is_array ds a); [|reflexivity].
    rewrite map_map. rewrite <- (map_id j) at 2. apply map_ext. intros; lia. }
  assert (M1 : forall u, reidx_rel (phi_shift ds) u (mid u)).
  { intros u. split; [reflexivity|]. intros a i. cbn. now rewrite UN. }
  assert (M2 : forall u u2, reidx_rel (phi_zero_inv ds) u u2 -> reidx_rel (phi_invert ds) (mid u) u2).
  { intros u u2 [A1 A2]. split; [intros x; cbn; apply A1|]. intros a j. cbn.
    rewrite <- (A2 a (phi_unshift ds a j)). unfold phi_zero_inv. now rewrite SH. }
  assert (M3 : forall u u1 u2, reidx_rel (phi_shift ds) u u1 -> reidx_rel (phi_invert ds) u1 u2 -> reidx_rel (phi_zero_inv ds) u u2).
  { intros u u1 u2 [A1 A2] [B1 B2]. split; [intros x; now rewrite B1, A1|]. intros a i. unfold phi_zero_inv. now rewrite B2, A2. }
  pose proof (shift_to_zero_preserves ds p p1 s (mid s) HA (M1 s) C E1) as [F1 G1].
  pose proof (invert_indices_preserves ds p1 p2 (mid s) s2 HA (M2 s s2 (conj R1 R2)) C1 E2) as [F2 G2].
  split.
  - intros t Ht. destruct (F1 t Ht) as [t1 [Ht1 Q1]]. destruct (F2 t1 Ht1) as [t2 [Ht2 Q2]].
    exists t2. split; [exact Ht2|]. now apply (M3 t t1 t2).
  - intros t2 Ht2. destruct (G2 t2 Ht2) as [t1 [Ht1 Q2]]. destruct (G1 t1 Ht1) as [t [Ht Q1]].
    exists t. split; [exact Ht|]. now apply (M3 t t1 t2).
Qed.

Lemma forall2_rev {A B} (P : A -> B -> Prop) l1 l2 : Forall2 P l1 l2 -> Forall2 P (rev l1) (rev l2).
Proof.
  induction 1 as [|x y l1 l2 H _ IH]; [constructor|]. cbn [rev]. apply Forall2_app; [exact IH|]. now constructor.
Qed.

(** consistency with the declarations: an element is inside the declared box iff its image is inside the
    zero-based, reversed box (what the C backend declares after invert_array_indices) *)
Theorem zero_shift_invert_bounds box i :
  in_bounds box i <-> in_bounds (rev (map (fun b => (fst b - 1, snd b - 1)) box)) (rev (map (fun x => x - 1) i)).
Proof.
  unfold in_bounds. split.
  - intros H. apply forall2_rev. induction H as [|x b i box Hx _ IH]; [constructor|].
    cbn [map]. constructor; [cbn; lia|exact IH].
  - intros H. apply forall2_rev in H. rewrite !rev_involutive in H.
    revert box H. induction i as [|x i IH]; intros [|b box] H; cbn [map] in H; inversion H; subst; constructor.
    + cbn in *. lia.
    + now apply IH.
Qed.


Lemma forallb_colon_map (sh : list dshape) : forallb is_colon (map (fun _ => IRange None None None) sh) = true.
Proof. induction sh; cbn; auto. Qed.

Lemma remove_add_idx ds a idx : idx_not_full_colon idx = true -> remove_idx (add_idx ds a idx) = idx.
Proof.
  intros H. unfold add_idx, remove_idx. destruct idx as [|d idx].
  - destruct (lookup_decl ds a) as [sh|]; [|reflexivity]. now rewrite forallb_colon_map.
  - cbn [idx_not_full_colon] in H. apply negb_true_iff in H. now rewrite H.
Qed.

Lemma map_map_id {A} (g f : A -> A) (p : A -> bool) l :
  Forall (fun x => p x = true -> g (f x) = x) l -> forallb p l = true -> map g (map f l) = l.
Proof. intros H C. rewrite map_map. apply map_id_Forall, (Forall_impl_forallb _ _ _ H C). Qed.

Lemma roundtrip_vexpr ds e : all_refs_vexpr (fun _ => idx_not_full_colon) e = true ->
  map_refs_vexpr (fun _ => remove_idx) (map_refs_vexpr (add_idx ds) e) = e.
Proof.
  induction e as [e0|b bidx|p cs IH|p cs IH|p n d IHn IHd|f cs IH] using vexpr_ind'; intros C; cbn [all_refs_vexpr] in C; cbn [map_refs_vexpr].
  - reflexivity.
  - now rewrite remove_add_idx.
  - f_equal. apply (map_map_id _ _ _ _ IH C).
  - f_equal. apply (map_map_id _ _ _ _ IH C).
  - apply andb_prop in C. destruct C. now rewrite IHn, IHd.
  - f_equal. apply (map_map_id _ _ _ _ IH C).
Qed.

Lemma roundtrip_stmt ds s : all_refs_stmt (fun _ => idx_not_full_colon) s = true ->
  map_refs_stmt (fun _ => remove_idx) (map_refs_stmt (add_idx ds) s) = s.
Proof.
  induction s as [s0|a i r|v lo hi st b IH|c t e IHt IHe|c b e IHb IHe] using vstmt_ind'; intros C; cbn [all_refs_stmt] in C; cbn [map_refs_stmt].
  - reflexivity.
  - apply andb_prop in C. destruct C as [C1 C2]. now rewrite remove_add_idx, roundtrip_vexpr.
  - f_equal. apply (map_map_id _ _ _ _ IH C).
  - apply andb_prop in C as [C1 C2]. f_equal; [apply (map_map_id _ _ _ _ IHt C1)|apply (map_map_id _ _ _ _ IHe C2)].
  - apply andb_prop in C. destruct C as [C C4]. apply andb_prop in C. destruct C as [C C3]. apply andb_prop in C. destruct C as [C1 C2].
    destruct c as [op l r]. cbn [vc_op vc_l vc_r] in *. rewrite !roundtrip_vexpr by assumption.
    f_equal; [apply (map_map_id _ _ _ _ IHb C3)|apply (map_map_id _ _ _ _ IHe C4)].
Qed.

(** remove_explicit_array_dimensions undoes add_explicit_array_dimensions on bodies that do not already
    contain a reference written with ":" in every position *)
Theorem explicit_dims_roundtrip ds b : no_full_colon b = true -> remove_explicit (add_explicit ds b) = b.
Proof.
  unfold no_full_colon, remove_explicit, add_explicit. apply map_map_id, Forall_forall. intros x _. apply roundtrip_stmt.
Qed.

(** adding explicit dimensions does not change the meaning of a reference: ":" in every position and the
    bare name are qualified to the same declared ranges *)
Lemma qualify_add_idx ds a idx : qualify_idx ds a (add_idx ds a idx) = qualify_idx ds a idx.
Proof.
  unfold add_idx, qualify_idx. destruct idx as [|d idx]; [|reflexivity].
  destruct (lookup_decl ds a) as [[|s sh]|]; reflexivity.
Qed.

Lemma qualify_add_vexpr ds e : qualify_vexpr ds (map_refs_vexpr (add_idx ds) e) = qualify_vexpr ds e.
Proof.
  induction e as [e0|b bidx|p cs IH|p cs IH|p n d IHn IHd|f cs IH] using vexpr_ind'; cbn [map_refs_vexpr qualify_vexpr].
  - reflexivity.
  - now rewrite qualify_add_idx.
  - f_equal. rewrite map_map. apply map_ext_in. rewrite Forall_forall in IH. auto.
  - f_equal. rewrite map_map. apply map_ext_in. rewrite Forall_forall in IH. auto.
  - now rewrite IHn, IHd.
  - f_equal. rewrite map_map. apply map_ext_in. rewrite Forall_forall in IH. auto.
Qed.

Theorem add_explicit_preserves ds a idx rhs s :
  vexec ds a (add_idx ds a idx) (map_refs_vexpr (add_idx ds) rhs) s = vexec ds a idx rhs s.
Proof. unfold vexec. now rewrite qualify_add_idx, qualify_add_vexpr. Qed.


Lemma omap_map_DSize rho (es : list expr) :
  omap_list (fun s => match s with DSize n => evalZ rho n | DRange _ _ => None end) (map DSize es) = omap_list (evalZ rho) es.
Proof. induction es as [|e es IH]; [reflexivity|]. cbn [map omap_list]. now rewrite IH. Qed.

(** subscripts init ++ [last] of an array with extents sizes ++ [_]: the expression produced by [flat_go]
    (what T_flatten puts into the rewritten reference) evaluates to [flat_offset] of the subscript values *)
Theorem flatten_model_offset rho c init last sizes e ivs lv nvs nlast :
  flat_go c last (rev init) (rev (map DSize sizes)) = Some e ->
  List.length init = List.length sizes ->
  omap_list (evalZ rho) init = Some ivs -> evalZ rho last = Some lv -> omap_list (evalZ rho) sizes = Some nvs ->
  evalZ rho e = Some (flat_offset c (nvs ++ [nlast]) (ivs ++ [lv])).
Proof.
  intros G L Ei El En.
  pose proof (omap_list_length _ _ _ Ei) as Li. pose proof (omap_list_length _ _ _ En) as Ln.
  rewrite <- (flat_rev_offset c ivs nvs lv nlast) by lia.
  apply (flat_go_eval rho c (rev init) (rev (map DSize sizes)) last lv (rev ivs) (rev nvs) e G El).
  - now rewrite omap_rev, Ei.
  - rewrite firstn_all2 by (rewrite !rev_length, map_length; lia).
    now rewrite omap_rev, omap_map_DSize, En.
Qed.
