(** C30 — soundness of the comparison modulo linear normal forms ([expr_eqm], [stmts_eqm]) used by the
    correspondence check: programs identified by [stmts_eqm] have literally the same executions.
    [eq_sem], [leqm] (the list comparison nested in [expr_eqm]) and [lsum] are defined first. *)
From Coq Require Import ZArith List Bool String Lia.
From LV Require Import Base.Expr Base.ListFacts Base.ExprFacts Base.MiniF Base.MiniFFacts Base.Lockstep models.M_C30.
Import ListNotations.
Open Scope Z_scope.

Definition eq_sem (a b : expr) : Prop := forall rho, evalZ rho a = evalZ rho b /\ evalB rho a = evalB rho b.

(** list version of the structural comparison used inside [expr_eqm] *)
Fixpoint leqm (l1 l2 : list expr) : bool :=
  match l1, l2 with
  | [], [] => true
  | x :: r1, y :: r2 => expr_eqm x y && leqm r1 r2
  | _, _ => false
  end.

Definition lsum (rho : env) (l : list (string * Z)) : Z :=
  fold_right (fun t acc => snd t * ev_var rho (fst t) + acc) 0 l.

Lemma leval_unfold rho a : leval rho a = fst a + lsum rho (snd a).
Proof. reflexivity. Qed.

Lemma lsum_add_term rho x c l : lsum rho (ladd_term x c l) = c * ev_var rho x + lsum rho l.
Proof.
  induction l as [|[y d] r IH]; cbn [ladd_term lsum fold_right fst snd].
  - lia.
  - destruct (String.eqb x y) eqn:E.
    + apply String.eqb_eq in E. subst. cbn [lsum fold_right fst snd]. lia.
    + cbn [lsum fold_right fst snd]. fold (lsum rho (ladd_term x c r)). rewrite IH. fold (lsum rho r). lia.
Qed.

Lemma leval_ladd rho a b : leval rho (ladd a b) = leval rho a + leval rho b.
Proof.
  destruct a as [ca la], b as [cb lb]. unfold ladd. rewrite !leval_unfold. cbn [fst snd].
  assert (H : lsum rho (fold_right (fun t acc => ladd_term (fst t) (snd t) acc) lb la) = lsum rho la + lsum rho lb).
  { induction la as [|[x c] r IH]; cbn [fold_right fst snd].
    - cbn. lia.
    - rewrite lsum_add_term, IH. cbn [lsum fold_right fst snd]. fold (lsum rho r). lia. }
  rewrite H. lia.
Qed.

Lemma leval_lscale rho k a : leval rho (lscale k a) = k * leval rho a.
Proof.
  destruct a as [c l]. unfold lscale. rewrite !leval_unfold. cbn [fst snd].
  assert (H : lsum rho (map (fun t => (fst t, k * snd t)) l) = k * lsum rho l).
  { induction l as [|[x d] r IH]; cbn [map lsum fold_right fst snd]; [lia|].
    fold (lsum rho (map (fun t => (fst t, k * snd t)) r)). rewrite IH. fold (lsum rho r). lia. }
  rewrite H. lia.
Qed.

Lemma lis_const_leval rho a : lis_const a = true -> leval rho a = fst a.
Proof.
  destruct a as [c l]. unfold lis_const. rewrite leval_unfold. cbn [fst snd]. intros H.
  assert (E : lsum rho l = 0).
  { induction l as [|[x d] r IH]; cbn [lsum fold_right fst snd]; [reflexivity|].
    cbn [forallb snd] in H. apply andb_prop in H. destruct H as [H1 H2]. apply Z.eqb_eq in H1. subst.
    fold (lsum rho r). rewrite (IH H2). lia. }
  rewrite E. lia.
Qed.

Lemma lmul_sound rho a b c : lmul a b = Some c -> leval rho c = leval rho a * leval rho b.
Proof.
  unfold lmul. destruct (lis_const a) eqn:Ea.
  - intros E. inversion E. subst. rewrite leval_lscale, (lis_const_leval rho a Ea). reflexivity.
  - destruct (lis_const b) eqn:Eb; [|discriminate].
    intros E. inversion E. subst. rewrite leval_lscale, (lis_const_leval rho b Eb). lia.
Qed.

Lemma lin_sound rho e : forall a, lin e = Some a -> evalZ rho e = Some (leval rho a).
Proof.
  induction e using expr_ind'; intros a0 E; cbn [lin] in E; try discriminate.
  - inversion E. cbn [evalZ]. f_equal. unfold leval. cbn [fst snd fold_right]. lia.
  - inversion E. cbn [evalZ]. f_equal. unfold leval. cbn [fst snd fold_right]. lia.
  - inversion E. cbn [evalZ]. f_equal. unfold leval. cbn [fst snd fold_right]. lia.
  - revert a0 E. induction H as [|c cs Hc Hcs IH]; intros a0 E; cbn [fold_right] in E.
    + inversion E. reflexivity.
    + apply obind_some in E. destruct E as [a [Ea E]].
      apply obind_some in E. destruct E as [b [Eb E]]. inversion E. subst.
      cbn [evalZ fold_right]. rewrite (Hc _ Ea). cbn [obind].
      specialize (IH _ Eb). cbn [evalZ] in IH. rewrite IH. cbn [obind]. now rewrite leval_ladd.
  - revert a0 E. induction H as [|c cs Hc Hcs IH]; intros a0 E; cbn [fold_right] in E.
    + inversion E. reflexivity.
    + apply obind_some in E. destruct E as [a [Ea E]].
      apply obind_some in E. destruct E as [b [Eb E]].
      cbn [evalZ fold_right]. rewrite (Hc _ Ea). cbn [obind].
      specialize (IH _ Eb). cbn [evalZ] in IH. rewrite IH. cbn [obind]. now rewrite (lmul_sound rho _ _ _ E).
Qed.

Lemma lin_evalB rho e a : lin e = Some a -> evalB rho e = None.
Proof. destruct e; cbn; intros; try discriminate; reflexivity. Qed.

Lemma lin_eqb_sound e1 e2 : lin_eqb e1 e2 = true ->
  forall rho, evalZ rho e1 = evalZ rho e2 /\ evalB rho e1 = evalB rho e2.
Proof.
  unfold lin_eqb. destruct (lin e1) as [a|] eqn:E1; [|discriminate]. destruct (lin e2) as [b|] eqn:E2; [|discriminate].
  intros H rho. split.
  - rewrite (lin_sound rho _ _ E1), (lin_sound rho _ _ E2). f_equal.
    unfold lzero in H. apply andb_prop in H. destruct H as [H1 H2].
    pose proof (lis_const_leval rho _ H2) as K. rewrite leval_ladd, leval_lscale in K.
    apply Z.eqb_eq in H1. lia.
  - now rewrite (lin_evalB rho _ _ E1), (lin_evalB rho _ _ E2).
Qed.

(** children translated by [tr] evaluate alike when each translated child does *)
Lemma omap_list_through {A B V} (tr : A -> option B) (f : A -> option V) (g : B -> option V) cs : forall rs,
  omap_list tr cs = Some rs -> Forall (fun c => forall r, tr c = Some r -> g r = f c) cs ->
  omap_list g rs = omap_list f cs.
Proof.
  induction cs as [|c cs IH]; intros rs E F; cbn [omap_list] in E.
  - injection E as <-. reflexivity.
  - apply obind_some in E. destruct E as [y [E1 E]]. apply obind_some in E. destruct E as [ys [E2 [= <-]]].
    cbn [omap_list]. rewrite (Forall_inv F y E1), (IH ys E2 (Forall_inv_tail F)). reflexivity.
Qed.

Lemma leqm_omap cs : Forall (fun a => forall b, expr_eqm a b = true -> eq_sem a b) cs ->
  forall ds, leqm cs ds = true -> forall rho,
    omap_list (evalZ rho) cs = omap_list (evalZ rho) ds /\ omap_list (evalB rho) cs = omap_list (evalB rho) ds.
Proof.
  induction 1 as [|c cs Hc _ IH]; intros [|d ds] E rho; cbn in E; try discriminate; [split; reflexivity|].
  apply andb_prop in E as [E1 E2]. destruct (Hc d E1 rho) as [HZ HB], (IH ds E2 rho) as [IZ IB].
  cbn [omap_list]. rewrite HZ, HB, IZ, IB. split; reflexivity.
Qed.

Lemma expr_eqm_unfold a b :
  expr_eqm a b = lin_eqb a b ||
  match a, b with
  | EInt x, EInt y => x =? y
  | EPy x, EPy y => x =? y
  | EVar x, EVar y => String.eqb x y
  | ELog x, ELog y => Bool.eqb x y
  | ESum _ cs, ESum _ ds => leqm cs ds
  | EProd _ cs, EProd _ ds => leqm cs ds
  | EQuot _ n d, EQuot _ n' d' => expr_eqm n n' && expr_eqm d d'
  | EPow _ n d, EPow _ n' d' => expr_eqm n n' && expr_eqm d d'
  | ECmp o l r, ECmp o' l' r' => cmpop_eqb o o' && expr_eqm l l' && expr_eqm r r'
  | EAnd cs, EAnd ds => leqm cs ds
  | EOr cs, EOr ds => leqm cs ds
  | ENot x, ENot y => expr_eqm x y
  | ECall f cs, ECall g ds => String.eqb f g && leqm cs ds
  | _, _ => false
  end.
Proof. destruct a; reflexivity. Qed.

Lemma cmpop_eqb_eq o o' : cmpop_eqb o o' = true -> o = o'.
Proof. destruct o, o'; cbn; congruence. Qed.

(** n-ary nodes and calls are compared child by child: in the forms [evalZ_sum] … [evalZ_call] they differ only in [omap_list] of the children *)
Theorem expr_eqm_sound a : forall b, expr_eqm a b = true -> eq_sem a b.
Proof.
  induction a using expr_ind'; intros bb E; rewrite expr_eqm_unfold in E;
    apply orb_prop in E; destruct E as [E|E]; try (exact (lin_eqb_sound _ _ E));
    destruct bb; try discriminate; intros rho.
  - apply Z.eqb_eq in E. subst. split; reflexivity.
  - apply Z.eqb_eq in E. subst. split; reflexivity.
  - apply String.eqb_eq in E. subst. split; reflexivity.
  - apply Bool.eqb_prop in E. subst. split; reflexivity.
  - split; [|reflexivity]. rewrite !evalZ_sum, (proj1 (leqm_omap _ H _ E rho)). reflexivity.
  - split; [|reflexivity]. rewrite !evalZ_prod, (proj1 (leqm_omap _ H _ E rho)). reflexivity.
  - apply andb_prop in E as [E1 E2]. split; [|reflexivity]. cbn [evalZ].
    now rewrite (proj1 (IHa1 _ E1 rho)), (proj1 (IHa2 _ E2 rho)).
  - apply andb_prop in E as [E1 E2]. split; [|reflexivity]. cbn [evalZ].
    now rewrite (proj1 (IHa1 _ E1 rho)), (proj1 (IHa2 _ E2 rho)).
  - apply andb_prop in E as [E E2]. apply andb_prop in E as [E0 E1].
    apply cmpop_eqb_eq in E0. subst. split; [reflexivity|]. cbn [evalB].
    now rewrite (proj1 (IHa1 _ E1 rho)), (proj1 (IHa2 _ E2 rho)).
  - split; [reflexivity|]. rewrite !evalB_and, (proj2 (leqm_omap _ H _ E rho)). reflexivity.
  - split; [reflexivity|]. rewrite !evalB_or, (proj2 (leqm_omap _ H _ E rho)). reflexivity.
  - split; [reflexivity|]. cbn [evalB]. now rewrite (proj2 (IHa _ E rho)).
  - apply andb_prop in E as [E1 E2]. apply String.eqb_eq in E1. subst.
    split; [|reflexivity]. now rewrite !evalZ_call, (proj1 (leqm_omap _ H _ E2 rho)).
Qed.

Lemma list_expr_eqm_sound rho : forall i j, list_expr_eqm i j = true ->
  omap_list (evalZ rho) i = omap_list (evalZ rho) j.
Proof.
  induction i as [|x i IH]; intros [|y j] E; cbn in E; try discriminate; [reflexivity|].
  apply andb_prop in E. destruct E as [E1 E2]. cbn [omap_list].
  now rewrite (proj1 (expr_eqm_sound _ _ E1 rho)), (IH _ E2).
Qed.

Fixpoint sleqm (l1 l2 : list stmt) : bool :=
  match l1, l2 with
  | [], [] => true
  | x :: r1, y :: r2 => stmt_eqm x y && sleqm r1 r2
  | _, _ => false
  end.

Lemma sleqm_eq l1 l2 : sleqm l1 l2 = stmts_eqm l1 l2.
Proof. reflexivity. Qed.

Lemma stmt_eqm_unfold a b :
  stmt_eqm a b =
  match a, b with
  | SAssign x e, SAssign y e' => String.eqb x y && expr_eqm e e'
  | SStore x i e, SStore y j e' => String.eqb x y && list_expr_eqm i j && expr_eqm e e'
  | SDo v lo hi st b1, SDo w lo' hi' st' b2 =>
      String.eqb v w && expr_eqm lo lo' && expr_eqm hi hi' && oexpr_eqm st st' && stmts_eqm b1 b2
  | SWhile c b1, SWhile c' b2 => expr_eqm c c' && stmts_eqm b1 b2
  | SIf c t e, SIf c' t' e' => expr_eqm c c' && stmts_eqm t t' && stmts_eqm e e'
  | SCall f x, SCall g y => String.eqb f g && list_expr_eqb x y
  | SSkip l, SSkip m => String.eqb l m
  | _, _ => false
  end.
Proof.
  destruct a, b; reflexivity.
Qed.

(** [expr_eqm_sound] in the shape the [lock1_*] lemmas ask for at the relation [eq] on stores *)
Lemma eqm_Z e e' : expr_eqm e e' = true -> forall s s' : store, s = s' -> evalZ (env_st s) e = evalZ (env_st s') e'.
Proof. intros E s s' <-. apply (expr_eqm_sound _ _ E). Qed.

Lemma eqm_B e e' : expr_eqm e e' = true -> forall s s' : store, s = s' -> evalB (env_st s) e = evalB (env_st s') e'.
Proof. intros E s s' <-. apply (expr_eqm_sound _ _ E). Qed.

Lemma eqm_lock ps : forall f p q, stmts_eqm p q = true -> lock_at ps ps eq eq f p q.
Proof.
  induction f as [|f IH]; intros p q E; [apply lock_at_0|].
  destruct p as [|a p], q as [|b q]; cbn [stmts_eqm] in E; try discriminate; [apply lock_nil|].
  apply andb_prop in E as [Ea Ep]. apply (lock_cons _ _ _ eq); [|apply IH, Ep].
  rewrite stmt_eqm_unfold in Ea. destruct a, b; try discriminate.
  - apply andb_prop in Ea as [E1 E2]. apply String.eqb_eq in E1. subst.
    apply lock1_assign; [exact (eqm_Z _ _ E2)|intros s s' v <-; reflexivity].
  - apply andb_prop in Ea as [E E3]. apply andb_prop in E as [E1 E2]. apply String.eqb_eq in E1. subst.
    apply lock1_store_id; [|exact (eqm_Z _ _ E3)|intros s s' i v <-; reflexivity].
    intros s s' <-. apply (list_expr_eqm_sound _ _ _ E2).
  - apply andb_prop in Ea as [E E5]. apply andb_prop in E as [E E4]. apply andb_prop in E as [E E3].
    apply andb_prop in E as [E1 E2]. apply String.eqb_eq in E1. subst.
    apply lock1_do; [exact (eqm_Z _ _ E2)|exact (eqm_Z _ _ E3)| |intros s s' i <-; reflexivity|apply IH, E5].
    intros s s' <-. destruct st, st0; cbn in E4; try discriminate; [exact (eqm_Z _ _ E4 s s eq_refl)|reflexivity].
  - apply andb_prop in Ea as [E1 E2]. apply lock1_while; [exact (eqm_B _ _ E1)|apply IH, E2|apply IH].
    cbn [stmts_eqm]. rewrite stmt_eqm_unfold, E1, E2. reflexivity.
  - apply andb_prop in Ea as [E E3]. apply andb_prop in E as [E1 E2].
    apply lock1_if; [exact (eqm_B _ _ E1)|apply IH, E2|apply IH, E3].
  - apply andb_prop in Ea as [E1 E2]. apply String.eqb_eq in E1. apply list_expr_eqb_eq in E2. subst.
    intros s s' <-. now apply orel_eq.
  - apply lock1_skip.
Qed.

Lemma exec_eqm ps f p q : stmts_eqm p q = true -> forall s, exec ps f p s = exec ps f q s.
Proof. intros E s. apply orel_eq, (eqm_lock ps f p q E s s eq_refl). Qed.

Theorem eqm_sound ps p q : stmts_eqm p q = true -> equiv ps p q.
Proof. intros E s s'. unfold runs. split; intros [f H]; exists f; [rewrite <- (exec_eqm ps f p q E)|rewrite (exec_eqm ps f p q E)]; exact H. Qed.
