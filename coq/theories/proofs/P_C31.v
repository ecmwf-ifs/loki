(** C31 — summary file: re-exports the lemma files and gives the non-vacuity examples. *)
From Coq Require Import ZArith List Bool String Lia.
From LV Require Import Base.Expr Base.MiniF Base.MiniFFacts models.M_C31.
From LV Require Export proofs.P_C31_base proofs.P_C31_unroll proofs.P_C31_block proofs.P_C31_commute.
From LV Require models.M_C10.
Import ListNotations.
Open Scope Z_scope.
Open Scope string_scope.

(** ** unrolling: a descending loop under an unroll pragma with a nested counter-dependent loop *)
Definition ex_unroll : list stmt :=
  [ SSkip "$loki loop-unroll";
    SDo "i" (EInt 3) (EInt 1) (Some (EProd false [EPy (-1); EInt 1]))
      [ SAssign "s" (ESum false [EProd false [EVar "s"; EInt 3]; EVar "i"]);
        SDo "j" (EInt 1) (EVar "i") None [ SStore "a" [EVar "j"] (ESum false [EVar "s"; EVar "j"]) ] ] ].

Example unroll_nonvacuous :
  unroll_class ex_unroll = true /\
  List.length (strip_skips (do_unroll ex_unroll)) = 9%nat /\
  forallb (fun s => negb (is_do s)) (strip_skips (do_unroll ex_unroll)) = true /\
  run_observe [] 50 ex_unroll [("s", 2)] [] ["s"] [("a", [1]); ("a", [2]); ("a", [3])]
  = run_observe [] 50 (do_unroll ex_unroll) [("s", 2)] [] ["s"] [("a", [1]); ("a", [2]); ("a", [3])] /\
  run_observe [] 50 ex_unroll [("s", 2)] [] ["s"] [("a", [1]); ("a", [2]); ("a", [3])] = Some [88; 89; 31; 12].
Proof. vm_compute. repeat split; reflexivity. Qed.

(** the DO variable itself is NOT preserved (the unrolled code never assigns it): this is why the conclusion of
    [unroll_preserves] excepts the DO variables [X] *)
Example unroll_loopvar_not_preserved :
  run_observe [] 50 ex_unroll [("i", 7)] [] ["i"] [] = Some [0] /\
  run_observe [] 50 (do_unroll ex_unroll) [("i", 7)] [] ["i"] [] = Some [7].
Proof. vm_compute. split; reflexivity. Qed.

(** ** fusion / fission: name-level independent bodies *)
Definition exA : list stmt := [SStore "a" [EVar "i"] (ESum false [EVar "i"; EVar "n"])].
Definition exB : list stmt := [SAssign "t" (ESum false [EVar "t"; EVar "i"]); SStore "b" [EVar "i"] (EVar "t")].
Definition exM : string -> bool := inl ["i"; "a"; "b"; "t"].

Example indep_nonvacuous : indep_names exA exB = true.
Proof. vm_compute. reflexivity. Qed.

Example fuse_side_nonvacuous : fuse_side "i" exM exM (EInt 1) (EVar "n") None exA exB.
Proof. constructor; vm_compute; reflexivity. Qed.

Example fusion_instance ps s s1 :
  runs ps [SDo "i" (EInt 1) (EVar "n") None exA; SDo "i" (EInt 1) (EVar "n") None exB] s s1 ->
  exists s2, runs ps [SDo "i" (EInt 1) (EVar "n") None (exA ++ exB)] s s2 /\ sim (single "i") dnone s1 s2.
Proof.
  apply (fusion_preserves ps "i" exM exM); [exact fuse_side_nonvacuous|].
  apply indep_check_sound. exact indep_nonvacuous.
Qed.

(** the generator's syntactic check accepts same-index array flow, which [indep_names] rejects *)
Definition exB2 : list stmt := [SStore "b" [EVar "i"] (EProd false [ECall "a" [EVar "i"]; EInt 2])].
Example syntactic_indep_same_index :
  syntactic_indep "i" ["a"; "b"; "c"] exA exB2 = true /\ indep_names exA exB2 = false /\
  syntactic_indep "i" ["a"; "b"; "c"] exA [SStore "b" [EVar "i"] (ECall "a" [ESum false [EVar "i"; EInt 1]])] = false.
Proof. vm_compute. repeat split; reflexivity. Qed.

(** ** interchange: the iterations of  c(i,j) = i + j  commute *)
Definition ex_body : list stmt := [SStore "c" [EVar "i"; EVar "j"] (ESum false [EVar "i"; EVar "j"])].

Lemma ex_body_runs ps x y s s1 :
  runs ps ex_body (sets [("j", y); ("i", x)] s) s1 ->
  s1 = set_av "c" [x; y] (x + (y + 0)) (sets [("j", y); ("i", x)] s).
Proof.
  intros [f E]. destruct f as [|f]; [discriminate|]. unfold ex_body in E. rewrite exec_unfold in E.
  cbn [exec1] in E. cbn in E. destruct f; [discriminate|]. cbn in E. cbn [sets]. congruence.
Qed.

Lemma ex_body_runs_conv ps x y s :
  runs ps ex_body (sets [("j", y); ("i", x)] s) (set_av "c" [x; y] (x + (y + 0)) (sets [("j", y); ("i", x)] s)).
Proof. exists 2%nat. reflexivity. Qed.

Example iterations_commute_nonvacuous ps : iterations_commute ps "i" "j" ex_body.
Proof.
  intros [x y] [x' y'] Hpq s t s2 [Hs Ha] R.
  inversion R as [|l X r0 s0 s1 s3 R1 Hr]; subst. inversion Hr as [|l' X' r1 s4 s5 s6 R2 Hr']; subst.
  inversion Hr'; subst. cbn [fst snd] in *.
  apply ex_body_runs in R1. subst s1. apply ex_body_runs in R2. subst s2.
  eexists. split.
  - econstructor; [apply ex_body_runs_conv|]. econstructor; [apply ex_body_runs_conv|constructor].
  - cbn [fst snd]. split.
    + intros z Hz. unfold d2 in Hz. apply orb_false_iff in Hz. destruct Hz as [Hi Hj].
      cbn. rewrite Hi, Hj. now apply Hs; unfold d2; rewrite Hi, Hj.
    + intros a idx _. cbn.
      destruct (String.eqb a "c" && list_z_eqb idx [x'; y']) eqn:E1;
        destruct (String.eqb a "c" && list_z_eqb idx [x; y]) eqn:E2; try reflexivity; [|now apply Ha].
      apply andb_true_iff in E1. destruct E1 as [_ E1]. apply andb_true_iff in E2. destruct E2 as [_ E2].
      apply list_z_eqb_eq in E1. apply list_z_eqb_eq in E2. exfalso. apply Hpq. congruence.
Qed.

Example interchange_instance ps :
  seq_sim ps (d2 "i" "j") (map (it2 "i" "j" ex_body) (row_major [1; 2; 3] [5; 4]))
                          (map (it2 "i" "j" ex_body) (col_major [1; 2; 3] [5; 4])).
Proof.
  apply interchange_preserves_partial; [reflexivity| | |apply iterations_commute_nonvacuous].
  - repeat constructor; cbn; intuition lia.
  - repeat constructor; cbn; intuition lia.
Qed.

(** ** model outputs on small instances (shape of the transformed programs) *)
Example fusion_model_example :
  do_fusion [SSkip "$loki loop-fusion group(g)"; SDo "i" (EInt 1) (EVar "n") None exA;
             SSkip "$loki loop-fusion group(g)"; SDo "j" (EInt 1) (EVar "n") None [SStore "b" [EVar "j"] (EVar "j")]]
  = Some [SDo "i" (EInt 1) (EVar "n") None (exA ++ [SStore "b" [EVar "i"] (EVar "i")])].
Proof. vm_compute. reflexivity. Qed.

Example fission_model_example :
  do_fission [SDo "i" (EInt 1) (EVar "n") None (exA ++ [SSkip "$loki loop-fission"] ++ exB2)]
  = [SDo "i" (EInt 1) (EVar "n") None exA; SDo "i" (EInt 1) (EVar "n") None exB2].
Proof. vm_compute. reflexivity. Qed.

Example interchange_model_example :
  do_interchange [SSkip "$loki loop-interchange";
                  SDo "i" (EInt 1) (EVar "n") None [SDo "j" (EInt 2) (EInt 8) (Some (EInt 2)) ex_body]]
  = [SDo "j" (EInt 2) (EInt 8) (Some (EInt 2)) [SDo "i" (EInt 1) (EVar "n") None ex_body]].
Proof. vm_compute. reflexivity. Qed.
