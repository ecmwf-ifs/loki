(** C31 — stores that agree outside a set of names ([sim]), and the three facts about [exec] that every loop
    transformation rests on: frame (what is not written is unchanged), substitution (running [msubst_l sg P]
    simulates running [P] with the substituted variables set) and, as its instance for the empty substitution,
    non-interference. *)
From Coq Require Import ZArith List Bool String Lia.
From LV Require Import Base.Expr Base.MiniF Base.ListFacts Base.ExprFacts Base.MiniFFacts models.M_C31.
Import ListNotations.
Open Scope Z_scope.


(** the form in which the hypotheses of [expr_ind'] and [stmt_ind'] about operand lists and bodies are used *)
Lemma forallb_impl_Forall {A} (R : A -> Prop) (p q : A -> bool) l :
  Forall R l -> (forall x, R x -> p x = true -> q x = true) -> forallb p l = true -> forallb q l = true.
Proof.
  intros HR Himp. induction HR as [|x l Hx _ IH]; cbn; [reflexivity|].
  rewrite !andb_true_iff. intros [H1 H2]. auto.
Qed.

Lemma forallb_mono {A} (p q : A -> bool) l :
  (forall x, p x = true -> q x = true) -> forallb p l = true -> forallb q l = true.
Proof. intros H. apply (forallb_impl_Forall (fun _ => True)); [now apply Forall_forall|auto]. Qed.

Lemma negb_mono (a b : bool) : (b = true -> a = true) -> negb a = true -> negb b = true.
Proof. destruct a, b; cbn; auto. Qed.


(** the substitutions of this file: [sg] maps variables to integer literals only, and each literal is the
    value the variable has in [s] (unrolling substitutes the trip value for the DO variable) *)
Definition sg_ok (sg : string -> option expr) (s : store) : Prop :=
  forall x r, sg x = Some r -> exists i, r = EInt i /\ sv s x = i.

Lemma sim_refl D A s : sim D A s s.
Proof. split; auto. Qed.

Lemma sim_trans D A s t u : sim D A s t -> sim D A t u -> sim D A s u.
Proof. intros [H1 H2] [H3 H4]. split; intros; [rewrite H1, H3|rewrite H2, H4]; auto. Qed.

Lemma sim_sym D A s t : sim D A s t -> sim D A t s.
Proof. intros [H1 H2]. split; intros; symmetry; auto. Qed.

Lemma sim_weaken D A D' A' s t :
  (forall x, D x = true -> D' x = true) -> (forall x, A x = true -> A' x = true) -> sim D A s t -> sim D' A' s t.
Proof.
  intros HD HA [H1 H2]. split.
  - intros x Hx. apply H1. apply negb_true_iff. apply negb_true_iff in Hx. revert Hx. apply negb_mono, HD.
  - intros a i Hx. apply H2. apply negb_true_iff. apply negb_true_iff in Hx. revert Hx. apply negb_mono, HA.
Qed.

Lemma dminus_sub D v x : dminus D v x = true -> D x = true.
Proof. unfold dminus. intros H. apply andb_true_iff in H. tauto. Qed.

Lemma sim_dminus D A v s t : sim (dminus D v) A s t -> sim D A s t.
Proof. apply sim_weaken; [apply dminus_sub|auto]. Qed.

Lemma sim_set_both D A v i s t : sim D A s t -> sim (dminus D v) A (set_sv v i s) (set_sv v i t).
Proof.
  intros [H1 H2]. split; [|exact H2].
  intros x Hx. cbn. destruct (String.eqb x v) eqn:E; [reflexivity|].
  apply H1. unfold dminus in Hx. rewrite E in Hx. cbn in Hx. now rewrite andb_true_r in Hx.
Qed.

Lemma sim_set_left D A v i s t : D v = true -> sim D A s t -> sim D A (set_sv v i s) t.
Proof.
  intros Hv [H1 H2]. split; [|exact H2].
  intros x Hx. cbn. destruct (String.eqb x v) eqn:E; [|now apply H1].
  apply String.eqb_eq in E. subst. congruence.
Qed.

Lemma sim_set_right D A v i s t : D v = true -> sim D A s t -> sim D A s (set_sv v i t).
Proof. intros Hv H. apply sim_sym. apply sim_set_left; [exact Hv|now apply sim_sym]. Qed.

Lemma sim_set_av D A a i z s : A a = true -> sim D A s (set_av a i z s).
Proof.
  intros Ha. split; [reflexivity|]. intros b j Hb. cbn.
  destruct (String.eqb b a) eqn:E; [|reflexivity]. apply String.eqb_eq in E. subst. congruence.
Qed.


Lemma sim_meet D A D1 A1 D2 A2 s t :
  (forall x, D1 x = true -> D2 x = true -> D x = true) -> (forall a, A1 a = true -> A2 a = true -> A a = true) ->
  sim D1 A1 s t -> sim D2 A2 s t -> sim D A s t.
Proof.
  intros HD HA [H1 H2] [H3 H4]. split.
  - intros x Hx. destruct (D1 x) eqn:E1; [|now apply H1]. destruct (D2 x) eqn:E2; [|now apply H3].
    rewrite (HD x E1 E2) in Hx. discriminate.
  - intros a i Hx. destruct (A1 a) eqn:E1; [|now apply H2]. destruct (A2 a) eqn:E2; [|now apply H4].
    rewrite (HA a E1 E2) in Hx. discriminate.
Qed.

Section Msubst.
  Variables (D A : string -> bool) (sg : string -> option expr) (s t : store).
  Hypothesis Hsim : sim D A s t.
  Hypothesis Hsg : sg_ok sg s.

  Lemma evalZ_msubst e :
    efree (dsub D sg) A e = true -> evalZ (env_st s) e = evalZ (env_st t) (msubst_e sg e).
  Proof.
    destruct Hsim as [Hs Ha].
    induction e as [| |x| |p cs IH|p cs IH|p e1 e2 IH1 IH2|p e1 e2 IH1 IH2| | | | |f cs IH] using expr_ind';
      cbn [efree msubst_e]; intros Hf; try reflexivity.
    - destruct (sg x) as [r|] eqn:E.
      + destruct (Hsg _ _ E) as [i [-> Hi]]. cbn. now rewrite Hi.
      + cbn. f_equal. apply Hs. unfold dsub, dom in Hf. rewrite E in Hf. cbn in Hf.
        rewrite andb_true_r in Hf. now apply negb_true_iff.
    - apply fold_obind_ext, (Forall_impl_forallb _ _ _ IH Hf).
    - apply fold_obind_ext, (Forall_impl_forallb _ _ _ IH Hf).
    - apply andb_true_iff in Hf as [H1 H2]. cbn [evalZ]. now rewrite IH1, IH2 by assumption.
    - apply andb_true_iff in Hf as [H1 H2]. cbn [evalZ]. now rewrite IH1, IH2 by assumption.
    - apply andb_true_iff in Hf as [H1 H2]. apply negb_true_iff in H1.
      rewrite !evalZ_call, (omap_list_ext_map _ (evalZ (env_st t)) (msubst_e sg) _ (Forall_impl_forallb _ _ _ IH H2)).
      destruct (omap_list (evalZ (env_st t)) (map (msubst_e sg) cs)) as [vs|]; [|reflexivity]. cbn [obind].
      destruct (intrinsic f vs); [reflexivity|]. cbn. now rewrite Ha.
  Qed.

  Lemma evalB_msubst e :
    efree (dsub D sg) A e = true -> evalB (env_st s) e = evalB (env_st t) (msubst_e sg e).
  Proof.
    induction e as [| |x| | | | | |op e1 e2 _ _|cs IH|cs IH|e1 IH1|] using expr_ind';
      cbn [efree msubst_e]; intros Hf; try reflexivity.
    - destruct (sg x) as [r|] eqn:E; [destruct (Hsg _ _ E) as [i [-> _]]|]; reflexivity.
    - apply andb_true_iff in Hf as [H1 H2]. cbn [evalB]. now rewrite !evalZ_msubst by assumption.
    - apply fold_obind_ext, (Forall_impl_forallb _ _ _ IH Hf).
    - apply fold_obind_ext, (Forall_impl_forallb _ _ _ IH Hf).
    - cbn [evalB]. now rewrite IH1 by assumption.
  Qed.

  Lemma eval_idx_msubst idx :
    forallb (efree (dsub D sg) A) idx = true -> eval_idx s idx = eval_idx t (map (msubst_e sg) idx).
  Proof.
    intros H. apply omap_list_ext_map. apply forallb_Forall in H. revert H. apply Forall_impl, evalZ_msubst.
  Qed.
End Msubst.

Definition sg_id : string -> option expr := fun _ => None.

Lemma msubst_e_id e : msubst_e sg_id e = e.
Proof.
  induction e using expr_ind'; cbn; try reflexivity;
    try (now rewrite (map_id_Forall _ _ H)); try (now rewrite IHe1, IHe2); try (now rewrite IHe).
Qed.

Lemma map_msubst_e_id l : map (msubst_e sg_id) l = l.
Proof. apply map_id_Forall, Forall_forall. intros; apply msubst_e_id. Qed.

Lemma msubst_s_id s : msubst_s sg_id s = s.
Proof.
  induction s using stmt_ind'; cbn; rewrite ?msubst_e_id, ?map_msubst_e_id; try reflexivity.
  - rewrite (map_id_Forall _ _ H). destruct st; cbn; [now rewrite msubst_e_id|reflexivity].
  - now rewrite (map_id_Forall _ _ H).
  - now rewrite (map_id_Forall _ _ H), (map_id_Forall _ _ H0).
Qed.

Lemma msubst_l_id l : msubst_l sg_id l = l.
Proof. apply map_id_Forall, Forall_forall. intros; apply msubst_s_id. Qed.

Lemma sg_ok_id s : sg_ok sg_id s.
Proof. intros x r H. discriminate. Qed.

Lemma dsub_sub D sg x : dsub D sg x = true -> D x = true.
Proof. unfold dsub. intros H. apply andb_true_iff in H. tauto. Qed.


Section Mono.
  Variables D A D' A' : string -> bool.
  Hypothesis HD : forall x, D' x = true -> D x = true.
  Hypothesis HA : forall x, A' x = true -> A x = true.

  Lemma efree_mono e : efree D A e = true -> efree D' A' e = true.
  Proof.
    induction e using expr_ind'; cbn [efree]; intros Hf; try reflexivity;
      try (revert Hf; apply (forallb_impl_Forall _ _ _ _ H); now auto);
      try (apply andb_prop in Hf as [H1 H2]; now rewrite IHe1, IHe2); auto.
    - revert Hf. apply negb_mono, HD.
    - apply andb_prop in Hf as [H1 H2]. apply andb_true_intro. split; [revert H1; apply negb_mono, HA|].
      revert H2. apply (forallb_impl_Forall _ _ _ _ H). auto.
  Qed.

  Lemma oefree_mono o : oefree D A o = true -> oefree D' A' o = true.
  Proof. destruct o; cbn; [apply efree_mono|auto]. Qed.

  Lemma nwrites_mono s : nwrites D A s = true -> nwrites D' A' s = true.
  Proof.
    induction s using stmt_ind'; cbn [nwrites]; intros Hf; auto.
    - revert Hf. apply negb_mono, HD.
    - revert Hf. apply negb_mono, HA.
    - apply andb_prop in Hf as [H1 H2]. apply andb_true_intro. split; [revert H1; apply negb_mono, HD|].
      revert H2. apply (forallb_impl_Forall _ _ _ _ H). auto.
    - revert Hf. apply (forallb_impl_Forall _ _ _ _ H). auto.
    - apply andb_prop in Hf as [H1 H2]. apply andb_true_intro.
      split; [revert H1; apply (forallb_impl_Forall _ _ _ _ H)|revert H2; apply (forallb_impl_Forall _ _ _ _ H0)]; auto.
  Qed.
End Mono.

Lemma dminus_mono D D' v : (forall x, D' x = true -> D x = true) -> forall x, dminus D' v x = true -> dminus D v x = true.
Proof.
  intros H x Hx. unfold dminus in *. apply andb_true_iff in Hx. destruct Hx as [H1 H2]. now rewrite (H _ H1), H2.
Qed.

Lemma nreads_mono s : forall D A D' A',
  (forall x, D' x = true -> D x = true) -> (forall x, A' x = true -> A x = true) ->
  nreads D A s = true -> nreads D' A' s = true.
Proof.
  induction s using stmt_ind'; intros D A D' A' HD HA; cbn [nreads]; intros Hf; auto;
    pose proof (efree_mono D A D' A' HD HA) as EM.
  - now apply EM.
  - apply andb_prop in Hf as [H1 H2]. rewrite (EM _ H2), andb_true_r. revert H1. now apply forallb_mono.
  - rewrite !andb_true_iff in Hf. destruct Hf as [[[H1 H2] H3] H4].
    rewrite (EM _ H1), (EM _ H2), (oefree_mono D A D' A' HD HA _ H3). cbn.
    revert H4. apply (forallb_impl_Forall _ _ _ _ H). intros q IHq. apply IHq; [now apply dminus_mono|exact HA].
  - apply andb_prop in Hf as [H1 H2]. rewrite (EM _ H1). cbn. revert H2. apply (forallb_impl_Forall _ _ _ _ H). eauto.
  - rewrite !andb_true_iff in Hf. destruct Hf as [[H1 H2] H3]. rewrite (EM _ H1). cbn. apply andb_true_intro.
    split; [revert H2; apply (forallb_impl_Forall _ _ _ _ H)|revert H3; apply (forallb_impl_Forall _ _ _ _ H0)]; eauto.
Qed.

Lemma forallb_nreads_mono D A D' A' l :
  (forall x, D' x = true -> D x = true) -> (forall x, A' x = true -> A x = true) ->
  forallb (nreads D A) l = true -> forallb (nreads D' A') l = true.
Proof. intros HD HA. apply forallb_mono. intros s. now apply nreads_mono. Qed.

(** * Frame: a program changes only what it may write: the stores before and after agree on [W]/[WA], the
    names it does not write *)

Lemma do_loop_sim_inv (run : store -> option store) v d D A :
  D v = true -> (forall s s', run s = Some s' -> sim D A s s') ->
  forall n i s s', do_loop run v d n i s = Some s' -> sim D A s s'.
Proof.
  intros Hv Hrun. induction n as [|n IH]; intros i s s' E; cbn in E.
  - injection E as <-. apply sim_set_right; [exact Hv|apply sim_refl].
  - apply obind_some in E as [s1 [E1 E2]].
    apply sim_trans with (set_sv v i s); [apply sim_set_right; [exact Hv|apply sim_refl]|].
    apply sim_trans with s1; [exact (Hrun _ _ E1)|exact (IH _ _ _ E2)].
Qed.

Lemma exec_frame_sim ps W WA : forall f P s s',
  forallb (nwrites W WA) P = true -> exec ps f P s = Some s' ->
  sim (fun x => negb (W x)) (fun a => negb (WA a)) s s'.
Proof.
  induction f as [|f IH]; intros P s s' HP E; [discriminate|].
  destruct P as [|st rest]; [apply exec_nil in E as ->; apply sim_refl|].
  rewrite exec_unfold in E. apply obind_some in E as [s1 [E1 E2]].
  cbn [forallb] in HP. apply andb_true_iff in HP as [Hst Hrest].
  apply sim_trans with s1; [|exact (IH _ _ _ Hrest E2)]. clear E2 Hrest rest.
  destruct st as [x e|a idx e|v lo hi stp body|c body|c tb eb|g args|l]; cbn [nwrites] in Hst; cbn [exec1] in E1.
  - apply obind_some in E1 as [z [_ E1]]. injection E1 as <-. apply sim_set_right; [exact Hst|apply sim_refl].
  - apply obind_some in E1 as [i [_ E1]]. apply obind_some in E1 as [z [_ E1]]. injection E1 as <-.
    now apply sim_set_av.
  - apply andb_true_iff in Hst as [Hv Hb].
    apply obind_some in E1 as [a [_ E1]]. apply obind_some in E1 as [b [_ E1]]. apply obind_some in E1 as [d [_ E1]].
    destruct (d =? 0); [discriminate|].
    eapply do_loop_sim_inv; [exact Hv| |exact E1]. intros u u'. now apply IH.
  - apply obind_some in E1 as [b [_ E1]]. destruct b; [|injection E1 as <-; apply sim_refl].
    apply obind_some in E1 as [s2 [E3 E4]]. apply sim_trans with s2; [exact (IH _ _ _ Hst E3)|].
    apply (IH [SWhile c body]); [cbn; now rewrite Hst|exact E4].
  - apply andb_true_iff in Hst as [Ht He]. apply obind_some in E1 as [b [_ E1]].
    destruct b; [exact (IH _ _ _ Ht E1)|exact (IH _ _ _ He E1)].
  - discriminate.
  - injection E1 as <-. apply sim_refl.
Qed.

Lemma exec_frame ps W WA : forall f P s s',
  forallb (nwrites W WA) P = true -> exec ps f P s = Some s' ->
  (forall x, W x = true -> sv s' x = sv s x) /\ (forall a i, WA a = true -> av s' a i = av s a i).
Proof.
  intros f P s s' HP E. destruct (exec_frame_sim ps W WA f P s s' HP E) as [H1 H2].
  split; intros; symmetry; [apply H1|apply H2]; now apply negb_false_iff.
Qed.

Lemma runs_frame ps W WA P s s' :
  forallb (nwrites W WA) P = true -> runs ps P s s' ->
  (forall x, W x = true -> sv s' x = sv s x) /\ (forall a i, WA a = true -> av s' a i = av s a i).
Proof. intros H [f E]. eapply exec_frame; eauto. Qed.

Lemma sg_ok_frame sg s s' : (forall x, dom sg x = true -> sv s' x = sv s x) -> sg_ok sg s -> sg_ok sg s'.
Proof.
  intros Hf H x r E. destruct (H _ _ E) as [i [-> Hi]]. exists i. split; [reflexivity|].
  rewrite Hf; [exact Hi|]. unfold dom. now rewrite E.
Qed.

Lemma dsub_dminus D sg v x : dminus (dsub D sg) v x = true -> dsub (dminus D v) sg x = true.
Proof.
  unfold dminus, dsub. intros H. apply andb_true_iff in H. destruct H as [H1 H2].
  apply andb_true_iff in H1. destruct H1 as [H1 H3]. now rewrite H1, H2, H3.
Qed.

Lemma dminus_dsub D sg v x : dsub (dminus D v) sg x = true -> dminus (dsub D sg) v x = true.
Proof.
  unfold dminus, dsub. intros H. apply andb_true_iff in H. destruct H as [H1 H2].
  apply andb_true_iff in H1. destruct H1 as [H1 H3]. now rewrite H1, H2, H3.
Qed.


(** the iterations of a DO loop over [v], given the simulation of one run of the body ([run'] is the
    substituted body); the body does not write the substituted variables, and neither does the loop *)
Lemma do_loop_msubst sg D A v d (run run' : store -> option store) :
  dom sg v = false ->
  (forall s s', run s = Some s' -> forall x, dom sg x = true -> sv s' x = sv s x) ->
  (forall s t s', sim (dminus D v) A s t -> sg_ok sg s -> run s = Some s' ->
     exists t', run' t = Some t' /\ sim (dminus D v) A s' t') ->
  forall n i s t s', sim D A s t -> sg_ok sg s -> do_loop run v d n i s = Some s' ->
  exists t', do_loop run' v d n i t = Some t' /\ sim (dminus D v) A s' t'.
Proof.
  intros Hv Hfr Hrun.
  assert (Hset : forall i s, sg_ok sg s -> sg_ok sg (set_sv v i s)).
  { intros i s. apply sg_ok_frame. intros x Hx. cbn. destruct (String.eqb x v) eqn:Ex; [|reflexivity].
    apply String.eqb_eq in Ex. subst. congruence. }
  induction n as [|n IH]; intros i s t s' Hs Hg E; cbn in E |- *.
  - injection E as <-. eexists; split; [reflexivity|]. now apply sim_set_both.
  - apply obind_some in E as [s2 [E1 E2]].
    destruct (Hrun _ (set_sv v i t) _ (sim_set_both D A v i _ _ Hs) (Hset i s Hg) E1) as [t2 [Et2 Hs2]].
    rewrite Et2. cbn [obind]. apply (IH (i + d) s2 t2 s'); [exact (sim_dminus _ _ _ _ _ Hs2)| |exact E2].
    eapply sg_ok_frame; [exact (Hfr _ _ E1)|now apply Hset].
Qed.

(** simulation of a program by its substituted version from stores that agree outside [D]/[A] *)
Lemma exec_msubst ps sg A : forall f D P s t s',
  sim D A s t -> sg_ok sg s ->
  forallb (nreads (dsub D sg) A) P = true -> forallb (nwrites (dom sg) dnone) P = true ->
  exec ps f P s = Some s' ->
  exists t', exec ps f (msubst_l sg P) t = Some t' /\ sim D A s' t'.
Proof.
  induction f as [|f IH]; intros D P s t s' Hsim Hsg HR HW E; [discriminate|].
  destruct P as [|st rest]; [apply exec_nil in E as ->; exists t; split; [reflexivity|exact Hsim]|].
  cbn [msubst_l map]. rewrite exec_unfold in *. apply obind_some in E as [s1 [E1 E2]].
  cbn [forallb] in HR, HW. apply andb_true_iff in HR as [HRs HRr]. apply andb_true_iff in HW as [HWs HWr].
  assert (Hok1 : sg_ok sg s1).
  { eapply sg_ok_frame; [|exact Hsg].
    refine (proj1 (exec_frame ps (dom sg) dnone (S (S f)) [st] s s1 _ _)); [cbn; now rewrite HWs|].
    rewrite exec_unfold. rewrite (exec1_mono ps f (exec_fuel_S ps f) _ _ _ E1). reflexivity. }
  assert (Step : exists t1, exec1 ps f (msubst_s sg st) t = Some t1 /\ sim D A s1 t1);
    [|destruct Step as [t1 [Et1 Hs1]]; rewrite Et1; exact (IH D rest _ t1 _ Hs1 Hok1 HRr HWr E2)].
  clear E2 HRr HWr Hok1 rest.
  pose proof (evalZ_msubst D A sg s t Hsim Hsg) as EZ. pose proof (evalB_msubst D A sg s t Hsim Hsg) as EB.
  destruct st as [x e|a idx e|v lo hi stp body|c body|c tb eb|g args|l];
    cbn [nreads] in HRs; cbn [nwrites] in HWs; cbn [exec1 msubst_s] in *.
  - apply obind_some in E1 as [z [Ez E1]]. injection E1 as <-. rewrite <- EZ, Ez by exact HRs. cbn [obind].
    eexists; split; [reflexivity|]. destruct Hsim as [H1 H2]. split; [|exact H2].
    intros y Hy. cbn. destruct (String.eqb y x); [reflexivity|auto].
  - apply andb_true_iff in HRs as [Hi He].
    apply obind_some in E1 as [i [Ei E1]]. apply obind_some in E1 as [z [Ez E1]]. injection E1 as <-.
    rewrite <- (eval_idx_msubst D A sg s t Hsim Hsg idx Hi), Ei, <- EZ, Ez by exact He. cbn [obind].
    eexists; split; [reflexivity|]. destruct Hsim as [H1 H2]. split; [exact H1|].
    intros b j Hb. cbn. destruct (String.eqb b a && list_z_eqb j i); [reflexivity|auto].
  - rewrite !andb_true_iff in HRs. destruct HRs as [[[Hlo Hhi] Hst] Hb]. apply andb_true_iff in HWs as [Hv Hwb].
    apply negb_true_iff in Hv.
    apply obind_some in E1 as [a [Ea E1]]. apply obind_some in E1 as [b [Eb E1]]. apply obind_some in E1 as [d [Ed E1]].
    rewrite <- !EZ, Ea, Eb by assumption. cbn [obind].
    assert (Ed' : match option_map (msubst_e sg) stp with None => Some 1 | Some e => evalZ (env_st t) e end = Some d).
    { destruct stp as [e|]; cbn in *; [|exact Ed]. now rewrite <- EZ. }
    rewrite Ed'. cbn [obind]. destruct (d =? 0); [discriminate|].
    assert (Hfr : forall u u', exec ps f body u = Some u' -> forall x, dom sg x = true -> sv u' x = sv u x)
      by (intros u u' Eu; exact (proj1 (exec_frame ps (dom sg) dnone f body _ _ Hwb Eu))).
    assert (Hrun : forall u w u', sim (dminus D v) A u w -> sg_ok sg u -> exec ps f body u = Some u' ->
              exists w', exec ps f (map (msubst_s sg) body) w = Some w' /\ sim (dminus D v) A u' w').
    { intros u w u' Hu Hg. apply IH; [exact Hu|exact Hg| |exact Hwb].
      revert Hb. apply forallb_nreads_mono; [apply dminus_dsub|auto]. }
    destruct (do_loop_msubst sg D A v d _ _ Hv Hfr Hrun _ _ _ _ _ Hsim Hsg E1) as [t1 [Et1 Hs1]].
    exists t1. split; [exact Et1|exact (sim_dminus _ _ _ _ _ Hs1)].
  - apply andb_true_iff in HRs as [Hc Hb].
    apply obind_some in E1 as [b [Eb E1]]. rewrite <- EB, Eb by exact Hc. cbn [obind].
    destruct b; [|injection E1 as <-; exists t; split; [reflexivity|exact Hsim]].
    apply obind_some in E1 as [s2 [E3 E4]].
    destruct (IH D body _ t _ Hsim Hsg Hb HWs E3) as [t2 [Et2 Hs2]].
    unfold msubst_l in Et2. rewrite Et2. cbn [obind].
    apply (IH D [SWhile c body] s2 t2); [exact Hs2| | | |exact E4]; cbn; rewrite ?Hc, ?Hb, ?HWs; try reflexivity.
    eapply sg_ok_frame; [|exact Hsg]. exact (proj1 (exec_frame ps (dom sg) dnone f body _ _ HWs E3)).
  - rewrite !andb_true_iff in HRs. destruct HRs as [[Hc Ht] He]. apply andb_true_iff in HWs as [Hwt Hwe].
    apply obind_some in E1 as [b [Eb E1]]. rewrite <- EB, Eb by exact Hc. cbn [obind].
    destruct b; [exact (IH D tb _ t _ Hsim Hsg Ht Hwt E1)|exact (IH D eb _ t _ Hsim Hsg He Hwe E1)].
  - discriminate.
  - injection E1 as <-. exists t. split; [reflexivity|exact Hsim].
Qed.

Lemma runs_msubst ps sg D A P s t s' :
  sim D A s t -> sg_ok sg s ->
  forallb (nreads (dsub D sg) A) P = true -> forallb (nwrites (dom sg) dnone) P = true ->
  runs ps P s s' -> exists t', runs ps (msubst_l sg P) t t' /\ sim D A s' t'.
Proof.
  intros H1 H2 H3 H4 [f E]. destruct (exec_msubst ps sg A f D P s t s' H1 H2 H3 H4 E) as [t' [Et Hs]].
  exists t'. split; [now exists f|exact Hs].
Qed.

(** * Non-interference: a program that reads nothing of [D]/[A] maps related stores to related stores *)

Lemma no_call_nwrites_none s : no_call s = true -> nwrites dnone dnone s = true.
Proof.
  induction s using stmt_ind'; cbn; intros Hf; auto.
  - revert Hf. apply (forallb_impl_Forall _ _ _ _ H). auto.
  - revert Hf. apply (forallb_impl_Forall _ _ _ _ H). auto.
  - apply andb_prop in Hf as [A1 A2]. apply andb_true_intro.
    split; [revert A1; apply (forallb_impl_Forall _ _ _ _ H)|revert A2; apply (forallb_impl_Forall _ _ _ _ H0)]; auto.
Qed.

Lemma evalZ_sim D A s t e : sim D A s t -> efree D A e = true -> evalZ (env_st s) e = evalZ (env_st t) e.
Proof.
  intros H Hf. rewrite (evalZ_msubst D A sg_id s t H (sg_ok_id s)); [now rewrite msubst_e_id|].
  revert Hf. apply efree_mono; [apply dsub_sub|auto].
Qed.

Lemma evalB_sim D A s t e : sim D A s t -> efree D A e = true -> evalB (env_st s) e = evalB (env_st t) e.
Proof.
  intros H Hf. rewrite (evalB_msubst D A sg_id s t H (sg_ok_id s)); [now rewrite msubst_e_id|].
  revert Hf. apply efree_mono; [apply dsub_sub|auto].
Qed.

Lemma runs_sim ps D A P s t s' :
  sim D A s t -> forallb (nreads D A) P = true -> forallb no_call P = true ->
  runs ps P s s' -> exists t', runs ps P t t' /\ sim D A s' t'.
Proof.
  intros H1 H2 Hnc Hr.
  destruct (runs_msubst ps sg_id D A P s t s' H1 (sg_ok_id s)) as [t' Ht]; [| |exact Hr|].
  - revert H2. apply forallb_nreads_mono; [apply dsub_sub|auto].
  - revert Hnc. apply forallb_mono, no_call_nwrites_none.
  - rewrite msubst_l_id in Ht. eauto.
Qed.
