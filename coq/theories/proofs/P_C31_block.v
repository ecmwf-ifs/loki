(** C31 — split_loop: the blocked nest visits the same indices in the same order (index arithmetic). *)
From Coq Require Import ZArith List Bool Lia.
From LV Require Import models.M_C10 proofs.P_C10 models.M_C31.
Import ListNotations.
Open Scope Z_scope.

(** the blocks from number [k0] on enumerate the remaining [r = n - (k0-1)*B] indices, starting at
    [a + (k0-1)*B*s]; [nb], the number of those blocks, is [ceil(r/B)] (0 when [r <= 0]), as [num_blocks]
    computes it.  Induction on [nb]: the first block takes [min B r] indices, the rest is the same statement at [k0+1] *)
Lemma blocks_from a s n B : 0 < B -> forall nb k0, 1 <= k0 ->
  nb = Z.to_nat (if n - (k0 - 1) * B <=? 0 then 0 else (n - (k0 - 1) * B - 1) / B + 1) ->
  flat_map (block_indices a s n B) (iota_steps nb k0 1) =
  iota_steps (Z.to_nat (n - (k0 - 1) * B)) (a + (k0 - 1) * B * s) s.
Proof.
  intros HB. induction nb as [|nb IH]; intros k0 Hk Hnb.
  - destruct (n - (k0 - 1) * B <=? 0) eqn:E.
    + replace (Z.to_nat (n - (k0 - 1) * B)) with 0%nat by lia. reflexivity.
    + assert (0 <= (n - (k0 - 1) * B - 1) / B) by (apply Z.div_pos; lia). lia.
  - destruct (n - (k0 - 1) * B <=? 0) eqn:E; [cbn in Hnb; lia|].
    set (r := n - (k0 - 1) * B) in *. assert (Hr : 0 < r) by lia.
    cbn [iota_steps flat_map]. unfold block_indices at 1. cbv zeta.
    rewrite do_trips_unit, (map_iota_steps _ 1 s) by (intros; ring).
    replace (((k0 - 1) * B + 1 + 1 - 1 - 1) * s + a) with (a + (k0 - 1) * B * s) by ring.
    replace (Z.min (k0 * B) n - ((k0 - 1) * B + 1) + 1) with (Z.min B r) by (unfold r; lia).
    rewrite (IH (k0 + 1)); [|lia|].
    + replace (k0 + 1 - 1) with k0 by lia.
      destruct (Z_le_gt_dec r B) as [Hle|Hgt].
      * replace (Z.to_nat (n - k0 * B)) with 0%nat by (unfold r in *; lia).
        replace (Z.min B r) with r by lia. cbn [iota_steps]. now rewrite app_nil_r.
      * replace (Z.min B r) with B by lia.
        replace (Z.to_nat r) with (Z.to_nat B + Z.to_nat (n - k0 * B))%nat by (unfold r in *; lia).
        rewrite iota_steps_app. f_equal. f_equal. lia.
    + replace (k0 + 1 - 1) with k0 by lia.
      destruct (Z_le_gt_dec r B) as [Hle|Hgt].
      * assert (Hq : (r - 1) / B = 0) by (apply Z.div_small; lia).
        rewrite Hq in Hnb. replace (n - k0 * B <=? 0) with true by (unfold r in *; lia). lia.
      * replace (n - k0 * B <=? 0) with false by (unfold r in *; lia).
        assert (Hq : (r - 1) / B = (n - k0 * B - 1) / B + 1).
        { replace (r - 1) with ((n - k0 * B - 1) + 1 * B) by (unfold r; lia). now rewrite Z.div_add by lia. }
        rewrite Hq in Hnb.
        assert (0 <= (n - k0 * B - 1) / B) by (apply Z.div_pos; unfold r in *; lia). lia.
Qed.

(** the blocked nest enumerates a, a+s, ..., a+(n-1)s in order, for every block size B > 0 and every value n
    of num_iterations (nothing is visited when n <= 0) *)
Theorem block_split_indices a s n B : 0 < B -> blocked_indices a s n B = iota_steps (Z.to_nat n) a s.
Proof.
  intros HB. unfold blocked_indices. rewrite do_trips_unit. unfold num_blocks.
  destruct (Z_lt_le_dec 0 n) as [Hn|Hn].
  - rewrite (blocks_from a s n B HB _ 1) by
      (try lia; replace (n - (1 - 1) * B) with n by lia;
       replace (n <=? 0) with false by lia; rewrite Z.quot_div_nonneg by lia; reflexivity).
    replace (n - (1 - 1) * B) with n by lia. f_equal. lia.
  - replace (Z.to_nat n) with 0%nat by lia. cbn [iota_steps].
    assert (Hq : Z.quot (n - 1) B <= 0) by (rewrite <- (Z.quot_0_l B) by lia; apply Z.quot_le_mono; lia).
    destruct (Z.to_nat (Z.quot (n - 1) B + 1)) as [|[|k]] eqn:Ek; [reflexivity| |lia].
    cbn [iota_steps flat_map]. unfold block_indices. cbv zeta. rewrite do_trips_unit.
    replace (Z.to_nat (Z.min (1 * B) n - ((1 - 1) * B + 1) + 1)) with 0%nat by lia. reflexivity.
Qed.

(** on the class where LoopRange.num_iterations is the Fortran trip count (or both denote an empty loop) the
    blocked nest visits exactly the DO-loop trips, in order *)
Theorem block_split_preserves a b s B :
  0 < B -> split_ok a b s = true ->
  blocked_indices a s (num_iterations a b s) B = do_trips a b s.
Proof.
  intros HB Hok. rewrite block_split_indices by exact HB. unfold do_trips. f_equal.
  unfold split_ok in Hok. apply Z.eqb_eq in Hok. lia.
Qed.

(** non-empty loops are in the class (C10) *)
Lemma split_ok_nonempty a b s : s <> 0 -> nonempty a b s = true -> split_ok a b s = true.
Proof.
  intros Hs Hne. unfold split_ok. apply Z.eqb_eq.
  pose proof (num_iterations_count a b s Hs Hne) as H. unfold do_trips in H. rewrite iota_steps_length in H.
  unfold nonempty in Hne. apply Z.ltb_lt in Hne. lia.
Qed.

(** outside the class the blocked loop runs an iteration that the DO loop does not have:
    DO i = 2, 1, 2 has no trip, num_iterations = (1-2)/2 + 1 = 1 *)
Theorem block_split_empty_refuted :
  exists a b s B, 0 < B /\ s <> 0 /\ blocked_indices a s (num_iterations a b s) B <> do_trips a b s.
Proof. exists 2, 1, 2, 3. repeat split; try lia. vm_compute. discriminate. Qed.

Example block_split_nonvacuous :
  split_ok 9 2 (-3) = true /\ blocked_indices 9 (-3) (num_iterations 9 2 (-3)) 2 = [9; 6; 3] /\
  split_ok 1 7 1 = true /\ blocked_indices 1 1 (num_iterations 1 7 1) 3 = [1; 2; 3; 4; 5; 6; 7] /\
  split_ok 5 1 1 = true /\ blocked_indices 5 1 (num_iterations 5 1 1) 2 = [].
Proof. vm_compute. repeat split; reflexivity. Qed.
