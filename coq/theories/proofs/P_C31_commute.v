(** C31 — fusion / fission / interchange under commutation hypotheses, and the soundness of the
    name-level independence check.  The file first defines the vocabulary of those theorems: loops as
    sequences of iterations ([iter], [seq_runs], [seq_sim], [it1], [it2]), the commutation hypotheses
    ([commute_cross], [iterations_commute]) and the side conditions ([fuse_side]). *)
From Coq Require Import ZArith List Bool String Lia Permutation.
From LV Require Import Base.Expr Base.MiniF Base.ListFacts Base.ExprFacts Base.MiniFFacts models.M_C31 proofs.P_C31_base proofs.P_C31_unroll.
From LV Require models.M_C10.
Import ListNotations.
Open Scope Z_scope.

(** * sequences of iterations: (values of the DO variables to set, body) *)
Definition iter : Type := (list (string * Z) * list stmt)%type.

(** [sets [(j,y);(i,x)] s]: i := x first, then j := y *)
Fixpoint sets (l : list (string * Z)) (s : store) : store :=
  match l with
  | [] => s
  | (x, v) :: r => set_sv x v (sets r s)
  end.

Inductive seq_runs (ps : procs) : list iter -> store -> store -> Prop :=
| SR0 s : seq_runs ps [] s s
| SRS l B r s s1 s' : runs ps B (sets l s) s1 -> seq_runs ps r s1 s' -> seq_runs ps ((l, B) :: r) s s'.

Definition seq_sim (ps : procs) (D : string -> bool) (L L' : list iter) : Prop :=
  forall s t s1, sim D dnone s t -> seq_runs ps L s s1 -> exists t1, seq_runs ps L' t t1 /\ sim D dnone s1 t1.

(** every variable that [l] sets is in [D] *)
Definition sets_in (D : string -> bool) (l : list (string * Z)) : Prop := forall x v, In (x, v) l -> D x = true.

(** every iteration of [L] has a call-free body and sets all variables of [D] itself, so that its result
    does not depend on the values they had before *)
Definition all_vars_in (D : string -> bool) (L : list iter) : Prop :=
  forall l B, In (l, B) L -> forallb no_call B = true /\
     (forall x, D x = true -> exists v, In (x, v) l).

(** simulation in both directions: fusion and fission are the two readings of the same chain of steps *)
Definition seq_eqv (ps : procs) (D : string -> bool) (L L' : list iter) : Prop :=
  seq_sim ps D L L' /\ seq_sim ps D L' L.

(** iteration [i] of a loop over [v] with body [B] *)
Definition it1 (v : string) (B : list stmt) (i : Z) : iter := ([(v, i)], B).

(** iteration [j] of A and iteration [i <> j] of B can be exchanged, in either order *)
Definition commute_cross (ps : procs) (v : string) (A B : list stmt) : Prop :=
  forall i j, i <> j ->
    seq_sim ps (single v) [it1 v A j; it1 v B i] [it1 v B i; it1 v A j] /\
    seq_sim ps (single v) [it1 v B i; it1 v A j] [it1 v A j; it1 v B i].

Definition interleaved (v : string) (A B : list stmt) (is : list Z) : list iter :=
  flat_map (fun i => [it1 v A i; it1 v B i]) is.

Definition neg (M : string -> bool) : string -> bool := fun x => negb (M x).

(** side conditions shared by fusion and fission: call-free bodies that do not assign the DO variable, and a range
    that does not depend on anything the loops write ([M]/[MA] = scalars/arrays the bodies may write, incl. [v]) *)
Record fuse_side (v : string) (M MA : string -> bool) (lo hi : expr) (st : option expr) (A B : list stmt) : Prop := {
  fs_ncA : forallb no_call A = true;
  fs_ncB : forallb no_call B = true;
  fs_wvA : forallb (nwrites (single v) dnone) A = true;
  fs_wvB : forallb (nwrites (single v) dnone) B = true;
  fs_Mv : M v = true;
  fs_MA : forallb (nwrites (neg M) (neg MA)) A = true;
  fs_MB : forallb (nwrites (neg M) (neg MA)) B = true;
  fs_lo : efree M MA lo = true;
  fs_hi : efree M MA hi = true;
  fs_st : oefree M MA st = true
}.

Definition inl (L : list string) : string -> bool := fun x => mem_s x L.

Definition row_major (Is Js : list Z) : list (Z * Z) := flat_map (fun x => map (pair x) Js) Is.

Definition col_major (Is Js : list Z) : list (Z * Z) := flat_map (fun y => map (fun x => (x, y)) Is) Js.

(** one iteration of a 2-nest: i := x, then j := y, then the body *)
Definition it2 (i j : string) (body : list stmt) (xy : Z * Z) : iter := ([(j, snd xy); (i, fst xy)], body).

(** the two DO variables of the nest *)
Definition d2 (i j : string) : string -> bool := fun x => String.eqb x i || String.eqb x j.

(** any two distinct iterations of the nest body can be exchanged *)
Definition iterations_commute (ps : procs) (i j : string) (body : list stmt) : Prop :=
  forall p q : Z * Z, p <> q ->
    seq_sim ps (d2 i j) [it2 i j body p; it2 i j body q] [it2 i j body q; it2 i j body p].

Lemma seq_runs_app ps L1 L2 s s1 s2 : seq_runs ps L1 s s1 -> seq_runs ps L2 s1 s2 -> seq_runs ps (L1 ++ L2) s s2.
Proof. induction 1; cbn; [auto|]. intros HH. econstructor; eauto. Qed.

Lemma seq_runs_app_inv ps L1 L2 : forall s s2, seq_runs ps (L1 ++ L2) s s2 ->
  exists s1, seq_runs ps L1 s s1 /\ seq_runs ps L2 s1 s2.
Proof.
  induction L1 as [|x L1 IH]; intros s s2 H; cbn in H.
  - exists s. split; [constructor|exact H].
  - inversion H as [|l B r s0 s3 s4 Hb Hr]; subst. destruct (IH _ _ Hr) as [s5 [H1 H2]].
    exists s5. split; [econstructor; eauto|exact H2].
Qed.

Lemma seq_sim_app ps D L1 L1' L2 L2' :
  seq_sim ps D L1 L1' -> seq_sim ps D L2 L2' -> seq_sim ps D (L1 ++ L2) (L1' ++ L2').
Proof.
  intros H1 H2 s t s2 Hs R. apply seq_runs_app_inv in R. destruct R as [s1 [R1 R2]].
  destruct (H1 _ _ _ Hs R1) as [t1 [T1 S1]]. destruct (H2 _ _ _ S1 R2) as [t2 [T2 S2]].
  exists t2. split; [eapply seq_runs_app; eauto|exact S2].
Qed.

Lemma seq_sim_trans ps D L1 L2 L3 : seq_sim ps D L1 L2 -> seq_sim ps D L2 L3 -> seq_sim ps D L1 L3.
Proof.
  intros H1 H2 s t s1 Hs R. destruct (H1 _ _ _ Hs R) as [t1 [T1 S1]].
  destruct (H2 t t t1 (sim_refl _ _ _) T1) as [t2 [T2 S2]]. exists t2. split; [exact T2|eapply sim_trans; eauto].
Qed.

Lemma sim_sets_both D l s t : sim D dnone s t -> sim D dnone (sets l s) (sets l t).
Proof.
  intros H. induction l as [|[x v] r IH]; cbn; [exact H|].
  destruct IH as [H1 H2]. split; [|exact H2]. intros y Hy. cbn. destruct (String.eqb y x); [reflexivity|auto].
Qed.

Lemma av_sets l u : av (sets l u) = av u.
Proof. induction l as [|[x w] r IH]; [reflexivity|]. cbn [sets]. unfold set_sv. cbn [av]. exact IH. Qed.

(** an expression reads only the names in [ereads] *)
Lemma efree_reads D A e : Forall (fun x => D x = false /\ A x = false) (ereads e) -> efree D A e = true.
Proof.
  induction e using expr_ind'; cbn [ereads efree]; intros Hx; try reflexivity;
    try (apply Forall_flat_map in Hx; apply forallb_Forall, (Forall_mp _ _ _ H Hx));
    try (apply Forall_app in Hx as [H1 H2]; now rewrite IHe1, IHe2); auto.
  - apply Forall_inv in Hx as [-> _]. reflexivity.
  - apply Forall_cons_iff in Hx as [[_ ->] Hx]. apply Forall_flat_map in Hx. apply forallb_Forall, (Forall_mp _ _ _ H Hx).
Qed.

Lemma no_call_nreads s : forall D A, no_call s = true -> Forall (fun x => D x = false /\ A x = false) (sreads s) ->
  nreads D A s = true.
Proof.
  assert (Body : forall D A D' A' b,
    Forall (fun s => forall D A, no_call s = true -> Forall (fun x => D x = false /\ A x = false) (sreads s) -> nreads D A s = true) b ->
    (forall x, D x = false /\ A x = false -> D' x = false /\ A' x = false) ->
    forallb no_call b = true -> Forall (fun x => D x = false /\ A x = false) (flat_map sreads b) ->
    forallb (nreads D' A') b = true).
  { intros D A D' A' b IH Himp Hn Hb. apply Forall_flat_map in Hb.
    revert Hn. apply (forallb_impl_Forall _ _ _ _ (Forall_and IH Hb)). intros q [IHq Hq] Hnq.
    apply IHq; [exact Hnq|]. revert Hq. now apply Forall_impl. }
  induction s using stmt_ind'; intros D A; cbn [no_call sreads nreads]; intros Hn Hx; try discriminate; auto.
  - now apply efree_reads.
  - apply Forall_app in Hx as [Hi He]. rewrite (efree_reads _ _ _ He), andb_true_r.
    apply Forall_flat_map in Hi. apply forallb_Forall. revert Hi. apply Forall_impl, efree_reads.
  - apply Forall_app in Hx as [Hlo Hx]. apply Forall_app in Hx as [Hhi Hx]. apply Forall_app in Hx as [Hst Hb].
    rewrite (efree_reads _ _ _ Hlo), (efree_reads _ _ _ Hhi). cbn. apply andb_true_intro. split.
    + destruct st; [now apply efree_reads|reflexivity].
    + apply (Body D A _ _ b H); [|exact Hn|exact Hb]. intros y [Hy1 Hy2]. unfold dminus. now rewrite Hy1.
  - apply Forall_app in Hx as [Hc Hb]. rewrite (efree_reads _ _ _ Hc). now apply (Body D A D A b H).
  - apply andb_prop in Hn as [N1 N2]. apply Forall_app in Hx as [Hc Hx]. apply Forall_app in Hx as [Ht He].
    rewrite (efree_reads _ _ _ Hc). cbn. apply andb_true_intro. split; [now apply (Body D A D A t H)|now apply (Body D A D A e H0)].
Qed.

(** a call-free body maps extensionally equal stores to extensionally equal stores *)
Lemma runs_ext ps B s t s1 :
  forallb no_call B = true -> sim dnone dnone s t -> runs ps B s s1 -> exists t1, runs ps B t t1 /\ sim dnone dnone s1 t1.
Proof.
  intros Hn Hs. apply runs_sim; [exact Hs| |exact Hn]. revert Hn. apply forallb_mono. intros q Hq.
  apply no_call_nreads; [exact Hq|]. apply Forall_forall. now split.
Qed.

(** after an iteration has set all variables of [D], stores that agreed outside [D] agree everywhere *)
Lemma sets_cover D l s t : (forall x, D x = true -> exists v, In (x, v) l) -> sim D dnone s t -> sim dnone dnone (sets l s) (sets l t).
Proof.
  intros Hc [H1 H2]. split.
  - intros y _. destruct (D y) eqn:Ey; [|].
    + destruct (Hc _ Ey) as [v Hv]. clear Hc Ey. induction l as [|[x w] r IH]; [destruct Hv|].
      cbn. destruct (String.eqb y x) eqn:E; [reflexivity|].
      destruct Hv as [Hv|Hv]; [inversion Hv; subst; rewrite String.eqb_refl in E; discriminate|now apply IH].
    + clear Hc. induction l as [|[x w] r IH]; cbn; [now apply H1|]. destruct (String.eqb y x); [reflexivity|exact IH].
  - intros a i _. rewrite !av_sets. now apply H2.
Qed.

Lemma seq_sim_refl ps D L : all_vars_in D L -> seq_sim ps D L L.
Proof.
  intros HL s t s1 Hs R. revert t Hs. induction R; intros t Hs.
  - exists t. split; [constructor|exact Hs].
  - destruct (HL l B (or_introl eq_refl)) as [Hn Hc].
    destruct (runs_ext ps B _ (sets l t) _ Hn (sets_cover D l s t Hc Hs) H) as [t1 [T1 S1]].
    destruct (IHR (fun l' B' Hin => HL l' B' (or_intror Hin)) t1) as [t2 [T2 S2]].
    + eapply sim_weaken; [| |exact S1]; intros; discriminate.
    + exists t2. split; [econstructor; eauto|exact S2].
Qed.

Lemma seq_sim_cons ps D x L L' : all_vars_in D [x] -> seq_sim ps D L L' -> seq_sim ps D (x :: L) (x :: L').
Proof. intros Hx H. apply (seq_sim_app ps D [x] [x]); [now apply seq_sim_refl|exact H]. Qed.

Lemma seq_sim_app_r ps D L L' R : all_vars_in D R -> seq_sim ps D L L' -> seq_sim ps D (L ++ R) (L' ++ R).
Proof. intros HR H. apply seq_sim_app; [exact H|now apply seq_sim_refl]. Qed.

Lemma all_vars_in_app D L1 L2 : all_vars_in D (L1 ++ L2) <-> all_vars_in D L1 /\ all_vars_in D L2.
Proof.
  unfold all_vars_in. split.
  - intros H. split; intros l B Hin; apply H, in_or_app; auto.
  - intros [H1 H2] l B Hin. apply in_app_or in Hin as [Hin|Hin]; eauto.
Qed.

Lemma seq_eqv_refl ps D L : all_vars_in D L -> seq_eqv ps D L L.
Proof. intros H. split; now apply seq_sim_refl. Qed.

Lemma seq_eqv_sym ps D L L' : seq_eqv ps D L L' -> seq_eqv ps D L' L.
Proof. intros [H1 H2]. now split. Qed.

Lemma seq_eqv_trans ps D L1 L2 L3 : seq_eqv ps D L1 L2 -> seq_eqv ps D L2 L3 -> seq_eqv ps D L1 L3.
Proof. intros [H1 H2] [H3 H4]. split; eapply seq_sim_trans; eassumption. Qed.

Lemma seq_eqv_app ps D L1 L1' L2 L2' :
  seq_eqv ps D L1 L1' -> seq_eqv ps D L2 L2' -> seq_eqv ps D (L1 ++ L2) (L1' ++ L2').
Proof. intros [H1 H2] [H3 H4]. split; now apply seq_sim_app. Qed.

Lemma seq_eqv_cons ps D x L L' : all_vars_in D [x] -> seq_eqv ps D L L' -> seq_eqv ps D (x :: L) (x :: L').
Proof. intros Hx H. apply (seq_eqv_app ps D [x] [x]); [now apply seq_eqv_refl|exact H]. Qed.

(** * moving one iteration across a block of iterations that commute with it *)
Lemma move ps D x L :
  all_vars_in D (x :: L) ->
  (forall y, In y L -> seq_eqv ps D [y; x] [x; y]) -> seq_eqv ps D (L ++ [x]) (x :: L).
Proof.
  induction L as [|y L IH]; intros Hv Hc; [now apply seq_eqv_refl|].
  apply (all_vars_in_app D [x] (y :: L)) in Hv as [Hx Hv]. apply (all_vars_in_app D [y] L) in Hv as [Hy HL].
  cbn [app]. apply seq_eqv_trans with (y :: x :: L).
  - apply seq_eqv_cons; [exact Hy|]. apply IH; [now apply (all_vars_in_app D [x] L)|].
    intros z Hz. apply Hc. now right.
  - apply (seq_eqv_app ps D [y; x] [x; y] L L); [apply Hc; now left|now apply seq_eqv_refl].
Qed.

Lemma all_vars_it1 v (L : list iter) :
  (forall x, In x L -> exists B i, x = it1 v B i /\ forallb no_call B = true) -> all_vars_in (single v) L.
Proof.
  intros H l B Hin. destruct (H _ Hin) as [B' [i [E Hn]]]. inversion E; subst. split; [exact Hn|].
  intros x Hx. unfold single in Hx. apply String.eqb_eq in Hx. subst. exists i. now left.
Qed.

Lemma loop_to_seq ps B v d : forall n a s s',
  loop_runs ps B v d n a s s' ->
  exists s0, seq_runs ps (map (it1 v B) (M_C10.iota_steps n a d)) s s0 /\ s' = set_sv v (a + Z.of_nat n * d) s0.
Proof.
  induction n as [|n IH]; intros a s s' R; inversion R; subst.
  - exists s. split; [constructor|]. f_equal. lia.
  - match goal with H1 : runs _ _ _ _, H2 : loop_runs _ _ _ _ _ _ _ _ |- _ =>
      destruct (IH _ _ _ H2) as [s0 [Q E]]; exists s0; split;
      [cbn [M_C10.iota_steps map]; econstructor; [exact H1|exact Q]|] end.
    rewrite E. f_equal. lia.
Qed.

Lemma seq_to_loop ps B v d : forall n a s s0,
  seq_runs ps (map (it1 v B) (M_C10.iota_steps n a d)) s s0 ->
  loop_runs ps B v d n a s (set_sv v (a + Z.of_nat n * d) s0).
Proof.
  induction n as [|n IH]; intros a s s0 R; cbn [M_C10.iota_steps map] in R; inversion R; subst.
  - replace (a + Z.of_nat 0 * d) with a by lia. constructor.
  - econstructor; [eassumption|]. replace (a + Z.of_nat (S n) * d) with ((a + d) + Z.of_nat n * d) by lia. now apply IH.
Qed.

Lemma iota_in n d : forall a j, In j (M_C10.iota_steps n a d) -> exists k, 0 <= k /\ j = a + k * d.
Proof.
  induction n as [|n IH]; intros a j H; [destruct H|]. destruct H as [H|H].
  - exists 0. split; lia.
  - destruct (IH _ _ H) as [k [Hk E]]. exists (k + 1). split; lia.
Qed.

Lemma iota_nodup n d : d <> 0 -> forall a, NoDup (M_C10.iota_steps n a d).
Proof.
  intros Hd. induction n as [|n IH]; intros a; cbn; constructor; [|apply IH].
  intros H. destruct (iota_in _ _ _ _ H) as [k [Hk E]]. nia.
Qed.

Section FuseSeq.
  Variables (ps : procs) (v : string) (A B : list stmt).
  Hypothesis HnA : forallb no_call A = true.
  Hypothesis HnB : forallb no_call B = true.
  Hypothesis Hc : commute_cross ps v A B.

  Lemma av_ok (L : list iter) :
    (forall x, In x L -> exists i, x = it1 v A i \/ x = it1 v B i) -> all_vars_in (single v) L.
  Proof.
    intros H. apply all_vars_it1. intros x Hx. destruct (H _ Hx) as [i [E|E]]; eauto.
  Qed.

  Lemma okA i : all_vars_in (single v) [it1 v A i].
  Proof. apply av_ok. intros x [<-|[]]. eauto. Qed.
  Lemma okB i : all_vars_in (single v) [it1 v B i].
  Proof. apply av_ok. intros x [<-|[]]. eauto. Qed.
  (* [Proof using] puts both hypotheses on [okmapA], which needs only [HnA]: the lemmas of this section
     are used with both, and all then take the same arguments *)
  Lemma okmapA r : all_vars_in (single v) (map (it1 v A) r).
  Proof using HnA HnB. apply av_ok. intros x Hx. apply in_map_iff in Hx. destruct Hx as [j [<- _]]. eauto. Qed.
  Lemma okmapB r : all_vars_in (single v) (map (it1 v B) r).
  Proof. apply av_ok. intros x Hx. apply in_map_iff in Hx. destruct Hx as [j [<- _]]. eauto. Qed.

  (** A(i1..in) B(i1..in) ~ A(i1) B(i1) ... A(in) B(in): each B(i) moves left across the A(j), j after i *)
  Lemma separate_interleaved : forall is, NoDup is ->
    seq_eqv ps (single v) (map (it1 v A) is ++ map (it1 v B) is) (interleaved v A B is).
  Proof.
    induction is as [|i r IH]; intros Hnd; [apply seq_eqv_refl; intros l X []|].
    inversion Hnd; subst. cbn [map app interleaved flat_map].
    apply seq_eqv_cons; [apply okA|].
    apply seq_eqv_trans with (it1 v B i :: (map (it1 v A) r ++ map (it1 v B) r));
      [|apply seq_eqv_cons; [apply okB|now apply IH]].
    change (map (it1 v A) r ++ it1 v B i :: map (it1 v B) r)
      with (map (it1 v A) r ++ [it1 v B i] ++ map (it1 v B) r).
    rewrite app_assoc. apply (seq_eqv_app ps _ _ (it1 v B i :: map (it1 v A) r)); [|apply seq_eqv_refl, okmapB].
    apply move; [apply (all_vars_in_app _ [_]); split; [apply okB|apply okmapA]|].
    intros y Hy. apply in_map_iff in Hy as [j [<- Hj]]. apply Hc. intros ->. contradiction.
  Qed.

  Hypothesis HwA : forallb (nwrites (single v) dnone) A = true.

  Lemma ext_weaken s t : sim dnone dnone s t -> sim (single v) dnone s t.
  Proof. apply sim_weaken; intros; discriminate. Qed.

  Lemma set_same i m : sv m v = i -> sim dnone dnone m (set_sv v i m).
  Proof.
    intros E. split; [|auto]. intros x _. cbn. destruct (String.eqb x v) eqn:Ex; [|reflexivity].
    apply String.eqb_eq in Ex. now subst.
  Qed.

  Lemma A_keeps_v i s m : runs ps A (set_sv v i s) m -> sv m v = i.
  Proof.
    intros R. destruct (runs_frame ps (single v) dnone A _ _ HwA R) as [F _].
    rewrite (F v) by (unfold single; apply String.eqb_refl). cbn. now rewrite String.eqb_refl.
  Qed.

  (** one iteration of the fused body is an iteration of A followed by one of B: A leaves [v] alone *)
  Lemma fused_interleaved : forall is,
    seq_eqv ps (single v) (map (it1 v (A ++ B)) is) (interleaved v A B is).
  Proof.
    induction is as [|i r IH]; [apply seq_eqv_refl; intros l X []|].
    cbn [map interleaved flat_map].
    apply (seq_eqv_app ps _ [it1 v (A ++ B) i] [it1 v A i; it1 v B i] _ _); [|exact IH].
    assert (Hst : forall s t, sim (single v) dnone s t -> sim dnone dnone (set_sv v i s) (set_sv v i t)).
    { intros s t. apply (sets_cover (single v) [(v, i)]). intros x Hx. apply String.eqb_eq in Hx. subst.
      exists i. now left. }
    split; intros s t s1 Hs R.
    - inversion R as [|l X r0 s0 s2 s3 Hb Hr]; subst. inversion Hr; subst.
      cbn [sets] in Hb. apply runs_app_inv in Hb as [m [RA RB]].
      destruct (runs_ext ps A _ _ _ HnA (Hst _ _ Hs) RA) as [m' [RA' Sm]].
      assert (Sm2 : sim dnone dnone m (set_sv v i m')).
      { eapply sim_trans; [exact Sm|]. apply set_same. eapply A_keeps_v; eauto. }
      destruct (runs_ext ps B _ _ _ HnB Sm2 RB) as [t1 [RB' S1]].
      exists t1. split; [|now apply ext_weaken].
      econstructor; [exact RA'|]. econstructor; [exact RB'|constructor].
    - inversion R as [|l X r0 s0 m s3 RA Hr]; subst.
      inversion Hr as [|l' X' r1 s4 s5 s6 RB Hr']; subst. inversion Hr'; subst. cbn [sets] in RA, RB.
      destruct (runs_ext ps A _ _ _ HnA (Hst _ _ Hs) RA) as [m' [RA' Sm]].
      assert (Sm2 : sim dnone dnone (set_sv v i m) m').
      { eapply sim_trans; [|exact Sm]. apply sim_sym. apply set_same. eapply A_keeps_v; eauto. }
      destruct (runs_ext ps B _ _ _ HnB Sm2 RB) as [t1 [RB' S1]].
      exists t1. split; [|now apply ext_weaken].
      econstructor; [|constructor]. cbn [sets]. eapply runs_app; eauto.
  Qed.

  Lemma fuse_seq is : NoDup is ->
    seq_eqv ps (single v) (map (it1 v A) is ++ map (it1 v B) is) (map (it1 v (A ++ B)) is).
  Proof.
    intros H. eapply seq_eqv_trans; [now apply separate_interleaved|apply seq_eqv_sym, fused_interleaved].
  Qed.
End FuseSeq.

(** frame, read as a relation between the stores before and after *)
Lemma runs_frame_neg ps M MA P s s' :
  forallb (nwrites (neg M) (neg MA)) P = true -> runs ps P s s' -> sim M MA s s'.
Proof.
  intros Hw R. destruct (runs_frame ps _ _ _ _ _ Hw R) as [F1 F2]. split.
  - intros x Hx. symmetry. apply F1. unfold neg. now rewrite Hx.
  - intros a i Ha. symmetry. apply F2. unfold neg. now rewrite Ha.
Qed.

Lemma loop_frame_sim ps v M MA lo hi st body s s' :
  M v = true -> forallb (nwrites (neg M) (neg MA)) body = true ->
  runs1 ps (SDo v lo hi st body) s s' -> sim M MA s s'.
Proof.
  intros Hv Hb R. apply runs_single in R. revert R. apply runs_frame_neg.
  cbn. unfold neg at 1. rewrite Hv. cbn. now rewrite Hb.
Qed.

Lemma bounds_same M MA lo hi st s s' a b d :
  sim M MA s s' -> efree M MA lo = true -> efree M MA hi = true -> oefree M MA st = true ->
  evalZ (env_st s) lo = Some a -> evalZ (env_st s) hi = Some b ->
  (match st with None => Some 1 | Some e => evalZ (env_st s) e end) = Some d ->
  evalZ (env_st s') lo = Some a /\ evalZ (env_st s') hi = Some b /\
  (match st with None => Some 1 | Some e => evalZ (env_st s') e end) = Some d.
Proof.
  intros Hs Hlo Hhi Hst Ea Eb Ed.
  rewrite <- (evalZ_sim M MA s s' lo Hs Hlo), <- (evalZ_sim M MA s s' hi Hs Hhi). repeat split; try assumption.
  destruct st as [e|]; [|exact Ed]. cbn in Hst. now rewrite <- (evalZ_sim M MA s s' e Hs Hst).
Qed.

Lemma sim_set_v v i s : sim (single v) dnone (set_sv v i s) s.
Proof. apply sim_set_left; [unfold single; apply String.eqb_refl|apply sim_refl]. Qed.

(** a DO loop is its iterations in trip order, followed by the final value of the DO variable *)
Lemma runs1_do_seq ps v lo hi st B s s' :
  runs1 ps (SDo v lo hi st B) s s' <->
  exists a b d s0, evalZ (env_st s) lo = Some a /\ evalZ (env_st s) hi = Some b /\
    (match st with None => Some 1 | Some e => evalZ (env_st s) e end) = Some d /\ d <> 0 /\
    seq_runs ps (map (it1 v B) (M_C10.iota_steps (Z.to_nat (trip_count a b d)) a d)) s s0 /\
    s' = set_sv v (a + Z.of_nat (Z.to_nat (trip_count a b d)) * d) s0.
Proof.
  rewrite runs1_do. split.
  - intros [a [b [d [Ea [Eb [Ed [Hd L]]]]]]]. apply loop_to_seq in L as [s0 [Q E]]. exists a, b, d, s0. auto 6.
  - intros [a [b [d [s0 [Ea [Eb [Ed [Hd [Q ->]]]]]]]]]. exists a, b, d. repeat split; try assumption. now apply seq_to_loop.
Qed.

(** the second loop sees the same range: the first one writes nothing the range reads *)
Lemma bounds_after_A ps v M MA lo hi st A B s sA a b d :
  fuse_side v M MA lo hi st A B -> runs1 ps (SDo v lo hi st A) s sA ->
  evalZ (env_st s) lo = Some a -> evalZ (env_st s) hi = Some b ->
  (match st with None => Some 1 | Some e => evalZ (env_st s) e end) = Some d ->
  evalZ (env_st sA) lo = Some a /\ evalZ (env_st sA) hi = Some b /\
  (match st with None => Some 1 | Some e => evalZ (env_st sA) e end) = Some d.
Proof.
  intros [] R. apply (bounds_same M MA); try assumption. now apply (loop_frame_sim ps v M MA lo hi st A).
Qed.

(** the last step of both theorems: the iterations [L1] are simulated by [L2], and the final value of [v]
    is assigned on both sides *)
Lemma seq_sim_finish ps v n (L1 L2 : list iter) s s0 :
  seq_sim ps (single v) L1 L2 -> seq_runs ps L1 s s0 ->
  exists u, seq_runs ps L2 s u /\ sim (single v) dnone (set_sv v n s0) (set_sv v n u).
Proof.
  intros H Q. destruct (H s s s0 (sim_refl _ _ _) Q) as [u [Q' Su]]. exists u. split; [exact Q'|].
  eapply sim_trans; [apply sim_set_v|]. eapply sim_trans; [exact Su|]. apply sim_sym, sim_set_v.
Qed.

(** fusion: two adjacent loops with the same range become one loop over the concatenated bodies *)
Theorem fusion_preserves ps v M MA lo hi st A B s s1 :
  fuse_side v M MA lo hi st A B -> commute_cross ps v A B ->
  runs ps [SDo v lo hi st A; SDo v lo hi st B] s s1 ->
  exists s2, runs ps [SDo v lo hi st (A ++ B)] s s2 /\ sim (single v) dnone s1 s2.
Proof.
  intros Hside Hc R. pose proof Hside as [HnA HnB HwA _ _ _ _ _ _ _].
  apply runs_cons_inv in R as [sA [R1 R2]]. apply runs_single in R2. pose proof R1 as R1'.
  apply runs1_do_seq in R1 as [a [b [d [s0 [Ea [Eb [Ed [Hd [Q1 E1]]]]]]]]].
  destruct (bounds_after_A ps v M MA lo hi st A B s sA a b d Hside R1' Ea Eb Ed) as [Ea2 [Eb2 Ed2]].
  apply runs1_do_seq in R2 as [a' [b' [d' [s0' [Ea' [Eb' [Ed' [_ [Q2 ->]]]]]]]]].
  assert (a' = a) by congruence. assert (b' = b) by congruence. assert (d' = d) by congruence. subst a' b' d'.
  set (n := Z.to_nat (trip_count a b d)) in *. set (is := M_C10.iota_steps n a d) in *.
  (* the iterations of B do not notice the final assignment of [v] by the first loop *)
  assert (S0 : sim (single v) dnone sA s0) by (rewrite E1; apply sim_set_v).
  destruct (seq_sim_refl ps (single v) _ (okmapB v A B HnA HnB is) sA s0 s0' S0 Q2) as [u1 [Q2' Su1]].
  destruct (seq_sim_finish ps v (a + Z.of_nat n * d) _ _ s u1
              (proj1 (fuse_seq ps v A B HnA HnB Hc HwA is (iota_nodup n d Hd a))) (seq_runs_app ps _ _ _ _ _ Q1 Q2'))
    as [u [Q Su]].
  exists (set_sv v (a + Z.of_nat n * d) u). split.
  - apply runs_single, runs1_do_seq. exists a, b, d, u. auto 6.
  - eapply sim_trans; [|exact Su]. eapply sim_trans; [apply sim_set_v|]. eapply sim_trans; [exact Su1|].
    apply sim_sym, sim_set_v.
Qed.

(** fission: the reverse direction *)
Theorem fission_preserves ps v M MA lo hi st A B s s1 :
  fuse_side v M MA lo hi st A B -> commute_cross ps v A B ->
  runs ps [SDo v lo hi st (A ++ B)] s s1 ->
  exists s2, runs ps [SDo v lo hi st A; SDo v lo hi st B] s s2 /\ sim (single v) dnone s1 s2.
Proof.
  intros Hside Hc R. pose proof Hside as [HnA HnB HwA _ _ _ _ _ _ _].
  apply runs_single, runs1_do_seq in R as [a [b [d [s0 [Ea [Eb [Ed [Hd [Q ->]]]]]]]]].
  set (n := Z.to_nat (trip_count a b d)) in *. set (is := M_C10.iota_steps n a d) in *.
  destruct (seq_sim_finish ps v (a + Z.of_nat n * d) _ _ s s0
              (proj2 (fuse_seq ps v A B HnA HnB Hc HwA is (iota_nodup n d Hd a))) Q) as [u2 [Q2 Su2]].
  apply seq_runs_app_inv in Q2 as [m [QA QB]].
  set (sA := set_sv v (a + Z.of_nat n * d) m).
  assert (RA : runs1 ps (SDo v lo hi st A) s sA) by (apply runs1_do_seq; exists a, b, d, m; auto 6).
  destruct (bounds_after_A ps v M MA lo hi st A B s sA a b d Hside RA Ea Eb Ed) as [Ea2 [Eb2 Ed2]].
  assert (Sm : sim (single v) dnone m sA) by (apply sim_sym, sim_set_v).
  destruct (seq_sim_refl ps (single v) _ (okmapB v A B HnA HnB is) m sA u2 Sm QB) as [u3 [QB' Su3]].
  exists (set_sv v (a + Z.of_nat n * d) u3). split.
  - eapply runs_cons; [exact RA|]. apply runs_single, runs1_do_seq. exists a, b, d, u3. auto 6.
  - eapply sim_trans; [exact Su2|]. eapply sim_trans; [apply sim_set_v|]. eapply sim_trans; [exact Su3|].
    apply sim_sym, sim_set_v.
Qed.

Lemma mem_s_in x l : mem_s x l = true <-> In x l.
Proof. apply existsb_eqb_In. Qed.

Lemma disjoint_s_spec a b x : disjoint_s a b = true -> In x a -> mem_s x b = false.
Proof.
  unfold disjoint_s. rewrite forallb_forall. intros H Hx. specialize (H _ Hx). now apply negb_true_iff in H.
Qed.

(** a call-free statement writes only names in [swrites] *)
Lemma writes_only s : forall L, no_call s = true -> Forall (fun x => In x L) (swrites s) ->
  nwrites (neg (inl L)) (neg (inl L)) s = true.
Proof.
  assert (K : forall L x, In x L -> negb (neg (inl L) x) = true).
  { intros L x Hx. unfold neg, inl. apply mem_s_in in Hx. now rewrite Hx. }
  assert (Body : forall L b,
    Forall (fun s => forall L, no_call s = true -> Forall (fun x => In x L) (swrites s) ->
                      nwrites (neg (inl L)) (neg (inl L)) s = true) b ->
    forallb no_call b = true -> Forall (fun x => In x L) (flat_map swrites b) ->
    forallb (nwrites (neg (inl L)) (neg (inl L))) b = true).
  { intros L b IH Hn Hb. apply Forall_flat_map in Hb.
    revert Hn. apply (forallb_impl_Forall _ _ _ _ (Forall_and IH Hb)). intros q [IHq Hq]. auto. }
  induction s using stmt_ind'; intros L; cbn [no_call swrites nwrites]; intros Hn Hw; try discriminate; auto.
  - apply K. now apply Forall_inv in Hw.
  - apply K. now apply Forall_inv in Hw.
  - apply Forall_cons_iff in Hw as [Hv Hb]. rewrite (K _ _ Hv). now apply Body.
  - apply andb_prop in Hn as [N1 N2]. apply Forall_app in Hw as [Ht He]. apply andb_true_intro. split; now apply Body.
Qed.

(** what a call-free body does not write is unchanged *)
Lemma frame_sim ps P s s' : forallb no_call P = true -> runs ps P s s' ->
  sim (inl (flat_map swrites P)) (inl (flat_map swrites P)) s s'.
Proof.
  intros Hn. apply runs_frame_neg. apply forallb_forall. intros q Hq. rewrite forallb_forall in Hn.
  apply writes_only; [now apply Hn|]. apply Forall_forall. intros y Hy. apply in_flat_map. eauto.
Qed.

Lemma reads_free P L : forallb no_call P = true -> disjoint_s L (flat_map sreads P) = true ->
  forallb (nreads (inl L) (inl L)) P = true.
Proof.
  intros Hn Hd. apply forallb_forall. intros q Hq. rewrite forallb_forall in Hn.
  apply no_call_nreads; [now apply Hn|]. apply Forall_forall. intros x Hx.
  assert (E : inl L x = false); [|now rewrite E].
  unfold inl. destruct (mem_s x L) eqn:E; [|reflexivity]. apply mem_s_in in E.
  pose proof (disjoint_s_spec _ _ _ Hd E) as Hm.
  assert (Hin : In x (flat_map sreads P)) by (apply in_flat_map; eauto).
  apply mem_s_in in Hin. congruence.
Qed.

(** two steps of the diamond below.  [X] is what one of the two bodies writes; [sim X X (set_sv v i s) s1]
    is its frame, from the store with the DO variable set *)
Lemma after_frame X v i j s s1 t :
  sim X X (set_sv v i s) s1 -> sim (single v) dnone s t -> sim X X (set_sv v j s1) (set_sv v j t).
Proof.
  intros [F1 F2] [H1 H2]. split.
  - intros x Hx. cbn. destruct (String.eqb x v) eqn:E; [reflexivity|].
    rewrite <- (F1 x Hx). cbn. rewrite E. now apply H1.
  - intros a k Ha. cbn. rewrite <- (F2 a k Ha). now apply H2.
Qed.

Lemma before_frame X v i a b c :
  sim X X a b -> sim X X (set_sv v i b) c -> sim (fun x => X x || single v x) X a c.
Proof.
  intros [H1 H2] [F1 F2]. split.
  - intros x Hx. apply orb_false_elim in Hx as [Hx Hv]. rewrite (H1 x Hx), <- (F1 x Hx). cbn.
    unfold single in Hv. now rewrite Hv.
  - intros k j Hk. now rewrite (H2 k j Hk), <- (F2 k j Hk).
Qed.

(** the diamond: P then Q from [s], Q then P from [t].  Each body, run second, sees what it saw when run first
    (the other one writes nothing it reads); the results agree outside what P writes (and [v]) and outside what Q
    writes (and [v]), hence outside [v], the two write sets being disjoint *)
Lemma swap_indep ps v P Q p q :
  forallb no_call P = true -> forallb no_call Q = true ->
  disjoint_s (flat_map swrites P) (flat_map sreads Q) = true ->
  disjoint_s (flat_map swrites P) (flat_map swrites Q) = true ->
  disjoint_s (flat_map swrites Q) (flat_map sreads P) = true ->
  seq_sim ps (single v) [it1 v P p; it1 v Q q] [it1 v Q q; it1 v P p].
Proof.
  intros HnP HnQ Hpq Hww Hqp s t s2 Hst R.
  inversion R as [|l X r0 s0 s1 s3 RP Hr]; subst. inversion Hr as [|l' X' r1 s4 s5 s6 RQ Hr']; subst.
  inversion Hr'; subst. cbn [sets] in RP, RQ.
  set (WP := inl (flat_map swrites P)). set (WQ := inl (flat_map swrites Q)).
  pose proof (frame_sim ps P _ _ HnP RP) as FP. pose proof (frame_sim ps Q _ _ HnQ RQ) as FQ.
  destruct (runs_sim ps WP WP Q _ _ _ (after_frame WP v p q s s1 t FP Hst) (reads_free Q _ HnQ Hpq) HnQ RQ)
    as [t1 [TQ SQ]].
  pose proof (frame_sim ps Q _ _ HnQ TQ) as GQ.
  destruct (runs_sim ps WQ WQ P _ _ _ (sim_sym _ _ _ _ (after_frame WQ v q p t t1 s GQ (sim_sym _ _ _ _ Hst)))
              (reads_free P _ HnP Hqp) HnP RP) as [t2 [TP SP]].
  pose proof (frame_sim ps P _ _ HnP TP) as GP.
  exists t2. split; [econstructor; [exact TQ|econstructor; [exact TP|constructor]]|].
  assert (Hex : forall x, WP x = true -> WQ x = true -> False).
  { intros x Hx Hy. unfold WP, inl in Hx. unfold WQ, inl in Hy. apply mem_s_in in Hx.
    rewrite (disjoint_s_spec _ _ _ Hww Hx) in Hy. discriminate. }
  eapply sim_meet; [| |exact (before_frame WP v p s2 t1 t2 SQ GP)
                      |exact (sim_sym _ _ _ _ (before_frame WQ v q t2 s1 s2 (sim_sym _ _ _ _ SP) FQ))].
  - intros x Hx Hy. apply orb_prop in Hx as [Hx|Hx]; [|exact Hx]. apply orb_prop in Hy as [Hy|Hy]; [|exact Hy].
    destruct (Hex x Hx Hy).
  - intros a Hx Hy. destruct (Hex a Hx Hy).
Qed.

Lemma disjoint_s_app_r a b c : disjoint_s a (b ++ c) = true -> disjoint_s a b = true /\ disjoint_s a c = true.
Proof.
  unfold disjoint_s. rewrite !forallb_forall. intros H. split; intros x Hx; specialize (H x Hx);
    apply negb_true_iff in H; apply negb_true_iff; unfold mem_s in *; rewrite existsb_app in H;
    apply orb_false_iff in H; tauto.
Qed.

Lemma disjoint_s_sym a b : disjoint_s a b = true -> disjoint_s b a = true.
Proof.
  unfold disjoint_s. rewrite !forallb_forall. intros H x Hx. apply negb_true_iff.
  destruct (mem_s x a) eqn:E; [|reflexivity]. apply mem_s_in in E. specialize (H x E).
  apply negb_true_iff in H. apply mem_s_in in Hx. congruence.
Qed.

(** [indep_names A B]: neither body writes what the other reads or writes: iterations of A and B commute *)
Theorem indep_check_sound ps v A B : indep_names A B = true -> commute_cross ps v A B.
Proof.
  unfold indep_names. intros H. apply andb_prop in H as [H HBA]. apply andb_prop in H as [H HAB].
  apply andb_prop in H as [HnA HnB].
  apply disjoint_s_app_r in HAB. destruct HAB as [HArB HAwB].
  intros i j _. split.
  - apply swap_indep; try assumption.
  - apply swap_indep; try assumption. now apply disjoint_s_sym.
Qed.

(** a sequence of pairwise commuting iterations may be permuted: by induction over [Permutation], the swap case
    being the hypothesis and the other iterations running unchanged from related stores *)
Lemma perm_seq_sim {K} (F : K -> iter) ps D : forall l l', Permutation l l' ->
  NoDup l -> (forall k, In k l -> all_vars_in D [F k]) ->
  (forall a b, In a l -> In b l -> a <> b -> seq_sim ps D [F a; F b] [F b; F a]) ->
  seq_sim ps D (map F l) (map F l').
Proof.
  assert (AV : forall l, (forall k, In k l -> all_vars_in D [F k]) -> all_vars_in D (map F l)).
  { intros l H x B Hin. apply in_map_iff in Hin. destruct Hin as [k [E Hk]]. apply (H k Hk). left. exact E. }
  induction 1 as [|x l l' HP IH|x y l|l1 l2 l3 HP1 IH1 HP2 IH2]; intros Hnd Hav Hc.
  - apply seq_sim_refl. intros ? ? [].
  - inversion Hnd; subst. cbn [map]. apply seq_sim_cons; [apply Hav; now left|].
    apply IH; [assumption|intros k Hk; apply Hav; now right|].
    intros a b Ha Hb. apply Hc; now right.
  - cbn [map]. change (F y :: F x :: map F l) with ([F y; F x] ++ map F l).
    change (F x :: F y :: map F l) with ([F x; F y] ++ map F l).
    apply seq_sim_app_r; [apply AV; intros k Hk; apply Hav; right; now right|].
    apply Hc; [now left|right; now left|].
    inversion Hnd as [|? ? Hn _]; subst. intros ->. apply Hn. now left.
  - eapply seq_sim_trans; [apply IH1; assumption|].
    apply IH2.
    + eapply Permutation_NoDup; eauto.
    + intros k Hk. apply Hav. eapply Permutation_in; [apply Permutation_sym; exact HP1|exact Hk].
    + intros a b Ha Hb. apply Hc; eapply Permutation_in; try (apply Permutation_sym; exact HP1); assumption.
Qed.

Lemma perm_flat_cons {A B} (f : A -> B) (g : A -> list B) l :
  Permutation (flat_map (fun y => f y :: g y) l) (map f l ++ flat_map g l).
Proof.
  induction l as [|y l IH]; cbn; [constructor|]. constructor.
  eapply Permutation_trans; [apply Permutation_app_head; exact IH|]. apply Permutation_app_swap_app.
Qed.

Lemma row_col_perm Is Js : Permutation (row_major Is Js) (col_major Is Js).
Proof.
  induction Is as [|x Is IH]; cbn.
  - unfold col_major. induction Js; cbn; [constructor|assumption].
  - unfold col_major. cbn [map]. eapply Permutation_trans; [|apply Permutation_sym; apply perm_flat_cons].
    apply Permutation_app_head. exact IH.
Qed.

Lemma NoDup_app_intro {A} (a b : list A) :
  NoDup a -> NoDup b -> (forall z, In z a -> ~ In z b) -> NoDup (a ++ b).
Proof.
  induction 1 as [|x a Hx Ha IH]; intros Hb Hd; cbn; [exact Hb|]. constructor.
  - intros Hin. apply in_app_or in Hin. destruct Hin as [Hin|Hin]; [contradiction|]. apply (Hd x); [now left|exact Hin].
  - apply IH; [exact Hb|]. intros z Hz. apply Hd. now right.
Qed.

Lemma row_major_nodup Is Js : NoDup Is -> NoDup Js -> NoDup (row_major Is Js).
Proof.
  intros HI HJ. induction HI as [|x Is Hx HI IH]; cbn; [constructor|].
  apply NoDup_app_intro; [|exact IH|].
  - clear -HJ. induction HJ as [|y Js Hy HJ IH]; cbn; constructor; [|exact IH].
    intros Hin. apply in_map_iff in Hin. destruct Hin as [y' [E Hy']]. inversion E; subst. contradiction.
  - intros z Hz Hz'. apply in_map_iff in Hz. destruct Hz as [y [<- _]].
    unfold row_major in Hz'. apply in_flat_map in Hz'. destruct Hz' as [x' [Hx' Hin]].
    apply in_map_iff in Hin. destruct Hin as [y' [E _]]. inversion E; subst. contradiction.
Qed.

(** interchange at the level of iteration sequences: if distinct iterations of the body commute (modulo the two
    DO variables) the column-major order computes what the row-major order computes.
    PARTIAL: what is missing for the statement about the two DO nests is the link between [runs] of the nested
    SDo statements and these sequences (the inner range is re-evaluated at every outer trip and must be invariant;
    final values of i and j differ and are excluded by [d2]). *)
Theorem interchange_preserves_partial ps i j body Is Js :
  forallb no_call body = true -> NoDup Is -> NoDup Js -> iterations_commute ps i j body ->
  seq_sim ps (d2 i j) (map (it2 i j body) (row_major Is Js)) (map (it2 i j body) (col_major Is Js)).
Proof.
  intros Hn HI HJ Hc. apply perm_seq_sim.
  - apply row_col_perm.
  - now apply row_major_nodup.
  - intros k _ l B [E|[]]. inversion E; subst. split; [exact Hn|].
    intros x Hx. unfold d2 in Hx. apply orb_true_iff in Hx. destruct Hx as [Hx|Hx]; apply String.eqb_eq in Hx; subst.
    + exists (fst k). right. now left.
    + exists (snd k). now left.
  - intros a b _ _ Hab. now apply Hc.
Qed.
