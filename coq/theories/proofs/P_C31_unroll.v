(** C31 — loop unrolling preserves behaviour modulo the DO variables: [body_sim], its congruences, the class
    predicates through [ut], then [ut_sim], [pu_sim] and the property theorems [unroll_total], [unroll_preserves], [unroll_loop_preserves]
    (stated with [agree_except] and [unroll1], defined here).
    The end of the file shows that the two comparison normalisations [strip_skips] and [norm_l] are sound. *)
From Coq Require Import ZArith List Bool String Lia.
From LV Require Import Base.Expr Base.MiniF Base.ListFacts Base.ExprFacts Base.MiniFFacts models.M_C31 proofs.P_C31_base.
From LV Require models.M_C10 proofs.P_C10.
Import ListNotations.
Open Scope Z_scope.

(** [b'] simulates [b] forwards: from stores that agree outside the scalars [D] (and on every array cell)
    whatever [b] reaches, [b'] reaches a store that agrees with it in the same sense *)
Definition body_sim (ps : procs) (D : string -> bool) (b b' : list stmt) : Prop :=
  forall s t s1, sim D dnone s t -> runs ps b s s1 -> exists t1, runs ps b' t t1 /\ sim D dnone s1 t1.

(** stores agree on every array cell and on every scalar outside [X] *)
Definition agree_except (X : list string) (s t : store) : Prop := sim (dmem X) dnone s t.

(** a single loop with literal bounds and non-zero literal step: its copies in trip order *)
Definition unroll1 (v : string) (a b c : Z) (body : list stmt) : list stmt :=
  flat_map (fun i => msubst_l (subst1 v i) body) (M_C10.do_trips a b c).

Lemma body_sim_nil ps D : body_sim ps D [] [].
Proof. intros s t s1 H R. apply runs_nil_inv in R. subst. exists t. split; [apply runs_nil|exact H]. Qed.

Lemma body_sim_app ps D a a' b b' :
  body_sim ps D a a' -> body_sim ps D b b' -> body_sim ps D (a ++ b) (a' ++ b').
Proof.
  intros Ha Hb s t s1 H R. apply runs_app_inv in R. destruct R as [s2 [R1 R2]].
  destruct (Ha _ _ _ H R1) as [t2 [T1 H2]]. destruct (Hb _ _ _ H2 R2) as [t1 [T2 H1]].
  exists t1. split; [eapply runs_app; eauto|exact H1].
Qed.

Lemma body_sim_cons ps D st a' r r' :
  body_sim ps D [st] a' -> body_sim ps D r r' -> body_sim ps D (st :: r) (a' ++ r').
Proof. intros H1 H2. change (st :: r) with ([st] ++ r). now apply body_sim_app. Qed.

Lemma body_sim_cons_same ps D st st' r r' :
  body_sim ps D [st] [st'] -> body_sim ps D r r' -> body_sim ps D (st :: r) (st' :: r').
Proof. apply (body_sim_cons ps D st [st']). Qed.

Lemma body_sim_trans ps D a b c : body_sim ps D a b -> body_sim ps D b c -> body_sim ps D a c.
Proof.
  intros H1 H2 s t s1 H R. destruct (H1 _ _ _ H R) as [t1 [T1 S1]].
  destruct (H2 t t t1 (sim_refl _ _ _) T1) as [t2 [T2 S2]].
  exists t2. split; [exact T2|eapply sim_trans; eauto].
Qed.

Lemma body_sim_drop_skip ps D p r r' : body_sim ps D r r' -> body_sim ps D (SSkip p :: r) r'.
Proof.
  intros H s t s1 Hs R. apply runs_cons_inv in R. destruct R as [s2 [R1 R2]].
  apply runs1_skip_inv in R1. subst. eauto.
Qed.

Lemma forallb_map_ext {A} (p : A -> bool) (h : A -> A) l :
  Forall (fun x => p (h x) = p x) l -> forallb p (map h l) = forallb p l.
Proof. induction 1 as [|x l Hx _ IH]; cbn; [reflexivity|]. now rewrite Hx, IH. Qed.

Lemma strip_attached_incl l : forall x, In x (strip_attached l) -> In x l.
Proof.
  induction l as [|s r IH]; intros x Hx; [exact Hx|].
  assert (Keep : In x (s :: strip_attached r) -> In x (s :: r)) by (intros [H|H]; [now left|right; now apply IH]).
  cbn [strip_attached] in Hx.
  destruct s; try exact (Keep Hx). destruct r as [|s2 r2]; [exact (Keep Hx)|]. destruct s2; try exact (Keep Hx).
  destruct (is_unroll_pragma label); [right; now apply IH|exact (Keep Hx)].
Qed.

Lemma forallb_strip_attached (p : stmt -> bool) l : forallb p l = true -> forallb p (strip_attached l) = true.
Proof.
  intros H. apply forallb_forall. intros x Hx. rewrite forallb_forall in H. apply H. now apply strip_attached_incl.
Qed.

Lemma nwrites_msubst sg W WA s : nwrites W WA (msubst_s sg s) = nwrites W WA s.
Proof.
  induction s using stmt_ind'; cbn; try reflexivity.
  - now rewrite (forallb_map_ext _ _ _ H).
  - now rewrite (forallb_map_ext _ _ _ H).
  - now rewrite (forallb_map_ext _ _ _ H), (forallb_map_ext _ _ _ H0).
Qed.

Lemma forallb_nwrites_msubst sg W WA l : forallb (nwrites W WA) (msubst_l sg l) = forallb (nwrites W WA) l.
Proof. unfold msubst_l. apply forallb_map_ext. apply Forall_forall. intros; apply nwrites_msubst. Qed.

Lemma uok_do D v lo hi st b : uok D (SDo v lo hi st b) = true ->
  D v = true /\ efree D dnone lo = true /\ efree D dnone hi = true /\ oefree D dnone st = true /\
  forallb (uok (dminus D v)) b = true /\ forallb (nwrites (single v) dnone) b = true.
Proof. cbn [uok]. intros H. repeat (apply andb_prop in H as [H ?]). auto 6. Qed.

(** substituting the literal for [v] removes [v] from what is read; [D'] is [D] without [v], given
    extensionally so that the statement is stable under the [dminus] of an enclosing loop *)
Lemma efree_subst1 D D' A v i e : (forall x, D' x = dminus D v x) ->
  efree D' A e = true -> efree D A (msubst_e (subst1 v i) e) = true.
Proof.
  intros HD. induction e using expr_ind'; cbn [efree msubst_e]; intros Hf; try reflexivity;
    try (rewrite forallb_map; revert Hf; apply (forallb_impl_Forall _ _ _ _ H); now auto);
    try (apply andb_prop in Hf as [H1 H2]; now rewrite IHe1, IHe2); auto.
  - rewrite HD in Hf. unfold subst1, dminus in *. destruct (String.eqb x v); cbn in *; [reflexivity|].
    now rewrite andb_true_r in Hf.
  - apply andb_prop in Hf as [H1 H2]. rewrite H1, forallb_map. cbn.
    revert H2. apply (forallb_impl_Forall _ _ _ _ H). auto.
Qed.

Lemma uok_subst1 v i s : forall D D', (forall x, D' x = dminus D v x) ->
  uok D' s = true -> uok D (msubst_s (subst1 v i) s) = true.
Proof.
  induction s using stmt_ind'; intros D D' HD; intros Hu; try exact Hu;
    pose proof (efree_subst1 D D' dnone v i) as ES; try (apply uok_do in Hu as (Hv & Hlo & Hhi & Hst & Hb & Hw)); cbn [uok msubst_s] in *.
  - now apply ES.
  - apply andb_prop in Hu as [H1 H2]. rewrite (ES _ HD H2), andb_true_r, forallb_map.
    revert H1. apply forallb_mono. intros x. now apply ES.
  - rewrite HD in Hv. apply dminus_sub in Hv. rewrite Hv, (ES _ HD Hlo), (ES _ HD Hhi), !forallb_map. cbn.
    apply andb_true_intro. split; [apply andb_true_intro; split|].
    + destruct st; cbn in *; [now apply ES|reflexivity].
    + revert Hb. apply (forallb_impl_Forall _ _ _ _ H). intros q IHq. apply IHq.
      intros x. unfold dminus. rewrite HD. unfold dminus. now destruct (D x), (String.eqb x v), (String.eqb x v0).
    + revert Hw. apply forallb_mono. intros q. now rewrite nwrites_msubst.
  - apply andb_prop in Hu as [H1 H2]. rewrite (ES _ HD H1), forallb_map. cbn.
    revert H2. apply (forallb_impl_Forall _ _ _ _ H). eauto.
  - apply andb_prop in Hu as [Hu H3]. apply andb_prop in Hu as [H1 H2]. rewrite (ES _ HD H1), !forallb_map. cbn.
    apply andb_true_intro.
    split; [revert H2; apply (forallb_impl_Forall _ _ _ _ H)|revert H3; apply (forallb_impl_Forall _ _ _ _ H0)]; eauto.
Qed.

Lemma forallb_uok_subst1 v i D l :
  forallb (uok (dminus D v)) l = true -> forallb (uok D) (msubst_l (subst1 v i) l) = true.
Proof.
  unfold msubst_l. rewrite forallb_map. apply forallb_mono. intros s. now apply uok_subst1.
Qed.

Lemma uok_nreads s : forall D, uok D s = true -> nreads D dnone s = true.
Proof.
  induction s using stmt_ind'; intros D Hu; try exact Hu; try (apply uok_do in Hu as (_ & Hlo & Hhi & Hst & Hb & _)); cbn [uok nreads] in *.
  - rewrite Hlo, Hhi, Hst. cbn.
    revert Hb. apply (forallb_impl_Forall _ _ _ _ H). auto.
  - apply andb_prop in Hu as [Hc Hb]. rewrite Hc. cbn. revert Hb. apply (forallb_impl_Forall _ _ _ _ H). auto.
  - apply andb_prop in Hu as [Hu He]. apply andb_prop in Hu as [Hc Ht]. rewrite Hc. cbn. apply andb_true_intro.
    split; [revert Ht; apply (forallb_impl_Forall _ _ _ _ H)|revert He; apply (forallb_impl_Forall _ _ _ _ H0)]; auto.
Qed.

Lemma uok_no_call s : forall D, uok D s = true -> no_call s = true.
Proof.
  induction s using stmt_ind'; intros D Hu; try reflexivity; try exact Hu; try (apply uok_do in Hu as (_ & _ & _ & _ & Hb & _)); cbn [uok no_call] in *.
  - revert Hb. apply (forallb_impl_Forall _ _ _ _ H). eauto.
  - apply andb_prop in Hu as [_ Hb]. revert Hb. apply (forallb_impl_Forall _ _ _ _ H). eauto.
  - apply andb_prop in Hu as [Hu He]. apply andb_prop in Hu as [_ Ht]. apply andb_true_intro.
    split; [revert Ht; apply (forallb_impl_Forall _ _ _ _ H)|revert He; apply (forallb_impl_Forall _ _ _ _ H0)]; eauto.
Qed.

Lemma body_sim_refl_uok ps D l : forallb (uok D) l = true -> body_sim ps D l l.
Proof.
  intros H s t s1 Hs R. eapply runs_sim; [exact Hs| | |exact R]; revert H; apply forallb_mono; intros x.
  - apply uok_nreads.
  - apply uok_no_call.
Qed.

(** [ut] binds its own local [utl]; the equation states it with the global [utl], which [cbn] would not *)
Lemma ut_S f depth s :
  ut (S f) depth s =
  match s with
  | SDo v lo hi st body =>
      let d' := option_map Z.pred depth in
      match lit3 lo hi st with
      | Some (a, b, c) =>
        if c =? 0 then [raise_marker] else
        let rng := M_C10.get_pyrange a b c in
        if neighbour_loops body || counter_in_bounds v body then
          flat_map (fun i => let cp := msubst_l (subst1 v i) body in if rec_ok d' then utl f d' cp else cp) rng
        else
          let body' := if rec_ok d' then utl f d' body else body in
          flat_map (fun i => msubst_l (subst1 v i) body') rng
      | None => [SDo v lo hi st (utl f d' body)]
      end
  | SIf c t e => [SIf c (utl f depth t) (utl f depth e)]
  | SWhile c b => [SWhile c (utl f depth b)]
  | _ => [s]
  end.
Proof. reflexivity. Qed.

Lemma forallb_utl (p : stmt -> bool) f d l :
  (forall s, p s = true -> forallb p (ut f d s) = true) -> forallb p l = true -> forallb p (utl f d l) = true.
Proof.
  intros Hut Hl. unfold utl. rewrite forallb_flat_map. apply forallb_forall. intros x Hx. apply Hut.
  apply strip_attached_incl in Hx. rewrite forallb_forall in Hl. now apply Hl.
Qed.

Lemma nwrites_ut W WA : forall f d s, nwrites W WA s = true -> forallb (nwrites W WA) (ut f d s) = true.
Proof.
  induction f as [|f IH]; intros d s Hs; [cbn [ut forallb]; now rewrite Hs|].
  pose proof (fun d l => forallb_utl (nwrites W WA) f d l (IH d)) as IHl.
  rewrite ut_S. destruct s as [x e|a idx e|v lo hi stp body|c body|c tb eb|g args|l]; try (cbn [forallb]; now rewrite Hs).
  - cbn [nwrites] in Hs. apply andb_true_iff in Hs as [Hv Hb]. cbv zeta.
    destruct (lit3 lo hi stp) as [[[a b] c]|]; [|cbn; now rewrite Hv, (IHl _ _ Hb)].
    destruct (c =? 0); [reflexivity|].
    destruct (neighbour_loops body || counter_in_bounds v body); rewrite forallb_flat_map; apply forallb_forall; intros i _; cbv zeta.
    + destruct (rec_ok _); [apply IHl|]; now rewrite forallb_nwrites_msubst.
    + rewrite forallb_nwrites_msubst. destruct (rec_ok _); [now apply IHl|exact Hb].
  - cbn [nwrites] in Hs. cbn. now rewrite (IHl _ _ Hs).
  - cbn [nwrites] in Hs. apply andb_true_iff in Hs as [H1 H2]. cbn. now rewrite (IHl _ _ H1), (IHl _ _ H2).
Qed.

Lemma nwrites_utl W WA f d l : forallb (nwrites W WA) l = true -> forallb (nwrites W WA) (utl f d l) = true.
Proof. apply forallb_utl. intros s. apply nwrites_ut. Qed.

Lemma uok_ut : forall f d s D, uok D s = true -> forallb (uok D) (ut f d s) = true.
Proof.
  induction f as [|f IH]; intros d s D Hs; [cbn [ut forallb]; now rewrite Hs|].
  pose proof (fun d l D => forallb_utl (uok D) f d l (fun s => IH d s D)) as IHl.
  rewrite ut_S. destruct s as [x e|a idx e|v lo hi stp body|c body|c tb eb|g args|l]; try (cbn [forallb]; now rewrite Hs).
  - apply uok_do in Hs as (Hv & Hlo & Hhi & Hst & Hb & Hw). cbv zeta.
    destruct (lit3 lo hi stp) as [[[a b] c]|].
    + destruct (c =? 0); [reflexivity|].
      destruct (neighbour_loops body || counter_in_bounds v body); rewrite forallb_flat_map; apply forallb_forall; intros i _; cbv zeta.
      * destruct (rec_ok _); [apply IHl|]; now apply forallb_uok_subst1.
      * apply forallb_uok_subst1. destruct (rec_ok _); [now apply IHl|assumption].
    + cbn [forallb uok]. rewrite Hv, Hlo, Hhi, Hst, (IHl _ _ _ Hb). cbn. now rewrite nwrites_utl.
  - cbn [uok] in Hs. apply andb_true_iff in Hs as [H1 H2]. cbn. now rewrite H1, (IHl _ _ _ H2).
  - cbn [uok] in Hs. apply andb_prop in Hs as [Hs H3]. apply andb_prop in Hs as [H1 H2]. cbn. now rewrite H1, (IHl _ _ _ H2), (IHl _ _ _ H3).
Qed.

Lemma uok_utl f d l D : forallb (uok D) l = true -> forallb (uok D) (utl f d l) = true.
Proof. apply forallb_utl. intros s. apply uok_ut. Qed.

Lemma lit_val_eval rho e : forall a, lit_val e = Some a -> evalZ rho e = Some a.
Proof.
  induction e using expr_ind'; intros a Hl; cbn in Hl; try discriminate; try (cbn; congruence).
  destruct cs as [|x [|y [|z r]]]; try discriminate; destruct x; try discriminate.
  destruct (v =? -1) eqn:Ev; [|discriminate]. apply Z.eqb_eq in Ev. subst.
  destruct (lit_val y) as [w|] eqn:Ey; [|discriminate]. cbn in Hl. inversion Hl; subst.
  inversion H as [|? ? _ H2]; subst. inversion H2 as [|? ? Hy _]; subst.
  cbn [evalZ fold_right obind]. rewrite (Hy _ Ey). cbn [obind]. f_equal. lia.
Qed.

Lemma lit3_eval rho lo hi st a b c :
  lit3 lo hi st = Some (a, b, c) ->
  evalZ rho lo = Some a /\ evalZ rho hi = Some b /\
  (match st with None => Some 1 | Some e => evalZ rho e end) = Some c.
Proof.
  unfold lit3. destruct (lit_val lo) as [a'|] eqn:Ea; [|discriminate].
  destruct (lit_val hi) as [b'|] eqn:Eb; [|discriminate].
  destruct st as [e|].
  - destruct (lit_val e) as [c'|] eqn:Ec; [|discriminate]. intros H; inversion H; subst.
    repeat split; now apply lit_val_eval.
  - intros H; inversion H; subst. repeat split; now apply lit_val_eval.
Qed.

Lemma loop_runs_sim ps D v d b b' :
  body_sim ps (dminus D v) b b' ->
  forall n i s t s', sim D dnone s t -> loop_runs ps b v d n i s s' ->
  exists t', loop_runs ps b' v d n i t t' /\ sim (dminus D v) dnone s' t'.
Proof.
  intros Hb. induction n as [|n IH]; intros i s t s' Hs R; inversion R; subst.
  - exists (set_sv v i t). split; [constructor|now apply sim_set_both].
  - match goal with H1 : runs _ _ _ _, H2 : loop_runs _ _ _ _ _ _ _ _ |- _ =>
      destruct (Hb _ _ _ (sim_set_both D dnone v i _ _ Hs) H1) as [t1 [T1 S1]];
      destruct (IH _ _ t1 _ (sim_weaken _ _ D dnone _ _ (dminus_sub D v) (fun _ h => h) S1) H2) as [t' [T' S']] end.
    exists t'. split; [econstructor; eauto|exact S'].
Qed.

Lemma do_cong ps D v lo hi st b b' :
  efree D dnone lo = true -> efree D dnone hi = true -> oefree D dnone st = true ->
  body_sim ps (dminus D v) b b' -> body_sim ps D [SDo v lo hi st b] [SDo v lo hi st b'].
Proof.
  intros Hlo Hhi Hst Hb s t s1 Hs R. apply runs_single in R. apply runs1_do in R.
  destruct R as [a [bb [d [Ea [Eb [Ed [Hd L]]]]]]].
  destruct (loop_runs_sim ps D v d b b' Hb _ _ _ t _ Hs L) as [t1 [T1 S1]].
  exists t1. split; [|eapply sim_weaken; [apply dminus_sub| |exact S1]; auto].
  apply runs_single. apply runs1_do. exists a, bb, d.
  rewrite <- (evalZ_sim D dnone s t lo Hs Hlo), <- (evalZ_sim D dnone s t hi Hs Hhi).
  repeat split; try assumption.
  destruct st as [e|]; [|exact Ed]. cbn in Hst. now rewrite <- (evalZ_sim D dnone s t e Hs Hst).
Qed.

Lemma if_cong ps D c tb tb' eb eb' :
  efree D dnone c = true -> body_sim ps D tb tb' -> body_sim ps D eb eb' ->
  body_sim ps D [SIf c tb eb] [SIf c tb' eb'].
Proof.
  intros Hc Ht He s t s1 Hs R. apply runs_single in R.
  destruct R as [f E]. pose proof E as E0. cbn in E. apply obind_some in E. destruct E as [bv [Eb E]].
  assert (R : runs ps (if bv then tb else eb) s s1) by (now exists f).
  assert (Eb' : evalB (env_st t) c = Some bv) by (now rewrite <- (evalB_sim D dnone s t c Hs Hc)).
  destruct bv.
  - destruct (Ht _ _ _ Hs R) as [t1 [T1 S1]]. exists t1. split; [|exact S1].
    apply runs_single. apply (runs1_if ps c tb' eb' t t1 true Eb'). exact T1.
  - destruct (He _ _ _ Hs R) as [t1 [T1 S1]]. exists t1. split; [|exact S1].
    apply runs_single. apply (runs1_if ps c tb' eb' t t1 false Eb'). exact T1.
Qed.

Lemma while_cong ps D c b b' :
  efree D dnone c = true -> body_sim ps D b b' -> body_sim ps D [SWhile c b] [SWhile c b'].
Proof.
  intros Hc Hb s t s1 Hs R. apply runs_single in R. revert t Hs. revert s s1 R.
  apply (runs1_while_ind ps c b (fun s s1 => forall t, sim D dnone s t ->
           exists t1, runs ps [SWhile c b'] t t1 /\ sim D dnone s1 t1)).
  - intros s E t Hs. exists t. split; [|exact Hs].
    apply runs_single, runs1_while_false. now rewrite <- (evalB_sim D dnone s t c Hs Hc).
  - intros s s2 s3 E Rb _ IH t Hs.
    destruct (Hb _ _ _ Hs Rb) as [t2 [Tb S2]]. destruct (IH _ S2) as [t3 [T3 S3]]. exists t3. split; [|exact S3].
    apply runs_single, (runs1_while_true ps c b' t t2 t3); [|exact Tb|exact T3].
    now rewrite <- (evalB_sim D dnone s t c Hs Hc).
Qed.

(** a transformer that rewrites only the bodies of a statement is a simulation if it is one on the bodies *)
Definition map_bodies (g : list stmt -> list stmt) (s : stmt) : stmt :=
  match s with
  | SDo v lo hi st b => SDo v lo hi st (g b)
  | SWhile c b => SWhile c (g b)
  | SIf c t e => SIf c (g t) (g e)
  | _ => s
  end.

Lemma bodies_cong ps D g st : uok D st = true ->
  (forall D' b, forallb (uok D') b = true -> body_sim ps D' b (g b)) ->
  body_sim ps D [st] [map_bodies g st].
Proof.
  intros Hu Hg. destruct st; cbn [map_bodies]; try (apply body_sim_refl_uok; cbn [forallb]; now rewrite Hu).
  - apply uok_do in Hu as (Hv & Hlo & Hhi & Hst & Hb & Hw). apply do_cong; auto.
  - cbn [uok] in Hu. apply andb_prop in Hu as [Hc Hb]. apply while_cong; auto.
  - cbn [uok] in Hu. apply andb_prop in Hu as [Hu He]. apply andb_prop in Hu as [Hc Ht]. apply if_cong; auto.
Qed.

(** substituting the literal for the DO variable simulates running with the variable set *)
Lemma subst_sim ps D v Q :
  D v = true -> forallb (uok (dminus D v)) Q = true -> forallb (nwrites (single v) dnone) Q = true ->
  forall j s t s1, sim D dnone s t -> runs ps Q (set_sv v j s) s1 ->
  exists t1, runs ps (msubst_l (subst1 v j) Q) t t1 /\ sim D dnone s1 t1.
Proof.
  intros Hv Hu Hw j s t s1 Hs R.
  eapply (runs_msubst ps (subst1 v j) D dnone Q (set_sv v j s) t s1); [now apply sim_set_left| | | |exact R].
  - intros x r Hx. unfold subst1 in Hx. destruct (String.eqb x v) eqn:E; [|discriminate].
    inversion Hx; subst. exists j. split; [reflexivity|]. cbn. now rewrite E.
  - apply forallb_Forall. apply forallb_Forall in Hu. eapply Forall_impl; [|exact Hu]. intros q Hq.
    eapply nreads_mono; [| |apply uok_nreads; exact Hq]; [|auto].
    intros x Hx. unfold dsub, dom, subst1, dminus in *. destruct (String.eqb x v); exact Hx.
  - revert Hw. apply forallb_mono. intros q. apply nwrites_mono; [|auto].
    intros x Hx. unfold dom, subst1, single in *. destruct (String.eqb x v); [reflexivity|discriminate].
Qed.

(** the unrolled copies, in trip order, simulate the loop *)
Lemma unrolled_loop ps D v c body (G : Z -> list stmt) :
  D v = true ->
  (forall j s t s1, sim D dnone s t -> runs ps body (set_sv v j s) s1 ->
                    exists t1, runs ps (G j) t t1 /\ sim D dnone s1 t1) ->
  forall n i s t s', sim D dnone s t -> loop_runs ps body v c n i s s' ->
  exists t', runs ps (flat_map G (M_C10.iota_steps n i c)) t t' /\ sim D dnone s' t'.
Proof.
  intros Hv HG. induction n as [|n IH]; intros i s t s' Hs R; inversion R; subst; cbn [M_C10.iota_steps flat_map].
  - exists t. split; [apply runs_nil|now apply sim_set_left].
  - match goal with H1 : runs _ _ _ _, H2 : loop_runs _ _ _ _ _ _ _ _ |- _ =>
      destruct (HG _ _ _ _ Hs H1) as [t1 [T1 S1]]; destruct (IH _ _ _ _ S1 H2) as [t' [T' S']] end.
    exists t'. split; [eapply runs_app; eauto|exact S'].
Qed.

Lemma utl_sim_of ps f :
  (forall d st D, uok D st = true -> body_sim ps D [st] (ut f d st)) ->
  forall d l D, forallb (uok D) l = true -> body_sim ps D l (utl f d l).
Proof.
  intros IH d l. unfold utl. induction l as [|s r IHl]; intros D Hl; [apply body_sim_nil|].
  cbn [forallb] in Hl. apply andb_true_iff in Hl. destruct Hl as [Hs Hr].
  assert (Kept : body_sim ps D (s :: r) (flat_map (ut f d) (s :: strip_attached r))).
  { cbn [flat_map]. apply body_sim_cons; [now apply IH|now apply IHl]. }
  cbn [strip_attached].
  destruct s; try exact Kept. destruct r as [|s2 r2]; [exact Kept|]. destruct s2; try exact Kept.
  destruct (is_unroll_pragma label); [|exact Kept].
  apply body_sim_drop_skip. now apply IHl.
Qed.

(** * LoopUnrollTransformer simulates the original statement modulo the DO variables *)
Theorem ut_sim ps : forall f d st D, uok D st = true -> body_sim ps D [st] (ut f d st).
Proof.
  induction f as [|f IH]; intros d st D Hu.
  - cbn. apply body_sim_refl_uok. cbn. now rewrite Hu.
  - pose proof (utl_sim_of ps f IH) as IHl.
    assert (Struct : forall d', body_sim ps D [st] [map_bodies (utl f d') st])
      by (intros d'; apply bodies_cong; [exact Hu|intros; now apply IHl]).
    rewrite ut_S. destruct st as [x e|a idx e|v lo hi stp body|c body|c tb eb|g args|l]; try exact (Struct d).
    + cbv zeta. destruct (lit3 lo hi stp) as [[[a b] c]|] eqn:E3; [|exact (Struct (option_map Z.pred d))].
      apply uok_do in Hu as (Hv & Hlo & Hhi & Hst & Hb & Hw).
      (* literal bounds: the loop is replaced by its copies *)
      intros s t s1 Hs R. apply runs_single in R. apply runs1_do in R.
      destruct R as [a' [b' [c' [Ea [Eb [Ec [Hc L]]]]]]].
      destruct (lit3_eval (env_st s) _ _ _ _ _ _ E3) as [Ea' [Eb' Ec']].
      assert (a' = a) by congruence. assert (b' = b) by congruence. assert (c' = c) by congruence. subst a' b' c'.
      destruct (c =? 0) eqn:Ez; [apply Z.eqb_eq in Ez; contradiction|].
      rewrite (P_C10.pyrange_eq_trips a b c Hc). unfold M_C10.do_trips.
      (* [M_C10.trip_count] and [MiniF.trip_count] are the same definition, written twice *)
      change (M_C10.trip_count a b c) with (trip_count a b c).
      destruct (neighbour_loops body || counter_in_bounds v body).
      * (* substitute the trip value, then visit each copy *)
        eapply (unrolled_loop ps D v c body); [exact Hv| |exact Hs|exact L].
        intros j s0 t0 s2 Hs0 R0. cbv zeta.
        destruct (subst_sim ps D v body Hv Hb Hw j s0 t0 s2 Hs0 R0) as [t1 [T1 S1]].
        destruct (rec_ok (option_map Z.pred d)); [|eauto].
        destruct (IHl (option_map Z.pred d) (msubst_l (subst1 v j) body) D (forallb_uok_subst1 v j D body Hb)
                      t0 t0 t1 (sim_refl _ _ _) T1) as [t2 [T2 S2]].
        exists t2. split; [exact T2|eapply sim_trans; eauto].
      * (* visit the body once, then substitute the trip value in the result *)
        eapply (unrolled_loop ps D v c body); [exact Hv| |exact Hs|exact L].
        intros j s0 t0 s2 Hs0 R0.
        destruct (rec_ok (option_map Z.pred d)); [|eapply subst_sim; eauto].
        destruct (IHl (option_map Z.pred d) body (dminus D v) Hb
                      (set_sv v j s0) (set_sv v j t0) s2 (sim_set_both D dnone v j _ _ Hs0) R0) as [t1 [T1 S1]].
        destruct (subst_sim ps D v (utl f (option_map Z.pred d) body) Hv
                    (uok_utl _ _ _ _ Hb) (nwrites_utl _ _ _ _ _ Hw) j t0 t0 t1 (sim_refl _ _ _) T1) as [t2 [T2 S2]].
        exists t2. split; [exact T2|]. eapply sim_trans; [|exact S2].
        eapply sim_weaken; [apply dminus_sub| |exact S1]. auto.
Qed.

Lemma pu_S_nil f : pu (S f) [] = [].
Proof. reflexivity. Qed.

(** the same for the local [go] of [pu] *)
Lemma pu_S_cons f s r :
  pu (S f) (s :: r) =
  match s with
  | SSkip p =>
      match unroll_pragma p, r with
      | Some d, (SDo v lo hi st b) :: r' => pu f (ut f d (SDo v lo hi st b)) ++ pu (S f) r'
      | _, _ => s :: pu (S f) r
      end
  | SDo v lo hi st b => SDo v lo hi st (pu f b) :: pu (S f) r
  | SIf c t e => SIf c (pu f t) (pu f e) :: pu (S f) r
  | SWhile c b => SWhile c (pu f b) :: pu (S f) r
  | _ => s :: pu (S f) r
  end.
Proof. reflexivity. Qed.

Theorem pu_sim ps : forall f l D, forallb (uok D) l = true -> body_sim ps D l (pu f l).
Proof.
  induction f as [|f IH]; intros l D Hl; [now apply body_sim_refl_uok|].
  remember (List.length l) as n eqn:Hn. assert (Hle : (List.length l <= n)%nat) by lia. clear Hn.
  revert l Hl Hle. induction n as [|n IHn]; intros l Hl Hle.
  - destruct l; [rewrite pu_S_nil; apply body_sim_nil|cbn in Hle; lia].
  - destruct l as [|s r]; [rewrite pu_S_nil; apply body_sim_nil|].
    cbn [forallb] in Hl. apply andb_true_iff in Hl. destruct Hl as [Hs Hr]. cbn in Hle.
    assert (Hrest : body_sim ps D r (pu (S f) r)) by (apply IHn; [exact Hr|lia]).
    assert (Keep : body_sim ps D (s :: r) (map_bodies (pu f) s :: pu (S f) r))
      by (apply body_sim_cons_same; [apply bodies_cong; [exact Hs|intros; now apply IH]|exact Hrest]).
    rewrite pu_S_cons.
    destruct s as [x e|a idx e|v lo hi stp body|c body|c tb eb|g args|p]; try exact Keep.
    destruct (unroll_pragma p) as [d|]; [|exact Keep].
    destruct r as [|s2 r2]; [exact Keep|]. destruct s2; try exact Keep.
    cbn [forallb] in Hr. apply andb_true_iff in Hr. destruct Hr as [Hs2 Hr2]. cbn in Hle.
    apply body_sim_drop_skip. apply body_sim_cons; [|apply IHn; [exact Hr2|lia]].
    eapply body_sim_trans; [apply ut_sim; exact Hs2|]. apply IH. now apply uok_ut.
Qed.


Lemma agree_except_spec X s t :
  agree_except X s t <-> (forall x, ~ In x X -> sv s x = sv t x) /\ (forall a i, av s a i = av t a i).
Proof.
  unfold agree_except, sim. split; intros [H1 H2]; split.
  - intros x Hx. apply H1. unfold dmem. destruct (existsb (String.eqb x) X) eqn:E; [|reflexivity].
    exfalso. apply Hx. apply existsb_exists in E. destruct E as [y [Hy E]]. apply String.eqb_eq in E. now subst.
  - intros a i. now apply H2.
  - intros x Hx. apply H1. intros Hin. unfold dmem in Hx.
    assert (existsb (String.eqb x) X = true) by (apply existsb_exists; exists x; split; [exact Hin|apply String.eqb_refl]).
    congruence.
  - intros a i _. apply H2.
Qed.

(** whenever the original program runs without error, so does the unrolled one, and the final stores agree
    except on the DO variables *)
Theorem unroll_total ps fuel X prog s s1 :
  forallb (uok (dmem X)) prog = true -> runs ps prog s s1 ->
  exists s2, runs ps (pu fuel prog) s s2 /\ agree_except X s1 s2.
Proof. intros Hc R. exact (pu_sim ps fuel prog (dmem X) Hc s s s1 (sim_refl _ _ _) R). Qed.

Theorem unroll_preserves ps fuel X prog s s1 s2 :
  forallb (uok (dmem X)) prog = true ->
  runs ps (pu fuel prog) s s1 -> runs ps prog s s2 -> agree_except X s2 s1.
Proof.
  intros Hc R1 R2. destruct (unroll_total ps fuel X prog s s2 Hc R2) as [s3 [R3 H3]].
  now rewrite (runs_det ps _ _ _ _ R1 R3).
Qed.

Lemma ut_single v lo hi st body a b c :
  lit3 lo hi st = Some (a, b, c) -> c <> 0 ->
  ut 1 (Some 1) (SDo v lo hi st body) = unroll1 v a b c body.
Proof.
  intros E Hc. rewrite ut_S. cbv zeta. rewrite E. apply Z.eqb_neq in Hc. rewrite Hc.
  apply Z.eqb_neq in Hc. rewrite (P_C10.pyrange_eq_trips a b c Hc). cbn [option_map rec_ok]. unfold unroll1.
  change (1 <=? Z.pred 1) with false. cbv iota.
  destruct (neighbour_loops body || counter_in_bounds v body); reflexivity.
Qed.

Theorem unroll_loop_preserves ps v lo hi st body a b c X s s1 s2 :
  lit3 lo hi st = Some (a, b, c) -> c <> 0 ->
  uok (dmem X) (SDo v lo hi st body) = true ->
  runs ps (unroll1 v a b c body) s s1 -> runs ps [SDo v lo hi st body] s s2 -> agree_except X s2 s1.
Proof.
  intros E Hc Hu R1 R2.
  destruct (ut_sim ps 1 (Some 1) _ _ Hu s s s2 (sim_refl _ _ _) R2) as [s3 [R3 H3]].
  rewrite (ut_single v lo hi st body a b c E Hc) in R3.
  now rewrite (runs_det ps _ _ _ _ R1 R3).
Qed.

(** the class is checkable: [unroll_class] takes X = all DO variables of the program *)
Lemma unroll_class_ok ps fuel prog s s1 s2 :
  unroll_class prog = true ->
  runs ps (pu fuel prog) s s1 -> runs ps prog s s2 -> agree_except (loop_vars prog) s2 s1.
Proof. intros H. now apply unroll_preserves. Qed.

(** a rewrite of statements that is sound on each statement is sound on lists *)
Lemma flat_map_runs ps (T : stmt -> list stmt) l :
  Forall (fun q => forall s s', runs1 ps q s s' -> runs ps (T q) s s') l ->
  forall s s', runs ps l s s' -> runs ps (flat_map T l) s s'.
Proof.
  induction 1 as [|q l Hq _ IH]; intros s s' R; [exact R|].
  apply runs_cons_inv in R as [s1 [R1 R2]]. cbn [flat_map]. eapply runs_app; eauto.
Qed.

Lemma map_runs ps (T : stmt -> stmt) l :
  Forall (fun q => forall s s', runs1 ps q s s' -> runs1 ps (T q) s s') l ->
  forall s s', runs ps l s s' -> runs ps (map T l) s s'.
Proof.
  induction 1 as [|q l Hq _ IH]; intros s s' R; [exact R|].
  apply runs_cons_inv in R as [s1 [R1 R2]]. cbn [map]. eapply runs_cons; eauto.
Qed.

Lemma runs1_if_mono ps c t t' e e' :
  (forall s s', runs ps t s s' -> runs ps t' s s') -> (forall s s', runs ps e s s' -> runs ps e' s s') ->
  forall s s', runs1 ps (SIf c t e) s s' -> runs1 ps (SIf c t' e') s s'.
Proof.
  intros Ht He s s' [f E]. cbn [exec1] in E. apply obind_some in E as [b [Eb E]].
  apply (runs1_if ps c t' e' s s' b Eb). destruct b; [apply Ht|apply He]; now exists f.
Qed.

(** dropping comment/pragma lines is sound (the correspondence compares modulo [strip_skips]) *)
Lemma strip_skips_s_sound ps st : forall s s', runs1 ps st s s' -> runs ps (strip_skips_s st) s s'.
Proof.
  induction st using stmt_ind'; intros s s' R; cbn [strip_skips_s]; try (now apply runs_single).
  - apply runs_single. revert R. apply runs1_do_mono. now apply flat_map_runs.
  - apply runs_single. revert R. apply runs1_while_mono. now apply flat_map_runs.
  - apply runs_single. revert R. apply runs1_if_mono; now apply flat_map_runs.
  - apply runs1_skip_inv in R as ->. apply runs_nil.
Qed.

Theorem strip_skips_sound ps l s s' : runs ps l s s' -> runs ps (strip_skips l) s s'.
Proof. apply flat_map_runs, Forall_forall. intros q _. apply strip_skips_s_sound. Qed.

(** comparing literal DO bounds by value is sound (used for the fused range, which Loki regenerates) *)
Lemma norm_lit_eval rho e : evalZ rho (norm_lit e) = evalZ rho e.
Proof.
  unfold norm_lit. destruct (lit_val e) as [v|] eqn:E; [|reflexivity]. now rewrite (lit_val_eval rho e v E).
Qed.

Lemma norm_s_sound ps st : forall s s', runs1 ps st s s' -> runs1 ps (norm_s st) s s'.
Proof.
  induction st using stmt_ind'; intros s s' R; cbn [norm_s]; try exact R.
  - apply runs1_do in R as [a [hb [d [Ea [Eb [Ed [Hd L]]]]]]]. apply runs1_do. exists a, hb, d.
    rewrite !norm_lit_eval. repeat split; try assumption.
    + destruct st; cbn; [now rewrite norm_lit_eval|exact Ed].
    + revert L. apply loop_runs_mono. now apply map_runs.
  - revert R. apply runs1_while_mono. now apply map_runs.
  - revert R. apply runs1_if_mono; now apply map_runs.
Qed.

Theorem norm_sound ps l s s' : runs ps l s s' -> runs ps (norm_l l) s s'.
Proof. apply map_runs, Forall_forall. intros q _. apply norm_s_sound. Qed.
