(** C32 — the constants map; the expression rewriting [simp] is exact: the rewritten expression has the value of
    the original one, undefinedness included, in every store the map describes. *)
From Coq Require Import ZArith List Bool String Lia.
From LV Require Import Base.Expr Base.ExprFacts Base.MiniF Base.MiniFFacts models.M_C32.
Import ListNotations.
Open Scope Z_scope.

Lemma lookup_remove m x y : lookup (remove m y) x = if String.eqb x y then None else lookup m x.
Proof.
  induction m as [|[k v] r IH]; cbn; [now destruct (String.eqb x y)|].
  destruct (String.eqb k y) eqn:E; cbn; rewrite IH.
  - apply String.eqb_eq in E. subst k. rewrite (String.eqb_sym y x). now destruct (String.eqb x y).
  - destruct (String.eqb k x) eqn:E2; [|reflexivity]. apply String.eqb_eq in E2. subst k. now rewrite E.
Qed.

Lemma lookup_remove_some m x y v : lookup (remove m y) x = Some v -> lookup m x = Some v /\ x <> y.
Proof.
  rewrite lookup_remove. destruct (String.eqb x y) eqn:E; [discriminate|].
  apply String.eqb_neq in E. now split.
Qed.

Lemma lookup_in m x v : lookup m x = Some v -> In (x, v) m.
Proof.
  induction m as [|[k w] r IH]; cbn; [discriminate|].
  destruct (String.eqb k x) eqn:E.
  - apply String.eqb_eq in E. intros H. inversion H. subst. now left.
  - intros H. right. now apply IH.
Qed.

Lemma has_val_true m x v : has_val m x v = true -> lookup m x = Some v.
Proof.
  unfold has_val. destruct (lookup m x) as [w|]; [|discriminate].
  intros H. apply Z.eqb_eq in H. now subst.
Qed.

Lemma lookup_merge m1 m2 x v : lookup (merge m1 m2) x = Some v -> lookup m1 x = Some v /\ lookup m2 x = Some v.
Proof.
  intros H. apply lookup_in in H. unfold merge in H. apply filter_In in H. destruct H as [_ H].
  cbn in H. apply andb_true_iff in H. destruct H as [A B]. split; now apply has_val_true.
Qed.

Lemma disjoint_not_in ws m x v : disjoint ws m = true -> lookup m x = Some v -> ~ In x ws.
Proof.
  unfold disjoint, unknown. rewrite forallb_forall. intros H L I. specialize (H x I). rewrite L in H. discriminate.
Qed.

Lemma disjoint_remove ws m x : disjoint ws m = true -> disjoint ws (remove m x) = true.
Proof.
  unfold disjoint, unknown. rewrite !forallb_forall. intros H y I. rewrite lookup_remove.
  destruct (String.eqb y x); [reflexivity|now apply H].
Qed.

Lemma submap_spec m1 m x v : submap m1 m = true -> lookup m1 x = Some v -> lookup m x = Some v.
Proof.
  unfold submap. intros H L. rewrite forallb_forall in H.
  apply lookup_in in L. apply H in L. cbn in L. now apply has_val_true.
Qed.

(** the map under-approximates the store: every entry is the value the store holds *)
Definition agrees (m : cmap) (s : store) : Prop := forall x v, lookup m x = Some v -> sv s x = v.

Lemma agrees_nil s : agrees [] s.
Proof. intros x v H. discriminate. Qed.

(** a store that has the same values wherever the map has entries is described as well *)
Lemma agrees_frame m s s' : (forall x v, lookup m x = Some v -> sv s' x = sv s x) -> agrees m s -> agrees m s'.
Proof. intros F A x v L. rewrite (F x v L). now apply A. Qed.

Lemma agrees_same_sv m s s' : (forall x, sv s' x = sv s x) -> agrees m s -> agrees m s'.
Proof. intros E. apply agrees_frame. intros x _ _. apply E. Qed.

Lemma agrees_remove m s x : agrees m s -> agrees (remove m x) s.
Proof. intros A y v H. apply lookup_remove_some in H. now apply A. Qed.

Lemma agrees_remove_set m s x v : agrees (remove m x) s -> agrees (remove m x) (set_sv x v s).
Proof.
  apply agrees_frame. intros y w L. apply lookup_remove_some in L. now apply sv_set_other.
Qed.

Lemma agrees_setc m s x v : agrees m s -> agrees (setc m x v) (set_sv x v s).
Proof.
  intros A y w H. unfold setc in H. cbn in H.
  destruct (String.eqb x y) eqn:E.
  - apply String.eqb_eq in E. subst y. inversion H. subst. apply sv_set_same.
  - exact (agrees_remove_set m s x v (agrees_remove m s x A) y w H).
Qed.

Lemma agrees_merge_l m1 m2 s : agrees m1 s -> agrees (merge m1 m2) s.
Proof. intros A x v H. apply lookup_merge in H. now apply A. Qed.

Lemma agrees_merge_r m1 m2 s : agrees m2 s -> agrees (merge m1 m2) s.
Proof. intros A x v H. apply lookup_merge in H. now apply A. Qed.

Lemma agrees_submap m1 m s : submap m1 m = true -> agrees m s -> agrees m1 s.
Proof. intros S A x v H. apply A. eapply submap_spec; eassumption. Qed.

Lemma ev_lit rho v : evalZ rho (lit v) = Some v.
Proof.
  unfold lit. destruct (v <? 0); cbn [evalZ fold_right obind]; [|reflexivity]. f_equal. lia.
Qed.

Lemma ev_sum2 rho p a b :
  evalZ rho (ESum p [a; b]) = obind (evalZ rho a) (fun x => obind (evalZ rho b) (fun y => Some (x + y))).
Proof.
  cbn [evalZ fold_right]. destruct (evalZ rho a) as [x|]; cbn [obind]; [|reflexivity].
  destruct (evalZ rho b) as [y|]; cbn [obind]; [|reflexivity]. f_equal. lia.
Qed.

Lemma ev_prod2 rho p a b :
  evalZ rho (EProd p [a; b]) = obind (evalZ rho a) (fun x => obind (evalZ rho b) (fun y => Some (x * y))).
Proof.
  cbn [evalZ fold_right]. destruct (evalZ rho a) as [x|]; cbn [obind]; [|reflexivity].
  destruct (evalZ rho b) as [y|]; cbn [obind]; [|reflexivity]. f_equal. lia.
Qed.

Lemma ev_negx rho x : evalZ rho (negx x) = obind (evalZ rho x) (fun v => Some (- v)).
Proof.
  unfold negx. rewrite ev_prod2. cbn [evalZ obind]. destruct (evalZ rho x); cbn [obind]; [f_equal; lia|reflexivity].
Qed.

Lemma ev_quot rho p a b :
  evalZ rho (EQuot p a b) = obind (evalZ rho a) (fun x => obind (evalZ rho b) (fun y => div_z x y)).
Proof. reflexivity. Qed.

Lemma total_e_ev s : forall e, total_e e = true -> exists v, evalZ (env_st s) e = Some v.
Proof.
  induction e using expr_ind'; cbn [total_e]; try discriminate; intros T; try (eexists; reflexivity).
  - destruct (omap_list_total _ _ cs H T) as [vs E]. rewrite evalZ_sum, E. eexists; reflexivity.
  - destruct (omap_list_total _ _ cs H T) as [vs E]. rewrite evalZ_prod, E. eexists; reflexivity.
  - apply andb_true_iff in T. destruct T as [T0 T]. apply negb_true_iff in T0.
    destruct (omap_list_total _ _ args H T) as [vs E]. rewrite evalZ_call, E. cbn [obind].
    rewrite (intrinsic_none f vs T0). eexists; reflexivity.
Qed.

(** evaluate the shapes [lit], [negx], two-operand sums/products and quotients inside a goal *)
Ltac ev_norm :=
  cbn [expr_of];
  repeat (progress (rewrite ?ev_lit, ?ev_negx, ?ev_sum2, ?ev_prod2, ?ev_quot; cbn [obind evalZ])).

(** boolean comparisons on [Z] in the context become propositions *)
Ltac z_hyps :=
  repeat match goal with
         | H : (_ =? _) = true |- _ => apply Z.eqb_eq in H
         | H : (_ =? _) = false |- _ => apply Z.eqb_neq in H
         | H : (_ <? _) = true |- _ => apply Z.ltb_lt in H
         | H : (_ <? _) = false |- _ => apply Z.ltb_ge in H
         | H : (_ <=? _) = true |- _ => apply Z.leb_le in H
         | H : (_ <=? _) = false |- _ => apply Z.leb_gt in H
         end.

(** case analysis on the remaining operand values, then arithmetic *)
Ltac ev_done :=
  try reflexivity;
  repeat match goal with
         | |- context [evalZ ?r ?e] => destruct (evalZ r e); cbn [obind]
         end;
  try reflexivity; try (f_equal; lia); try (f_equal; ring).

Definition sem (s : store) (a : sval) : option Z := evalZ (env_st s) (expr_of a).

Lemma sum2_sound s a b r :
  sum2 a b = Some r ->
  sem s r = obind (sem s a) (fun x => obind (sem s b) (fun y => Some (x + y))).
Proof.
  unfold sem. destruct a as [x|x|x|x], b as [y|y|y|y]; cbn [sum2]; try discriminate.
  - intros H; inversion H; subst; ev_norm; ev_done.
  - intros H; inversion H; subst. destruct (x =? 0) eqn:E; z_hyps; subst; ev_norm; ev_done.
  - intros H; inversion H; subst. destruct (x =? 0) eqn:E; z_hyps; subst; ev_norm; ev_done.
  - intros H; inversion H; subst. destruct (y =? 0) eqn:E; z_hyps; subst; ev_norm; ev_done.
  - destruct (expr_eqb x y) eqn:E; intros H; inversion H; subst.
    + apply expr_eqb_eq in E. subst. ev_norm. ev_done.
    + ev_norm. ev_done.
  - destruct (expr_eqb x y) eqn:E.
    + apply expr_eqb_eq in E. subst. destruct (total_e y) eqn:T; [|discriminate].
      intros H; inversion H; subst. destruct (total_e_ev s y T) as [v Ev]. ev_norm. rewrite Ev. cbn. f_equal. lia.
    + intros H; inversion H; subst. ev_norm. ev_done.
  - intros H; inversion H; subst. destruct (y =? 0) eqn:E; z_hyps; subst; ev_norm; ev_done.
  - destruct (expr_eqb x y) eqn:E.
    + apply expr_eqb_eq in E. subst. destruct (total_e y) eqn:T; [|discriminate].
      intros H; inversion H; subst. destruct (total_e_ev s y T) as [v Ev]. ev_norm. rewrite Ev. cbn. f_equal. lia.
    + intros H; inversion H; subst. ev_norm. ev_done.
Qed.

Lemma coef_sound s c y r :
  coef c y = Some r ->
  sem s r = obind (evalZ (env_st s) y) (fun v => Some (c * v)).
Proof.
  unfold coef, sem.
  destruct (c =? 0) eqn:E0.
  { destruct (total_e y) eqn:T; [|discriminate]. intros H; inversion H; subst. z_hyps; subst.
    destruct (total_e_ev s y T) as [v Ev]. rewrite Ev. cbn. reflexivity. }
  destruct (c =? 1) eqn:E1.
  { intros H; inversion H; subst. z_hyps; subst. cbn [expr_of]. ev_done. }
  destruct (c =? -1) eqn:E2.
  { intros H; inversion H; subst. z_hyps; subst. ev_norm. ev_done. }
  destruct (0 <? c) eqn:E3; intros H; inversion H; subst; ev_norm; ev_done.
Qed.

Lemma prod2_sound s a b r :
  prod2 a b = Some r ->
  sem s r = obind (sem s a) (fun x => obind (sem s b) (fun y => Some (x * y))).
Proof.
  destruct a as [x|x|x|x], b as [y|y|y|y]; cbn [prod2]; try discriminate.
  - unfold sem. intros H; inversion H; subst; ev_norm; ev_done.
  - intros H. rewrite (coef_sound s _ _ _ H). unfold sem. ev_norm. ev_done.
  - intros H. rewrite (coef_sound s _ _ _ H). unfold sem. ev_norm. ev_done.
  - unfold sem. intros H; inversion H; subst; ev_norm; ev_done.
Qed.

Lemma div_z_nz a b : b <> 0 -> div_z a b = Some (Z.quot a b).
Proof. intros N. unfold div_z. destruct (b =? 0) eqn:E; [apply Z.eqb_eq in E; congruence|reflexivity]. Qed.

Lemma div_z_0 a : div_z a 0 = None.
Proof. reflexivity. Qed.

Lemma quot2_sound s force a b r :
  quot2 force a b = Some r ->
  sem s r = obind (sem s a) (fun x => obind (sem s b) (fun y => div_z x y)).
Proof.
  unfold sem. destruct a as [x|x|x|x], b as [y|y|y|y]; cbn [quot2]; try discriminate.
  - destruct (y =? 0) eqn:E0; [discriminate|]. z_hyps.
    destruct force.
    { intros H; inversion H; subst. ev_norm. now rewrite div_z_nz. }
    destruct ((0 <=? x) && (0 <? y)); [|discriminate].
    destruct (Z.rem x y =? 0).
    { intros H; inversion H; subst. ev_norm. now rewrite div_z_nz. }
    destruct (Z.gcd x y =? 1); [|discriminate].
    intros H; inversion H; subst. ev_norm. reflexivity.
  - destruct (x =? 0) eqn:E0; [discriminate|]. z_hyps.
    destruct (0 <? x) eqn:E1; intros H; inversion H; subst; ev_norm.
    + reflexivity.
    + destruct (evalZ (env_st s) y) as [w|]; cbn [obind]; [|reflexivity].
      unfold div_z. destruct (w =? 0) eqn:Ew; cbn [obind]; [reflexivity|]. z_hyps.
      f_equal. rewrite Z.quot_opp_l by exact Ew. lia.
  - destruct (y =? 1) eqn:E1.
    { intros H; inversion H; subst. z_hyps; subst. ev_norm.
      destruct (evalZ (env_st s) x) as [w|]; cbn [obind]; [|reflexivity].
      rewrite div_z_nz by lia. now rewrite Z.quot_1_r. }
    destruct (y =? -1) eqn:E2.
    { intros H; inversion H; subst. z_hyps; subst. ev_norm.
      destruct (evalZ (env_st s) x) as [w|]; cbn [obind]; [|reflexivity].
      rewrite div_z_nz by lia. f_equal. change (-1) with (- (1)). rewrite Z.quot_opp_r by lia. now rewrite Z.quot_1_r. }
    destruct (0 <=? y) eqn:E3; intros H; inversion H; subst; ev_norm.
    + reflexivity.
    + z_hyps. destruct (evalZ (env_st s) x) as [w|]; cbn [obind]; [|reflexivity].
      rewrite !div_z_nz by lia. cbn [obind]. f_equal.
      rewrite Z.quot_opp_r by lia. lia.
  - intros H; inversion H; subst. ev_norm. reflexivity.
Qed.

Theorem simp_sound force m s : agrees m s ->
  forall e r, simp force m e = Some r -> evalZ (env_st s) (expr_of r) = evalZ (env_st s) e.
Proof.
  intros A. induction e using expr_ind'; intros r; cbn [simp]; try discriminate.
  - intros H; inversion H; subst. apply ev_lit.
  - intros H; inversion H; subst. cbn [expr_of]. rewrite ev_lit. reflexivity.
  - destruct (lookup m x) as [v|] eqn:L; intros H; inversion H; subst; cbn [expr_of].
    + rewrite ev_lit. cbn. f_equal. symmetry. now apply A.
    + reflexivity.
  - destruct cs as [|a [|b [|c q]]]; try discriminate.
    inversion H as [|? ? Ha Hr]; subst. inversion Hr as [|? ? Hb _]; subst.
    destruct (simp force m a) as [x|] eqn:Ea; [|discriminate].
    destruct (simp force m b) as [y|] eqn:Eb; [|discriminate].
    intros S. pose proof (sum2_sound s _ _ _ S) as Q. unfold sem in Q. rewrite Q.
    rewrite (Ha _ eq_refl), (Hb _ eq_refl). now rewrite ev_sum2.
  - destruct cs as [|a [|b [|c q]]]; try discriminate.
    inversion H as [|? ? Ha Hr]; subst. inversion Hr as [|? ? Hb _]; subst.
    destruct (simp force m a) as [x|] eqn:Ea; [|discriminate].
    destruct (simp force m b) as [y|] eqn:Eb; [|discriminate].
    intros S. pose proof (prod2_sound s _ _ _ S) as Q. unfold sem in Q. rewrite Q.
    rewrite (Ha _ eq_refl), (Hb _ eq_refl). now rewrite ev_prod2.
  - destruct (simp force m e1) as [x|] eqn:Ea; [|discriminate].
    destruct (simp force m e2) as [y|] eqn:Eb; [|discriminate].
    intros S. pose proof (quot2_sound s _ _ _ _ S) as Q. unfold sem in Q. rewrite Q.
    rewrite (IHe1 _ eq_refl), (IHe2 _ eq_refl). reflexivity.
  - destruct (is_intr f); [discriminate|]. intros E; inversion E; subst. reflexivity.
Qed.

Lemma simp_e_sound force m s e e' : agrees m s -> simp_e force m e = Some e' ->
  evalZ (env_st s) e' = evalZ (env_st s) e.
Proof.
  unfold simp_e. intros A. destruct (simp force m e) as [r|] eqn:E; [|discriminate].
  intros H; inversion H; subst. eapply simp_sound; eassumption.
Qed.

Lemma simp_sv_value force m s e v : agrees m s -> simp force m e = Some (SV v) -> evalZ (env_st s) e = Some v.
Proof. intros A H. rewrite <- (simp_sound force m s A e _ H). apply ev_lit. Qed.

Lemma simp_list_sound force m s : agrees m s ->
  forall l l', simp_list force m l = Some l' -> eval_idx s l' = eval_idx s l.
Proof.
  intros A. induction l as [|e r IH]; intros l'; cbn.
  - intros H; inversion H; reflexivity.
  - destruct (simp_e force m e) as [e'|] eqn:E; [|discriminate].
    destruct (simp_list force m r) as [r'|] eqn:R; [|discriminate].
    intros H; inversion H; subst. unfold eval_idx in *. cbn.
    rewrite (simp_e_sound _ _ _ _ _ A E). now rewrite (IH _ eq_refl).
Qed.
