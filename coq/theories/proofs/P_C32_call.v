(** C32 — removing unused scalar dummies together with the matching call arguments preserves the
    effect of a CALL (up to extensional equality of stores). *)
From Coq Require Import ZArith List Bool String Lia.
From LV Require Import Base.Expr Base.MiniF Base.MiniFFacts models.M_C32 proofs.P_C32 proofs.P_C32_cp proofs.P_C32_unused.
Import ListNotations.
Open Scope Z_scope.

Lemma evars_occurs x : forall args, In x (evars args) -> existsb (occurs_e x) args = true.
Proof.
  induction args as [|e r IH]; intros I; [destruct I|].
  destruct e; cbn [evars] in I; cbn [existsb]; try (rewrite (IH I); apply orb_true_r).
  destruct I as [I|I]; [subst; cbn; now rewrite String.eqb_refl|rewrite (IH I); apply orb_true_r].
Qed.

Lemma writes_list_occurs x l :
  Forall (fun s => In x (writes s) -> occurs x s = true) l -> In x (writes_l l) -> existsb (occurs x) l = true.
Proof.
  unfold writes_l. induction 1 as [|s r Hs _ IH]; intros I; [destruct I|].
  cbn in I |- *. apply in_app_or in I. destruct I as [I|I]; [now rewrite (Hs I)|rewrite (IH I); apply orb_true_r].
Qed.

Lemma writes_occurs x : forall st, In x (writes st) -> occurs x st = true.
Proof.
  induction st using stmt_ind'; cbn [writes occurs]; intros I.
  - destruct I as [I|[]]. subst. now rewrite String.eqb_refl.
  - destruct I.
  - destruct I as [I|I]; [subst; now rewrite String.eqb_refl|].
    rewrite (writes_list_occurs x b H I). apply orb_true_r.
  - rewrite (writes_list_occurs x b H I). apply orb_true_r.
  - apply in_app_or in I. destruct I as [I|I].
    + rewrite (writes_list_occurs x t H I), orb_true_r. reflexivity.
    + rewrite (writes_list_occurs x e H0 I). apply orb_true_r.
  - now apply evars_occurs.
  - destruct I.
Qed.

Lemma writes_l_occurs x l : In x (writes_l l) -> occurs_l x l = true.
Proof. apply writes_list_occurs. apply Forall_forall. intros st _. apply writes_occurs. Qed.

Lemma nonoccurring_unchanged ps f l s s' x : exec ps f l s = Some s' -> occurs_l x l = false -> sv s' x = sv s x.
Proof.
  intros E O. apply (frame ps f l s s' E). intros I. apply writes_l_occurs in I. congruence.
Qed.

(** position-wise: a scalar dummy bound to a variable actual holds the caller's value of that variable *)
Fixpoint bound_ok (s c1 : store) (params : list (string * bool)) (args : list expr) : Prop :=
  match params, args with
  | (d, b) :: ps, e :: r => (b = false -> forall y, e = EVar y -> sv c1 d = sv s y) /\ bound_ok s c1 ps r
  | _, _ => True
  end.

Lemma copy_in_bound s : forall params args c c1,
  copy_in s params args c = Some c1 -> NoDup (map fst params) -> bound_ok s c1 params args.
Proof.
  induction params as [|[d b] ps IH]; intros args c c1 E N; [exact I|].
  destruct args as [|e r]; [exact I|]. cbn [map fst] in N. inversion N as [|? ? Nd Nr]; subst.
  destruct b.
  - destruct e; try discriminate. cbn [copy_in] in E. split; [discriminate|]. exact (IH _ _ _ E Nr).
  - rewrite copy_in_scalar in E. destruct (evalZ (env_st s) e) as [w|] eqn:Ew; [|discriminate].
    split; [|exact (IH _ _ _ E Nr)].
    intros _ y Ey. subst e. cbn in Ew. inversion Ew; subst.
    rewrite (proj1 (copy_in_other _ _ _ _ _ d E Nd)). apply sv_set_same.
Qed.

(** the dummies that stay are outside [X] *)
Fixpoint kept_ok (X : string -> Prop) (k : nat) (ks : list nat) (params : list (string * bool)) : Prop :=
  match params with
  | [] => True
  | (d, b) :: r => (existsb (Nat.eqb k) ks = false -> ~ X d) /\ kept_ok X (S k) ks r
  end.

(** the removed positions write back what the caller variable already holds *)
Fixpoint wb_ok (s c1' : store) (k : nat) (ks : list nat) (params : list (string * bool)) (args : list expr) : Prop :=
  match params, args with
  | (d, b) :: ps, e :: r =>
      (existsb (Nat.eqb k) ks = true -> forall y, e = EVar y -> sv c1' d = sv s y) /\ wb_ok s c1' (S k) ks ps r
  | _, _ => True
  end.

Lemma sim_none_set_same t1 t2 y : sim none t1 t2 -> sim none (set_sv y (sv t1 y) t1) t2.
Proof.
  intros [A B]. split; [|exact B]. intros z N. cbn. destruct (String.eqb z y) eqn:E; [|now apply A].
  apply String.eqb_eq in E. subst. now apply A.
Qed.

Lemma copy_out_removed (X : string -> Prop) s c1' c2' ks : sim X c1' c2' ->
  forall params k args t1 t2,
    rem_ok X k ks params -> kept_ok X k ks params -> wb_ok s c1' k ks params args ->
    NoDup (evars args) -> (forall y, In y (evars args) -> sv t1 y = sv s y) -> sim none t1 t2 ->
    sim none (copy_out c1' params args t1) (copy_out c2' (remove_pos_from k ks params) (remove_pos_from k ks args) t2).
Proof.
  intros C. induction params as [|[d b] ps IH]; intros k args t1 t2 R K W N Inv Sm.
  - destruct args; exact Sm.
  - destruct args as [|e r].
    { cbn [remove_pos_from]. destruct (existsb (Nat.eqb k) ks); destruct b; cbn; try exact Sm;
        destruct (remove_pos_from (S k) ks ps) as [|[? []] ?]; exact Sm. }
    destruct R as [R1 R2]. destruct K as [K1 K2]. destruct W as [W1 W2]. cbn [remove_pos_from].
    destruct (existsb (Nat.eqb k) ks) eqn:Q.
    + destruct (R1 eq_refl) as [Hd Hb]. subst b.
      destruct e; cbn [copy_out]; try (apply IH; assumption).
      cbn [evars] in N, Inv. inversion N as [|? ? Ny Nr]; subst.
      apply IH; try assumption.
      * intros y Iy. rewrite sv_set_other; [apply Inv; now right|]. intros E. subst. contradiction.
      * rewrite (W1 eq_refl x eq_refl). rewrite <- (Inv x (or_introl eq_refl)). now apply sim_none_set_same.
    + specialize (K1 eq_refl).
      destruct e; cbn [copy_out]; try (destruct b; apply IH; assumption).
      cbn [evars] in N, Inv. inversion N as [|? ? Ny Nr]; subst.
      destruct b; apply IH; try assumption.
      * intros y Iy. cbn. apply Inv. now right.
      * apply sim_set_arr; [|exact Sm]. intros i. now apply (proj2 C).
      * intros y Iy. rewrite sv_set_other; [apply Inv; now right|]. intros E. subst. contradiction.
      * rewrite (proj1 C d K1). now apply sim_set_sv.
Qed.

(** from copy-in + frame: the write-back condition *)
Lemma wb_from_bound (X : string -> Prop) s c1 c1' ks :
  (forall d, X d -> sv c1' d = sv c1 d) ->
  forall params k args, rem_ok X k ks params -> bound_ok s c1 params args -> wb_ok s c1' k ks params args.
Proof.
  intros F. induction params as [|[d b] ps IH]; intros k args R B; [exact I|].
  destruct args as [|e r]; [exact I|]. destruct R as [R1 R2]. destruct B as [B1 B2].
  split; [|now apply IH]. intros Q y Ey. destruct (R1 Q) as [Hd Hb]. rewrite (F d Hd). now apply B1.
Qed.

Theorem remove_dummy_call_preserves ps ps' (X : string -> Prop) g P ks args s s' f :
  find_proc ps g = Some P -> find_proc ps' g = Some (rm_dummies ks P) ->
  (forall f0 s0, exec ps' f0 (p_body P) s0 = exec ps f0 (p_body P) s0) ->
  NoDup (map fst (p_params P)) -> NoDup (evars args) ->
  rem_ok X 0 ks (p_params P) -> kept_ok X 0 ks (p_params P) ->
  (forall x, X x -> occurs_l x (p_body P) = false) ->
  exec1 ps f (SCall g args) s = Some s' ->
  exists s'', exec1 ps' f (SCall g (remove_pos ks args)) s = Some s'' /\ sim none s' s''.
Proof.
  intros Fp Fp' Hb Np Na R K O E. cbn [exec1] in E |- *. rewrite Fp in E. rewrite Fp'. cbn [obind] in E |- *.
  apply obind_some in E. destruct E as [c1 [Ci E]]. apply obind_some in E. destruct E as [c1' [Ex E]].
  inversion E; subst s'. clear E.
  destruct (remove_dummy_callee_partial ps X ks (p_params P) (p_body P) s args f c1 c1' R O Ci Ex) as [c2 [c2' [Ci2 [Ex2 S]]]].
  cbn [rm_dummies p_params p_body]. rewrite Ci2. cbn [obind]. rewrite Hb, Ex2. cbn [obind].
  eexists; split; [reflexivity|].
  unfold remove_pos. apply (copy_out_removed X s c1' c2' ks S); try assumption.
  - apply (wb_from_bound X s c1 c1' ks); [|exact R|].
    + intros d Hd. apply (nonoccurring_unchanged ps f _ _ _ d Ex). now apply O.
    + now apply (copy_in_bound s _ _ _ _ Ci).
  - intros y _. reflexivity.
  - apply sim_refl.
Qed.
