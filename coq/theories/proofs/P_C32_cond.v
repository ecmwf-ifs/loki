(** C32 — rewriting of logical expressions ([simp_cond]) is exact. *)
From Coq Require Import ZArith List Bool String Lia.
From LV Require Import Base.Expr Base.ExprFacts Base.MiniF Base.MiniFFacts models.M_C32 proofs.P_C32.
Import ListNotations.
Open Scope Z_scope.

(** totality of the logical expressions that a short-circuit may drop *)
Lemma total_c_ev s : forall c, total_c c = true -> exists b, evalB (env_st s) c = Some b.
Proof.
  induction c using expr_ind'; cbn [total_c]; try discriminate; intros T.
  - eexists; reflexivity.
  - apply andb_true_iff in T. destruct T as [T1 T2].
    destruct (total_e_ev s _ T1) as [a Ea]. destruct (total_e_ev s _ T2) as [b Eb].
    cbn. rewrite Ea, Eb. eexists; reflexivity.
  - destruct (omap_list_total _ _ cs H T) as [vs E]. rewrite evalB_and, E. eexists; reflexivity.
  - destruct (omap_list_total _ _ cs H T) as [vs E]. rewrite evalB_or, E. eexists; reflexivity.
  - destruct (IHc T) as [b E]. cbn. rewrite E. eexists; reflexivity.
Qed.

Lemma is_true_spec c : is_true c = true -> c = ELog true.
Proof. destruct c as [| | |[|]| | | | | | | | |]; try discriminate. reflexivity. Qed.

Lemma is_false_spec c : is_false c = true -> c = ELog false.
Proof. destruct c as [| | |[|]| | | | | | | | |]; try discriminate. reflexivity. Qed.

(** * conjunctions and disjunctions

    What [simp_cond] does with the rewritten operands is the same for [EAnd] and [EOr]: an operand that is the
    absorbing literal [w] decides, provided every operand is total; the neutral literals [negb w] are dropped. *)
Definition short_circuit (absorb unit : expr -> bool) (w : bool) (mk : list expr -> expr)
           (ocs : option (list expr)) : option expr :=
  match ocs with
  | Some cs' =>
      if existsb absorb cs' then (if forallb total_c cs' then Some (ELog w) else None)
      else match filter (fun x => negb (unit x)) cs' with
           | [] => Some (ELog (negb w))
           | rest => Some (mk rest)
           end
  | None => None
  end.

Section Junction.
  (** [mk = EAnd], [op = andb], [w = false], or [mk = EOr], [op = orb], [w = true] *)
  Variables (s : store) (op : bool -> bool -> bool) (w : bool) (absorb unit : expr -> bool) (mk : list expr -> expr).
  Hypothesis op_w_l : forall a, op w a = w.
  Hypothesis op_w_r : forall a, op a w = w.
  Hypothesis op_unit : forall a, op (negb w) a = a.
  Hypothesis absorb_lit : forall c, absorb c = true -> c = ELog w.
  Hypothesis unit_lit : forall c, unit c = true -> c = ELog (negb w).
  Hypothesis mk_cons : forall c l,
    evalB (env_st s) (mk (c :: l)) =
    obind (evalB (env_st s) c) (fun v => obind (evalB (env_st s) (mk l)) (fun a => Some (op v a))).
  Hypothesis mk_nil : evalB (env_st s) (mk []) = Some (negb w).
  Hypothesis mk_total : forall l, forallb total_c l = true -> total_c (mk l) = true.

  Lemma mk_cong l' l :
    Forall2 (fun c' c => evalB (env_st s) c' = evalB (env_st s) c) l' l -> evalB (env_st s) (mk l') = evalB (env_st s) (mk l).
  Proof. induction 1 as [|c' c r' r Hc _ IH]; [reflexivity|]. now rewrite !mk_cons, Hc, IH. Qed.

  Lemma absorbed l : forallb total_c l = true -> existsb absorb l = true -> evalB (env_st s) (mk l) = Some w.
  Proof.
    induction l as [|c r IH]; [discriminate|]. cbn [forallb existsb]. intros T X.
    apply andb_true_iff in T. destruct T as [T1 T2]. rewrite mk_cons.
    destruct (total_c_ev s c T1) as [v Ev]. destruct (total_c_ev s (mk r) (mk_total r T2)) as [a Ea].
    rewrite Ev, Ea. cbn [obind]. apply orb_true_iff in X. destruct X as [X|X].
    - apply absorb_lit in X. subst c. inversion Ev; subst. now rewrite op_w_l.
    - rewrite (IH T2 X) in Ea. inversion Ea; subst. now rewrite op_w_r.
  Qed.

  Lemma units_dropped l :
    evalB (env_st s) (mk (filter (fun x => negb (unit x)) l)) = evalB (env_st s) (mk l).
  Proof.
    induction l as [|c r IH]; [reflexivity|]. cbn [filter]. destruct (unit c) eqn:U; cbn [negb].
    - apply unit_lit in U. subst c. rewrite mk_cons, <- IH. cbn [evalB obind].
      destruct (evalB (env_st s) (mk (filter (fun x => negb (unit x)) r))); cbn [obind]; [now rewrite op_unit|reflexivity].
    - now rewrite !mk_cons, IH.
  Qed.

  Lemma short_circuit_sound cs cs' c' :
    Forall2 (fun c' c => evalB (env_st s) c' = evalB (env_st s) c) cs' cs ->
    short_circuit absorb unit w mk (Some cs') = Some c' -> evalB (env_st s) c' = evalB (env_st s) (mk cs).
  Proof.
    intros M. rewrite <- (mk_cong cs' cs M). cbn [short_circuit]. destruct (existsb absorb cs') eqn:X.
    - destruct (forallb total_c cs') eqn:T; [|discriminate]. intros E; inversion E; subst.
      symmetry. now apply absorbed.
    - rewrite <- units_dropped.
      destruct (filter (fun x => negb (unit x)) cs') as [|q rest]; intros E; inversion E; subst;
        [now rewrite mk_nil|reflexivity].
  Qed.
End Junction.

Definition simp_cond_list (force : bool) (m : cmap) : list expr -> option (list expr) :=
  fix go (l : list expr) : option (list expr) :=
    match l with
    | [] => Some []
    | x :: r => match simp_cond force m x, go r with Some x', Some r' => Some (x' :: r') | _, _ => None end
    end.

Lemma simp_cond_and force m cs :
  simp_cond force m (EAnd cs) = short_circuit is_false is_true false EAnd (simp_cond_list force m cs).
Proof. reflexivity. Qed.

Lemma simp_cond_or force m cs :
  simp_cond force m (EOr cs) = short_circuit is_true is_false true EOr (simp_cond_list force m cs).
Proof. reflexivity. Qed.

Lemma simp_cond_list_sound force m rho cs :
  Forall (fun c => forall c', simp_cond force m c = Some c' -> evalB rho c' = evalB rho c) cs ->
  forall cs', simp_cond_list force m cs = Some cs' -> Forall2 (fun c' c => evalB rho c' = evalB rho c) cs' cs.
Proof.
  induction 1 as [|c r Hc _ IH]; intros cs'; cbn [simp_cond_list].
  - intros E; inversion E; constructor.
  - destruct (simp_cond force m c) as [c'|]; [|discriminate].
    destruct (simp_cond_list force m r) as [r'|]; [|discriminate].
    intros E; inversion E; subst. constructor; [exact (Hc _ eq_refl)|exact (IH _ eq_refl)].
Qed.

Theorem simp_cond_sound force m s : agrees m s ->
  forall c c', simp_cond force m c = Some c' -> evalB (env_st s) c' = evalB (env_st s) c.
Proof.
  intros A. induction c using expr_ind'; intros c'; try (cbn; discriminate).
  - cbn. intros E; inversion E; reflexivity.
  - cbn [simp_cond].
    destruct (simp force m c1) as [x|] eqn:E1; [|discriminate].
    destruct (simp force m c2) as [y|] eqn:E2; [|destruct x; discriminate].
    pose proof (simp_sound force m s A _ _ E1) as S1. pose proof (simp_sound force m s A _ _ E2) as S2.
    assert (G : evalB (env_st s) (ECmp op (expr_of x) (expr_of y)) = evalB (env_st s) (ECmp op c1 c2)).
    { cbn [evalB]. now rewrite S1, S2. }
    destruct x as [a|a|a|a], y as [b|b|b|b]; intros E; inversion E; subst; try exact G.
    rewrite <- G. cbn [evalB expr_of]. rewrite !ev_lit. reflexivity.
  - rewrite simp_cond_and. destruct (simp_cond_list force m cs) as [cs'|] eqn:L; [|discriminate].
    exact (short_circuit_sound s andb false is_false is_true EAnd (fun a => eq_refl) andb_false_r (fun a => eq_refl)
             is_false_spec is_true_spec (evalB_and_cons (env_st s)) eq_refl (fun l T => T) cs cs' c'
             (simp_cond_list_sound force m (env_st s) cs H cs' L)).
  - rewrite simp_cond_or. destruct (simp_cond_list force m cs) as [cs'|] eqn:L; [|discriminate].
    exact (short_circuit_sound s orb true is_true is_false EOr (fun a => eq_refl) orb_true_r (fun a => eq_refl)
             is_true_spec is_false_spec (evalB_or_cons (env_st s)) eq_refl (fun l T => T) cs cs' c'
             (simp_cond_list_sound force m (env_st s) cs H cs' L)).
  - cbn [simp_cond]. destruct (simp_cond force m c) as [x|] eqn:E1; [|discriminate].
    pose proof (IHc _ eq_refl) as S1.
    assert (G : evalB (env_st s) (ENot x) = evalB (env_st s) (ENot c)).
    { cbn [evalB]. now rewrite S1. }
    destruct x; intros E; inversion E; subst; try exact G.
Qed.
