(** C32 — the constant-propagation transformer preserves behaviour on its class.

    The invariant ([sound]): from every store the incoming map describes, the rewritten statements run exactly
    like the original ones with the same interpreter fuel, and the outgoing map describes the store reached.
    Each kind of statement has its lemma; [cp1_sound] dispatches, and for DO matches the class conditions on the
    outgoing map with [do_keeps] and [do_last_entry]. *)
From Coq Require Import ZArith List Bool String Lia.
From LV Require Import Base.Expr Base.ListFacts Base.MiniF Base.MiniFFacts models.M_C32 proofs.P_C32 proofs.P_C32_cond.
Import ListNotations.
Open Scope Z_scope.

Lemma copy_out_sv callee x : forall params args caller,
  ~ In x (evars args) -> sv (copy_out callee params args caller) x = sv caller x.
Proof.
  induction params as [|[d b] ps IH]; intros args caller N; [destruct args; reflexivity|].
  destruct args as [|e r]; [destruct b; reflexivity|].
  destruct e; cbn [copy_out]; try (destruct b; apply IH; exact N).
  cbn [evars] in N. destruct b; rewrite IH by (intros I; apply N; now right); [reflexivity|].
  apply sv_set_other. intros E. apply N. now left.
Qed.

Lemma do_loop_frame (run : store -> option store) v d x :
  (forall s s', run s = Some s' -> sv s' x = sv s x) -> x <> v ->
  forall n i s s', do_loop run v d n i s = Some s' -> sv s' x = sv s x.
Proof.
  intros Hrun N. induction n as [|n IH]; intros i s s'; cbn [do_loop].
  - intros E; inversion E; subst. now apply sv_set_other.
  - intros E. apply obind_some in E. destruct E as [s2 [E1 E2]].
    rewrite (IH _ _ _ E2). rewrite (Hrun _ _ E1). now apply sv_set_other.
Qed.

(** one statement, given the fact for the statement lists it runs *)
Lemma frame1 ps f :
  (forall l s s', exec ps f l s = Some s' -> forall x, ~ In x (writes_l l) -> sv s' x = sv s x) ->
  forall st s s', exec1 ps f st s = Some s' -> forall x, ~ In x (writes st) -> sv s' x = sv s x.
Proof.
  intros IH st s s' E x N.
  destruct st as [y e|a idx e|v lo hi stp body|c body|c tb eb|g args|lbl]; cbn [exec1] in E; cbn [writes] in N.
  - apply obind_some in E. destruct E as [w [_ E]]. inversion E; subst.
    apply sv_set_other. intros Q. apply N. now left.
  - apply obind_some in E. destruct E as [i [_ E]]. apply obind_some in E. destruct E as [w [_ E]].
    inversion E; subst. reflexivity.
  - apply obind_some in E. destruct E as [a [_ E]]. apply obind_some in E. destruct E as [b [_ E]].
    apply obind_some in E. destruct E as [d [_ E]]. destruct (d =? 0); [discriminate|].
    eapply do_loop_frame; [| |exact E].
    + intros s2 s3 R. apply (IH _ _ _ R). intros I. apply N. now right.
    + intros Q. apply N. now left.
  - apply obind_some in E. destruct E as [b [_ E]]. destruct b; [|inversion E; reflexivity].
    apply obind_some in E. destruct E as [s2 [R1 R2]].
    rewrite (IH _ _ _ R2 x), (IH _ _ _ R1 x); [reflexivity|exact N|].
    unfold writes_l. cbn [flat_map writes]. now rewrite app_nil_r.
  - apply obind_some in E. destruct E as [b [_ E]].
    apply (IH _ _ _ E x). intros I. apply N. apply in_or_app. destruct b; [now left|now right].
  - apply obind_some in E. destruct E as [p [_ E]]. apply obind_some in E. destruct E as [s0 [_ E]].
    apply obind_some in E. destruct E as [s2 [_ E]]. inversion E; subst.
    now apply copy_out_sv.
  - inversion E; reflexivity.
Qed.

Lemma frame ps : forall f l s s', exec ps f l s = Some s' ->
  forall x, ~ In x (writes_l l) -> sv s' x = sv s x.
Proof.
  induction f as [|f IH]; intros l s s' E x N; [discriminate|].
  destruct l as [|st rest]; [cbn in E; inversion E; reflexivity|].
  rewrite exec_unfold in E. apply obind_some in E. destruct E as [s1 [E1 E2]].
  unfold writes_l in N. cbn [flat_map] in N. rewrite in_app_iff in N.
  rewrite (IH _ _ _ E2 x), (frame1 ps f IH _ _ _ E1 x); tauto.
Qed.

Lemma frame_exec1 ps f st s s' x : exec1 ps f st s = Some s' -> ~ In x (writes st) -> sv s' x = sv s x.
Proof. intros E. exact (frame1 ps f (frame ps f) st s s' E x). Qed.

Lemma agrees_exec ps f m l s s' :
  disjoint (writes_l l) m = true -> exec ps f l s = Some s' -> agrees m s -> agrees m s'.
Proof.
  intros D E. apply agrees_frame. intros x v L. apply (frame ps f l s s' E). exact (disjoint_not_in _ _ _ _ D L).
Qed.

Lemma lwc_sound ps x c : forall l s s', lwc l x c = true -> runs ps l s s' -> sv s' x = c.
Proof.
  induction l as [|st r IH]; intros s s' L R; [discriminate|].
  apply runs_cons_inv in R. destruct R as [s1 [R1 R2]].
  cbn [lwc] in L. apply orb_true_iff in L. destruct L as [L|L]; [|now apply (IH _ _ L R2)].
  apply andb_true_iff in L. destruct L as [L1 L2]. apply negb_true_iff in L2. apply existsb_eqb_false in L2.
  destruct st; try discriminate. destruct e; try discriminate.
  apply andb_true_iff in L1. destruct L1 as [A B]. apply String.eqb_eq in A. apply Z.eqb_eq in B. subst.
  apply runs1_assign_inv in R1. destruct R1 as [w [Ew Es]]. cbn in Ew. inversion Ew; subst.
  destruct R2 as [f R2]. rewrite (frame ps f _ _ _ R2 _ L2). apply sv_set_same.
Qed.

Lemma do_loop_cong (run run' : store -> option store) v d (I : store -> Prop) :
  (forall s, I s -> run' s = run s) ->
  (forall s s', I s -> run s = Some s' -> I s') ->
  (forall s i, I s -> I (set_sv v i s)) ->
  forall n i s, I s -> do_loop run' v d n i s = do_loop run v d n i s.
Proof.
  intros Heq Hpres Hset. induction n as [|n IH]; intros i s Is; cbn [do_loop]; [reflexivity|].
  rewrite (Heq _ (Hset _ i Is)).
  destruct (run (set_sv v i s)) as [s2|] eqn:R; cbn [obind]; [|reflexivity].
  apply IH. eapply Hpres; [|exact R]. now apply Hset.
Qed.

Lemma do_loop_last (run : store -> option store) v d (I : store -> Prop) :
  (forall s s', I s -> run s = Some s' -> I s') ->
  (forall s i, I s -> I (set_sv v i s)) ->
  forall n i s s', I s -> do_loop run v d (S n) i s = Some s' ->
  exists sl s2 il, I sl /\ run sl = Some s2 /\ s' = set_sv v il s2.
Proof.
  intros Hpres Hset. induction n as [|n IH]; intros i s s' Is E.
  - cbn [do_loop] in E. apply obind_some in E. destruct E as [s2 [R E]]. inversion E; subst.
    exists (set_sv v i s), s2, (i + d). repeat split; [now apply Hset|exact R].
  - change (obind (run (set_sv v i s)) (fun s2 => do_loop run v d (S n) (i + d) s2) = Some s') in E.
    apply obind_some in E. destruct E as [s2 [R E]].
    apply (IH (i + d) s2 s'); [|exact E]. eapply Hpres; [|exact R]. now apply Hset.
Qed.

Definition eval_step (s : store) (stp : option expr) : option Z :=
  match stp with None => Some 1 | Some e => evalZ (env_st s) e end.

Lemma simp_step_sound m s stp sst : agrees m s -> simp_step m stp = Some sst ->
  eval_step s (expr_of_step sst) = eval_step s stp.
Proof.
  intros A. unfold simp_step. destruct stp as [e|]; [|intros E; inversion E; reflexivity].
  destruct (simp true m e) as [r|] eqn:S; [|discriminate]. intros E; inversion E; subst.
  exact (simp_sound true m s A e r S).
Qed.

Lemma bounds_const_value m s lo hi stp slo shi sst a b d :
  agrees m s -> simp true m lo = Some slo -> simp true m hi = Some shi -> simp_step m stp = Some sst ->
  bounds_const slo shi sst = Some (a, b, d) ->
  evalZ (env_st s) lo = Some a /\ evalZ (env_st s) hi = Some b /\ eval_step s stp = Some d.
Proof.
  intros A Sl Sh Ss B. unfold bounds_const in B.
  destruct slo as [a0| | |]; try discriminate. destruct shi as [b0| | |]; try discriminate.
  rewrite (simp_sv_value _ _ _ _ _ A Sl), (simp_sv_value _ _ _ _ _ A Sh).
  unfold simp_step in Ss. destruct stp as [e|].
  - destruct (simp true m e) as [r|] eqn:S; [|discriminate]. inversion Ss; subst sst.
    destruct r; try discriminate. inversion B; subst. cbn [eval_step]. now rewrite (simp_sv_value _ _ _ _ _ A S).
  - inversion Ss; subst sst. inversion B; subst. now repeat split.
Qed.

Lemma lookup_post_nonconst x c : forall asg m, lookup (post_nonconst m asg) x = Some c -> lookup m x = Some c.
Proof.
  induction asg as [|st r IH]; intros m; cbn [post_nonconst]; [auto|].
  destruct st; try apply IH. intros H. apply IH in H. now apply lookup_remove_some in H.
Qed.

Lemma cp_cons strict k wl m st r :
  cp strict (S k) wl m (st :: r) =
  match cp1 strict (cp strict k) wl m st with
  | Some (st', m1) => match cp strict k wl m1 r with Some (r', m2) => Some (st' :: r', m2) | None => None end
  | None => None
  end.
Proof. reflexivity. Qed.

Section Sound.
  Variable ps : procs.

  Definition sound (f : nat) (m : cmap) (l l' : list stmt) (m' : cmap) : Prop :=
    forall s, agrees m s ->
      exec ps f l' s = exec ps f l s /\ (forall s', exec ps f l s = Some s' -> agrees m' s').

  Definition sound1 (f : nat) (m : cmap) (st st' : stmt) (m' : cmap) : Prop :=
    forall s, agrees m s ->
      exec1 ps f st' s = exec1 ps f st s /\ (forall s', exec1 ps f st s = Some s' -> agrees m' s').

  Lemma sound_nil f m : sound f m [] [] m.
  Proof. intros s A. split; [reflexivity|]. intros s' E. apply exec_nil in E. now subst. Qed.

  Lemma sound_cons f m st st' m1 r r' m2 :
    sound1 f m st st' m1 -> sound f m1 r r' m2 -> sound (S f) m (st :: r) (st' :: r') m2.
  Proof.
    intros H1 H2 s A. rewrite !exec_unfold. destruct (H1 s A) as [Q1 Q2]. rewrite Q1.
    destruct (exec1 ps f st s) as [s1|]; cbn [obind]; [|split; [reflexivity|discriminate]].
    exact (H2 s1 (Q2 s1 eq_refl)).
  Qed.

  Lemma sound1_same f m st : disjoint (writes st) m = true -> sound1 f m st st m.
  Proof.
    intros D s A. split; [reflexivity|]. intros s' E. apply (agrees_frame m s); [|exact A].
    intros x v L. apply (frame_exec1 ps f st s s' x E). exact (disjoint_not_in _ _ _ _ D L).
  Qed.

  Lemma sound1_assign f m x e r :
    simp true m e = Some r -> sound1 f m (SAssign x e) (SAssign x (expr_of r)) (upd_assign m x r).
  Proof.
    intros S s A. cbn [exec1]. rewrite (simp_sound true m s A e r S). split; [reflexivity|].
    intros s1 X. apply obind_some in X. destruct X as [w [Ew X]]. inversion X; subst s1.
    destruct r as [c|q|q|q]; cbn [upd_assign]; try now apply agrees_remove_set, agrees_remove.
    destruct (0 <=? c); [|now apply agrees_remove_set, agrees_remove].
    rewrite (simp_sv_value true m s e c A S) in Ew. inversion Ew; subst. now apply agrees_setc.
  Qed.

  Lemma sound1_store f m a idx e idx' e' :
    simp_list true m idx = Some idx' -> simp_e true m e = Some e' ->
    sound1 f m (SStore a idx e) (SStore a idx' e') m.
  Proof.
    intros S1 S2 s A. split; [|exact (proj2 (sound1_same f m (SStore a idx e) eq_refl s A))].
    cbn [exec1]. now rewrite (simp_list_sound true m s A _ _ S1), (simp_e_sound true m s _ _ A S2).
  Qed.

  Lemma sound1_if f m c c' t t' mt e e' me :
    simp_cond true m c = Some c' -> sound f m t t' mt -> sound f m e e' me ->
    sound1 f m (SIf c t e) (SIf c' t' e') (merge mt me).
  Proof.
    intros Sc Ht He s A. cbn [exec1]. rewrite (simp_cond_sound true m s A _ _ Sc).
    destruct (evalB (env_st s) c) as [[|]|]; cbn [obind].
    - destruct (Ht s A) as [P1 P2]. split; [exact P1|]. intros s1 X. apply agrees_merge_l. now apply P2.
    - destruct (He s A) as [P1 P2]. split; [exact P1|]. intros s1 X. apply agrees_merge_r. now apply P2.
    - split; [reflexivity|discriminate].
  Qed.

  (** DO WHILE: the incoming map is an invariant of the body, so the rewritten body may be used in every
      iteration; the class condition [submap mb m] says the body adds no entry, so [mb] also holds after
      zero iterations *)
  Lemma sound1_while f m c body body' mb :
    disjoint (writes_l body) m = true -> submap mb m = true ->
    sound f m body body' mb -> sound f m [SWhile c body] [SWhile c body'] mb ->
    sound1 f m (SWhile c body) (SWhile c body') mb.
  Proof.
    intros D1 D2 Hb Hw s A. cbn [exec1].
    destruct (evalB (env_st s) c) as [[|]|]; cbn [obind].
    - rewrite (proj1 (Hb s A)).
      destruct (exec ps f body s) as [s2|] eqn:X; cbn [obind]; [|split; [reflexivity|discriminate]].
      apply Hw. exact (agrees_exec ps f m body s s2 D1 X A).
    - split; [reflexivity|]. intros s1 X. inversion X; subst. now apply (agrees_submap mb m).
    - split; [reflexivity|discriminate].
  Qed.

  (** DO: the body is rewritten with the incoming map minus the DO variable; that map is an invariant of the
      loop when the body writes nothing that has an entry *)
  Section Do.
    Variables (f : nat) (m : cmap) (v : string) (lo hi : expr) (stp : option expr) (body : list stmt).
    Variables (slo shi : sval) (sst : option sval) (body' : list stmt) (mb : cmap).
    Hypothesis Slo : simp true m lo = Some slo.
    Hypothesis Shi : simp true m hi = Some shi.
    Hypothesis Sst : simp_step m stp = Some sst.
    Hypothesis D : disjoint (writes_l body) m = true.
    Hypothesis Hb : sound f (remove m v) body body' mb.

    Lemma body_keeps s s' : agrees (remove m v) s -> exec ps f body s = Some s' -> agrees (remove m v) s'.
    Proof. intros A X. exact (agrees_exec ps f _ body s s' (disjoint_remove _ _ _ D) X A). Qed.

    Lemma do_same s : agrees m s ->
      exec1 ps f (SDo v (expr_of slo) (expr_of shi) (expr_of_step sst) body') s = exec1 ps f (SDo v lo hi stp body) s.
    Proof.
      intros A. pose proof (simp_step_sound m s stp sst A Sst) as Es. unfold eval_step in Es.
      cbn [exec1]. rewrite (simp_sound true m s A _ _ Slo), (simp_sound true m s A _ _ Shi), Es.
      destruct (evalZ (env_st s) lo) as [a|]; cbn [obind]; [|reflexivity].
      destruct (evalZ (env_st s) hi) as [b|]; cbn [obind]; [|reflexivity].
      destruct (match stp with None => Some 1 | Some e => evalZ (env_st s) e end) as [d|]; cbn [obind]; [|reflexivity].
      destruct (d =? 0); [reflexivity|].
      apply (do_loop_cong (exec ps f body) (exec ps f body') v d (agrees (remove m v)));
        [|exact body_keeps|intros s0 i; apply agrees_remove_set|now apply agrees_remove].
      intros s0 A0. exact (proj1 (Hb s0 A0)).
    Qed.

    Lemma do_keeps s s1 y w :
      agrees m s -> exec1 ps f (SDo v lo hi stp body) s = Some s1 -> lookup m y = Some w -> y <> v -> sv s1 y = w.
    Proof.
      intros A X L N. rewrite <- (A y w L). apply (frame_exec1 ps f _ s s1 y X).
      cbn [writes]. intros [Q|I]; [congruence|]. exact (disjoint_not_in _ _ _ _ D L I).
    Qed.

    Lemma do_last_entry a b d s s1 y w :
      agrees m s -> bounds_const slo shi sst = Some (a, b, d) -> 1 <= trip_count a b d ->
      lwc body' y w = true -> y <> v ->
      exec1 ps f (SDo v lo hi stp body) s = Some s1 -> sv s1 y = w.
    Proof.
      intros A B T L Nv X.
      destruct (bounds_const_value m s lo hi stp _ _ _ a b d A Slo Shi Sst B) as [Ea [Eb Ed]].
      unfold eval_step in Ed. cbn [exec1] in X.
      rewrite Ea, Eb in X. cbn [obind] in X. rewrite Ed in X. cbn [obind] in X.
      destruct (d =? 0); [discriminate|].
      destruct (Z.to_nat (trip_count a b d)) as [|k] eqn:Tn; [lia|].
      destruct (do_loop_last (exec ps f body) v d (agrees (remove m v)) body_keeps
                  (fun s0 i => agrees_remove_set m s0 v i) k a s s1 (agrees_remove m s v A) X)
        as [sl [s2 [il [Il [Rl El]]]]].
      subst s1. rewrite sv_set_other by exact Nv.
      rewrite <- (proj1 (Hb sl Il)) in Rl. apply (lwc_sound ps y w body' sl s2 L). now exists f.
    Qed.
  End Do.

  Definition rec_ok (f : nat) (rec : bool -> cmap -> list stmt -> option (list stmt * cmap)) : Prop :=
    forall wl m l l' m', rec wl m l = Some (l', m') -> sound f m l l' m'.

  (** the hypothesis is needed at every [n]: a WHILE statement on its own is again an output of the
      transformer, at fuel [S (S k)] *)
  Lemma cp1_sound f : (forall n, rec_ok f (cp true n)) ->
    forall n wl m st st' m1, cp1 true (cp true n) wl m st = Some (st', m1) -> sound1 f m st st' m1.
  Proof.
    intros Hrec n wl m st st' m1 E. pose proof E as E0.
    destruct st as [x e|a idx e|v lo hi stp body|c body|c tb eb|g args|lbl]; cbn [cp1] in E.
    - destruct (wl && mem_expr (EVar x) (syms e)).
      + cbn [andb] in E. destruct (unknown m x) eqn:U; [|discriminate]. inversion E; subst st' m1.
        apply sound1_same. cbn. now rewrite U.
      + destruct (simp true m e) as [r|] eqn:S; [|discriminate]. inversion E; subst st' m1.
        now apply sound1_assign.
    - destruct (wl && mem_expr (ECall a idx) (syms e)).
      + inversion E; subst st' m1. now apply sound1_same.
      + destruct (simp_list true m idx) as [idx'|] eqn:S1; [|discriminate].
        destruct (simp_e true m e) as [e'|] eqn:S2; [|discriminate]. inversion E; subst st' m1.
        now apply sound1_store.
    - destruct (simp true m lo) as [slo|] eqn:Slo; [|discriminate].
      destruct (simp true m hi) as [shi|] eqn:Shi; [|discriminate].
      destruct (simp_step m stp) as [sst|] eqn:Sst; [|discriminate].
      destruct (cp true n true (remove m v) body) as [[body' mb]|] eqn:Rb; [|discriminate].
      cbn [andb] in E. destruct (disjoint (writes_l body) m) eqn:D; [|discriminate]. cbn [negb] in E.
      pose proof (Hrec n _ _ _ _ _ Rb) as Hb.
      pose proof (do_same f m v lo hi stp body _ _ _ body' mb Slo Shi Sst D Hb) as Q.
      pose proof (do_keeps f m v lo hi stp body D) as Keep.
      destruct (bounds_const slo shi sst) as [[[a b] d]|] eqn:B.
      + destruct (post_const _ m (flat_map assigns body')) as [mp|]; [|discriminate].
        cbn [andb] in E. destruct (loop_entries_ok m (remove mp v) a b d body') eqn:OK; [|discriminate].
        inversion E; subst st' m1. intros s A. split; [exact (Q s A)|].
        intros s1 X y w L.
        unfold loop_entries_ok in OK. rewrite forallb_forall in OK.
        pose proof (OK _ (lookup_in _ _ _ L)) as C. cbn [fst snd] in C.
        apply lookup_remove_some in L. destruct L as [_ Nv].
        apply orb_true_iff in C. destruct C as [C|C].
        * apply has_val_true in C. exact (Keep s s1 y w A X C Nv).
        * apply andb_true_iff in C. destruct C as [C C3]. apply andb_true_iff in C. destruct C as [_ C2].
          apply Z.leb_le in C2.
          exact (do_last_entry f m v lo hi stp body _ _ _ body' mb Slo Shi Sst D Hb a b d s s1 y w A B C2 C3 Nv X).
      + inversion E; subst st' m1. intros s A. split; [exact (Q s A)|].
        intros s1 X y w L. apply lookup_remove_some in L. destruct L as [L Nv].
        apply lookup_post_nonconst in L. exact (Keep s s1 y w A X L Nv).
    - destruct n as [|k]; [discriminate|].
      destruct (cp true (S k) wl m body) as [[body' mb]|] eqn:Rb; [|discriminate].
      cbn [andb] in E. destruct (disjoint (writes_l body) m && submap mb m) eqn:D; [|discriminate].
      apply andb_true_iff in D. destruct D as [D1 D2]. inversion E; subst st' m1.
      apply sound1_while; [exact D1|exact D2|exact (Hrec _ _ _ _ _ _ Rb)|].
      apply (Hrec (S (S k)) wl). rewrite cp_cons, E0. reflexivity.
    - destruct (simp_cond true m c) as [c'|] eqn:Sc; [|discriminate].
      destruct (cp true n wl m tb) as [[t' mt]|] eqn:Rt; [|discriminate].
      destruct (cp true n wl m eb) as [[e' me]|] eqn:Re; [|discriminate].
      inversion E; subst st' m1.
      exact (sound1_if f m c c' _ _ _ _ _ _ Sc (Hrec _ _ _ _ _ _ Rt) (Hrec _ _ _ _ _ _ Re)).
    - cbn [andb] in E. destruct (disjoint (evars args) m) eqn:D; [|discriminate].
      inversion E; subst st' m1. now apply sound1_same.
    - inversion E; subst st' m1. now apply sound1_same.
  Qed.

  Theorem cp_correct : forall f n, rec_ok f (cp true n).
  Proof.
    induction f as [|f IH]; intros n wl m l l' m' E; [intros s A; split; [reflexivity|discriminate]|].
    destruct n as [|k]; [discriminate|].
    destruct l as [|st r]; [inversion E; subst; apply sound_nil|].
    rewrite cp_cons in E.
    destruct (cp1 true (cp true k) wl m st) as [[st' m1]|] eqn:E1; [|discriminate].
    destruct (cp true k wl m1 r) as [[r' m2]|] eqn:E2; [|discriminate].
    inversion E; subst. exact (sound_cons f _ _ _ _ _ _ _ (cp1_sound f IH _ _ _ _ _ _ E1) (IH k _ _ _ _ _ E2)).
  Qed.
End Sound.

Theorem cmap_sound ps n wl m st st' m' s s' :
  cp true n wl m [st] = Some ([st'], m') -> agrees m s -> runs ps [st] s s' -> agrees m' s'.
Proof. intros E A [f R]. exact (proj2 (cp_correct ps f n wl m _ _ _ E s A) s' R). Qed.

Theorem cp_from_preserves ps n m p p' m' :
  cp true n false m p = Some (p', m') ->
  forall s s', agrees m s -> (runs ps p' s s' <-> runs ps p s s').
Proof.
  intros E s s' A. split; intros [f R]; exists f.
  - now rewrite <- (proj1 (cp_correct ps f n false m _ _ _ E s A)).
  - now rewrite (proj1 (cp_correct ps f n false m _ _ _ E s A)).
Qed.

Theorem constprop_preserves ps n p p' : constprop n p = Some p' -> equiv ps p' p.
Proof.
  unfold constprop. destruct (cp true n false [] p) as [[q m']|] eqn:E; [|discriminate].
  intros H; inversion H; subst. intros s s'. apply (cp_from_preserves ps n [] p p' m' E). apply agrees_nil.
Qed.
