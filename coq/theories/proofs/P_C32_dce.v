(** C32 — dead-code removal (branch pruning) preserves behaviour. *)
From Coq Require Import ZArith List Bool String Lia.
From LV Require Import Base.Expr Base.MiniF Base.MiniFFacts models.M_C32 proofs.P_C32 proofs.P_C32_cond.
Import ListNotations.
Open Scope Z_scope.

Section Dce.
  Variable ps : procs.

  (** the list traversal nested inside [dce1]; it is [dce] only up to [dce_list_eq], hence the [change]s below *)
  Definition dce_list (u : bool) : list stmt -> option (list stmt) :=
    fix go (l : list stmt) : option (list stmt) :=
      match l with
      | [] => Some []
      | s :: r => match dce1 u s, go r with Some a, Some b => Some (a ++ b) | _, _ => None end
      end.

  Lemma dce_list_eq u l : dce_list u l = dce u l.
  Proof. induction l as [|s r IH]; [reflexivity|]. cbn [dce]. rewrite <- IH. reflexivity. Qed.

  Lemma dce_list_sound u l :
    Forall (fun st => forall a, dce1 u st = Some a -> equiv ps a [st]) l ->
    forall l', dce_list u l = Some l' -> equiv ps l' l.
  Proof.
    induction 1 as [|st r Hst Hr IH]; intros l'.
    - cbn. intros E; inversion E. apply equiv_refl.
    - change (dce_list u (st :: r)) with
        (match dce1 u st, dce_list u r with Some a, Some b => Some (a ++ b) | _, _ => None end).
      destruct (dce1 u st) as [a|] eqn:E1; [|discriminate].
      destruct (dce_list u r) as [b|] eqn:E2; [|discriminate].
      intros E; inversion E; subst. change (st :: r) with ([st] ++ r).
      apply equiv_app; [now apply Hst|now apply IH].
  Qed.

  Lemma simp_cond_nil_sound c c' : simp_cond false [] c = Some c' ->
    forall s, evalB (env_st s) c' = evalB (env_st s) c.
  Proof. intros H s. apply (simp_cond_sound false [] s (agrees_nil s) c c' H). Qed.

  Lemma dce1_sound u : forall st out, dce1 u st = Some out -> equiv ps out [st].
  Proof.
    induction st using stmt_ind'; intros out.
    - cbn. intros E; inversion E. apply equiv_refl.
    - cbn. intros E; inversion E. apply equiv_refl.
    - change (dce1 u (SDo v lo hi st b)) with
        (match dce_list u b with Some b' => Some [SDo v lo hi st b'] | None => None end).
      destruct (dce_list u b) as [b'|] eqn:E1; [|discriminate].
      intros E; inversion E; subst. apply equiv_do. now apply (dce_list_sound u b H).
    - change (dce1 u (SWhile c b)) with
        (match dce_list u b with Some b' => Some [SWhile c b'] | None => None end).
      destruct (dce_list u b) as [b'|] eqn:E1; [|discriminate].
      intros E; inversion E; subst. apply equiv_while. now apply (dce_list_sound u b H).
    - change (dce1 u (SIf c t e)) with
        (match (if u then simp_cond false [] c else Some c), dce_list u t, dce_list u e with
         | Some c', Some t', Some e' =>
             match c' with
             | ELog true => Some t'
             | ELog false => Some e'
             | _ => if is_elseif e && is_nil e' then None else Some [SIf c' t' e']
             end
         | _, _, _ => None
         end).
      destruct (if u then simp_cond false [] c else Some c) as [c'|] eqn:Ec; [|discriminate].
      destruct (dce_list u t) as [t'|] eqn:Et; [|discriminate].
      destruct (dce_list u e) as [e'|] eqn:Ee; [|discriminate].
      assert (Hc : forall s, evalB (env_st s) c' = evalB (env_st s) c).
      { destruct u; [now apply simp_cond_nil_sound|inversion Ec; reflexivity]. }
      pose proof (dce_list_sound u t H t' Et) as Ht. pose proof (dce_list_sound u e H0 e' Ee) as He.
      assert (G : equiv ps [SIf c' t' e'] [SIf c t e]) by (now apply equiv_if).
      destruct c'; try (destruct (is_elseif e && is_nil e'); intros E; inversion E; subst; exact G).
      intros E. destruct b; inversion E; subst.
      + eapply equiv_trans; [exact Ht|]. apply equiv_sym, equiv_if_true. intros s. now rewrite <- Hc.
      + eapply equiv_trans; [exact He|]. apply equiv_sym, equiv_if_false. intros s. now rewrite <- Hc.
    - cbn. intros E; inversion E. apply equiv_refl.
    - cbn. intros E; inversion E. apply equiv_refl.
  Qed.

  Theorem deadcode_preserves u p p' : dce u p = Some p' -> equiv ps p' p.
  Proof.
    rewrite <- dce_list_eq. apply dce_list_sound. apply Forall_forall. intros st _. apply dce1_sound.
  Qed.
End Dce.
