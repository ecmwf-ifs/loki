(** C32 — outside the class the transformer (without the class conditions) changes behaviour.
    Every witness below is also a known finding (notes/C32.md, F32-n) replayed against the real code. *)
From Coq Require Import ZArith List Bool String Lia.
From LV Require Import Base.Expr Base.MiniF Base.MiniFFacts models.M_C32 proofs.P_C32.
Import ListNotations.
Open Scope Z_scope.
Open Scope string_scope.

Lemma differs_not_equiv ps fuel p p' sc os : differs ps fuel p p' sc os = true -> ~ equiv ps p' p.
Proof.
  unfold differs, run_observe. intros D Q.
  destruct (exec ps fuel p (init_store sc [])) as [s1|] eqn:E1; [|discriminate].
  destruct (exec ps fuel p' (init_store sc [])) as [s2|] eqn:E2; [|discriminate].
  assert (R1 : runs ps p' (init_store sc []) s1) by (apply Q; now exists fuel).
  assert (R2 : runs ps p' (init_store sc []) s2) by (now exists fuel).
  rewrite (runs_det _ _ _ _ _ R1 R2) in D. now rewrite list_z_eqb_refl in D.
Qed.

(** F32-1: an "increment" in a loop with constant bounds leaves the stale entry: [y = c] becomes [y = 0] *)
Definition W_incr : list stmt :=
  [SAssign "c" (EInt 0);
   SDo "i" (EInt 1) (EInt 3) None [SAssign "c" (ESum false [EVar "c"; EInt 2])];
   SAssign "y" (EVar "c")].

(** F32-2: an assignment that depends on the DO variable leaves the stale entry (program of Loki's own test) *)
Definition W_loopdep : list stmt :=
  [SAssign "d" (EInt 0);
   SDo "i" (EInt 1) (EInt 5) None [SAssign "d" (EProd false [EInt 5; EVar "i"])];
   SAssign "d" (EProd false [EVar "d"; EInt 2])].

(** F32-3: the body of a zero-trip loop with constant bounds updates the map *)
Definition W_zerotrip : list stmt :=
  [SAssign "x" (EInt 1);
   SDo "i" (EInt 5) (EInt 1) None [SAssign "x" (EInt 2)];
   SAssign "y" (EVar "x")].

(** F32-5: the incoming map is used inside a loop body that overwrites the variable later *)
Definition W_carried : list stmt :=
  [SAssign "x" (EInt 1);
   SDo "i" (EInt 1) (EVar "n") None [SAssign "y" (EVar "x"); SAssign "x" (EInt 5)]].

(** F32-8: DO WHILE bodies are treated as straight-line code *)
Definition W_while : list stmt :=
  [SAssign "x" (EInt 1);
   SWhile (ECmp Clt (EVar "k") (EInt 1)) [SAssign "x" (EInt 2); SAssign "k" (ESum false [EVar "k"; EInt 1])];
   SAssign "y" (EVar "x")].

(** F32-10: calls do not invalidate their arguments *)
Definition setv : proc := {| p_params := [("p", false); ("q", false)]; p_body := [SAssign "p" (ESum false [EVar "q"; EInt 1])] |}.
Definition W_call : list stmt :=
  [SAssign "x" (EInt 1); SCall "setv" [EVar "x"; EInt 5]; SAssign "y" (EVar "x")].

(** 30 and 60 are the fuels of the transformer and of the interpreter: ample for the witnesses, whose
    evaluations all succeed *)
Definition refuted_b (ps : procs) (p : list stmt) (sc : list (string * Z)) (os : list string) : bool :=
  match constprop_raw 30 p with Some p' => differs ps 60 p p' sc os | None => false end.

Definition refuted (ps : procs) (p : list stmt) (sc : list (string * Z)) (os : list string) : Prop :=
  exists p', constprop_raw 30 p = Some p' /\ differs ps 60 p p' sc os = true.

Lemma refuted_b_spec ps p sc os : refuted_b ps p sc os = true -> refuted ps p sc os.
Proof.
  unfold refuted_b, refuted. destruct (constprop_raw 30 p) as [p'|]; [|discriminate].
  intros D. exists p'. now split.
Qed.

Lemma refuted_incr : refuted [] W_incr [] ["y"].
Proof. apply refuted_b_spec. vm_compute. reflexivity. Qed.
Lemma refuted_loopdep : refuted [] W_loopdep [] ["d"].
Proof. apply refuted_b_spec. vm_compute. reflexivity. Qed.
Lemma refuted_zerotrip : refuted [] W_zerotrip [] ["y"].
Proof. apply refuted_b_spec. vm_compute. reflexivity. Qed.
Lemma refuted_carried : refuted [] W_carried [("n", 2)] ["y"].
Proof. apply refuted_b_spec. vm_compute. reflexivity. Qed.
Lemma refuted_while : refuted [] W_while [("k", 5)] ["y"].
Proof. apply refuted_b_spec. vm_compute. reflexivity. Qed.
Lemma refuted_call : refuted [("setv", setv)] W_call [] ["y"].
Proof. apply refuted_b_spec. vm_compute. reflexivity. Qed.

Lemma witnesses_outside_class :
  constprop 30 W_incr = None /\ constprop 30 W_loopdep = None /\ constprop 30 W_zerotrip = None /\
  constprop 30 W_carried = None /\ constprop 30 W_while = None /\ constprop 30 W_call = None.
Proof. repeat split; vm_compute; reflexivity. Qed.

Theorem constprop_unconditional_refuted :
  exists ps p p', constprop_raw 30 p = Some p' /\ ~ equiv ps p' p.
Proof.
  destruct refuted_incr as [p' [E D]]. exists [], W_incr, p'. split; [exact E|].
  eapply differs_not_equiv; exact D.
Qed.

(** F32-11 (unroll_loops=True): the second pass starts from the FINAL map of the first pass *)
Definition W_stale : list stmt := [SAssign "y" (EVar "x"); SAssign "x" (EInt 5)].

Definition second_pass_b : bool :=
  match cp true 30 false [] W_stale with
  | Some (p1, m1) =>
      match cp true 30 false m1 p1 with
      | Some (p3, _) => differs [] 60 W_stale p3 [("x", 7)] ["y"]
      | None => false
      end
  | None => false
  end.

Theorem second_pass_refuted :
  exists p1 m1 p3 m3,
    cp true 30 false [] W_stale = Some (p1, m1) /\ cp true 30 false m1 p1 = Some (p3, m3) /\
    differs [] 60 W_stale p3 [("x", 7)] ["y"] = true.
Proof.
  assert (H : second_pass_b = true) by (vm_compute; reflexivity).
  unfold second_pass_b in H.
  destruct (cp true 30 false [] W_stale) as [[p1 m1]|]; [|discriminate].
  destruct (cp true 30 false m1 p1) as [[p3 m3]|] eqn:E; [|discriminate].
  exists p1, m1, p3, m3. now repeat split.
Qed.

(** a non-trivial member of the class: constants reach through a conditional and a constant-bounds loop *)
Definition P_example : list stmt :=
  [SAssign "k" (EInt 7);
   SAssign "x" (EQuot false (EVar "k") (EInt 2));
   SIf (ECmp Cgt (EVar "n") (EInt 0)) [SAssign "y" (EInt 1)] [SAssign "y" (EInt 1)];
   SAssign "z" (EVar "n");
   SDo "i" (EInt 1) (EVar "x") None [SAssign "z" (EInt 15); SStore "arr" [EVar "i"] (ESum false [EVar "y"; EVar "i"])];
   SAssign "z" (EProd false [EVar "z"; EInt 2])].

Example class_inhabited :
  constprop 30 P_example =
  Some [SAssign "k" (EInt 7);
        SAssign "x" (EInt 3);
        SIf (ECmp Cgt (EVar "n") (EInt 0)) [SAssign "y" (EInt 1)] [SAssign "y" (EInt 1)];
        SAssign "z" (EVar "n");
        SDo "i" (EInt 1) (EInt 3) None [SAssign "z" (EInt 15); SStore "arr" [EVar "i"] (ESum false [EInt 1; EVar "i"])];
        SAssign "z" (EInt 30)].
Proof. vm_compute. reflexivity. Qed.
