(** C32 — names that do not occur are irrelevant (removal of unused locals / dummies); what the modelled
    analysis ([occ_df]) reports as unused does not occur, DO variables excepted.  Defines [sim], [none], [rem_ok]. *)
From Coq Require Import ZArith List Bool String Lia.
From LV Require Import Base.Expr Base.ListFacts Base.ExprFacts Base.MiniF Base.MiniFFacts models.M_C32 proofs.P_C32.
Import ListNotations.
Open Scope Z_scope.

(** two stores agree on every name outside [X] (scalars and arrays, arrays pointwise) *)
Definition sim (X : string -> Prop) (s1 s2 : store) : Prop :=
  (forall y, ~ X y -> sv s1 y = sv s2 y) /\ (forall a, ~ X a -> forall i, av s1 a i = av s2 a i).

Definition none : string -> Prop := fun _ => False.

Lemma sim_refl X s : sim X s s.
Proof. split; intros; reflexivity. Qed.

Lemma sim_weaken (X : string -> Prop) s1 s2 : sim none s1 s2 -> sim X s1 s2.
Proof. intros [A B]. split; intros; [apply A|apply B]; intros []. Qed.

Lemma sim_set_sv X y v s1 s2 : sim X s1 s2 -> sim X (set_sv y v s1) (set_sv y v s2).
Proof.
  intros [A B]. split; [|exact B]. intros z N. cbn. destruct (String.eqb z y); [reflexivity|now apply A].
Qed.

Lemma sim_set_sv_left (X : string -> Prop) d v s1 s2 : X d -> sim X s1 s2 -> sim X (set_sv d v s1) s2.
Proof.
  intros Hd [A B]. split; [|exact B]. intros y N. cbn. destruct (String.eqb y d) eqn:E; [|now apply A].
  apply String.eqb_eq in E. subst. contradiction.
Qed.

Lemma sim_set_av X a i v s1 s2 : sim X s1 s2 -> sim X (set_av a i v s1) (set_av a i v s2).
Proof.
  intros [A B]. split; [exact A|]. intros b N j. cbn.
  destruct (String.eqb b a && list_z_eqb j i); [reflexivity|now apply B].
Qed.

Lemma sim_set_arr X a f1 f2 s1 s2 : (forall i, f1 i = f2 i) -> sim X s1 s2 -> sim X (set_arr a f1 s1) (set_arr a f2 s2).
Proof.
  intros F [A B]. split; [exact A|]. intros b N j. cbn. destruct (String.eqb b a); [apply F|now apply B].
Qed.

Lemma absent_or (X : string -> Prop) (p q : string -> bool) :
  (forall x, X x -> p x || q x = false) -> (forall x, X x -> p x = false) /\ (forall x, X x -> q x = false).
Proof. intros H. split; intros x Hx; specialize (H x Hx); now apply orb_false_iff in H. Qed.

Lemma absent_list {A} (X : string -> Prop) (occ : string -> A -> bool) l :
  (forall x, X x -> existsb (occ x) l = false) -> Forall (fun c => forall x, X x -> occ x c = false) l.
Proof.
  induction l as [|c r IH]; intros H; [constructor|].
  destruct (absent_or X (fun x => occ x c) (fun x => existsb (occ x) r) H) as [Hc Hr].
  constructor; [exact Hc|exact (IH Hr)].
Qed.

Lemma absent_name (X : string -> Prop) y : (forall x, X x -> String.eqb y x = false) -> ~ X y.
Proof. intros H Hy. specialize (H y Hy). rewrite String.eqb_refl in H. discriminate. Qed.

Lemma evalZ_sim X s1 s2 : sim X s1 s2 ->
  forall e, (forall x, X x -> occurs_e x e = false) -> evalZ (env_st s1) e = evalZ (env_st s2) e.
Proof.
  intros [A B]. induction e using expr_ind'; intros O; try reflexivity; cbn [occurs_e] in O.
  - cbn. f_equal. apply A. now apply absent_name.
  - exact (fold_obind_same _ _ Z.add (Some 0) cs (Forall_mp _ _ _ H (absent_list X occurs_e cs O))).
  - exact (fold_obind_same _ _ Z.mul (Some 1) cs (Forall_mp _ _ _ H (absent_list X occurs_e cs O))).
  - apply absent_or in O. destruct O as [O1 O2]. cbn [evalZ]. now rewrite IHe1, IHe2.
  - apply absent_or in O. destruct O as [O1 O2]. cbn [evalZ]. now rewrite IHe1, IHe2.
  - apply absent_or in O. destruct O as [Of Oa].
    rewrite !evalZ_call, (omap_list_ext _ _ args (Forall_mp _ _ _ H (absent_list X occurs_e args Oa))).
    destruct (omap_list (evalZ (env_st s2)) args) as [vs|]; [|reflexivity].
    cbn [obind]. destruct (intrinsic f vs); [reflexivity|]. cbn. f_equal. apply B. now apply absent_name.
Qed.

Lemma evalB_sim X s1 s2 : sim X s1 s2 ->
  forall e, (forall x, X x -> occurs_e x e = false) -> evalB (env_st s1) e = evalB (env_st s2) e.
Proof.
  intros S. induction e using expr_ind'; intros O; try reflexivity; cbn [occurs_e] in O.
  - apply absent_or in O. destruct O as [O1 O2]. cbn [evalB].
    now rewrite (evalZ_sim X s1 s2 S e1 O1), (evalZ_sim X s1 s2 S e2 O2).
  - exact (fold_obind_same _ _ andb (Some true) cs (Forall_mp _ _ _ H (absent_list X occurs_e cs O))).
  - exact (fold_obind_same _ _ orb (Some false) cs (Forall_mp _ _ _ H (absent_list X occurs_e cs O))).
  - cbn [evalB]. now rewrite IHe.
Qed.

Lemma eval_idx_sim X s1 s2 : sim X s1 s2 ->
  forall idx, (forall x, X x -> existsb (occurs_e x) idx = false) -> eval_idx s1 idx = eval_idx s2 idx.
Proof.
  intros S idx O. apply omap_list_ext. eapply Forall_impl; [|exact (absent_list X occurs_e idx O)].
  intros c Oc. now apply (evalZ_sim X).
Qed.

Lemma copy_in_scalar s d ps e r c :
  copy_in s ((d, false) :: ps) (e :: r) c =
  match evalZ (env_st s) e with Some v => copy_in s ps r (set_sv d v c) | None => None end.
Proof. destruct e; reflexivity. Qed.

Lemma copy_in_sim (X : string -> Prop) s1 s2 : sim X s1 s2 ->
  forall params args c1 c2 r1, (forall x, X x -> existsb (occurs_e x) args = false) ->
    sim none c1 c2 -> copy_in s1 params args c1 = Some r1 ->
    exists r2, copy_in s2 params args c2 = Some r2 /\ sim none r1 r2.
Proof.
  intros S. induction params as [|[d b] ps IH]; intros args c1 c2 r1 O C E.
  - destruct args; [|discriminate]. cbn in E. inversion E; subst. exists c2. split; [reflexivity|exact C].
  - destruct args as [|e r]; [destruct b; discriminate|].
    cbn [existsb] in O. apply absent_or in O. destruct O as [Oe Or].
    destruct b.
    + destruct e; try discriminate. cbn [copy_in] in E |- *.
      eapply (IH r _ _ r1 Or); [|exact E].
      apply sim_set_arr; [|exact C]. intros i. apply (proj2 S). now apply absent_name.
    + rewrite copy_in_scalar in E |- *. rewrite <- (evalZ_sim X s1 s2 S e Oe).
      destruct (evalZ (env_st s1) e) as [v|]; [|discriminate].
      eapply (IH r _ _ r1 Or); [|exact E]. now apply sim_set_sv.
Qed.

Lemma copy_out_sim (X : string -> Prop) c1 c2 : sim none c1 c2 ->
  forall params args s1 s2, sim X s1 s2 -> sim X (copy_out c1 params args s1) (copy_out c2 params args s2).
Proof.
  intros C. induction params as [|[d b] ps IH]; intros args s1 s2 S.
  - destruct args; exact S.
  - destruct args as [|e r]; [destruct b; exact S|].
    destruct e; cbn [copy_out]; try (destruct b; apply IH; assumption).
    destruct b; apply IH.
    + apply sim_set_arr; [|exact S]. intros i. apply (proj2 C). intros [].
    + rewrite (proj1 C d) by (intros []). now apply sim_set_sv.
Qed.

Lemma do_loop_sim (run1 run2 : store -> option store) (X : string -> Prop) v d :
  ~ X v ->
  (forall s1 s2 s1', sim X s1 s2 -> run1 s1 = Some s1' -> exists s2', run2 s2 = Some s2' /\ sim X s1' s2') ->
  forall n i s1 s2 s1', sim X s1 s2 -> do_loop run1 v d n i s1 = Some s1' ->
    exists s2', do_loop run2 v d n i s2 = Some s2' /\ sim X s1' s2'.
Proof.
  intros Nv H. induction n as [|n IH]; intros i s1 s2 s1' S E; cbn [do_loop] in *.
  - inversion E; subst. eexists; split; [reflexivity|now apply sim_set_sv].
  - apply obind_some in E. destruct E as [t1 [E1 E2]].
    destruct (H _ (set_sv v i s2) _ (sim_set_sv X v i _ _ S) E1) as [t2 [F1 F2]].
    rewrite F1. cbn [obind]. now apply (IH _ t1).
Qed.

(** one statement, given the fact for the statement lists it runs (for every [X]: a callee starts afresh) *)
Lemma exec1_sim ps f :
  (forall (X : string -> Prop) l s1 s2 s1',
     (forall x, X x -> occurs_l x l = false) -> sim X s1 s2 -> exec ps f l s1 = Some s1' ->
     exists s2', exec ps f l s2 = Some s2' /\ sim X s1' s2') ->
  forall (X : string -> Prop) st s1 s2 s1',
    (forall x, X x -> occurs x st = false) -> sim X s1 s2 -> exec1 ps f st s1 = Some s1' ->
    exists s2', exec1 ps f st s2 = Some s2' /\ sim X s1' s2'.
Proof.
  intros IH X st s1 s2 t1 O S E.
  destruct st as [y e|a idx e|v lo hi stp body|c body|c tb eb|g args|lbl]; cbn [exec1] in E |- *; cbn [occurs] in O.
  - apply absent_or in O. destruct O as [_ Oe].
    rewrite <- (evalZ_sim X s1 s2 S e Oe). apply obind_some in E. destruct E as [w [Ew E]].
    rewrite Ew. cbn [obind]. inversion E; subst. eexists; split; [reflexivity|now apply sim_set_sv].
  - apply absent_or in O. destruct O as [O Oe]. apply absent_or in O. destruct O as [_ Oi].
    rewrite <- (eval_idx_sim X s1 s2 S idx Oi), <- (evalZ_sim X s1 s2 S e Oe).
    apply obind_some in E. destruct E as [i [Ei E]]. apply obind_some in E. destruct E as [w [Ew E]].
    rewrite Ei, Ew. cbn [obind]. inversion E; subst. eexists; split; [reflexivity|now apply sim_set_av].
  - apply absent_or in O. destruct O as [O Ob]. apply absent_or in O. destruct O as [O Os].
    apply absent_or in O. destruct O as [O Oh]. apply absent_or in O. destruct O as [Ov Ol].
    rewrite <- (evalZ_sim X s1 s2 S lo Ol), <- (evalZ_sim X s1 s2 S hi Oh).
    assert (Es : (match stp with None => Some 1 | Some e => evalZ (env_st s2) e end)
                 = (match stp with None => Some 1 | Some e => evalZ (env_st s1) e end)).
    { destruct stp as [e|]; [|reflexivity]. symmetry. exact (evalZ_sim X s1 s2 S e Os). }
    rewrite Es.
    apply obind_some in E. destruct E as [a [Ea E]]. apply obind_some in E. destruct E as [b [Eb E]].
    apply obind_some in E. destruct E as [d [Ed E]]. rewrite Ea, Eb. cbn [obind]. rewrite Ed. cbn [obind].
    destruct (d =? 0); [discriminate|].
    eapply (do_loop_sim (exec ps f body) (exec ps f body) X v d); [now apply absent_name| |exact S|exact E].
    intros u1 u2 u1'. exact (IH X body u1 u2 u1' Ob).
  - pose proof O as Ow. apply absent_or in O. destruct O as [Oc Ob].
    rewrite <- (evalB_sim X s1 s2 S c Oc). apply obind_some in E. destruct E as [b [Eb E]]. rewrite Eb. cbn [obind].
    destruct b; [|inversion E; subst; eauto].
    apply obind_some in E. destruct E as [u1 [R1 R2]].
    destruct (IH X body s1 s2 u1 Ob S R1) as [u2 [F1 F2]]. rewrite F1. cbn [obind].
    apply (IH X [SWhile c body] u1 u2 t1); [|exact F2|exact R2].
    intros x Hx. unfold occurs_l. cbn [existsb occurs]. now rewrite (Ow x Hx).
  - apply absent_or in O. destruct O as [O Oe]. apply absent_or in O. destruct O as [Oc Ot].
    rewrite <- (evalB_sim X s1 s2 S c Oc).
    apply obind_some in E. destruct E as [b [Eb E]]. rewrite Eb. cbn [obind].
    apply (IH X _ s1 s2 t1); [|exact S|exact E]. now destruct b.
  - apply obind_some in E. destruct E as [p [Ep E]]. rewrite Ep. cbn [obind].
    apply obind_some in E. destruct E as [c1 [Ec E]].
    destruct (copy_in_sim X s1 s2 S (p_params p) args empty_store empty_store c1 O (sim_refl none _) Ec) as [c2 [Fc Sc]].
    rewrite Fc. cbn [obind]. apply obind_some in E. destruct E as [c1' [Eb E]].
    destruct (IH none (p_body p) c1 c2 c1') as [c2' [Fb Sb]]; [intros x []|exact Sc|exact Eb|].
    rewrite Fb. cbn [obind]. inversion E; subst. eexists; split; [reflexivity|].
    now apply copy_out_sim.
  - inversion E; subst. eauto.
Qed.

Theorem exec_sim ps : forall f (X : string -> Prop) l s1 s2 s1',
  (forall x, X x -> occurs_l x l = false) -> sim X s1 s2 -> exec ps f l s1 = Some s1' ->
  exists s2', exec ps f l s2 = Some s2' /\ sim X s1' s2'.
Proof.
  induction f as [|f IH]; intros X l s1 s2 s1' O S E; [discriminate|].
  destruct l as [|st rest]; [cbn in E |- *; inversion E; subst; eauto|].
  unfold occurs_l in O. cbn [existsb] in O. apply absent_or in O. destruct O as [Ost Orest].
  rewrite exec_unfold in E |- *. apply obind_some in E. destruct E as [t1 [E1 E2]].
  destruct (exec1_sim ps f IH X st s1 s2 t1 Ost S E1) as [t2 [G1 G2]].
  rewrite G1. cbn [obind]. exact (IH X rest t1 t2 s1' Orest G2 E2).
Qed.

(** removing the declaration of a variable or an array that does not occur: its value is irrelevant for
    everything else, and the program still runs *)
Lemma unused_irrelevant ps x p s s2 s' :
  occurs_l x p = false -> sim (eq x) s s2 -> runs ps p s s' ->
  exists s'', runs ps p s2 s'' /\ sim (eq x) s' s''.
Proof.
  intros O S [f E].
  destruct (exec_sim ps f (eq x) p s s2 s') as [s'' [F T]]; [now intros y <-|exact S|exact E|].
  exists s''. split; [now exists f|exact T].
Qed.

Theorem unused_var_irrelevant ps x p s s' v :
  occurs_l x p = false -> runs ps p s s' ->
  exists s'', runs ps p (set_sv x v s) s'' /\ sim (eq x) s' s''.
Proof.
  intros O. apply (unused_irrelevant ps x p s _ s' O).
  split; [|reflexivity]. intros y N. cbn. destruct (String.eqb y x) eqn:Q; [|reflexivity].
  apply String.eqb_eq in Q. congruence.
Qed.

Theorem unused_array_irrelevant ps x p s s' g :
  occurs_l x p = false -> runs ps p s s' ->
  exists s'', runs ps p (set_arr x g s) s'' /\ sim (eq x) s' s''.
Proof.
  intros O. apply (unused_irrelevant ps x p s _ s' O).
  split; [reflexivity|]. intros a N i. cbn. destruct (String.eqb a x) eqn:Q; [|reflexivity].
  apply String.eqb_eq in Q. congruence.
Qed.

Lemma occ_df_list x l :
  Forall (fun s => ~ In x (loopvars s) -> occ_df x s = false -> occurs x s = false) l ->
  ~ In x (flat_map loopvars l) -> existsb (occ_df x) l = false -> existsb (occurs x) l = false.
Proof.
  induction 1 as [|s r Hs _ IH]; intros N D; [reflexivity|]. cbn in N, D |- *.
  rewrite in_app_iff in N. apply orb_false_iff in D. destruct D as [Da Db].
  rewrite Hs, IH; [reflexivity|tauto..].
Qed.

Lemma occ_df_occurs x : forall st, ~ In x (loopvars st) -> occ_df x st = false -> occurs x st = false.
Proof.
  induction st using stmt_ind'; intros N D; try exact D; cbn [loopvars] in N; cbn [occ_df] in D; cbn [occurs].
  - destruct (String.eqb v x) eqn:Nv; [apply String.eqb_eq in Nv; subst; exfalso; apply N; now left|].
    cbn [negb andb orb] in D |- *. apply orb_false_iff in D. destruct D as [D1 D2]. rewrite D1.
    apply (occ_df_list x b H); [|exact D2]. intros I. apply N. now right.
  - apply orb_false_iff in D. destruct D as [D1 D2]. rewrite D1. exact (occ_df_list x b H N D2).
  - rewrite in_app_iff in N. apply orb_false_iff in D. destruct D as [D D3]. apply orb_false_iff in D.
    destruct D as [D1 D2]. rewrite D1, (occ_df_list x t H), (occ_df_list x e H0); [reflexivity|tauto..].
Qed.

(** what the implementation reports as unused does not occur, provided it is not a DO variable
    (the dataflow analysis drops induction variables: finding F32-13) *)
Theorem unused_locals_do_not_occur args decls body x :
  In x (unused_locals args decls body) -> ~ In x (flat_map loopvars body) -> occurs_l x body = false.
Proof.
  unfold unused_locals. intros I N. apply filter_In in I. destruct I as [_ I].
  apply andb_true_iff in I. destruct I as [_ I]. apply negb_true_iff in I. unfold used in I.
  apply orb_false_iff in I. destruct I as [I _].
  apply occ_df_list; [|exact N|exact I]. apply Forall_forall. intros st _. apply occ_df_occurs.
Qed.

(** the removed positions hold scalar dummies whose names are in [X] *)
Fixpoint rem_ok (X : string -> Prop) (k : nat) (ks : list nat) (params : list (string * bool)) : Prop :=
  match params with
  | [] => True
  | (d, b) :: r => (existsb (Nat.eqb k) ks = true -> X d /\ b = false) /\ rem_ok X (S k) ks r
  end.

Lemma copy_in_removed (X : string -> Prop) s ks : forall params k args c1 c2 r1,
  rem_ok X k ks params -> sim X c1 c2 -> copy_in s params args c1 = Some r1 ->
  exists r2, copy_in s (remove_pos_from k ks params) (remove_pos_from k ks args) c2 = Some r2 /\ sim X r1 r2.
Proof.
  induction params as [|[d b] ps IH]; intros k args c1 c2 r1 R C E.
  - destruct args; [|discriminate]. cbn in E. inversion E; subst. exists c2. split; [reflexivity|exact C].
  - destruct args as [|e r]; [destruct b; discriminate|].
    destruct R as [R1 R2]. cbn [remove_pos_from].
    destruct (existsb (Nat.eqb k) ks) eqn:K.
    + destruct (R1 eq_refl) as [Hd Hb]. subst b.
      rewrite copy_in_scalar in E. destruct (evalZ (env_st s) e) as [w|]; [|discriminate].
      apply (IH (S k) r (set_sv d w c1) c2 r1 R2); [|exact E]. now apply sim_set_sv_left.
    + destruct b.
      * destruct e; try discriminate. cbn [copy_in] in E |- *.
        eapply (IH (S k) r _ _ r1 R2); [|exact E]. apply sim_set_arr; [reflexivity|exact C].
      * rewrite copy_in_scalar in E |- *. destruct (evalZ (env_st s) e) as [w|]; [|discriminate].
        eapply (IH (S k) r _ _ r1 R2); [|exact E]. now apply sim_set_sv.
Qed.

(** partial: the callee computes the same values for every name outside [X] whether or not the unused dummies (and
    the matching actual arguments) are passed; the copy-out into the caller is [P_C32_call.remove_dummy_call_preserves] *)
Theorem remove_dummy_callee_partial ps (X : string -> Prop) ks params body s args f c1 c1' :
  rem_ok X 0 ks params -> (forall x, X x -> occurs_l x body = false) ->
  copy_in s params args empty_store = Some c1 -> exec ps f body c1 = Some c1' ->
  exists c2 c2', copy_in s (remove_pos ks params) (remove_pos ks args) empty_store = Some c2
                 /\ exec ps f body c2 = Some c2' /\ sim X c1' c2'.
Proof.
  intros R O Ci Ex.
  destruct (copy_in_removed X s ks params 0 args empty_store empty_store c1 R (sim_refl X _) Ci) as [c2 [F S]].
  destruct (exec_sim ps f X body c1 c2 c1' O S Ex) as [c2' [G T]].
  exists c2, c2'. split; [exact F|split; [exact G|exact T]].
Qed.
