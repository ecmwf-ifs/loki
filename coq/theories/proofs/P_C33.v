(** C33 — outlining preserves behaviour on the class [flow]; concrete refutations outside it. *)
From Coq Require Import ZArith List Bool String Lia.
From LV Require Import Base.Expr Base.MiniF Base.ExprFacts Base.MiniFFacts models.M_C26 models.M_C33 proofs.P_C33_base proofs.P_C33_ni.
Import ListNotations.
Open Scope Z_scope.

(** * the transformation only moves statements *)
Lemma outline_items_inline h sg : forall its n cs, outline_items h sg n its = Some cs -> inline cs = orig its.
Proof.
  induction its as [|[s|rg] r IH]; intros n cs E; cbn in E.
  - inversion E; subst. reflexivity.
  - destruct (outline_items h sg n r) as [cs'|] eqn:E'; [|discriminate]. cbn in E. inversion E; subst.
    cbn. f_equal. now apply (IH n).
  - destruct (forallb _ _); [|discriminate].
    destruct (outline_items h sg (S n) r) as [cs'|] eqn:E'; [|discriminate]. cbn in E. inversion E; subst.
    cbn. f_equal. now apply (IH (S n)).
Qed.

Lemma outline_inline h sg its cs : outline h sg its = Some cs -> inline cs = orig its.
Proof. apply outline_items_inline. Qed.

(** the body of every new routine is the body of a region, verbatim *)
Lemma outline_bodies h sg : forall its n cs o,
  outline_items h sg n its = Some cs -> In (CCall o) cs -> exists rg, In (IRegion rg) its /\ o_body o = r_body rg.
Proof.
  induction its as [|[s|rg] r IH]; intros n cs o E Hin; cbn in E.
  - inversion E; subst. destruct Hin.
  - destruct (outline_items h sg n r) as [cs'|] eqn:E'; [|discriminate]. cbn in E. inversion E; subst.
    destruct Hin as [Hin|Hin]; [discriminate|]. destruct (IH n cs' o E' Hin) as [rg [A B]]. exists rg. split; [now right|exact B].
  - destruct (forallb _ _); [|discriminate].
    destruct (outline_items h sg (S n) r) as [cs'|] eqn:E'; [|discriminate]. cbn in E. inversion E; subst.
    destruct Hin as [Hin|Hin].
    + inversion Hin; subst. exists rg. split; [now left|reflexivity].
    + destruct (IH (S n) cs' o E' Hin) as [rg' [A B]]. exists rg'. split; [now right|exact B].
Qed.

(** * executable and relational semantics of the outlined program coincide *)
Lemma exec_c_runs_c ps strict g f : forall cs s s', exec_c ps strict g f cs s = Some s' -> runs_c ps strict g cs s s'.
Proof.
  induction cs as [|[st|o] r IH]; intros s s' E; cbn in E.
  - inversion E; subst. constructor.
  - apply obind_some in E. destruct E as [m [E1 E2]]. eapply RC_stmt; [exists f; exact E1|now apply IH].
  - apply obind_some in E. destruct E as [m [E1 E2]]. unfold ocall in E1.
    apply obind_some in E1. destruct E1 as [c [E1 E3]]. inversion E3; subst.
    eapply RC_call; [exists f; exact E1|now apply IH].
Qed.

Lemma exec_c_fuel_mono ps strict g f f' : (f <= f')%nat ->
  forall cs s s', exec_c ps strict g f cs s = Some s' -> exec_c ps strict g f' cs s = Some s'.
Proof.
  intros Hle. induction cs as [|[st|o] r IH]; intros s s'; cbn [exec_c]; [auto| |];
    (apply obind_mono; [intros a E|intros a; apply IH]).
  - exact (exec_fuel_mono ps f f' _ _ _ E Hle).
  - unfold ocall in *. revert E. apply obind_mono; [|auto]. intros c E. exact (exec_fuel_mono ps f f' _ _ _ E Hle).
Qed.

Lemma runs_c_exec_c ps strict g : forall cs s s', runs_c ps strict g cs s s' -> exists f, exec_c ps strict g f cs s = Some s'.
Proof.
  intros cs s s' H. induction H as [s|st r s s1 s' [f1 E1] _ [f2 E2]|o r s c s' [f1 E1] _ [f2 E2]].
  - exists 0%nat. reflexivity.
  - exists (Nat.max f1 f2). cbn. rewrite (exec_fuel_mono ps f1 _ _ _ _ E1 (Nat.le_max_l _ _)).
    exact (exec_c_fuel_mono ps strict g _ _ (Nat.le_max_r _ _) _ _ _ E2).
  - exists (Nat.max f1 f2). cbn. unfold ocall. rewrite (exec_fuel_mono ps f1 _ _ _ _ E1 (Nat.le_max_l _ _)).
    exact (exec_c_fuel_mono ps strict g _ _ (Nat.le_max_r _ _) _ _ _ E2).
Qed.

Lemma agree_out_refl D s : agree_out D s s.
Proof. apply agreeP_refl. Qed.

Lemma tdisj_reads_ok a D : tdisj a D = true -> reads_ok (fun p => negb (tmemp p D)) a.
Proof. intros H p Hp. apply negb_true_iff. apply tmemp_false. exact (proj1 (tdisj_In a D) H p Hp). Qed.

Lemma pickT_agree X s g : agreeP (fun p => tmemp p X) s (pickT X s g).
Proof. apply agreeP_look. intros p Hp i. now rewrite look_pickT, Hp. Qed.

Lemma pickT_other X s g : agreeP (fun p => negb (tmemp p X)) g (pickT X s g).
Proof. apply agreeP_look. intros p Hp i. apply negb_true_iff in Hp. now rewrite look_pickT, Hp. Qed.

(** one CALL in lock-step: [s1] runs the region in place, [s2] is the caller of the outlined routine *)
Lemma call_lock ps strict g f o D D' s1 s2 :
  flow_step ps strict D (CCall o) = Some D' -> agree_out D s1 s2 ->
  orel (agree_out D') (exec ps f (o_body o) s1) (ocall ps strict g f o s2).
Proof.
  intros F Ag. cbn [flow_step] in F.
  destruct (o_wf o && tsubset (ue_l ps (o_body o)) (o_entry strict o) && tdisj (ue_l ps (o_body o)) D) eqn:C; [|discriminate].
  injection F as <-.
  apply andb_true_iff in C. destruct C as [C C3]. apply andb_true_iff in C. destruct C as [_ C2].
  set (P := fun p => tmemp p (o_entry strict o) && negb (tmemp p D)).
  (* the region starts from stores that agree on its upward-exposed reads *)
  assert (A0 : agreeP P s1 (pickT (o_entry strict o) s2 g)).
  { apply agreeP_look. intros p Hp i. apply andb_true_iff in Hp. destruct Hp as [H1 H2].
    rewrite look_pickT, H1. exact (agreeP_at _ _ _ p i Ag H2). }
  assert (Rd : reads_ok P (ue_l ps (o_body o))).
  { intros p Hp. apply andb_true_iff. split; [apply tmemp_In; exact (proj1 (tsubset_In _ _) C2 p Hp)|].
    now apply (tdisj_reads_ok _ _ C3). }
  pose proof (ni_all ps f P (o_body o) _ _ A0 Rd) as H. unfold ocall.
  destruct (exec ps f (o_body o) s1) as [m1|] eqn:E1, (exec ps f (o_body o) (pickT _ s2 g)) as [c'|];
    try contradiction; [|exact I].
  pose proof (frame_list ps f _ _ _ E1) as Fr. cbn [orel obind] in H |- *.
  (* afterwards: a location passed back is reliable if it was on entry or is certainly assigned; any
     other location if it was reliable and the region cannot write it *)
  apply agreeP_look. intros p Hp i. apply negb_true_iff, tmemp_false in Hp. rewrite in_app_iff, !filter_In in Hp.
  rewrite look_pickT. destruct (tmemp p (o_exit o)) eqn:Eo.
  - apply (agreeP_at _ _ _ p i H). unfold Pun. fold (P p).
    destruct (P p || tmemp p (mdef_l (o_body o))) eqn:Ek; [reflexivity|].
    exfalso. apply Hp. left. split; [now apply tmemp_In|]. unfold P in Ek. cbn beta. now rewrite Ek.
  - assert (Hn : ~ In p (D ++ wr_l ps (o_body o))) by (intros Hin; apply Hp; right; now split).
    rewrite in_app_iff in Hn.
    rewrite <- (agreeP_at _ _ _ p i Fr) by (apply negb_true_iff, tmemp_false; tauto).
    apply (agreeP_at _ _ _ p i Ag). apply negb_true_iff, tmemp_false. tauto.
Qed.

Lemma stmt_lock ps strict f D D' st s1 s2 :
  flow_step ps strict D (CStmt st) = Some D' -> agree_out D s1 s2 ->
  orel (agree_out D') (exec1 ps f st s1) (exec1 ps f st s2).
Proof.
  intros F Ag. cbn [flow_step] in F. destruct (tdisj (ue_s ps st) D) eqn:C; [|discriminate]. injection F as <-.
  eapply orel_impl; [exact (ni_stmt ps f (ni_all ps f) _ st s1 s2 Ag (tdisj_reads_ok _ _ C))|].
  intros m1 m2. apply agreeP_weaken. intros p Hp. unfold Pun.
  apply negb_true_iff, tmemp_false in Hp. rewrite In_tdiff, <- tmemp_In, <- tmemp_false in Hp.
  destruct (tmemp p D), (tmemp p (mdef_s st)); try reflexivity. exfalso. tauto.
Qed.

(** forward: whenever the original terminates, so does the outlined program, with the same values
    outside [Dn] — whatever the undefined variables of the callees hold *)
Theorem flow_sound ps strict g : forall cs D Dn s1 s2 s1',
  flow ps strict cs D = Some Dn -> agree_out D s1 s2 -> runs ps (inline cs) s1 s1' ->
  exists s2', runs_c ps strict g cs s2 s2' /\ agree_out Dn s1' s2'.
Proof.
  induction cs as [|[st|o] r IH]; intros D Dn s1 s2 s1' F Ag R; cbn [flow] in F.
  - injection F as <-. apply runs_nil_inv in R. subst. exists s2. split; [constructor|exact Ag].
  - destruct (flow_step ps strict D (CStmt st)) as [D'|] eqn:Fs; [|discriminate].
    apply runs_cons_inv in R. destruct R as [m1 [[f E1] R2]].
    destruct (orel_some _ _ _ _ (stmt_lock ps strict f D D' st s1 s2 Fs Ag) E1) as [m2 [G1 G2]].
    destruct (IH D' Dn m1 m2 s1' F G2 R2) as [s2' [H1 H2]].
    exists s2'. split; [|exact H2]. eapply RC_stmt; [|exact H1]. apply runs_single. now exists f.
  - destruct (flow_step ps strict D (CCall o)) as [D'|] eqn:Fs; [|discriminate].
    cbn [inline flat_map] in R. apply runs_app_inv in R. destruct R as [m1 [[f E1] R2]].
    destruct (orel_some _ _ _ _ (call_lock ps strict g f o D D' s1 s2 Fs Ag) E1) as [m2 [G1 G2]].
    apply obind_some in G1. destruct G1 as [c [G1 [= <-]]].
    destruct (IH D' Dn m1 _ s1' F G2 R2) as [s2' [H1 H2]].
    exists s2'. split; [|exact H2]. eapply RC_call; [exists f; exact G1|exact H1].
Qed.

(** backward: whenever the outlined program terminates, so does the original *)
Theorem flow_complete ps strict g : forall cs D Dn s1 s2 s2',
  flow ps strict cs D = Some Dn -> agree_out D s1 s2 -> runs_c ps strict g cs s2 s2' ->
  exists s1', runs ps (inline cs) s1 s1' /\ agree_out Dn s1' s2'.
Proof.
  induction cs as [|[st|o] r IH]; intros D Dn s1 s2 s2' F Ag R; cbn [flow] in F.
  - injection F as <-. inversion R; subst. exists s1. split; [apply runs_nil|exact Ag].
  - destruct (flow_step ps strict D (CStmt st)) as [D'|] eqn:Fs; [|discriminate].
    inversion R as [|st' r' sa m2 sb R1 R2|]; subst.
    apply runs_single in R1. destruct R1 as [f E1].
    destruct (orel_some_r _ _ _ _ (stmt_lock ps strict f D D' st s1 s2 Fs Ag) E1) as [m1 [G1 G2]].
    destruct (IH D' Dn m1 m2 s2' F G2 R2) as [s1' [H1 H2]].
    exists s1'. split; [|exact H2]. eapply runs_cons; [exists f; exact G1|exact H1].
  - destruct (flow_step ps strict D (CCall o)) as [D'|] eqn:Fs; [|discriminate].
    inversion R as [| |o' r' sa c' sb [f E1] R2]; subst.
    assert (E2 : ocall ps strict g f o s2 = Some (pickT (o_exit o) c' s2)) by (unfold ocall; now rewrite E1).
    destruct (orel_some_r _ _ _ _ (call_lock ps strict g f o D D' s1 s2 Fs Ag) E2) as [m1 [G1 G2]].
    destruct (IH D' Dn m1 _ s2' F G2 R2) as [s1' [H1 H2]].
    exists s1'. split; [|exact H2]. cbn [inline flat_map]. eapply runs_app; [exists f; exact G1|exact H1].
Qed.

Theorem outline_preserves h sg ps strict its cs D :
  outline h sg its = Some cs -> flow ps strict cs [] = Some D ->
  forall g s,
    (forall s', runs ps (orig its) s s' -> exists s'', runs_c ps strict g cs s s'' /\ agree_out D s' s'') /\
    (forall s'', runs_c ps strict g cs s s'' -> exists s', runs ps (orig its) s s' /\ agree_out D s' s'').
Proof.
  intros Ho Hf g s. rewrite <- (outline_inline h sg its cs Ho). split.
  - intros s' R. exact (flow_sound ps strict g cs [] D s s s' Hf (agree_out_refl _ _) R).
  - intros s'' R. exact (flow_complete ps strict g cs [] D s s s'' Hf (agree_out_refl _ _) R).
Qed.

(** on the caller-visible variables [obs] (the host's dummies) when they are disjoint from [D] *)
Corollary outline_preserves_observable h sg ps strict its cs D obs :
  outline h sg its = Some cs -> flow ps strict cs [] = Some D -> tdisj obs D = true ->
  forall g s s' s'', runs ps (orig its) s s' -> runs_c ps strict g cs s s'' -> agree_on obs s' s''.
Proof.
  intros Ho Hf Hd g s s' s'' R1 R2.
  destruct (proj1 (outline_preserves h sg ps strict its cs D Ho Hf g s) s' R1) as [t [T1 T2]].
  assert (t = s'').
  { destruct (runs_c_exec_c _ _ _ _ _ _ T1) as [f1 E1]. destruct (runs_c_exec_c _ _ _ _ _ _ R2) as [f2 E2].
    apply (exec_c_fuel_mono ps strict g _ _ (Nat.le_max_l f1 f2)) in E1.
    apply (exec_c_fuel_mono ps strict g _ _ (Nat.le_max_r f1 f2)) in E2. congruence. }
  subst t. eapply agreeP_weaken; [|exact T2]. intros p Hp. apply negb_true_iff. apply tmemp_false.
  apply tmemp_In in Hp. exact (proj1 (tdisj_In _ _) Hd p Hp).
Qed.

(** the two conditions of the statement, read off [flow_step]: if the pass accepts a CALL then every
    upward-exposed read of the region is an argument that is defined on entry, and a location that the
    region may write and that is not passed back is recorded as unreliable *)
Theorem touched_vars_are_args ps strict D D' o :
  flow_step ps strict D (CCall o) = Some D' ->
  (forall p, In p (ue_l ps (o_body o)) -> In p (o_entry strict o)) /\
  (forall p, In p (wr_l ps (o_body o)) -> In p (o_exit o) \/ In p D').
Proof.
  intros F. cbn [flow_step] in F.
  destruct (o_wf o && tsubset (ue_l ps (o_body o)) (o_entry strict o) && tdisj (ue_l ps (o_body o)) D) eqn:C; [|discriminate].
  inversion F; subst D'; clear F.
  apply andb_true_iff in C. destruct C as [C _]. apply andb_true_iff in C. destruct C as [_ C2].
  split; [exact (proj1 (tsubset_In _ _) C2)|].
  intros p Hp. destruct (tmemp p (o_exit o)) eqn:E; [left; now apply tmemp_In|right].
  apply in_or_app. right. apply filter_In. split; [apply in_or_app; now right|now rewrite E].
Qed.

(** * concrete cases on the model's own output: two refutations outside the class, one instance inside *)
Local Open Scope string_scope.
Definition w_host : hostd :=
  {| h_name := "host"; h_shapes := [("a", [4]); ("b", [4])]; h_pars := []; h_imps := [];
     h_vars := ["x"; "y"; "z"; "w"; "u"; "t1"; "t2"; "i"; "j"; "a"; "b"] |}%string.

(** (a) [x = 5; region { if (z > 0) x = 1 }; y = x]: x is only MAY-defined, the dataflow sets make it
    intent(out); under the standard's rule the caller's x is undefined after the call *)
Definition w_maydef : list item :=
  [IStmt (SAssign "x" (EInt 5));
   IRegion {| r_name := Some "foo"; r_in := []; r_inout := []; r_out := [];
              r_body := [SIf (ECmp Cgt (EVar "z") (EInt 0)) [SAssign "x" (EInt 1)] []] |};
   IStmt (SAssign "y" (EVar "x"))]%string.

Theorem outline_maydef_refuted :
  exists cs, outline w_host [] w_maydef = Some cs /\
    In ("x", false, IOut) (flat_map o_args (new_routines cs)) /\
    exists s1 s2, runs [] (orig w_maydef) empty_store s1 /\ runs_c [] true (gstore 7) cs empty_store s2 /\
                  sv s1 "y"%string = 5 /\ sv s2 "y"%string = 7.
Proof.
  eexists. split; [vm_compute; reflexivity|]. split; [vm_compute; tauto|].
  eexists. eexists. split; [exists 10%nat; vm_compute; reflexivity|].
  split; [eapply (exec_c_runs_c [] true (gstore 7) 10%nat); vm_compute; reflexivity|].
  split; reflexivity.
Qed.

(** (b) [region { do i = 1, 3: a(i) = i }; y = i]: the DO variable is in neither uses nor defines, so it
    is a local of the new routine; the caller's i keeps its old value (by-reference passing, no
    strictness needed) *)
Definition w_loopvar : list item :=
  [IRegion {| r_name := Some "foo"; r_in := []; r_inout := []; r_out := [];
              r_body := [SDo "i" (EInt 1) (EInt 3) None [SStore "a" [EVar "i"] (EVar "i")]] |};
   IStmt (SAssign "y" (EVar "i"))]%string.

Theorem loopvar_after_region_refuted :
  exists cs, outline w_host [] w_loopvar = Some cs /\
    (forall o, In o (new_routines cs) -> In "i"%string (o_locals o)) /\
    exists s1 s2, runs [] (orig w_loopvar) empty_store s1 /\ runs_c [] false (gstore 7) cs empty_store s2 /\
                  sv s1 "y"%string = 4 /\ sv s2 "y"%string = 0.
Proof.
  eexists. split; [vm_compute; reflexivity|]. split.
  - intros o Ho. vm_compute in Ho. destruct Ho as [Ho|[]]. subst o. vm_compute. tauto.
  - eexists. eexists. split; [exists 10%nat; vm_compute; reflexivity|].
    split; [eapply (exec_c_runs_c [] false (gstore 7) 10%nat); vm_compute; reflexivity|].
    split; reflexivity.
Qed.

(** (c) a variable written in the region and read only after it IS passed back (intent out) — the
    class is not empty and contains the expected good case; also a non-trivial instance of the
    hypotheses of [outline_preserves] *)
Definition w_good : list item :=
  [IStmt (SAssign "t1" (ESum false [EVar "x"; EInt 1]));
   IRegion {| r_name := None; r_in := []; r_inout := []; r_out := [];
              r_body := [SAssign "y" (ESum false [EVar "t1"; EVar "z"]);
                         SDo "i" (EInt 1) (EInt 3) None [SStore "a" [EVar "i"] (ESum false [ECall "a" [EVar "i"]; EVar "y"])];
                         SAssign "w" (EVar "y")] |};
   IStmt (SAssign "x" (ESum false [EVar "y"; EVar "w"]))]%string.

Example outline_good_in_class :
  exists cs, outline w_host [] w_good = Some cs /\ flow [] true cs [] = Some [("i", false)]%string /\
             map o_args (new_routines cs) =
               [[("a", true, IInOut); ("t1", false, IIn); ("w", false, IOut); ("y", false, IOut); ("z", false, IIn)]]%string.
Proof. eexists. split; [vm_compute; reflexivity|]. split; vm_compute; reflexivity. Qed.
