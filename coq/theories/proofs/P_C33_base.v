(** C33 — basic lemmas: typed name sets, agreement of stores, expressions read what [er] says. *)
From Coq Require Import ZArith List Bool String Lia.
From LV Require Import Base.Expr Base.MiniF Base.ExprFacts Base.MiniFFacts models.M_C26 models.M_C33.
Import ListNotations.
Open Scope Z_scope.

Lemma tmem_In x b l : tmem x b l = true <-> In (x, b) l.
Proof.
  unfold tmem. rewrite existsb_exists. split.
  - intros [[y c] [Hin H]]. cbn in H. apply andb_true_iff in H. destruct H as [H1 H2].
    apply String.eqb_eq in H1. apply Bool.eqb_prop in H2. now subst.
  - intros H. exists (x, b). split; [exact H|]. cbn. now rewrite String.eqb_refl, Bool.eqb_reflx.
Qed.

Lemma tmemp_In p l : tmemp p l = true <-> In p l.
Proof. destruct p as [x b]. apply tmem_In. Qed.

Lemma tmemp_false p l : tmemp p l = false <-> ~ In p l.
Proof. rewrite <- tmemp_In. destruct (tmemp p l); split; congruence. Qed.

Lemma In_tdiff p a b : In p (tdiff a b) <-> In p a /\ ~ In p b.
Proof. unfold tdiff. rewrite filter_In, negb_true_iff, tmemp_false. tauto. Qed.

Lemma In_tinter p a b : In p (tinter a b) <-> In p a /\ In p b.
Proof. unfold tinter. rewrite filter_In, tmemp_In. tauto. Qed.

Lemma tsubset_In a b : tsubset a b = true <-> (forall p, In p a -> In p b).
Proof.
  unfold tsubset. rewrite forallb_forall. split; intros H p Hp; apply tmemp_In; now apply H.
Qed.

Lemma tdisj_In a b : tdisj a b = true <-> (forall p, In p a -> ~ In p b).
Proof.
  unfold tdisj. rewrite forallb_forall. split; intros H p Hp.
  - apply tmemp_false. specialize (H p Hp). now apply negb_true_iff in H.
  - apply negb_true_iff. apply tmemp_false. now apply H.
Qed.

Lemma tmemp_app p a b : tmemp p (a ++ b) = tmemp p a || tmemp p b.
Proof. destruct p as [x c]. unfold tmemp, tmem. cbn. apply existsb_app. Qed.

(** * agreement

    [agreeP] speaks of scalars and of arrays; [look] reads either kind of location, so that one
    argument about locations serves both halves. *)
Definition look (s : store) (p : tn) (i : list Z) : Z := if snd p then av s (fst p) i else sv s (fst p).

Lemma agreeP_look P s1 s2 : agreeP P s1 s2 <-> forall p, P p = true -> forall i, look s1 p i = look s2 p i.
Proof.
  split.
  - intros [A B] [x []] Hp i; cbn; auto.
  - intros H. split; [intros x Hx; exact (H (x, false) Hx [])|intros a Ha; exact (H (a, true) Ha)].
Qed.

Lemma agreeP_at P s1 s2 p i : agreeP P s1 s2 -> P p = true -> look s1 p i = look s2 p i.
Proof. intros H Hp. now apply (proj1 (agreeP_look P s1 s2) H). Qed.

Lemma tmemp_single p (q : string * bool) : tmemp p [q] = true <-> p = q.
Proof. rewrite tmemp_In. cbn. intuition congruence. Qed.

Lemma look_set_sv x v s p i : look (set_sv x v s) p i = if tmemp p [(x, false)] then v else look s p i.
Proof. destruct p as [y []]; unfold look, tmemp, tmem; cbn; [now rewrite andb_false_r|now rewrite andb_true_r, orb_false_r]. Qed.

Lemma look_set_arr a f s p i : look (set_arr a f s) p i = if tmemp p [(a, true)] then f i else look s p i.
Proof. destruct p as [y []]; unfold look, tmemp, tmem; cbn; [now rewrite andb_true_r, orb_false_r|now rewrite andb_false_r]. Qed.

Lemma look_set_av a j v s p i :
  look (set_av a j v s) p i = if tmemp p [(a, true)] && list_z_eqb i j then v else look s p i.
Proof. destruct p as [y []]; unfold look, tmemp, tmem; cbn; [now rewrite andb_true_r, orb_false_r|now rewrite andb_false_r]. Qed.

Lemma look_pickT X s g p i : look (pickT X s g) p i = if tmemp p X then look s p i else look g p i.
Proof. destruct p as [x []]; unfold look, tmemp; cbn; now destruct (tmem x _ X). Qed.

Lemma agreeP_refl P s : agreeP P s s.
Proof. split; intros; reflexivity. Qed.

Lemma agreeP_trans P s1 s2 s3 : agreeP P s1 s2 -> agreeP P s2 s3 -> agreeP P s1 s3.
Proof. rewrite !agreeP_look. intros A B p Hp i. now rewrite A, B. Qed.

Lemma agreeP_weaken (P Q : tn -> bool) s1 s2 :
  (forall p, Q p = true -> P p = true) -> agreeP P s1 s2 -> agreeP Q s1 s2.
Proof. rewrite !agreeP_look. auto. Qed.

(** the same value written to the same location on both sides: the location agrees afterwards *)
Lemma agreeP_set_sv P s1 s2 x v : agreeP P s1 s2 -> agreeP (fun p => P p || tmemp p [(x, false)]) (set_sv x v s1) (set_sv x v s2).
Proof.
  rewrite !agreeP_look. intros H p Hp i. rewrite !look_set_sv.
  destruct (tmemp p _); [reflexivity|]. apply H. now rewrite orb_false_r in Hp.
Qed.

Lemma agreeP_set_sv_same P s1 s2 x v : agreeP P s1 s2 -> agreeP P (set_sv x v s1) (set_sv x v s2).
Proof. intros H. eapply agreeP_weaken; [|apply agreeP_set_sv; exact H]. intros p Hp. cbn. now rewrite Hp. Qed.

Lemma agreeP_set_av P s1 s2 a i v : agreeP P s1 s2 -> agreeP P (set_av a i v s1) (set_av a i v s2).
Proof. rewrite !agreeP_look. intros H p Hp j. rewrite !look_set_av. destruct (_ && _); auto. Qed.

Lemma agreeP_set_arr P s1 s2 a f1 f2 :
  (forall i, f1 i = f2 i) -> agreeP P s1 s2 ->
  agreeP (fun p => P p || tmemp p [(a, true)]) (set_arr a f1 s1) (set_arr a f2 s2).
Proof.
  rewrite !agreeP_look. intros Hf H p Hp i. rewrite !look_set_arr.
  destruct (tmemp p _); [apply Hf|]. apply H. now rewrite orb_false_r in Hp.
Qed.

Lemma is_intrinsic_spec f vs :
  (is_intrinsic f = true -> exists r, intrinsic f vs = Some r) /\
  (is_intrinsic f = false -> intrinsic f vs = None).
Proof.
  unfold is_intrinsic.
  destruct (String.eqb f "mod" || String.eqb f "modulo" || String.eqb f "abs" || String.eqb f "min" || String.eqb f "max") eqn:E.
  - destruct (intrinsic_some f [] E) as [r ->]. split; [intros _; exact (intrinsic_some f vs E)|discriminate].
  - rewrite (intrinsic_none f [] E). split; [discriminate|intros _; exact (intrinsic_none f vs E)].
Qed.

Lemma intrinsic_indep f vs : is_intrinsic f = true -> forall rho1 rho2 : env,
  (match intrinsic f vs with Some r => r | None => ev_fun rho1 f vs end) =
  (match intrinsic f vs with Some r => r | None => ev_fun rho2 f vs end).
Proof. intros H rho1 rho2. destruct (proj1 (is_intrinsic_spec f vs) H) as [r Hr]. now rewrite Hr. Qed.

Definition reads_ok (P : tn -> bool) (l : list tn) : Prop := forall p, In p l -> P p = true.

Lemma reads_ok_app P a b : reads_ok P (a ++ b) <-> reads_ok P a /\ reads_ok P b.
Proof. unfold reads_ok. split; [intros H; split; intros p Hp; apply H; apply in_or_app; tauto|intros [A B] p Hp; apply in_app_or in Hp; destruct Hp; auto]. Qed.

Lemma reads_ok_flat_map {A} P (f : A -> list tn) l : reads_ok P (flat_map f l) <-> Forall (fun x => reads_ok P (f x)) l.
Proof.
  induction l as [|x r IH]; cbn; [split; [constructor|intros _ p []]|].
  rewrite reads_ok_app, IH. split; [intros [HA HB]; now constructor|intros H; inversion H; tauto].
Qed.

(** children that agree wherever their reads are allowed agree, if the reads of all of them are allowed *)
Lemma agree_children {B} P (f g : expr -> B) cs :
  Forall (fun e => reads_ok P (er e) -> f e = g e) cs -> reads_ok P (flat_map er cs) ->
  Forall (fun e => f e = g e) cs.
Proof. intros H R. apply reads_ok_flat_map in R. rewrite Forall_forall in *. auto. Qed.

Lemma evalZ_agree P s1 s2 : agreeP P s1 s2 -> forall e, reads_ok P (er e) -> evalZ (env_st s1) e = evalZ (env_st s2) e.
Proof.
  intros [A B] e.
  induction e as [| | | |p cs IHcs|p cs IHcs|p e1 e2 IHe1 IHe2|p e1 e2 IHe1 IHe2| | | | |f args IHargs] using expr_ind';
    intros R; cbn [er] in R; try reflexivity.
  - cbn. f_equal. apply A, R. now left.
  - apply fold_obind_same, (agree_children P); assumption.
  - apply fold_obind_same, (agree_children P); assumption.
  - apply reads_ok_app in R. destruct R as [R1 R2]. cbn [evalZ]. now rewrite IHe1, IHe2.
  - apply reads_ok_app in R. destruct R as [R1 R2]. cbn [evalZ]. now rewrite IHe1, IHe2.
  - apply reads_ok_app in R. destruct R as [R1 R2].
    rewrite !evalZ_call, (omap_list_ext _ _ args (agree_children _ _ _ _ IHargs R2)).
    destruct (omap_list (evalZ (env_st s2)) args) as [vs|]; [|reflexivity].
    cbn [obind]. destruct (is_intrinsic f) eqn:Ei.
    + now apply intrinsic_indep.
    + rewrite (proj2 (is_intrinsic_spec f vs) Ei). cbn. f_equal. apply B. apply R1. now left.
Qed.

Lemma evalB_agree P s1 s2 : agreeP P s1 s2 -> forall e, reads_ok P (er e) -> evalB (env_st s1) e = evalB (env_st s2) e.
Proof.
  intros Ag e. induction e as [| | | | | | | |op e1 e2 _ _|cs IHcs|cs IHcs|e IHe|] using expr_ind';
    intros R; cbn [er] in R; try reflexivity.
  - apply reads_ok_app in R. destruct R as [R1 R2]. cbn [evalB].
    now rewrite (evalZ_agree P s1 s2 Ag e1 R1), (evalZ_agree P s1 s2 Ag e2 R2).
  - apply fold_obind_same, (agree_children P); assumption.
  - apply fold_obind_same, (agree_children P); assumption.
  - cbn [evalB]. now rewrite IHe.
Qed.

Lemma eval_idx_agree P s1 s2 : agreeP P s1 s2 -> forall idx, reads_ok P (flat_map er idx) -> eval_idx s1 idx = eval_idx s2 idx.
Proof.
  intros Ag idx R. apply omap_list_ext, (agree_children P); [|exact R].
  apply Forall_forall. intros e _. apply evalZ_agree, Ag.
Qed.
