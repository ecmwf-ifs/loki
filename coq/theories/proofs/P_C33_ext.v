(** C33 — extraction of an internal procedure: host association = passing the host variables. *)
From Coq Require Import ZArith List Bool String Lia.
From LV Require Import Base.Expr Base.MiniF Base.ListFacts Base.ExprFacts Base.MiniFFacts models.M_C26 models.M_C33 proofs.P_C33_base proofs.P_C33_ni.
Import ListNotations.
Open Scope Z_scope.

(** binding a list of typed names to their namesakes: what [copy_in]/[copy_out] do for the added
    dummies, whose actuals are the variables of the same name *)
Fixpoint bind_all (l : list tn) (src tgt : store) : store :=
  match l with
  | [] => tgt
  | (x, true) :: r => bind_all r src (set_arr x (av src x) tgt)
  | (x, false) :: r => bind_all r src (set_sv x (sv src x) tgt)
  end.

Definition evs (l : list tn) : list expr := map (fun p => EVar (fst p)) l.

Lemma copy_in_evs s : forall l c, copy_in s l (evs l) c = Some (bind_all l s c).
Proof. induction l as [|[x b] r IH]; intros c; [reflexivity|]. destruct b; cbn; apply IH. Qed.

Lemma copy_out_evs c : forall l t, copy_out c l (evs l) t = bind_all l c t.
Proof. induction l as [|[x b] r IH]; intros t; [reflexivity|]. destruct b; cbn; apply IH. Qed.

Lemma bind_all_untouched src : forall l t, untouched l t (bind_all l src t).
Proof.
  induction l as [|[x b] r IH]; intros t; [apply agreeP_refl|]. destruct b; cbn [bind_all].
  - eapply untouched_cons; [apply untouched_set_arr; now left|apply IH].
  - eapply untouched_cons; [apply untouched_set_sv; now left|apply IH].
Qed.

(** one binding writes the source's value at its location and leaves the others alone *)
Lemma look_bind src y (b : bool) t q j :
  look (if b then set_arr y (av src y) t else set_sv y (sv src y) t) q j =
  if tmemp q [(y, b)] then look src (y, b) j else look t q j.
Proof. destruct b; [apply look_set_arr|apply look_set_sv]. Qed.

(** on the bound names the result holds the source's values (all bindings of a name copy the same value) *)
Lemma bind_all_look src : forall l t p,
  In p l \/ (forall i, look t p i = look src p i) -> forall i, look (bind_all l src t) p i = look src p i.
Proof.
  induction l as [|[y b] r IH]; intros t p H; [destruct H as [[]|H]; exact H|].
  assert (H' : p = (y, b) \/ In p r \/ forall i, look t p i = look src p i) by (cbn in H; intuition auto).
  assert (bind_all (((y, b) : tn) :: r) src t = bind_all r src (if b then set_arr y (av src y) t else set_sv y (sv src y) t)) as ->
    by now destruct b.
  apply IH. destruct H' as [->|[H'|H']]; [right|now left|right]; intros i; rewrite look_bind.
  - now rewrite (proj2 (tmemp_single _ _) eq_refl).
  - destruct (tmemp p _) eqn:E; [apply tmemp_single in E; now subst p|apply H'].
Qed.

Lemma copy_in_same_caller (Q : tn -> bool) s : forall params args c1 c2,
  agreeP Q c1 c2 -> orel (agreeP Q) (copy_in s params args c1) (copy_in s params args c2).
Proof.
  induction params as [|[d b] ps IH]; intros args c1 c2 Ag.
  - destruct args; [exact Ag|exact I].
  - destruct args as [|e r]; [destruct b; exact I|]. destruct b.
    + destruct e; try exact I. cbn. apply IH.
      eapply agreeP_weaken; [|apply agreeP_set_arr; [|exact Ag]]; [intros p Hp; cbn; now rewrite Hp|reflexivity].
    + cbn. destruct (evalZ (env_st s) e); [|exact I]. apply IH. now apply agreeP_set_sv_same.
Qed.

Definition typed (params : list (string * bool)) : list tn := params.

Lemma copy_in_untouched s : forall params args c r, copy_in s params args c = Some r -> untouched params c r.
Proof.
  induction params as [|[d b] ps IH]; intros args c r E.
  - destruct args; [|discriminate]. injection E as <-. apply agreeP_refl.
  - destruct args as [|e ar]; [destruct b; discriminate|]. destruct b.
    + destruct e; try discriminate. eapply untouched_cons; [apply untouched_set_arr; now left|exact (IH _ _ _ E)].
    + cbn in E. destruct (evalZ (env_st s) e) as [v|]; [|discriminate].
      eapply untouched_cons; [apply untouched_set_sv; now left|exact (IH _ _ _ E)].
Qed.

(** the value that copy-out leaves in a written location does not depend on the target store *)
Lemma copy_out_indep c : forall params (Q : tn -> bool) args t t',
  agreeP Q t t' -> agreeP (Pun Q (call_writes params args)) (copy_out c params args t) (copy_out c params args t').
Proof.
  induction params as [|[d b] ps IH]; intros Q args t t' Ag; [now apply agreeP_Pun_nil|].
  destruct args as [|e r]; [destruct b; now apply agreeP_Pun_nil|].
  destruct b; destruct e as [| |x| | | | | | | | | |]; cbn [copy_out call_writes]; try (apply IH; exact Ag).
  - (* array dummy, actual [x] *)
    eapply agreeP_weaken; [|apply (IH (Pun Q [(x, true)])), agreeP_set_arr; [reflexivity|exact Ag]].
    intros p Hp. now rewrite Pun_cons in Hp.
  - (* scalar dummy, actual [x] *)
    eapply agreeP_weaken; [|apply (IH (Pun Q [(x, false)])), agreeP_set_sv, Ag].
    intros p Hp. now rewrite Pun_cons in Hp.
Qed.

(** copy-out from two callee stores that agree on the dummies *)
Lemma copy_out_agree_dummies (Q : tn -> bool) c1 c2 : forall params args t1 t2,
  (forall p, In p params -> forall i, look c1 p i = look c2 p i) ->
  agreeP Q t1 t2 -> agreeP Q (copy_out c1 params args t1) (copy_out c2 params args t2).
Proof.
  induction params as [|[d b] ps IH]; intros args t1 t2 Hd Ag; [exact Ag|].
  destruct args as [|e r]; [destruct b; exact Ag|].
  assert (Hd' : forall p, In p ps -> forall i, look c1 p i = look c2 p i) by (intros p Hp; apply Hd; now right).
  destruct b; destruct e; cbn [copy_out]; try (apply IH; assumption); apply IH; try exact Hd'.
  - eapply agreeP_weaken; [|apply agreeP_set_arr; [exact (Hd (d, true) (or_introl eq_refl))|exact Ag]].
    intros p Hp. cbn. now rewrite Hp.
  - rewrite (Hd (d, false) (or_introl eq_refl) [] : sv c1 d = sv c2 d). now apply agreeP_set_sv_same.
Qed.

(** * the theorem, in terms of the lists of host-visible ([hv]) and passed ([hvp]) variables *)
(** In this section a store name ends in [o] for the original run (host association, [icall] with [hv]) and
    in [n] for the run of the extracted procedure ([hvp] passed as arguments); [c0..] is the callee store
    on entry, [c1..] at exit. *)
Section EXTRACT.
  Variables (ps : procs) (g : store) (hv hvp : list tn) (params : list (string * bool)) (body : list stmt) (args : list expr).
  Hypothesis Hsub : forall p, In p hvp -> In p hv.
  Hypothesis Hdecl : forall p, In p hv -> ~ In p params.
  Hypothesis Htouch : tdisj (ue_l ps body ++ wr_l ps body) (tdiff hv hvp) = true.
  Hypothesis Halias : tdisj (call_writes params args) hvp = true.
  Hypothesis Hlen : List.length args = List.length params.

  Let P : tn -> bool := fun p => negb (tmemp p (tdiff hv hvp)).

  Lemma params_in_P p : In p params -> P p = true.
  Proof.
    intros Hp. unfold P. apply negb_true_iff. apply tmemp_false. intros Hin. apply In_tdiff in Hin.
    exact (Hdecl p (proj1 Hin) Hp).
  Qed.

  (** on entry: a passed host variable is bound to its namesake, the other dummies are bound alike *)
  Lemma entry_agree s c0o c' :
    copy_in s params args (pickT hv s g) = Some c0o -> agreeP (fun p => negb (tmemp p hv)) c0o c' ->
    agreeP P c0o (bind_all hvp s c').
  Proof.
    intros E A'.
    pose proof (copy_in_untouched s params args _ _ E) as Fo.
    pose proof (bind_all_untouched s hvp c') as Fn.
    apply agreeP_look. intros p Hp i. destruct (tmemp p hvp) eqn:Eh.
    - apply tmemp_In in Eh. rewrite (bind_all_look s hvp c' p (or_introl Eh)).
      rewrite <- (agreeP_at _ _ _ p i Fo) by (apply negb_true_iff, tmemp_false, Hdecl, Hsub, Eh).
      now rewrite look_pickT, (proj2 (tmemp_In p hv) (Hsub p Eh)).
    - rewrite <- (agreeP_at _ _ _ p i Fn) by now rewrite Eh.
      apply (agreeP_at _ _ _ p i A'). apply negb_true_iff, tmemp_false. intros Hin.
      unfold P in Hp. apply negb_true_iff, tmemp_false in Hp. apply Hp, In_tdiff. split; [exact Hin|now apply tmemp_false].
  Qed.

  Lemma exit_eq s c0o c1o c1n :
    untouched params (pickT hv s g) c0o -> untouched (wr_l ps body) c0o c1o -> agreeP P c1o c1n ->
    store_eq (copy_out c1o params args (pickT hv c1o s)) (copy_out c1n (params ++ hvp) (args ++ evs hvp) s).
  Proof.
    intros F0 F1 Ag. rewrite (copy_out_app c1n params args hvp (evs hvp) s Hlen). rewrite copy_out_evs.
    (* written locations: the same dummy values arrive, whatever the target *)
    assert (Af : agreeP (fun _ : tn => false) (pickT hv c1o s) s) by (split; intros; discriminate).
    pose proof (copy_out_indep c1o params (fun _ => false) args (pickT hv c1o s) s Af) as I1.
    assert (I2 : agreeP alltrue (copy_out c1o params args s) (copy_out c1n params args s)).
    { apply copy_out_agree_dummies; [|apply agreeP_refl]. intros p Hp i. apply (agreeP_at _ _ _ p i Ag), params_in_P, Hp. }
    pose proof (copy_out_untouched c1o params args (pickT hv c1o s)) as U1.
    pose proof (copy_out_untouched c1n params args s) as U2.
    pose proof (bind_all_untouched c1n hvp (copy_out c1n params args s)) as U3.
    assert (Hw : forall p, In p (call_writes params args) -> ~ In p hvp) by (apply tdisj_In; exact Halias).
    assert (Hnt : forall p, In p (tdiff hv hvp) -> ~ In p (wr_l ps body)).
    { intros p Hp Hin. exact (proj1 (tdisj_In _ _) Htouch p (in_or_app _ _ _ (or_intror Hin)) Hp). }
    apply agreeP_look. intros p _ i. destruct (tmemp p (call_writes params args)) eqn:Ew.
    - (* a variable actual *)
      rewrite (agreeP_at _ _ _ p i I1) by (unfold Pun; cbn [orb]; exact Ew).
      rewrite (agreeP_at _ _ _ p i I2 eq_refl).
      apply (agreeP_at _ _ _ p i U3). apply negb_true_iff, tmemp_false, Hw. now apply tmemp_In.
    - rewrite <- (agreeP_at _ _ _ p i U1) by now rewrite Ew. rewrite look_pickT.
      destruct (tmemp p hvp) eqn:Ep.
      + apply tmemp_In in Ep. rewrite (bind_all_look c1n hvp _ p (or_introl Ep)).
        rewrite (proj2 (tmemp_In p hv) (Hsub p Ep)). apply (agreeP_at _ _ _ p i Ag).
        unfold P. apply negb_true_iff, tmemp_false. intros Hd. apply In_tdiff in Hd. now apply (proj2 Hd).
      + rewrite <- (agreeP_at _ _ _ p i U3) by now rewrite Ep.
        rewrite <- (agreeP_at _ _ _ p i U2) by now rewrite Ew.
        destruct (tmemp p hv) eqn:Eh; [|reflexivity].
        (* a host variable that is not passed: neither the dummies' binding nor the body touch it *)
        assert (Hd : In p (tdiff hv hvp)) by (apply In_tdiff; split; [now apply tmemp_In|now apply tmemp_false]).
        rewrite <- (agreeP_at _ _ _ p i F1) by (apply negb_true_iff, tmemp_false; now apply Hnt).
        rewrite <- (agreeP_at _ _ _ p i F0) by (apply negb_true_iff, tmemp_false, Hdecl; now apply tmemp_In).
        now rewrite look_pickT, Eh.
  Qed.

  Lemma body_reads_ok : reads_ok P (ue_l ps body).
  Proof.
    intros p Hp. unfold P. apply negb_true_iff. apply tmemp_false.
    exact (proj1 (tdisj_In _ _) Htouch p (in_or_app _ _ _ (or_introl Hp))).
  Qed.

  (** host association and passing the host variables run in lock-step *)
  Theorem extract_call_lock f s :
    orel store_eq (icall ps g f hv params body args s) (icall ps g f [] (params ++ hvp) body (args ++ evs hvp) s).
  Proof.
    unfold icall. rewrite (copy_in_app s params args hvp (evs hvp) _ Hlen).
    assert (Ae : agreeP (fun p => negb (tmemp p hv)) (pickT hv s g) (pickT [] s g)).
    { apply agreeP_look. intros p Hp i. apply negb_true_iff in Hp. now rewrite !look_pickT, Hp. }
    pose proof (copy_in_same_caller _ s params args _ _ Ae) as H0.
    destruct (copy_in s params args (pickT hv s g)) as [c0o|] eqn:E0, (copy_in s params args (pickT [] s g)) as [c'|];
      cbn [orel obind] in *; try contradiction; [|exact I].
    rewrite copy_in_evs. cbn [obind].
    pose proof (ni_all ps f P body _ _ (entry_agree s c0o c' E0 H0) body_reads_ok) as H1.
    destruct (exec ps f body c0o) as [c1o|] eqn:E1, (exec ps f body (bind_all hvp s c')) as [c1n|];
      cbn [orel obind] in *; try contradiction; [|exact I].
    eapply agreeP_trans.
    - apply exit_eq with (c0o := c0o); [exact (copy_in_untouched s params args _ _ E0)|exact (frame_list ps f body _ _ E1)|].
      exact (Pun_weaken _ _ _ _ H1).
    - apply copy_out_agree; [apply agreeP_refl|]. split; intros; reflexivity.
  Qed.
End EXTRACT.

(** * the model's output satisfies the hypotheses *)
Lemma memb_In x l : mem x l = true <-> In x l.
Proof. apply existsb_eqb_In. Qed.

Lemma In_ins_by {A} (key : A -> string) x y l : In y (ins_by key x l) <-> y = x \/ In y l.
Proof.
  induction l as [|z r IH]; cbn; [intuition congruence|].
  destruct (str_leb (key z) (key x)); cbn; [rewrite IH|]; intuition congruence.
Qed.

Lemma In_sort_by {A} (key : A -> string) l y : In y (sort_by key l) <-> In y l.
Proof.
  unfold sort_by. assert (G : forall acc, In y (fold_left (fun acc x => ins_by key x acc) l acc) <-> In y acc \/ In y l).
  { induction l as [|x r IH]; intros acc; cbn; [tauto|]. rewrite IH, In_ins_by. intuition congruence. }
  rewrite G. cbn. tauto.
Qed.

Lemma host_refs_spec h m x : In x (host_refs h m) -> mem x (h_vars h) = true /\ mem x (m_decls m) = false.
Proof.
  unfold host_refs. rewrite In_sort_by, in_map_iff. intros [o [E Hin]]. subst x.
  apply filter_In in Hin. destruct Hin as [_ Hc]. apply andb_true_iff in Hc. destruct Hc as [H1 H2].
  split; [exact H1|now apply negb_true_iff].
Qed.

Lemma call_writes_actual : forall params args p, In p (call_writes params args) -> In (fst p) (actual_vars args).
Proof.
  induction params as [|[d b] ps IH]; intros args p Hp; [destruct args; destruct Hp|].
  destruct args as [|e r]; [destruct b; destruct Hp|].
  unfold actual_vars. cbn [flat_map]. apply in_or_app.
  destruct b; destruct e; cbn [call_writes] in Hp; try (right; now apply IH).
  - destruct Hp as [Hp|Hp]; [left; subst p; now left|right; now apply IH].
  - destruct Hp as [Hp|Hp]; [left; subst p; now left|right; now apply IH].
Qed.

Lemma model_hyps ps h m args :
  host_vars_passed ps h m args = true ->
  (forall p, In p (passed h m) -> In p (host_visible h m)) /\
  (forall p, In p (host_visible h m) -> ~ In p (m_params m)) /\
  tdisj (ue_l ps (m_body m) ++ wr_l ps (m_body m)) (tdiff (host_visible h m) (passed h m)) = true /\
  tdisj (call_writes (m_params m) args) (passed h m) = true /\
  List.length args = List.length (m_params m).
Proof.
  intros Hp. unfold host_vars_passed in Hp.
  apply andb_true_iff in Hp; destruct Hp as [Hp HE]. apply andb_true_iff in Hp; destruct Hp as [Hp HD].
  apply andb_true_iff in Hp; destruct Hp as [Hp HC]. apply andb_true_iff in Hp; destruct Hp as [HA HB].
  split; [|split; [|split; [exact HA|split]]].
  - intros p Hin. unfold passed in Hin. apply in_map_iff in Hin. destruct Hin as [x [Ex Hin]]. subst p.
    destruct (host_refs_spec h m x Hin) as [A B]. unfold host_visible. apply in_map_iff. exists x. split; [reflexivity|].
    apply filter_In. split; [now apply memb_In|now rewrite B].
  - intros p Hin Hpar. unfold host_visible in Hin. apply in_map_iff in Hin. destruct Hin as [x [Ex Hin]]. subst p.
    apply filter_In in Hin. destruct Hin as [_ Hn]. apply negb_true_iff in Hn.
    assert (Hd : In x (m_decls m)). { unfold m_decls. apply in_or_app. left. apply in_map_iff. exists (x, is_arr h x). split; [reflexivity|exact Hpar]. }
    apply memb_In in Hd. congruence.
  - apply tdisj_In. intros p Hw Hin. unfold passed in Hin. apply in_map_iff in Hin. destruct Hin as [x [Ex Hin]]. subst p.
    apply call_writes_actual in Hw. cbn in Hw.
    unfold disjointb in HD. rewrite forallb_forall in HD. specialize (HD x Hw).
    apply negb_true_iff in HD. apply memb_In in Hin. congruence.
  - now apply Nat.eqb_eq.
Qed.

Theorem extract_internal_preserves ps g f h m args s :
  host_vars_passed ps h m args = true ->
  let call0 := icall ps g f (host_visible h m) (m_params m) (m_body m) args s in
  let call1 := icall ps g f [] (m_params (extract_member h m)) (m_body (extract_member h m)) (args ++ map EVar (host_refs h m)) s in
  (forall s1, call0 = Some s1 -> exists s2, call1 = Some s2 /\ store_eq s1 s2) /\
  (forall s2, call1 = Some s2 -> exists s1, call0 = Some s1 /\ store_eq s1 s2).
Proof.
  intros Hp. destruct (model_hyps ps h m args Hp) as [H1 [H2 [H3 [H4 H5]]]].
  assert (Eq : map EVar (host_refs h m) = evs (passed h m)).
  { unfold evs, passed. rewrite map_map. reflexivity. }
  cbn zeta. rewrite Eq. cbn [extract_member m_params m_body]. fold (passed h m).
  pose proof (extract_call_lock ps g (host_visible h m) (passed h m) (m_params m) (m_body m) args H1 H2 H3 H4 H5 f s) as L.
  split; intros t; [apply (orel_some _ _ _ _ L)|apply (orel_some_r _ _ _ _ L)].
Qed.

(** with no host association and zero-initialised locals, [icall] is the CALL of [MiniF.exec] *)
Theorem icall_is_scall ps f n p args s :
  find_proc ps n = Some p ->
  (forall s1, exec1 ps f (SCall n args) s = Some s1 ->
     exists s2, icall ps empty_store f [] (p_params p) (p_body p) args s = Some s2 /\ store_eq s1 s2) /\
  (forall s2, icall ps empty_store f [] (p_params p) (p_body p) args s = Some s2 ->
     exists s1, exec1 ps f (SCall n args) s = Some s1 /\ store_eq s1 s2).
Proof.
  intros Hf. cbn [exec1]. rewrite Hf. cbn [obind]. unfold icall.
  change (pickT [] s empty_store) with empty_store.
  destruct (copy_in s (p_params p) args empty_store) as [c0|]; cbn [obind]; [|split; intros; discriminate].
  destruct (exec ps f (p_body p) c0) as [c1|]; cbn [obind]; [|split; intros; discriminate].
  assert (Ag : store_eq (copy_out c1 (p_params p) args s) (copy_out c1 (p_params p) args (pickT [] c1 s))).
  { apply copy_out_agree; [apply agreeP_refl|]. split; intros; reflexivity. }
  split; intros t Ht; inversion Ht; subst; eexists; (split; [reflexivity|exact Ag]).
Qed.
