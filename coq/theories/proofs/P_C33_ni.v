(** C33 — two general facts about MiniF executions:
    [ni_all] (read off as [ni_list]): an execution depends only on the upward-exposed reads [ue_l]: two
                 stores that agree on them (on a predicate P that contains them) run the same program in
                 lock-step and agree afterwards on P and on everything the program certainly assigns ([mdef_l]);
    [frame_list] an execution changes nothing outside [wr_l].
    Defines [Pun] and [untouched]. *)
From Coq Require Import ZArith List Bool String Lia.
From LV Require Import Base.Expr Base.MiniF Base.ExprFacts Base.MiniFFacts models.M_C26 models.M_C33 proofs.P_C33_base.
Import ListNotations.
Open Scope Z_scope.

(** [P], or a member of [l] *)
Definition Pun (P : tn -> bool) (l : list tn) : tn -> bool := fun p => P p || tmemp p l.

Lemma Pun_weaken P l s1 s2 : agreeP (Pun P l) s1 s2 -> agreeP P s1 s2.
Proof. apply agreeP_weaken. intros p Hp. unfold Pun. now rewrite Hp. Qed.

Lemma Pun_cons P (q : string * bool) l p : Pun P (q :: l) p = Pun (Pun P [q]) l p.
Proof. unfold Pun. change (q :: l) with ([q] ++ l). now rewrite tmemp_app, orb_assoc. Qed.

Lemma agreeP_Pun_sub P l l' s1 s2 : incl l' l -> agreeP (Pun P l) s1 s2 -> agreeP (Pun P l') s1 s2.
Proof.
  intros H. apply agreeP_weaken. intros p Hp. unfold Pun in *. apply orb_true_iff in Hp. apply orb_true_iff.
  destruct Hp as [Hp|Hp]; [now left|right]. apply tmemp_In, H. now apply tmemp_In.
Qed.

Lemma agreeP_Pun_nil P s1 s2 : agreeP P s1 s2 -> agreeP (Pun P []) s1 s2.
Proof. apply agreeP_weaken. intros p Hp. unfold Pun in Hp. now rewrite orb_false_r in Hp. Qed.

Lemma ue_l_cons ps x r : ue_l ps (x :: r) = ue_s ps x ++ tdiff (ue_l ps r) (mdef_s x).
Proof. reflexivity. Qed.

Lemma reads_ok_tdiff P X l : reads_ok P (tdiff X l) -> reads_ok (Pun P l) X.
Proof.
  intros H p Hp. unfold Pun. destruct (tmemp p l) eqn:E; [apply orb_true_r|].
  rewrite (H p); [reflexivity|]. apply In_tdiff. split; [exact Hp|]. now apply tmemp_false.
Qed.

Lemma reads_ok_weaken (P Q : tn -> bool) l : (forall p, P p = true -> Q p = true) -> reads_ok P l -> reads_ok Q l.
Proof. intros H R p Hp. apply H. now apply R. Qed.

Definition alltrue : tn -> bool := fun _ => true.

Lemma orel_of_eq {A} (o1 o2 : option A) : o1 = o2 -> orel eq o1 o2.
Proof. intros <-. now destruct o1. Qed.

Lemma orel_some_r {A B} (R : A -> B -> Prop) o1 o2 b : orel R o1 o2 -> o2 = Some b -> exists a, o1 = Some a /\ R a b.
Proof. intros H ->. destruct o1; [eauto|contradiction]. Qed.

Lemma orel_some {A B} (R : A -> B -> Prop) o1 o2 a : orel R o1 o2 -> o1 = Some a -> exists b, o2 = Some b /\ R a b.
Proof. intros H ->. destruct o2; [eauto|contradiction]. Qed.

Lemma copy_in_agree P s1 s2 : agreeP P s1 s2 -> forall params args c1 c2,
  reads_ok P (call_reads params args) -> agreeP alltrue c1 c2 ->
  orel (agreeP alltrue) (copy_in s1 params args c1) (copy_in s2 params args c2).
Proof.
  intros Ag. induction params as [|[d b] ps IH]; intros args c1 c2 R Hc.
  - destruct args; [exact Hc|exact I].
  - destruct args as [|e r]; [destruct b; exact I|]. destruct b.
    + destruct e; try exact I. cbn in R |- *. apply IH; [intros p Hp; apply R; now right|].
      eapply agreeP_weaken; [|apply agreeP_set_arr; [|exact Hc]]; [intros; reflexivity|].
      destruct Ag as [_ B]. apply B, R. now left.
    + cbn in R |- *. apply reads_ok_app in R. destruct R as [R1 R2].
      rewrite <- (evalZ_agree P s1 s2 Ag e R1). destruct (evalZ (env_st s1) e); [|exact I].
      apply IH; [exact R2|]. eapply agreeP_weaken; [|apply agreeP_set_sv; exact Hc]. intros; reflexivity.
Qed.

Lemma copy_out_agree P c1 c2 : agreeP alltrue c1 c2 -> forall params args s1 s2,
  agreeP P s1 s2 -> agreeP P (copy_out c1 params args s1) (copy_out c2 params args s2).
Proof.
  intros Hc. induction params as [|[d b] ps IH]; intros args s1 s2 Ag; [exact Ag|].
  destruct args as [|e r]; [destruct b; exact Ag|].
  destruct b.
  - destruct e; cbn; try (apply IH; exact Ag).
    apply IH. eapply agreeP_weaken; [|apply agreeP_set_arr; [|exact Ag]].
    + intros p Hp. cbn. now rewrite Hp.
    + intros i. destruct Hc as [_ B]. now apply B.
  - destruct e; cbn; try (apply IH; exact Ag).
    apply IH. destruct Hc as [A _]. rewrite (A d eq_refl). now apply agreeP_set_sv_same.
Qed.

Section NI.
  Variable ps : procs.

  (** lock-step: from stores that agree on [P], which contains the upward-exposed reads, both runs
      fail or both succeed, and then agree on [P] and on what was certainly assigned *)
  Definition ni_at (f : nat) : Prop :=
    forall P ss s1 s2, agreeP P s1 s2 -> reads_ok P (ue_l ps ss) ->
    orel (agreeP (Pun P (mdef_l ss))) (exec ps f ss s1) (exec ps f ss s2).

  Lemma ni_stmt f (IH : ni_at f) : forall P st s1 s2,
    agreeP P s1 s2 -> reads_ok P (ue_s ps st) ->
    orel (agreeP (Pun P (mdef_s st))) (exec1 ps f st s1) (exec1 ps f st s2).
  Proof.
    intros P st s1 s2 Ag R.
    destruct st as [x e|a idx e|v lo hi stp body|c body|c tb eb|g args|l]; cbn [exec1 ue_s mdef_s] in *.
    - apply (orel_bind eq); [now apply orel_of_eq, (evalZ_agree P)|]. intros w _ <-. now apply agreeP_set_sv.
    - apply reads_ok_app in R. destruct R as [R1 R2].
      apply (orel_bind eq); [now apply orel_of_eq, (eval_idx_agree P)|]. intros i _ <-.
      apply (orel_bind eq); [now apply orel_of_eq, (evalZ_agree P)|]. intros w _ <-.
      apply agreeP_Pun_nil. now apply agreeP_set_av.
    - apply reads_ok_app in R. destruct R as [R1 R]. apply reads_ok_app in R. destruct R as [R2 R].
      apply reads_ok_app in R. destruct R as [R3 R4].
      apply (orel_bind eq); [now apply orel_of_eq, (evalZ_agree P)|]. intros a _ <-.
      apply (orel_bind eq); [now apply orel_of_eq, (evalZ_agree P)|]. intros b _ <-.
      apply (orel_bind eq); [apply orel_of_eq; destruct stp; [now apply (evalZ_agree P)|reflexivity]|]. intros d _ <-.
      destruct (d =? 0); [exact I|].
      apply (do_loop_orel (agreeP P) (agreeP (Pun P [(v, false)]))); [intros; now apply agreeP_set_sv| |exact Ag].
      intros s t H. eapply orel_impl; [apply (IH _ body _ _ H), reads_ok_tdiff, R4|].
      intros m1 m2 Hm. now apply Pun_weaken, Pun_weaken in Hm.
    - apply reads_ok_app in R. destruct R as [R1 R2].
      apply (orel_bind eq); [now apply orel_of_eq, (evalB_agree P)|]. intros b _ <-.
      destruct b; [|now apply agreeP_Pun_nil].
      apply (orel_bind (agreeP P)); [eapply orel_impl; [exact (IH P body _ _ Ag R2)|intros m1 m2; apply Pun_weaken]|].
      intros m1 m2 Hm. apply (IH P [SWhile c body] _ _ Hm).
      rewrite ue_l_cons. cbn [ue_s ue_l ue_fold]. apply reads_ok_app. split; [|intros p []].
      apply reads_ok_app. now split.
    - apply reads_ok_app in R. destruct R as [R1 R]. apply reads_ok_app in R. destruct R as [R2 R3].
      apply (orel_bind eq); [now apply orel_of_eq, (evalB_agree P)|]. intros b _ <-.
      destruct b; (eapply orel_impl; [apply (IH P _ _ _ Ag); assumption|]); intros m1 m2;
        apply agreeP_Pun_sub; intros p Hp; apply In_tinter in Hp; apply Hp.
    - destruct (find_proc ps g) as [p|]; [|exact I]. cbn [obind].
      apply (orel_bind (agreeP alltrue)); [apply (copy_in_agree P); auto using agreeP_refl|]. intros c1 c2 Hc.
      apply (orel_bind (agreeP alltrue)).
      + eapply orel_impl; [apply (IH alltrue _ _ _ Hc); intros q _; reflexivity|intros m1 m2; apply Pun_weaken].
      + intros m1 m2 Hm. apply agreeP_Pun_nil. now apply copy_out_agree.
    - now apply agreeP_Pun_nil.
  Qed.

  Lemma ni_all : forall f, ni_at f.
  Proof.
    induction f as [|f IH]; intros P ss s1 s2 Ag R; [exact I|].
    destruct ss as [|st rest]; [now apply agreeP_Pun_nil|].
    rewrite !exec_unfold. rewrite ue_l_cons in R. apply reads_ok_app in R. destruct R as [R1 R2].
    apply (orel_bind (agreeP (Pun P (mdef_s st)))); [now apply ni_stmt|]. intros m1 m2 Hm.
    eapply orel_impl; [apply (IH _ rest _ _ Hm), reads_ok_tdiff, R2|]. intros t1 t2.
    apply agreeP_weaken. intros p Hp. unfold Pun, mdef_l in *. cbn [flat_map] in Hp.
    now rewrite tmemp_app, orb_assoc in Hp.
  Qed.

  Theorem ni_list f P ss s1 s2 s1' :
    agreeP P s1 s2 -> reads_ok P (ue_l ps ss) -> exec ps f ss s1 = Some s1' ->
    exists s2', exec ps f ss s2 = Some s2' /\ agreeP (Pun P (mdef_l ss)) s1' s2'.
  Proof. intros Ag R. apply orel_some. now apply ni_all. Qed.

  (** [M_C33.agree_out W], read as a statement about one run: nothing outside [W] changed *)
  Definition untouched (W : list tn) (s s' : store) : Prop := agreeP (fun p => negb (tmemp p W)) s s'.

  Lemma untouched_mono W W' s s' : (forall p, In p W -> In p W') -> untouched W s s' -> untouched W' s s'.
  Proof.
    intros H. apply agreeP_weaken. intros p Hp. apply negb_true_iff in Hp. apply negb_true_iff.
    apply tmemp_false. apply tmemp_false in Hp. intros Hin. apply Hp. now apply H.
  Qed.

  Lemma untouched_upd (W : list tn) (q : string * bool) s s' :
    In q W -> (forall p i, tmemp p [q] = false -> look s' p i = look s p i) -> untouched W s s'.
  Proof.
    intros Hq H. apply agreeP_look. intros p Hp i. symmetry. apply H.
    apply negb_true_iff, tmemp_false in Hp. apply not_true_iff_false. rewrite tmemp_single. now intros ->.
  Qed.

  Lemma untouched_set_sv (W : list tn) x v s : In (x, false) W -> untouched W s (set_sv x v s).
  Proof. intros H. apply (untouched_upd W _ _ _ H). intros p i E. now rewrite look_set_sv, E. Qed.

  Lemma untouched_set_av (W : list tn) a i v s : In (a, true) W -> untouched W s (set_av a i v s).
  Proof. intros H. apply (untouched_upd W _ _ _ H). intros p j E. now rewrite look_set_av, E. Qed.

  Lemma untouched_set_arr (W : list tn) a f s : In (a, true) W -> untouched W s (set_arr a f s).
  Proof. intros H. apply (untouched_upd W _ _ _ H). intros p i E. now rewrite look_set_arr, E. Qed.

  Lemma untouched_cons (W : list tn) (q : string * bool) s s' s'' :
    untouched [q] s s' -> untouched W s' s'' -> untouched (q :: W) s s''.
  Proof.
    intros A B. eapply agreeP_trans; (eapply untouched_mono; [|eassumption]); intros p Hp;
      [destruct Hp as [<-|[]]; now left|now right].
  Qed.

  Lemma copy_out_untouched c : forall params args s, untouched (call_writes params args) s (copy_out c params args s).
  Proof.
    induction params as [|[d b] pr IH]; intros args s; [apply agreeP_refl|].
    destruct args as [|e r]; [destruct b; apply agreeP_refl|].
    destruct b; destruct e; cbn [copy_out call_writes]; try apply IH.
    - eapply untouched_cons; [apply untouched_set_arr; now left|apply IH].
    - eapply untouched_cons; [apply untouched_set_sv; now left|apply IH].
  Qed.

  Definition frame_at (f : nat) : Prop :=
    forall ss s s', exec ps f ss s = Some s' -> untouched (wr_l ps ss) s s'.

  Lemma frame_do_loop f (IH : frame_at f) v d body W :
    In (v, false) W -> (forall p, In p (wr_l ps body) -> In p W) ->
    forall n i s s', do_loop (exec ps f body) v d n i s = Some s' -> untouched W s s'.
  Proof.
    intros Hv Hb. induction n as [|n IHn]; intros i s s' E; cbn in E.
    - inversion E; subst. now apply untouched_set_sv.
    - apply obind_some in E. destruct E as [m [E1 E2]].
      eapply agreeP_trans; [apply (untouched_set_sv W v i s Hv)|].
      eapply agreeP_trans; [eapply untouched_mono; [exact Hb|apply (IH _ _ _ E1)]|].
      apply (IHn _ _ _ E2).
  Qed.

  Lemma frame_stmt f (IH : frame_at f) : forall st s s', exec1 ps f st s = Some s' -> untouched (wr_s ps st) s s'.
  Proof.
    intros st s s' E.
    destruct st as [x e|a idx e|v lo hi stp body|c body|c tb eb|g args|l]; cbn [exec1] in E; cbn [wr_s].
    - destruct (evalZ (env_st s) e); [|discriminate]. cbn in E. inversion E; subst. apply untouched_set_sv. now left.
    - destruct (eval_idx s idx); [|discriminate]. cbn [obind] in E. destruct (evalZ (env_st s) e); [|discriminate].
      cbn in E. inversion E; subst. apply untouched_set_av. now left.
    - destruct (evalZ (env_st s) lo); [|discriminate]. cbn [obind] in E.
      destruct (evalZ (env_st s) hi); [|discriminate]. cbn [obind] in E.
      destruct (match stp with None => Some 1 | Some e => evalZ (env_st s) e end) as [d|]; [|discriminate]. cbn [obind] in E.
      destruct (d =? 0); [discriminate|].
      eapply (frame_do_loop f IH v d body); [now left| |exact E]. intros p Hp. now right.
    - destruct (evalB (env_st s) c) as [b|]; [|discriminate]. cbn [obind] in E. destruct b.
      + apply obind_some in E. destruct E as [m [E1 E2]].
        eapply agreeP_trans; [apply (IH _ _ _ E1)|].
        eapply untouched_mono; [|apply (IH _ _ _ E2)]. intros p Hp. unfold wr_l in Hp. cbn in Hp. now rewrite app_nil_r in Hp.
      + inversion E; subst. apply agreeP_refl.
    - destruct (evalB (env_st s) c) as [b|]; [|discriminate]. cbn [obind] in E.
      destruct b; (eapply untouched_mono; [|apply (IH _ _ _ E)]); intros p Hp; apply in_or_app; [left|right]; exact Hp.
    - destruct (find_proc ps g) as [p|]; [|discriminate]. cbn [obind] in E.
      destruct (copy_in s (p_params p) args empty_store) as [c0|]; [|discriminate]. cbn [obind] in E.
      destruct (exec ps f (p_body p) c0); [|discriminate]. cbn [obind] in E. inversion E; subst.
      apply copy_out_untouched.
    - inversion E; subst. apply agreeP_refl.
  Qed.

  Lemma frame_all : forall f, frame_at f.
  Proof.
    induction f as [|f IH]; intros ss s s' E; [discriminate|].
    destruct ss as [|st rest]; [cbn in E; inversion E; subst; apply agreeP_refl|].
    rewrite exec_unfold in E. apply obind_some in E. destruct E as [m [E1 E2]].
    eapply agreeP_trans.
    - eapply untouched_mono; [|apply (frame_stmt f IH _ _ _ E1)]. intros p Hp. unfold wr_l. cbn. apply in_or_app. now left.
    - eapply untouched_mono; [|apply (IH _ _ _ E2)]. intros p Hp. unfold wr_l. cbn. apply in_or_app. now right.
  Qed.

  Theorem frame_list f ss s s' : exec ps f ss s = Some s' -> untouched (wr_l ps ss) s s'.
  Proof. apply frame_all. Qed.
End NI.
