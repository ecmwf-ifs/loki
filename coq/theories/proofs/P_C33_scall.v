(** C33 — every successful CALL of the shared MiniF core of an outlined routine is matched by [ocall] with
    [strict = false] (by-reference passing) and zero-initialised locals, with an equal final store; for
    routines without dummies of no intent, without PARAMETER locals, whose intent(in) dummies are not written.
    Defines [o_params], [o_proc], [no_inone], [in_args], which the statement of [T_C33.C33_ocall_is_scall] mentions. *)
From Coq Require Import ZArith List Bool String Lia.
From LV Require Import Base.Expr Base.MiniF Base.MiniFFacts models.M_C26 models.M_C33 proofs.P_C33_base proofs.P_C33_ni proofs.P_C33_ext.
Import ListNotations.
Open Scope Z_scope.

Definition o_params (o : outlined) : list (string * bool) := map (fun a => (fst (fst a), snd (fst a))) (o_args o).
Definition o_proc (o : outlined) : proc := {| p_params := o_params o; p_body := o_body o |}.

Lemma evar_list_eq : forall l names, list_expr_eqb l (map EVar names) = true -> l = map EVar names.
Proof.
  induction l as [|e r IH]; intros [|x q] H; cbn in H; try discriminate; [reflexivity|].
  apply andb_true_iff in H. destruct H as [H1 H2]. destruct e; cbn in H1; try discriminate.
  apply String.eqb_eq in H1. subst. cbn. f_equal. now apply IH.
Qed.

Lemma o_wf_call o : o_wf o = true -> o_call o = evs (o_params o).
Proof.
  unfold o_wf. intros H. apply andb_true_iff in H. destruct H as [_ H].
  rewrite <- (map_map (fun a : string * bool * intent => fst (fst a)) EVar) in H.
  apply evar_list_eq in H. rewrite H. unfold evs, o_params. now rewrite !map_map.
Qed.

Definition no_inone (o : outlined) : bool := forallb (fun a => match snd a with INone => false | _ => true end) (o_args o).
(** the intent(in) dummies: the list written inline in [M_C33.compilable] *)
Definition in_args (o : outlined) : list tn := flat_map (fun a => match a with (x, b, IIn) => [(x, b)] | _ => [] end) (o_args o).

Lemma entry_is_params o : no_inone o = true -> o_consts o = [] -> forall p, In p (o_entry false o) <-> In p (o_params o).
Proof.
  intros Hn Hc p. unfold o_entry, o_params, no_inone in *. rewrite Hc. cbn [map]. rewrite app_nil_r.
  induction (o_args o) as [|[[x b] i] r IH]; cbn [flat_map]; [tauto|].
  cbn [forallb snd] in Hn. apply andb_true_iff in Hn. destruct Hn as [Hi Hn].
  rewrite !in_app_iff, (IH Hn). destruct i; try discriminate; cbn [map fst snd In]; clear; tauto.
Qed.

Lemma exit_or_in o : no_inone o = true -> forall p, In p (o_params o) <-> In p (o_exit o) \/ In p (in_args o).
Proof.
  intros Hn p. unfold o_exit, o_params, in_args, no_inone in *.
  induction (o_args o) as [|[[x b] i] r IH]; cbn [flat_map map]; [cbn; tauto|].
  cbn [forallb snd] in Hn. apply andb_true_iff in Hn. destruct Hn as [Hi Hn].
  cbn [In]. rewrite !in_app_iff, (IH Hn). destruct i; try discriminate; cbn [is_out map fst snd In]; clear; tauto.
Qed.

Theorem ocall_is_scall ps f o s s1 :
  o_wf o = true -> no_inone o = true -> o_consts o = [] -> tdisj (in_args o) (wr_l ps (o_body o)) = true ->
  find_proc ps (o_name o) = Some (o_proc o) ->
  exec1 ps f (SCall (o_name o) (o_call o)) s = Some s1 ->
  exists s2, ocall ps false empty_store f o s = Some s2 /\ store_eq s1 s2.
Proof.
  intros Hwf Hn Hc Hin Hf E. cbn [exec1] in E. rewrite Hf in E. cbn [obind] in E.
  rewrite (o_wf_call o Hwf) in E. cbn [o_proc p_params p_body] in E.
  rewrite copy_in_evs in E. cbn [obind] in E.
  apply obind_some in E. destruct E as [c1 [E1 E2]]. inversion E2; subst s1; clear E2. rewrite copy_out_evs.
  unfold ocall.
  assert (A0 : agreeP alltrue (bind_all (o_params o) s empty_store) (pickT (o_entry false o) s empty_store)).
  { pose proof (bind_all_untouched s (o_params o) empty_store) as U.
    apply agreeP_look. intros p _ i. rewrite look_pickT. destruct (tmemp p (o_entry false o)) eqn:Em.
    - apply tmemp_In, (entry_is_params o Hn Hc) in Em. apply bind_all_look. now left.
    - rewrite <- (agreeP_at _ _ _ p i U); [reflexivity|]. apply negb_true_iff, tmemp_false. intros Hp.
      apply (entry_is_params o Hn Hc), tmemp_In in Hp. congruence. }
  destruct (ni_list ps f alltrue (o_body o) _ _ c1 A0 (fun p _ => eq_refl) E1) as [c1' [N1 A1]].
  rewrite N1. cbn [obind]. eexists. split; [reflexivity|].
  apply Pun_weaken in A1.
  pose proof (frame_list ps f _ _ _ E1) as Fr.
  pose proof (bind_all_untouched c1 (o_params o) s) as U.
  assert (Hnw : forall p, In p (in_args o) -> ~ In p (wr_l ps (o_body o))) by (apply tdisj_In; exact Hin).
  apply agreeP_look. intros p _ i. rewrite look_pickT. destruct (tmemp p (o_exit o)) eqn:Ex.
  - apply tmemp_In in Ex. rewrite (bind_all_look c1 (o_params o) s p) by (left; apply (exit_or_in o Hn); now left).
    exact (agreeP_at _ _ _ p i A1 eq_refl).
  - destruct (tmemp p (o_params o)) eqn:Ep.
    + (* an intent(in) dummy: the body does not write it, so its own value is copied back *)
      apply tmemp_In in Ep. rewrite (bind_all_look c1 (o_params o) s p (or_introl Ep)).
      apply (exit_or_in o Hn) in Ep. destruct Ep as [Ep|Ep]; [apply tmemp_In in Ep; congruence|].
      rewrite <- (agreeP_at _ _ _ p i Fr) by (apply negb_true_iff, tmemp_false; now apply Hnw).
      apply bind_all_look. left. apply (exit_or_in o Hn). now right.
    + symmetry. apply (agreeP_at _ _ _ p i U). now rewrite Ep.
Qed.
