(** C33 — extraction: an instance of the class, and the two defects of the unchanged code on the
    model's own output. *)
From Coq Require Import ZArith List Bool String.
From LV Require Import Base.Expr Base.MiniF Base.MiniFFacts models.M_C26 models.M_C33.
Import ListNotations.
Open Scope Z_scope.
Local Open Scope string_scope.

Definition x_host : hostd :=
  {| h_name := "outer"; h_shapes := [("a", [4]); ("b", [4])]; h_pars := []; h_imps := [];
     h_vars := ["x"; "y"; "z"; "w"; "t1"; "t2"; "i"; "a"; "b"] |}.

(** a member with its own dummy and local that reads and writes host scalars and a host array *)
Definition x_good : member :=
  {| m_name := "inner0"; m_params := [("q0", false)]; m_locals := ["m0"];
     m_body := [SAssign "m0" (ESum false [EVar "q0"; EVar "y"]);
                SStore "a" [EInt 2] (ESum false [ECall "a" [EInt 2]; EVar "m0"]);
                SAssign "z" (EVar "m0")] |}.

Example extract_good_instance :
  host_vars_passed [] x_host x_good [EVar "x"] = true /\
  m_params (extract_member x_host x_good) = [("q0", false); ("a", true); ("y", false); ("z", false)].
Proof. split; vm_compute; reflexivity. Qed.

(** F6: [a(1) = a(2) + q0]: two symbols for the host array, two dummies of the same name *)
Definition x_dup : member :=
  {| m_name := "inner0"; m_params := [("q0", false)]; m_locals := [];
     m_body := [SStore "a" [EInt 1] (ESum false [ECall "a" [EInt 2]; EVar "q0"])] |}.

Theorem extract_dup_array_refuted :
  m_params (extract_member x_host x_dup) = [("q0", false); ("a", true); ("a", true)] /\
  host_vars_passed [] x_host x_dup [EVar "x"] = false.
Proof. split; vm_compute; reflexivity. Qed.

(** F7: [inner1] calls its sibling [inner0]; only the calls in the host body are rewritten, so after
    the extraction [inner1] calls [inner0] without the new arguments: every execution fails *)
Definition x_m0 : member := {| m_name := "inner0"; m_params := []; m_locals := []; m_body := [SAssign "z" (ESum false [EVar "z"; EVar "x"])] |}.
Definition x_m1 : member := {| m_name := "inner1"; m_params := []; m_locals := []; m_body := [SCall "inner0" []; SAssign "y" (EVar "z")] |}.

(** the members as MiniF procedures; part of the statement of [T_C33.C33_extract_nested_call_refuted] *)
Definition procs_of (ms : list member) : procs := map (fun m => (m_name m, {| p_params := m_params m; p_body := m_body m |})) ms.

Theorem extract_nested_call_refuted :
  let r := extract_internal x_host [x_m0; x_m1] [SCall "inner1" []] in
  fst r = [SCall "inner1" [EVar "y"; EVar "z"]] /\
  map m_params (snd r) = [[("x", false); ("z", false)]; [("y", false); ("z", false)]] /\
  forall f s, exec (procs_of (snd r)) f (fst r) s = None.
Proof.
  split; [vm_compute; reflexivity|]. split; [vm_compute; reflexivity|].
  intros f s. destruct f as [|f]; [reflexivity|]. destruct f as [|f]; [reflexivity|].
  destruct f as [|f]; reflexivity.
Qed.
