(** C34 — small proofs: type-bound call resolution, three of the five refutation witnesses for the unconditional statements
    (the index-level one is in P_C34_seq, the derived-type one in P_C34_dt, module [Refute]),
    non-trivial instances of the dedup and seq class predicates; defines [all_pass_first].  The main proofs are in P_C34_sim (generic simulation),
    P_C34_dedup, P_C34_seq (+ P_C34_arith), P_C34_shape, P_C34_dt. *)
From Coq Require Import ZArith List Bool String Ascii Lia.
From LV Require Import Base.Expr Base.MiniF models.M_C34.
Import ListNotations.
Open Scope Z_scope.
Open Scope string_scope.

(** * type-bound calls: the code's rewrite is the meaning of the call when every binding passes the object first *)

Definition all_pass_first (bs : list binding) : bool :=
  forallb (fun b => match b_pass b with PassFirst => true | _ => false end) bs.

Lemma find_binding_in bs ty b x : find_binding bs ty b = Some x -> In x bs.
Proof.
  induction bs as [|y r IH]; cbn; [discriminate|].
  destruct (String.eqb (b_type y) ty && String.eqb (b_name y) b).
  - intros E. injection E as <-. now left.
  - intros E. right. now apply IH.
Qed.

Lemma tb_call_meaning vt bs g args : all_pass_first bs = true -> tb_call vt bs g args = tb_meaning vt bs g args.
Proof.
  intros H. unfold tb_call, tb_meaning.
  destruct (split_pct g) as [[obj b]|]; [|reflexivity].
  destruct (assoc_s vt obj) as [ty|]; [|reflexivity].
  destruct (find_binding bs ty b) as [x|] eqn:E; [|reflexivity].
  apply find_binding_in in E. unfold all_pass_first in H. rewrite forallb_forall in H.
  specialize (H x E). destruct (b_pass x); try discriminate. reflexivity.
Qed.

Lemma tb_stmt_ext f1 f2 : (forall g a, f1 g a = f2 g a) -> forall st, tb_stmt f1 st = tb_stmt f2 st.
Proof.
  intros H. induction st using stmt_ind'; cbn [tb_stmt]; try reflexivity.
  - f_equal. now apply map_ext_Forall.
  - f_equal. now apply map_ext_Forall.
  - f_equal; now apply map_ext_Forall.
  - now rewrite H.
Qed.

Theorem typebound_resolution_preserves vt bs ss :
  all_pass_first bs = true -> tb_unit vt bs ss = tb_resolved vt bs ss.
Proof.
  intros H. unfold tb_unit, tb_resolved. apply map_ext. intros st.
  apply tb_stmt_ext. intros g a. now apply tb_call_meaning.
Qed.

(** a NOPASS binding: the code still inserts the object *)
Theorem typebound_resolution_refuted :
  exists vt bs ss, tb_unit vt bs ss <> tb_resolved vt bs ss.
Proof.
  exists [("t", "ty")], [{| b_type := "ty"; b_name := "np"; b_impl := "np_impl"; b_pass := NoPass |}],
         [SCall "t%np" [EVar "n"; EVar "r"]].
  vm_compute. discriminate.
Qed.

(** * duplicate arguments: a non-trivial tree inside the class (cascade into a nested kernel, aliased dummies that
      are written), and a witness that merging dummies of different shape changes the result *)

Definition ex_q : unit :=
  {| u_name := "q"; u_params := [("u", PScal); ("v", PScal); ("w", PScal)]; u_locals := [];
     u_body := [SAssign "w" (ESum false [EVar "u"; EVar "v"; EVar "w"])] |}.
Definition ex_k : unit :=
  {| u_name := "k";
     u_params := [("x", PScal); ("y", PScal); ("p", PArr [DExpl (EInt 1) (EInt 4)]); ("q", PArr [DExpl (EInt 1) (EInt 4)]); ("r", PScal)];
     u_locals := [];
     u_body := [SStore "p" [EVar "x"] (ESum false [ECall "q" [EVar "x"]; EVar "y"]);
                SStore "q" [EInt 1] (ESum false [ECall "p" [EVar "x"]; EVar "y"]);
                SCall "q" [EVar "x"; EVar "y"; EVar "r"]] |}.
Definition ex_drv : unit :=
  {| u_name := "drv"; u_params := [("n", PScal); ("a", PArr [DExpl (EInt 1) (EInt 4)]); ("r", PScal)]; u_locals := [];
     u_body := [SCall "k" [EVar "n"; EVar "n"; EVar "a"; EVar "a"; EVar "r"]] |}.
Definition ex_t : table := [ex_drv; ex_k; ex_q].
Definition ex_pl : plan := [("k", [("y", "x"); ("q", "p")]); ("q", [("v", "u")])].

Example dedup_class_inhabited :
  plan_okb ex_pl ex_t = true /\
  sitesb (site_okb ex_pl ex_t []) (u_body ex_drv) = true /\
  chk_dedup_plan true "drv" ["drv"; "k"; "q"] ex_t = true /\
  (* the aliased arrays p and q are both written: by reference, the second store sees the first one *)
  rrun (to_rprocs ex_t) 20 [("a", [(1, 4)])] (u_body ex_drv) [("n", 2); ("r", 0)] [("a", [1], 11); ("a", [2], 12)] ["r"] [("a", [1]); ("a", [2])]
    = Some [4; 16; 14] /\
  rrun (to_rprocs (apply_plan ex_pl ex_t)) 20 [("a", [(1, 4)])] (tcalls (plan_tc ex_pl ex_t) (u_body ex_drv))
       [("n", 2); ("r", 0)] [("a", [1], 11); ("a", [2], 12)] ["r"] [("a", [1]); ("a", [2])] = Some [4; 16; 14].
Proof. vm_compute. repeat split; reflexivity. Qed.

(** dummies x(4) and y(2,2) laid over the same array: merging y into x is outside the class and changes the run *)
Definition w_k : unit :=
  {| u_name := "k";
     u_params := [("x", PArr [DExpl (EInt 1) (EInt 4)]); ("y", PArr [DExpl (EInt 1) (EInt 2); DExpl (EInt 1) (EInt 2)]); ("r", PScal)];
     u_locals := [];
     u_body := [SAssign "r" (ESum false [ECall "x" [EInt 3]; ECall "y" [EInt 1; EInt 2]])] |}.
Definition w_drv : unit :=
  {| u_name := "drv"; u_params := [("a", PArr [DExpl (EInt 1) (EInt 4)]); ("r", PScal)]; u_locals := [];
     u_body := [SCall "k" [EVar "a"; EVar "a"; EVar "r"]] |}.
Definition w_t : table := [w_drv; w_k].
Definition w_pl : plan := [("k", [("y", "x")])].

Theorem dedup_args_preserves_refuted :
  exists pl t f d fr ss s,
    plan_okb pl t = false /\
    rexec (to_rprocs t) f d fr ss s <> rexec (to_rprocs (apply_plan pl t)) f d fr (tcalls (plan_tc pl t) ss) s.
Proof.
  exists w_pl, w_t, 20%nat, 0%nat, (top_frame [("a", [(1, 4)])]), (u_body w_drv),
         (rinit [("r", 0)] [("a", [1], 11); ("a", [2], 12); ("a", [3], 13); ("a", [4], 14)]).
  split; [vm_compute; reflexivity|].
  intros E. apply (f_equal (option_map (fun s' => rsv s' (O, "r")))) in E. vm_compute in E. discriminate E.
Qed.

(** * explicit shapes: copying the caller's lower bound shifts every index *)

Definition lb_k : rproc :=
  {| rp_params := [("x", PArr [DShape]); ("r", PScal)]; rp_arrays := [];
     rp_body := [SAssign "r" (ECall "x" [EInt 1])] |}.
Definition lb_ps : rprocs := [("k", lb_k)].
Definition lb_sh : list (string * list dim) := [("x", [DExpl (EInt 0) (EInt 3)])].

Theorem explicit_shape_lower_bound_refuted :
  exists ps k p sh news args f d fr s,
    find_rproc ps k = Some p /\ es_static sh news p = true /\
    rexec1 (rexec ps f) ps d fr (SCall k args) s <>
    rexec1 (rexec (set_rproc ps k (es_proc sh news p)) f) (set_rproc ps k (es_proc sh news p)) d fr (SCall k (args ++ map EVar news)) s.
Proof.
  exists lb_ps, "k", lb_k, lb_sh, [], [EVar "a"; EVar "r"], 10%nat, 0%nat, (top_frame [("a", [(0, 3)])]),
         (rinit [("r", 0)] [("a", [0], 10); ("a", [1], 11); ("a", [2], 12); ("a", [3], 13)]).
  split; [reflexivity|]. split; [vm_compute; reflexivity|].
  intros E. apply (f_equal (option_map (fun s' => rsv s' (O, "r")))) in E. vm_compute in E. discriminate E.
Qed.

(** * sequence association: an instance of the class; the rewritten call of the model *)

Definition sq_k : rproc :=
  {| rp_params := [("x", PArr [DExpl (EInt 1) (EInt 2)]); ("r", PScal)]; rp_arrays := [];
     rp_body := [SAssign "r" (ESum false [ECall "x" [EInt 1]; ECall "x" [EInt 2]]); SStore "x" [EInt 2] (EInt 0)] |}.
Definition sq_sh : shapes := [("b", Some [DExpl (EInt 1) (EInt 4); DExpl (EInt 0) (EInt 2)])].

Example seq_class_inhabited :
  seq_call sq_sh (rp_params sq_k) [ECall "b" [EVar "i"; EInt 1]; EVar "r"]
    = [ECall "b" [ECall ":" [EVar "i"; EInt 4]; EInt 1]; EVar "r"] /\
  seq_class (top_frame [("b", [(1, 4); (0, 2)])]) (rinit [("i", 3)] []) sq_sh
            (combine (rp_params sq_k) [ECall "b" [EVar "i"; EInt 1]; EVar "r"]).
Proof.
  split; [reflexivity|].
  cbn [seq_class combine rp_params sq_k]. split; [|split; exact I].
  unfold seq_arg_class. cbn.
  split; [reflexivity|].
  exists [DExpl (EInt 1) (EInt 4); DExpl (EInt 0) (EInt 2)], [3; 1].
  repeat split; try reflexivity. left. reflexivity.
Qed.
