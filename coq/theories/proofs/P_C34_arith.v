(** P_C34_arith.v — arithmetic of array element order: [lin] / [delin] / [in_bnd] / [bsize] of M_C34. *)
From Coq Require Import ZArith List Bool String Ascii Lia.
From LV Require Import Base.Expr Base.MiniF models.M_C34.
Import ListNotations.
Open Scope Z_scope.

Lemma extent_pos l h : l <= h -> extent (l, h) = h - l + 1.
Proof. intros H. unfold extent. cbn [fst snd]. lia. Qed.

Lemma extent_nonneg p : 0 <= extent p.
Proof. unfold extent. lia. Qed.

Lemma bsize_nonneg b : 0 <= bsize b.
Proof.
  induction b as [|p b IH]; cbn [bsize]; [lia|].
  pose proof (extent_nonneg p). nia.
Qed.

Lemma in_bnd_cons p b x k :
  in_bnd (p :: b) (x :: k) = true -> fst p <= x <= snd p /\ in_bnd b k = true.
Proof.
  cbn [in_bnd]. intros H.
  apply andb_true_iff in H. destruct H as [H H3].
  apply andb_true_iff in H. destruct H as [H1 H2].
  apply Z.leb_le in H1. apply Z.leb_le in H2. now split.
Qed.

Lemma in_bnd_cons_eq p b x k :
  in_bnd (p :: b) (x :: k) = (fst p <=? x) && (x <=? snd p) && in_bnd b k.
Proof. reflexivity. Qed.

Lemma in_bnd_nil_l k : in_bnd [] k = true -> k = [].
Proof. destruct k; [reflexivity|discriminate]. Qed.

Lemma in_bnd_length b : forall k, in_bnd b k = true -> List.length k = List.length b.
Proof.
  induction b as [|p b IH]; intros [|x k] H; try discriminate; [reflexivity|].
  apply in_bnd_cons in H. destruct H as [_ H]. cbn [List.length]. now rewrite (IH k H).
Qed.

Lemma lin_range b k : in_bnd b k = true -> 0 <= lin b k < bsize b.
Proof.
  revert k. induction b as [|p b IH]; intros [|x k] H; try discriminate.
  - cbn [lin bsize]. lia.
  - apply in_bnd_cons in H. destruct H as [Hx Hk]. specialize (IH k Hk).
    cbn [lin bsize]. unfold extent.
    set (L := lin b k) in *. set (B := bsize b) in *.
    replace (Z.max 0 (snd p - fst p + 1)) with (snd p - fst p + 1) by lia.
    nia.
Qed.

Lemma delin_cons2 p q b o : delin (p :: q :: b) o = (fst p + o mod extent p) :: delin (q :: b) (o / extent p).
Proof. reflexivity. Qed.

Lemma delin_step p q b a L : 0 < extent p ->
  delin (p :: q :: b) (a + extent p * L) = (fst p + a mod extent p) :: delin (q :: b) (a / extent p + L).
Proof. intros Hn. rewrite delin_cons2, (Z.mul_comm (extent p) L), Z.mod_add, Z.div_add by lia. reflexivity. Qed.

Lemma delin_of_lin b : forall k, in_bnd b k = true -> delin b (lin b k) = k.
Proof.
  induction b as [|p b IH]; intros [|x k] H; try discriminate; [reflexivity|].
  apply in_bnd_cons in H. destruct H as [Hx Hk].
  destruct b as [|p2 b].
  - apply in_bnd_nil_l in Hk. subst k. cbn [delin lin]. f_equal. lia.
  - specialize (IH k Hk).
    change (lin (p :: p2 :: b) (x :: k)) with ((x - fst p) + extent p * lin (p2 :: b) k).
    assert (En : extent p = snd p - fst p + 1) by (unfold extent; lia).
    rewrite delin_step by lia. rewrite Z.mod_small, Z.div_small by lia.
    rewrite Z.add_0_l, IH. f_equal. lia.
Qed.

Lemma delin_lin b k : in_bnd b k = true -> b <> [] -> delin b (lin b k) = k.
Proof. intros H _. now apply delin_of_lin. Qed.

Lemma delin_in_bnd b o : b <> [] -> 0 <= o < bsize b -> in_bnd b (delin b o) = true.
Proof.
  revert o. induction b as [|p b IH]; intros o Hne Ho; [congruence|].
  destruct b as [|p2 b].
  - cbn [bsize] in Ho. unfold extent in Ho. cbn [delin in_bnd].
    apply andb_true_iff; split; [|reflexivity].
    apply andb_true_iff; split; apply Z.leb_le; lia.
  - assert (Hne2 : p2 :: b <> []) by discriminate.
    change (bsize (p :: p2 :: b)) with (extent p * bsize (p2 :: b)) in Ho.
    rewrite delin_cons2.
    set (B := bsize (p2 :: b)) in *.
    pose proof (extent_nonneg p) as Hn0.
    assert (Hn : 0 < extent p).
    { destruct (Z.eq_dec (extent p) 0) as [E|E]; [rewrite E in Ho; lia|lia]. }
    assert (En : extent p = snd p - fst p + 1) by (unfold extent in *; lia).
    pose proof (Z.mod_pos_bound o (extent p) Hn) as Hm.
    rewrite in_bnd_cons_eq.
    apply andb_true_iff; split.
    + apply andb_true_iff; split; apply Z.leb_le; lia.
    + apply IH; [assumption|]. split.
      * apply Z.div_pos; lia.
      * apply Z.div_lt_upper_bound; [lia|]. fold B. lia.
Qed.

Lemma bsize_shape1 b : forallb (fun p => (fst p =? 1) && (0 <=? snd p)) b = true ->
  map (fun n => (1, n)) (map extent b) = b.
Proof.
  induction b as [|[l h] b IH]; intros H; [reflexivity|].
  cbn [forallb fst snd] in H.
  apply andb_true_iff in H. destruct H as [H Hb].
  apply andb_true_iff in H. destruct H as [H1 H2].
  apply Z.eqb_eq in H1. apply Z.leb_le in H2. subst l.
  cbn [map]. rewrite (IH Hb). f_equal. f_equal. unfold extent. cbn [fst snd]. lia.
Qed.
