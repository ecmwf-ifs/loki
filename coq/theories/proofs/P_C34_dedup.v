(** P_C34_dedup.v — RemoveDuplicateArgs in coupled form preserves by-reference behaviour

    [dedup_args_preserves]: instance of [coupled_sim] (P_C34_sim) for the plan-based coupled rewrite
    [apply_plan]/[plan_tc] of M_C34 part D.  The work is [bind_dedup]: [bind] of the original routine
    with all actuals and [bind] of the routine without the merged dummies (actuals dropped and renamed by the
    caller's renaming) give the same store and callee frames related by [rn m].  The callee's scalar environments
    only agree outside [dom m]; the dimension expressions do not mention merged dummies ([rmap_okb]), which is what
    the [envN] lemmas of P_C34_sim need.
    [renl_clean]: the occurrence-keyed renaming the code performs equals the plain renaming on clean bodies; the
    file defines what clean means ([clean_e], [clean_s]). *)
From Coq Require Import ZArith List Bool String Ascii Lia.
From LV Require Import Base.Expr Base.ListFacts Base.ExprFacts Base.MiniF models.M_C34 proofs.P_C34_sim.
Import ListNotations.
Open Scope Z_scope.

Lemma dim_eqb_eq a b : dim_eqb a b = true -> a = b.
Proof.
  destruct a, b; cbn; intros E; try discriminate.
  - apply andb_prop in E. destruct E as [E1 E2]. apply expr_eqb_eq in E1. apply expr_eqb_eq in E2. now subst.
  - reflexivity.
  - apply expr_eqb_eq in E. now subst.
Qed.

(* [list_eqb] is the model's: [f] is an argument of its fixpoint, so it is not convertible with [ListFacts.list_eqb]
   and [ListFacts.list_eqb_eq] does not apply *)
Lemma list_eqb_sound {A} (f : A -> A -> bool) : (forall a b, f a b = true -> a = b) ->
  forall l1 l2, list_eqb f l1 l2 = true -> l1 = l2.
Proof.
  intros Hf. induction l1 as [|a l1 IH]; intros [|b l2] E; cbn in E; try discriminate; [reflexivity|].
  apply andb_prop in E. destruct E as [E1 E2]. f_equal; [now apply Hf|now apply IH].
Qed.

Lemma pkind_eqb_eq a b : pkind_eqb a b = true -> a = b.
Proof.
  destruct a, b; cbn; intros E; try discriminate.
  - reflexivity.
  - f_equal. revert E. apply list_eqb_sound. exact dim_eqb_eq.
  - apply String.eqb_eq in E. now subst.
Qed.

Definition keepq (m : rmap) (q : (string * pkind) * expr) : bool := negb (in_dom m (fst (fst q))).
Definition keepp (m : rmap) (p : string * pkind) : bool := negb (in_dom m (fst p)).

Lemma lookup_pa_filter m z : forall pa,
  lookup_pa z (filter (keepq m) pa) = if in_dom m z then None else lookup_pa z pa.
Proof.
  induction pa as [|[[x k] e] pa IH]; cbn [filter lookup_pa]; [now destruct (in_dom m z)|].
  unfold keepq at 1. cbn [fst]. destruct (in_dom m x) eqn:Ex; cbn [negb lookup_pa].
  - destruct (String.eqb x z) eqn:E; [|exact IH].
    apply String.eqb_eq in E. subst x. rewrite IH, Ex. reflexivity.
  - destruct (String.eqb x z) eqn:E; [|exact IH].
    apply String.eqb_eq in E. subst x. now rewrite Ex.
Qed.

Lemma filter_combine_fst m : forall ps args, List.length args = List.length ps ->
  map fst (filter (keepq m) (combine ps args)) = filter (keepp m) ps.
Proof.
  induction ps as [|[x k] ps IH]; intros [|e args] Hlen; cbn [List.length] in Hlen; try discriminate; [reflexivity|].
  cbn [combine filter]. unfold keepq at 1, keepp at 1. cbn [fst].
  destruct (negb (in_dom m x)); cbn [map fst]; rewrite IH by lia; reflexivity.
Qed.

Lemma combine_fst_snd {A B} (l : list (A * B)) : combine (map fst l) (map snd l) = l.
Proof. induction l as [|[a b] l IH]; cbn; [reflexivity|]. now rewrite IH. Qed.

Lemma forallb_filter {A} (f g : A -> bool) l : forallb f l = true -> forallb f (filter g l) = true.
Proof.
  rewrite !forallb_forall. intros H x Hx. apply filter_In in Hx. apply H. tauto.
Qed.

Lemma forallb_filter_cover {A} (f kp : A -> bool) l :
  (forall q, In q l -> kp q = false -> exists q', In q' l /\ kp q' = true /\ f q = f q') ->
  forallb f (filter kp l) = forallb f l.
Proof.
  intros H. destruct (forallb f l) eqn:E.
  - now apply forallb_filter.
  - destruct (forallb f (filter kp l)) eqn:E2; [|reflexivity].
    rewrite <- E. symmetry. rewrite forallb_forall in E2. apply forallb_forall. intros q Hq.
    destruct (kp q) eqn:K.
    + apply E2. apply filter_In. now split.
    + destruct (H q Hq K) as [q' [H1 [H2 H3]]]. rewrite H3. apply E2. apply filter_In. now split.
Qed.

Lemma init_scalars_filter d fr s (kp : (string * pkind) * expr -> bool) : forall pa s0,
  (forall q, In q pa -> kp q = false -> is_var (snd q) = true) ->
  init_scalars d fr s (filter kp pa) s0 = init_scalars d fr s pa s0.
Proof.
  induction pa as [|[[z k] e] pa IH]; intros s0 H; [reflexivity|].
  assert (H' : forall q, In q pa -> kp q = false -> is_var (snd q) = true).
  { intros q Hq. apply H. now right. }
  cbn [filter]. destruct (kp (z, k, e)) eqn:K.
  - destruct k; cbn [init_scalars].
    + apply obind_cong; [reflexivity|]. intros o. now apply IH.
    + now apply IH.
    + destruct (is_var e); [now apply IH|reflexivity].
  - specialize (H _ (or_introl eq_refl) K). cbn [snd] in H.
    destruct e; try discriminate H. rewrite (IH s0 H').
    destruct k; reflexivity.
Qed.

Lemma expl_bounds_names ds x : In x (bnds_names (expl_bounds ds)) -> In x (flat_map dim_names ds).
Proof.
  induction ds as [|dm ds IH]; [intros []|].
  destruct dm; cbn [expl_bounds]; try (intros []).
  unfold bnds_names. cbn [flat_map fst snd dim_names]. rewrite !in_app_iff. intros [H|H]; [now left|].
  right. now apply IH.
Qed.

Lemma var_seq_agree fr1 fr2 s1 s2 a1 a2 : aref_agree (fa fr1 a1) (fa fr2 a2) ->
  exists q1 q2, actual_seq fr1 s1 (EVar a1) = Some q1 /\ actual_seq fr2 s2 (EVar a2) = Some q2 /\ aseq_agree q1 q2.
Proof.
  intros [A [B C]]. cbn [actual_seq]. eexists. eexists. split; [reflexivity|]. split; [reflexivity|].
  rewrite <- A, <- B. apply mk_aseq_agree. intros o. apply C.
Qed.

Lemma achk_var_agree fr s c z1 z2 dims b1 b2 : aref_agree (fa fr b1) (fa fr b2) ->
  achk fr s c ((z1, PArr dims), EVar b1) = achk fr s c ((z2, PArr dims), EVar b2).
Proof.
  intros H. destruct (var_seq_agree fr fr s s b1 b2 H) as [q1 [q2 [E1 [E2 Hq]]]].
  unfold achk. cbn [fst snd]. rewrite E1, E2.
  rewrite (dummy_bnd_envN (fun _ => True) c c q1 q2 dims (envN_refl _ c) Hq (fun _ _ => I)).
  destruct (dummy_bnd c q2 dims); [|reflexivity].
  destruct Hq as [_ [Hl _]]. now rewrite Hl.
Qed.

Section Dedup.
  Variable m : rmap.
  Variable params : list (string * pkind).
  Variable arrs : list (string * list (expr * expr)).
  Hypothesis Hnr : forallb norecb params = true.
  Hypothesis Hnd : nodup_s (map fst params) = true.
  Hypothesis HM1 : forall y x, In (y, x) m ->
    in_dom m x = false /\ exists k, assoc_s params y = Some k /\ assoc_s params x = Some k.
  Hypothesis HMp : forall x, In x (params_dim_names params) -> in_dom m x = false.
  Hypothesis HMa : forall x, In x (arrs_names arrs) -> in_dom m x = false.

  Variable r : string -> string.
  Variables fr1 fr2 : frame.
  Variable s : rstore.
  Variable args : list expr.
  Hypothesis Hok : ren_ok r.
  Hypothesis Hlen : List.length args = List.length params.
  Hypothesis Hsite : forall y x, In (y, x) m -> exists ky b kx c,
     lookup_pa y (combine params args) = Some (ky, EVar b) /\
     lookup_pa x (combine params args) = Some (kx, EVar c) /\ r b = r c.
  Let N (x : string) : Prop := In x (flat_map names_e args).
  Hypothesis Hrel : frel r N fr1 fr2.

  Let pa1 := combine params args.
  Let F := filter (keepq m) pa1.
  Let ps2 := map fst F.
  Let a2 := map snd F.
  Let D (x : string) : Prop := in_dom m x = false.

  Lemma N_var b : In (EVar b) args -> N b.
  Proof. intros H. unfold N. apply in_flat_map. exists (EVar b). split; [exact H|]. cbn. auto. Qed.

  Lemma norec_params z k : In (z, k) params -> match k with PRec _ => False | _ => True end.
  Proof.
    intros H. rewrite forallb_forall in Hnr. apply Hnr in H. unfold norecb in H. cbn [snd] in H.
    destruct k; [exact I|exact I|discriminate H].
  Qed.

  Lemma merged z : in_dom m z = true -> exists x k b c,
    rn m z = x /\ in_dom m x = false /\ lookup_pa z pa1 = Some (k, EVar b) /\ lookup_pa x pa1 = Some (k, EVar c) /\
    r b = r c /\ N b /\ N c.
  Proof.
    intros Hz. destruct (in_dom_In m z Hz) as [x [Hin Hrn]].
    destruct (HM1 z x Hin) as [Hx [k0 [K1 K2]]].
    destruct (Hsite z x Hin) as [ky [b [kx [c [L1 [L2 Hbc]]]]]].
    pose proof (lookup_pa_assoc _ _ _ _ _ L1) as A1. pose proof (lookup_pa_assoc _ _ _ _ _ L2) as A2.
    rewrite K1 in A1. rewrite K2 in A2. injection A1 as <-. injection A2 as <-.
    exists x, k0, b, c. repeat split; try assumption.
    - apply N_var. now apply lookup_pa_in in L1.
    - apply N_var. now apply lookup_pa_in in L2.
  Qed.

  Lemma dropped z k e : In ((z, k), e) pa1 -> in_dom m z = true -> exists x b c,
    e = EVar b /\ in_dom m x = false /\ lookup_pa x pa1 = Some (k, EVar c) /\ r b = r c /\ N b /\ N c.
  Proof.
    intros Hin Hz. destruct (merged z Hz) as [x [k' [b [c [_ [Hx [L1 [L2 [Hbc [Nb Nc]]]]]]]]]].
    pose proof (lookup_pa_nodup z k e params args Hnd Hin) as L. fold pa1 in L. rewrite L1 in L.
    injection L as Hk He. subst k' e. exists x, b, c. repeat split; assumption.
  Qed.

  Lemma kept_params : filter (keepp m) params = ps2.
  Proof. symmetry. apply filter_combine_fst. exact Hlen. Qed.

  Lemma kept_pairs : combine ps2 a2 = F.
  Proof. apply combine_fst_snd. Qed.

  Lemma kept_args_names : forall x, In x (flat_map names_e a2) -> N x.
  Proof.
    intros x Hx. unfold N. apply in_flat_map in Hx. destruct Hx as [e [He Hx]].
    apply in_flat_map. exists e. split; [|exact Hx].
    unfold a2 in He. apply in_map_iff in He. destruct He as [[p e'] [E He]]. cbn [snd] in E. subst e'.
    unfold F in He. apply filter_In in He. destruct He as [He _]. now apply in_combine_r in He.
  Qed.

  Lemma kept_norec : forallb norecb ps2 = true.
  Proof. rewrite <- kept_params. now apply forallb_filter. Qed.

  Lemma kept_dim_names : forall x, In x (params_dim_names ps2) -> D x.
  Proof.
    intros x Hx. apply HMp. rewrite <- kept_params in Hx. unfold params_dim_names in *.
    apply in_flat_map in Hx. destruct Hx as [p [Hp Hx]]. apply filter_In in Hp.
    apply in_flat_map. exists p. tauto.
  Qed.

  Lemma lookup_F z : lookup_pa z (combine ps2 a2) = if in_dom m z then None else lookup_pa z pa1.
  Proof. rewrite kept_pairs. unfold F. apply lookup_pa_filter. Qed.

  Lemma lookup_pa2 z : lookup_pa z (combine ps2 (map (ren_e r) a2)) =
    if in_dom m z then None else option_map (fun ke => (fst ke, ren_e r (snd ke))) (lookup_pa z pa1).
  Proof. rewrite lookup_pa_ren, lookup_F. now destruct (in_dom m z). Qed.

  Lemma fs_out d z : in_dom m z = false ->
    callee_fs d fr1 s pa1 z = callee_fs d fr2 s (combine ps2 (map (ren_e r) a2)) z.
  Proof.
    intros Hz. rewrite <- (ren_callee_fs r N fr1 fr2 s Hok Hrel d ps2 a2 z kept_norec kept_args_names).
    unfold callee_fs. unfold pa1 at 2. rewrite (forward_root_none params args z Hnr), (forward_root_none ps2 a2 z kept_norec).
    rewrite lookup_F, Hz. reflexivity.
  Qed.

  Lemma cenv_N d s0 : envN D (scal_env (callee_fs d fr1 s pa1) s0)
                             (scal_env (callee_fs d fr2 s (combine ps2 (map (ren_e r) a2))) s0).
  Proof.
    split; [|reflexivity]. intros x Hx. cbn [scal_env ev_var]. now rewrite (fs_out d x Hx).
  Qed.

  Lemma init_eq d s0 :
    init_scalars d fr1 s pa1 s0 = init_scalars d fr2 s (combine ps2 (map (ren_e r) a2)) s0.
  Proof.
    rewrite <- (ren_init_scalars r N fr1 fr2 s Hok Hrel d ps2 a2 s0 kept_args_names). rewrite kept_pairs. unfold F.
    symmetry. apply init_scalars_filter. intros [[z k] e] Hq K.
    unfold keepq in K. cbn [fst] in K. apply negb_false_iff in K.
    destruct (dropped z k e Hq K) as [x [b [c [-> _]]]]. reflexivity.
  Qed.

  Lemma arrays_eq c1 c2 : envN D c1 c2 ->
    arrays_ok fr1 s c1 pa1 = arrays_ok fr2 s c2 (combine ps2 (map (ren_e r) a2)).
  Proof.
    intros HE. rewrite <- (ren_arrays_ok r N fr1 fr2 s Hok Hrel c1 c2 D HE ps2 a2 kept_args_names kept_dim_names).
    rewrite kept_pairs, !arrays_ok_forallb. unfold F. symmetry. apply forallb_filter_cover.
    intros [[z k] e] Hq K. unfold keepq in K. cbn [fst] in K. apply negb_false_iff in K.
    destruct (dropped z k e Hq K) as [x [b [c [-> [Hx [L [Hbc [Nb Nc]]]]]]]].
    exists ((x, k), EVar c). split; [now apply lookup_pa_In|]. split.
    - unfold keepq. cbn [fst]. now rewrite Hx.
    - destruct k; try reflexivity. apply achk_var_agree.
      destruct (Hrel b Nb) as [_ Hb]. destruct (Hrel c Nc) as [_ Hc]. rewrite Hbc in Hb.
      apply (aref_agree_trans _ _ _ Hb). now apply aref_agree_sym.
  Qed.

  Lemma fs_rel d z :
    callee_fs d fr1 s pa1 z = callee_fs d fr2 s (combine ps2 (map (ren_e r) a2)) (rn m z).
  Proof.
    destruct (in_dom m z) eqn:Hz.
    - destruct (merged z Hz) as [x [k [b [c [-> [Hx [L1 [L2 [Hbc [Nb Nc]]]]]]]]]].
      unfold callee_fs at 2. rewrite lookup_pa2, Hx, L2. unfold callee_fs. rewrite L1.
      cbn [option_map fst snd ren_e]. destruct k.
      + cbn [sref_of]. rewrite <- Hbc. now apply Hrel.
      + reflexivity.
      + apply lookup_pa_in in L1. destruct L1 as [_ L1]. destruct (norec_params _ _ L1).
    - rewrite (rn_out m z Hz). now apply fs_out.
  Qed.

  Lemma fa_rel d c1 c2 z : envN D c1 c2 ->
    aref_agree (callee_fa d fr1 s c1 pa1 arrs z)
               (callee_fa d fr2 s c2 (combine ps2 (map (ren_e r) a2)) arrs (rn m z)).
  Proof.
    intros HE. destruct (in_dom m z) eqn:Hz.
    - destruct (merged z Hz) as [x [k [b [c [-> [Hx [L1 [L2 [Hbc [Nb Nc]]]]]]]]]].
      unfold callee_fa at 2. rewrite lookup_pa2, Hx, L2. unfold callee_fa. rewrite L1.
      cbn [option_map fst snd ren_e]. destruct k.
      + apply aref_agree_refl.
      + assert (Hbc' : aref_agree (fa fr1 b) (fa fr2 (r c))).
        { rewrite <- Hbc. now apply Hrel. }
        destruct (var_seq_agree fr1 fr2 s s b (r c) Hbc') as [q1 [q2 [E1 [E2 Hq]]]].
        rewrite E1, E2. rewrite (dummy_bnd_envN D c1 c2 q1 q2 dims HE Hq).
        * destruct (dummy_bnd c2 q2 dims); [now apply mk_aref_agree|apply aref_agree_refl].
        * intros y Hy. apply HMp. unfold params_dim_names. apply in_flat_map. exists (z, PArr dims).
          split; [|exact Hy]. now apply lookup_pa_in in L1.
      + apply lookup_pa_in in L1. destruct L1 as [_ L1]. destruct (norec_params _ _ L1).
    - rewrite (rn_out m z Hz).
      apply (aref_agree_trans _ (callee_fa d fr1 s c1 (combine ps2 a2) arrs z)).
      + unfold callee_fa. unfold pa1 at 2.
        rewrite (forward_root_none params args z Hnr), (forward_root_none ps2 a2 z kept_norec).
        rewrite lookup_F, Hz. apply aref_agree_refl.
      + apply (ren_callee_fa r N fr1 fr2 s Hok Hrel c1 c2 D HE d ps2 a2 arrs z kept_norec kept_args_names kept_dim_names HMa).
  Qed.

  Lemma bind_dedup d p1 p2 (N' : string -> Prop) :
    rp_params p1 = params -> rp_arrays p1 = arrs ->
    rp_params p2 = filter (keepp m) params -> rp_arrays p2 = arrs ->
    match bind d fr1 s p1 args, bind d fr2 s p2 (map (ren_e r) (drop_args m params args)) with
    | Some c1, Some c2 => snd c1 = snd c2 /\ frel (rn m) N' (fst c1) (fst c2) /\ True
    | None, None => True
    | _, _ => False
    end.
  Proof.
    intros E1 E2 E3 E4. unfold bind. rewrite E1, E2, E3, E4.
    change (drop_args m params args) with a2. rewrite kept_params, map_length.
    assert (Hl2 : List.length a2 = List.length ps2) by (unfold a2, ps2; now rewrite !map_length).
    rewrite Hlen, Hl2, !Nat.eqb_refl. cbn [negb]. fold pa1.
    rewrite <- (init_eq d (clear_depth d s)).
    destruct (init_scalars d fr1 s pa1 (clear_depth d s)) as [s0|]; cbn [obind]; [|exact I].
    pose proof (cenv_N d s0) as HE.
    rewrite <- (arrays_eq _ _ HE), <- (locals_ok_envN D _ _ HE arrs HMa).
    destruct (arrays_ok fr1 s _ pa1 && locals_ok _ arrs); [|exact I].
    cbn [fst snd]. split; [reflexivity|]. split; [|exact I]. intros z _. cbn [fs fa]. split.
    - apply fs_rel.
    - now apply fa_rel.
  Qed.
End Dedup.

Lemma find_rproc_to_rprocs t g : find_rproc (to_rprocs t) g = option_map to_rproc (find_unit t g).
Proof.
  unfold to_rprocs. induction t as [|u t IH]; [reflexivity|].
  cbn [map find_rproc find_unit]. destruct (String.eqb (u_name u) g); [reflexivity|exact IH].
Qed.

Lemma find_unit_map (f : unit -> unit) : (forall u, u_name (f u) = u_name u) ->
  forall t g, find_unit (map f t) g = option_map f (find_unit t g).
Proof.
  intros Hf. induction t as [|u t IH]; intros g; [reflexivity|].
  cbn [map find_unit]. rewrite Hf. destruct (String.eqb (u_name u) g); [reflexivity|apply IH].
Qed.

Lemma find_unit_In t g u : find_unit t g = Some u -> In u t /\ u_name u = g.
Proof.
  induction t as [|v t IH]; cbn [find_unit]; [discriminate|].
  destruct (String.eqb (u_name v) g) eqn:E.
  - intros H. injection H as ->. apply String.eqb_eq in E. split; [now left|exact E].
  - intros H. destruct (IH H). split; [now right|assumption].
Qed.

Definition new_unit (pl : plan) (t : table) (u : unit) : unit :=
  {| u_name := u_name u;
     u_params := filter (keepp (plan_of pl (u_name u))) (u_params u);
     u_locals := u_locals u;
     u_body := ren (rn (plan_of pl (u_name u))) (tcalls (plan_tc pl t) (u_body u)) |}.

Lemma find_unit_apply_plan pl t g :
  find_unit (apply_plan pl t) g = option_map (new_unit pl t) (find_unit t g).
Proof. change (apply_plan pl t) with (map (new_unit pl t) t). apply find_unit_map. reflexivity. Qed.

Definition site_okP (pl : plan) (t : table) (r : string -> string) (g : string) (args : list expr) : Prop :=
  match find_unit t g with
  | None => True
  | Some u =>
      List.length args = List.length (u_params u) /\
      forall y x, In (y, x) (plan_of pl g) -> exists ky b kx c,
        lookup_pa y (combine (u_params u) args) = Some (ky, EVar b) /\
        lookup_pa x (combine (u_params u) args) = Some (kx, EVar c) /\ r b = r c
  end.

Lemma site_okb_sound pl t mc g args : site_okb pl t mc g args = true -> site_okP pl t (rn mc) g args.
Proof.
  unfold site_okb, site_okP. destruct (find_unit t g) as [u|]; [|trivial].
  intros H. apply andb_prop in H. destruct H as [H1 H2]. split; [now apply Nat.eqb_eq|].
  intros y x Hin. rewrite forallb_forall in H2. specialize (H2 _ Hin). cbn [fst snd] in H2.
  destruct (lookup_pa y (combine (u_params u) args)) as [[ky ey]|]; [|discriminate H2].
  destruct ey; try discriminate H2.
  destruct (lookup_pa x (combine (u_params u) args)) as [[kx ex]|]; [|discriminate H2].
  destruct ex; try discriminate H2.
  apply String.eqb_eq in H2. exists ky, x0, kx, x1. repeat split. exact H2.
Qed.

Lemma rmap_okb_spec u m : rmap_okb u m = true ->
  (forall y x, In (y, x) m -> reserved y = false /\ reserved x = false /\ in_dom m x = false /\
      exists k, assoc_s (u_params u) y = Some k /\ assoc_s (u_params u) x = Some k) /\
  (forall z, In z (unit_dim_names u) -> in_dom m z = false).
Proof.
  unfold rmap_okb. intros H. apply andb_prop in H. destruct H as [H H3].
  apply andb_prop in H. destruct H as [H1 _]. split.
  - intros y x Hin. rewrite forallb_forall in H1. specialize (H1 _ Hin). cbn [fst snd] in H1.
    apply andb_prop in H1. destruct H1 as [H1 K]. apply andb_prop in H1. destruct H1 as [H1 Hd].
    apply andb_prop in H1. destruct H1 as [Ry Rx].
    apply negb_true_iff in Ry. apply negb_true_iff in Rx. apply negb_true_iff in Hd.
    destruct (assoc_s (u_params u) y) as [ky|]; [|discriminate K].
    destruct (assoc_s (u_params u) x) as [kx|]; [|discriminate K].
    apply andb_prop in K. destruct K as [K _]. apply pkind_eqb_eq in K. subst kx.
    repeat split; try assumption. now exists ky.
  - intros z Hz. rewrite forallb_forall in H3. apply H3 in Hz. now apply negb_true_iff in Hz.
Qed.

Lemma ren_ok_rn m : (forall y x, In (y, x) m -> reserved y = false /\ reserved x = false) -> ren_ok (rn m).
Proof.
  intros H f. unfold rn. destruct (assoc_s m f) as [v|] eqn:E.
  - apply assoc_s_In in E. destruct (H _ _ E) as [A B]. split; [now rewrite A, B|].
    intros C. rewrite A in C. discriminate C.
  - split; [reflexivity|]. intros _. reflexivity.
Qed.

Lemma arrs_names_unit u x :
  In x (arrs_names (rp_arrays (to_rproc u))) -> In x (unit_dim_names u).
Proof.
  unfold arrs_names, unit_dim_names. cbn [to_rproc rp_arrays]. intros H.
  apply in_flat_map in H. destruct H as [l [Hl Hx]]. apply in_map_iff in Hl. destruct Hl as [l0 [<- Hl0]].
  cbn [snd] in Hx. apply expl_bounds_names in Hx. apply in_or_app. right.
  apply in_flat_map. exists l0. now split.
Qed.

(** also for code that is itself renamed and runs in a related frame (the body of a routine whose dummies are merged) *)
Theorem dedup_sim pl t : plan_okb pl t = true ->
  forall f d fr1 fr2 r ss s, ren_ok r -> sites (site_okP pl t r) ss -> frel r (nm (plan_tc pl t) ss) fr1 fr2 ->
  rexec (to_rprocs t) f d fr1 ss s = rexec (to_rprocs (apply_plan pl t)) f d fr2 (ren r (tcalls (plan_tc pl t) ss)) s.
Proof.
  intros Hpl f d fr1 fr2 r ss s Hok Hss Hrel.
  assert (Hunit : forall g u, find_unit t g = Some u ->
            u_name u = g /\ no_rec (to_rproc u) = true /\ nodup_s (map fst (u_params u)) = true /\
            rmap_okb u (plan_of pl g) = true /\ sitesb (site_okb pl t (plan_of pl g)) (u_body u) = true).
  { intros g u E. destruct (find_unit_In t g u E) as [Hin Hname]. subst g.
    unfold plan_okb in Hpl. rewrite forallb_forall in Hpl. specialize (Hpl u Hin). unfold unit_okb in Hpl.
    apply andb_prop in Hpl. destruct Hpl as [Hpl H4]. apply andb_prop in Hpl. destruct Hpl as [Hpl H3].
    apply andb_prop in Hpl. destruct Hpl as [H1 H2]. repeat split; assumption. }
  apply (coupled_sim (to_rprocs t) (to_rprocs (apply_plan pl t)) (fun g => rn (plan_of pl g)) (plan_tc pl t)
                     (site_okP pl t) (fun _ _ => True)); [| |exact Hok|exact Hss|exact Hrel|exact I].
  - intros g. rewrite !find_rproc_to_rprocs, find_unit_apply_plan.
    destruct (find_unit t g) as [u|] eqn:E; cbn [option_map]; [|exact I].
    destruct (Hunit g u E) as [Hname [Hnr [Hnd [Hm Hs]]]].
    destruct (rmap_okb_spec u _ Hm) as [HM1 HM3].
    split; [|split].
    + cbn [to_rproc new_unit rp_body u_body]. now rewrite Hname.
    + apply ren_ok_rn. intros y x Hin. destruct (HM1 y x Hin) as [A [B _]]. now split.
    + cbn [to_rproc rp_body]. revert Hs. apply sitesb_sites. intros g0 a. apply site_okb_sound.
  - clear fr1 fr2 r Hok Hss Hrel. intros g p1 p2 d0 fr1 fr2 r args s0 E1 E2 Hok Hsite Hrel _.
    rewrite find_rproc_to_rprocs in E1. rewrite find_rproc_to_rprocs, find_unit_apply_plan in E2.
    unfold site_okP in Hsite. unfold plan_tc.
    destruct (find_unit t g) as [u|] eqn:E; cbn [option_map] in E1, E2; [|discriminate E1].
    injection E1 as <-. injection E2 as <-.
    destruct (Hunit g u E) as [Hname [Hnr [Hnd [Hm Hs]]]].
    destruct (rmap_okb_spec u _ Hm) as [HM1 HM3]. destruct Hsite as [Hlen Hsite].
    refine (bind_dedup (plan_of pl g) (u_params u) (rp_arrays (to_rproc u)) Hnr Hnd _ _ _ r fr1 fr2 s0 args Hok Hlen Hsite _
                       d0 (to_rproc u) (to_rproc (new_unit pl t u)) _ eq_refl eq_refl _ eq_refl).
    + (* HM1 *) intros y x Hin. destruct (HM1 y x Hin) as [_ [_ [A B]]]. now split.
    + (* HMp *) intros x Hx. apply HM3. unfold unit_dim_names. apply in_or_app. now left.
    + (* HMa *) intros x Hx. apply HM3. now apply arrs_names_unit.
    + (* Hrel *) revert Hrel. apply frel_weaken. intros x Hx. now left.
    + cbn [to_rproc new_unit rp_params u_params]. now rewrite Hname.
Qed.

Theorem dedup_args_preserves pl t : plan_okb pl t = true ->
  forall f d fr ss s, sitesb (site_okb pl t []) ss = true ->
  rexec (to_rprocs t) f d fr ss s = rexec (to_rprocs (apply_plan pl t)) f d fr (tcalls (plan_tc pl t) ss) s.
Proof.
  intros Hpl f d fr ss s Hss. rewrite <- (ren_id (tcalls (plan_tc pl t) ss)).
  apply (dedup_sim pl t Hpl); [apply ren_ok_id| |].
  - revert Hss. apply sitesb_sites. intros g a H. apply site_okb_sound in H. exact H.
  - intros x _. split; [reflexivity|apply aref_agree_refl].
Qed.

(** the renaming the code performs ([renl], which misses names inside the subscripts of a renamed array) is the
    plain renaming when no renamed array has a renamed name in its subscripts *)
Fixpoint clean_e (m : rmap) (e : expr) : bool :=
  match e with
  | ESum _ cs | EProd _ cs | EAnd cs | EOr cs => forallb (clean_e m) cs
  | EQuot _ a b | EPow _ a b | ECmp _ a b => clean_e m a && clean_e m b
  | ENot a => clean_e m a
  | ECall f args => (if in_dom m f then forallb (fun x => negb (in_dom m x)) (flat_map names_e args) else true) && forallb (clean_e m) args
  | _ => true
  end.
Fixpoint clean_s (m : rmap) (st : stmt) : bool :=
  match st with
  | SAssign _ e => clean_e m e
  | SStore a i e => (if in_dom m a then forallb (fun x => negb (in_dom m x)) (flat_map names_e i) else true) && forallb (clean_e m) i && clean_e m e
  | SDo _ lo hi stp b => clean_e m lo && clean_e m hi && (match stp with Some e => clean_e m e | None => true end) && forallb (clean_s m) b
  | SWhile c b => clean_e m c && forallb (clean_s m) b
  | SIf c tb eb => clean_e m c && forallb (clean_s m) tb && forallb (clean_s m) eb
  | SCall _ a => forallb (clean_e m) a
  | SSkip _ => true
  end.

Lemma map_ext_clean {A} (cl : A -> bool) (f g : A -> A) l :
  Forall (fun a => cl a = true -> f a = g a) l -> forallb cl l = true -> map f l = map g l.
Proof. intros H E. apply map_ext_Forall. exact (Forall_impl_forallb cl _ l H E). Qed.

Lemma map_ren_fix m l : forallb (fun x => negb (in_dom m x)) (flat_map names_e l) = true ->
  map (ren_e (rn m)) l = l.
Proof.
  intros H. rewrite forallb_forall in H. apply map_id_Forall. apply Forall_forall. intros e He.
  apply ren_e_fix. intros x Hx. apply rn_out. apply negb_true_iff. apply H.
  apply in_flat_map. exists e. now split.
Qed.

Lemma renl_e_clean m e : clean_e m e = true -> renl_e m e = ren_e (rn m) e.
Proof.
  induction e using expr_ind'; intros E; cbn [renl_e ren_e]; cbn [clean_e] in E; try reflexivity.
  - f_equal. now apply (map_ext_clean (clean_e m)).
  - f_equal. now apply (map_ext_clean (clean_e m)).
  - apply andb_prop in E. destruct E as [E1 E2]. now rewrite IHe1, IHe2.
  - apply andb_prop in E. destruct E as [E1 E2]. now rewrite IHe1, IHe2.
  - apply andb_prop in E. destruct E as [E1 E2]. now rewrite IHe1, IHe2.
  - f_equal. now apply (map_ext_clean (clean_e m)).
  - f_equal. now apply (map_ext_clean (clean_e m)).
  - now rewrite IHe.
  - apply andb_prop in E. destruct E as [E1 E2]. destruct (in_dom m f) eqn:Hf.
    + now rewrite (map_ren_fix m args E1).
    + rewrite (rn_out m f Hf). f_equal. now apply (map_ext_clean (clean_e m)).
Qed.

Lemma map_renl_e_clean m l : forallb (clean_e m) l = true -> map (renl_e m) l = map (ren_e (rn m)) l.
Proof.
  apply map_ext_clean. apply Forall_forall. intros e _. apply renl_e_clean.
Qed.

Lemma renl_s_clean m st : clean_s m st = true -> renl_s m st = ren_s (rn m) st.
Proof.
  induction st as [x e|a i e|v lo hi stp b IHb|c b IHb|c t e IHt IHe|f a|l] using stmt_ind'; intros E; cbn [renl_s ren_s]; cbn [clean_s] in E.
  - now rewrite renl_e_clean.
  - apply andb_prop in E. destruct E as [E E3]. apply andb_prop in E. destruct E as [E1 E2].
    rewrite (renl_e_clean m e E3). destruct (in_dom m a) eqn:Ha.
    + now rewrite (map_ren_fix m i E1).
    + now rewrite (rn_out m a Ha), (map_renl_e_clean m i E2).
  - apply andb_prop in E. destruct E as [E E4]. apply andb_prop in E. destruct E as [E E3].
    apply andb_prop in E. destruct E as [E1 E2].
    rewrite (renl_e_clean m lo E1), (renl_e_clean m hi E2), (map_ext_clean (clean_s m) _ _ b IHb E4).
    destruct stp as [e|]; cbn [option_map]; [now rewrite (renl_e_clean m e E3)|reflexivity].
  - apply andb_prop in E. destruct E as [E1 E2].
    now rewrite (renl_e_clean m c E1), (map_ext_clean (clean_s m) _ _ b IHb E2).
  - apply andb_prop in E. destruct E as [E E3]. apply andb_prop in E. destruct E as [E1 E2].
    now rewrite (renl_e_clean m c E1), (map_ext_clean (clean_s m) _ _ t IHt E2), (map_ext_clean (clean_s m) _ _ e IHe E3).
  - now rewrite (map_renl_e_clean m a E).
  - reflexivity.
Qed.

Theorem renl_clean m ss : forallb (clean_s m) ss = true -> renl m ss = ren (rn m) ss.
Proof.
  unfold renl, ren. apply map_ext_clean. apply Forall_forall. intros st _. apply renl_s_clean.
Qed.

Print Assumptions dedup_args_preserves.
Print Assumptions renl_clean.
