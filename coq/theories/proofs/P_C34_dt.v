(** P_C34_dt.v — derived-type argument expansion in coupled form preserves by-reference behaviour

    [expand_dt_preserves]: the coupled rewrite [apply_dtplan]/[dt_tc] of M_C34 part D preserves the runs of [rexec].

    [dtplan_okb] alone does not suffice ([Refute.expand_dt_unrestricted_refuted], by evaluation): a routine
    may use a component name against its kind (a scalar component [x%s] as the head of an array store).  On the
    left the name is forwarded to the caller's [t%s] with BOTH aspects (cell and array view); on the right the new
    scalar dummy [x_s] has the junk view [dead_aref (d, "")] as its array aspect.  Two more gaps of the class
    predicate [dtplan_okb] are shown in [Refute]: an expanded dummy that is also declared as a local array, and a
    call that passes [x] (type T1, [c] an array component) to a dummy of type T2 ([c] a scalar component).
    The theorem has the additional hypothesis [dt_kinds_okb td pl t]:
    per routine, (a) no expanded dummy is also a local array, (b) the body uses every expanded component name
    according to its kind in the type definition ([wk_s] under the classification [dt_sc]/[dt_ar]), (c) at every
    call site the actuals are used according to the kind of their dummies and the components passed for an
    expanded dummy have the kind the callee's type expects ([dt_site_kb]).

    For the same reason the plain relation [frel] (both aspects of every name) cannot be kept across a call; the
    theorem is an instance of the kind-aware simulation [kind_sim] of P_C34_sim.  The work is [bind_dt]: [bind] of
    the original routine and of the routine with its derived-type dummies expanded give related callee frames.
    The file defines [nkind], [nname], [isexp], [dt_entry], [wfq], [renk] (the dummy/actual pairs after the
    expansion), [site_kP], [unit_facts] (the class predicates as propositions) and, at the end, its own copies of the
    kind predicates of M_C34 part D: the statements of [kcoupled_sim] and [expand_dt_preserves] are written over them
    (T_C34 and the check use the M_C34 ones; the two are convertible). *)
From Coq Require Import ZArith List Bool String Ascii Lia.
From LV Require Import Base.Expr Base.ListFacts Base.ExprFacts Base.MiniF models.M_C34
     proofs.P_C34_arith proofs.P_C34_sim proofs.P_C34_dedup.
Import ListNotations.
Open Scope Z_scope.


Lemma split_join x p : has_pct x = false -> split_pct (join_pct x p) = Some (x, p).
Proof.
  unfold has_pct, join_pct. induction x as [|c x IH]; cbn [split_pct append]; intros H.
  - reflexivity.
  - destruct (Ascii.eqb c "%") eqn:E; [discriminate H|].
    destruct (split_pct x) as [[a b]|] eqn:E2; [discriminate H|]. now rewrite IH.
Qed.

Lemma has_pct_join a b : has_pct (join_pct a b) = true.
Proof.
  unfold has_pct, join_pct. induction a as [|c a IH]; cbn [split_pct append]; [reflexivity|].
  destruct (Ascii.eqb c "%"); [reflexivity|].
  destruct (split_pct (a ++ String "%" b)) as [[x y]|]; [reflexivity|discriminate IH].
Qed.

Lemma reserved_pct k : has_pct k = true -> reserved k = false.
Proof.
  intros H. destruct (reserved k) eqn:R; [|reflexivity]. exfalso. unfold reserved in R.
  repeat (apply orb_prop in R; destruct R as [R|R]); apply String.eqb_eq in R; subst k; discriminate H.
Qed.

Lemma root_rest z : has_pct z = true -> split_pct z = Some (root_of z, rest_of z).
Proof. unfold has_pct, root_of, rest_of. destruct (split_pct z) as [[a b]|]; [reflexivity|discriminate]. Qed.

Definition nkind (td : typedefs) (ty path : string) : pkind :=
  match comp_at 8 td ty path with
  | Some (CArr k) => PArr (repeat DShape k)
  | Some (CRec ty') => PRec ty'
  | _ => PScal
  end.
Definition nname (x path : string) : string := replace_pct (join_pct x path).
Definition isexp (exp : list (string * list string)) (x : string) : bool :=
  match assoc_s exp x with Some _ => true | None => false end.

Definition xact (exp : list (string * list string)) (q : string * expr) : list expr :=
  match assoc_s exp (fst q), snd q with
  | Some paths, EVar t => map (fun p => EVar (join_pct t p)) paths
  | _, a => [a]
  end.

Lemma expand_actuals_eq dd args :
  expand_actuals dd args = flat_map (xact (dd_exp dd)) (combine (dd_args dd) args) ++ skipn (List.length (dd_args dd)) args.
Proof. reflexivity. Qed.

Lemma dt_new_params_eq td exp params :
  dt_new_params td exp params =
  flat_map (fun p => match assoc_s exp (fst p), snd p with
                     | Some paths, PRec ty => map (fun path => (nname (fst p) path, nkind td ty path)) paths
                     | _, _ => [p] end) params.
Proof. reflexivity. Qed.

Lemma combine_map2 {A B C} (f : A -> B) (g : A -> C) l : combine (map f l) (map g l) = map (fun a => (f a, g a)) l.
Proof. induction l as [|a l IH]; cbn [map combine]; [reflexivity|]. now rewrite IH. Qed.

Lemma lookup_map_miss {A} z (nf : A -> string) (K : A -> pkind) (E : A -> expr) l :
  (forall p, In p l -> nf p <> z) -> lookup_pa z (map (fun p => ((nf p, K p), E p)) l) = None.
Proof.
  induction l as [|p l IH]; cbn [map lookup_pa]; intros H; [reflexivity|].
  destruct (String.eqb (nf p) z) eqn:E1.
  - apply String.eqb_eq in E1. exfalso. apply (H p); [now left|exact E1].
  - apply IH. intros q Hq. apply H. now right.
Qed.

Lemma lookup_map_hit {A} (nf : A -> string) (K : A -> pkind) (E : A -> expr) l a :
  In a l -> (forall p, In p l -> nf p = nf a -> p = a) ->
  lookup_pa (nf a) (map (fun p => ((nf p, K p), E p)) l) = Some (K a, E a).
Proof.
  induction l as [|p l IH]; cbn [map lookup_pa]; intros Hin Hinj; [destruct Hin|].
  destruct (String.eqb (nf p) (nf a)) eqn:E1.
  - apply String.eqb_eq in E1. rewrite (Hinj p (or_introl eq_refl) E1). reflexivity.
  - destruct Hin as [->|Hin]; [now rewrite String.eqb_refl in E1|].
    apply IH; [exact Hin|]. intros q Hq. apply Hinj. now right.
Qed.

Lemma in_dt_rmap exp k v : In (k, v) (dt_rmap exp) <->
  exists x paths path, In (x, paths) exp /\ In path paths /\ k = join_pct x path /\ v = nname x path.
Proof.
  unfold dt_rmap. rewrite in_flat_map. split.
  - intros [[x paths] [H1 H2]]. cbn [fst snd] in H2. apply in_map_iff in H2. destruct H2 as [path [E H2]].
    injection E as <- <-. exists x, paths, path. repeat split; assumption.
  - intros [x [paths [path [H1 [H2 [-> ->]]]]]]. exists (x, paths). split; [exact H1|].
    cbn [fst snd]. apply in_map_iff. exists path. split; [reflexivity|exact H2].
Qed.

Lemma rn_dt_rmap exp z : in_dom (dt_rmap exp) z = true -> rn (dt_rmap exp) z = replace_pct z.
Proof.
  unfold in_dom, rn. destruct (assoc_s (dt_rmap exp) z) as [v|] eqn:E; [|discriminate].
  intros _. apply assoc_s_In, in_dt_rmap in E. destruct E as [x [paths [path [_ [_ [-> ->]]]]]]. reflexivity.
Qed.

Lemma in_dom_In' m z v : In (z, v) m -> in_dom m z = true.
Proof.
  unfold in_dom. induction m as [|[k w] m IH]; cbn [assoc_s In]; [intros []|].
  intros [H|H].
  - injection H as -> ->. now rewrite String.eqb_refl.
  - destruct (String.eqb k z); [reflexivity|now apply IH].
Qed.

Lemma nodup_s_In_assoc {A} (l : list (string * A)) x v : nodup_s (map fst l) = true -> In (x, v) l -> assoc_s l x = Some v.
Proof.
  induction l as [|[k w] l IH]; cbn [map fst nodup_s assoc_s In]; intros Hnd Hin; [destruct Hin|].
  apply andb_prop in Hnd. destruct Hnd as [H1 H2]. destruct Hin as [Hin|Hin].
  - injection Hin as -> ->. now rewrite String.eqb_refl.
  - destruct (String.eqb k x) eqn:E; [|now apply IH].
    apply String.eqb_eq in E. subst k. exfalso.
    assert (Hm : mem_s (map fst l) x = true). { apply mem_s_In. change x with (fst (x, v)). now apply in_map. }
    rewrite Hm in H1. discriminate H1.
Qed.

Lemma nodup_snd_inj {A} (l : list (A * string)) a b v : nodup_s (map snd l) = true -> In (a, v) l -> In (b, v) l -> a = b.
Proof.
  intros Hnd Ha Hb. apply nodupb_NoDup in Hnd. exact (f_equal fst (NoDup_map_inj snd l (a, v) (b, v) Hnd Ha Hb eq_refl)).
Qed.

Section Entries.
  Variable td : typedefs.
  Variable exp : list (string * list string).
  Variable r : string -> string.

  Definition dt_entry (q : (string * pkind) * expr) : pargs :=
    match assoc_s exp (fst (fst q)), snd (fst q), snd q with
    | Some paths, PRec ty, EVar t =>
        map (fun path => ((nname (fst (fst q)) path, nkind td ty path), EVar (r (join_pct t path)))) paths
    | _, _, _ => [(fst q, ren_e r (snd q))]
    end.

  Definition wfq (q : (string * pkind) * expr) : Prop :=
    forall paths, assoc_s exp (fst (fst q)) = Some paths -> (exists ty, snd (fst q) = PRec ty) /\ (exists t, snd q = EVar t).

  Lemma pa2_flat : forall ps args, List.length args = List.length ps ->
    (forall q, In q (combine ps args) -> wfq q) ->
    combine (dt_new_params td exp ps) (map (ren_e r) (flat_map (xact exp) (combine (map fst ps) args))) =
    flat_map dt_entry (combine ps args).
  Proof.
    induction ps as [|[x k] ps IH]; intros [|e args] Hlen Hwf; cbn [List.length] in Hlen; try discriminate Hlen; [reflexivity|].
    rewrite dt_new_params_eq. cbn [map fst combine flat_map]. rewrite <- dt_new_params_eq.
    rewrite map_app.
    assert (IH' : combine (dt_new_params td exp ps) (map (ren_e r) (flat_map (xact exp) (combine (map fst ps) args))) =
                  flat_map dt_entry (combine ps args)).
    { apply IH; [lia|]. intros q Hq. apply Hwf. now right. }
    pose proof (Hwf ((x, k), e) (or_introl eq_refl)) as Hw. unfold wfq in Hw. cbn [fst snd] in Hw.
    unfold dt_entry at 1. unfold xact at 1. cbn [fst snd].
    destruct (assoc_s exp x) as [paths|] eqn:E.
    - destruct (Hw paths eq_refl) as [[ty ->] [t ->]].
      rewrite combine_app2 by now rewrite !map_length.
      rewrite IH'. f_equal. rewrite map_map. rewrite combine_map2. reflexivity.
    - rewrite combine_app2 by (destruct k; reflexivity). rewrite IH'.
      destruct k; reflexivity.
  Qed.

  Lemma pa2_char ps args : List.length args = List.length ps ->
    (forall q, In q (combine ps args) -> wfq q) ->
    combine (dt_new_params td exp ps) (map (ren_e r) (expand_actuals {| dd_args := map fst ps; dd_exp := exp |} args)) =
    flat_map dt_entry (combine ps args).
  Proof.
    intros Hlen Hwf. rewrite expand_actuals_eq. cbn [dd_args dd_exp].
    rewrite map_length, <- Hlen, skipn_all, app_nil_r. now apply pa2_flat.
  Qed.

  Lemma pa2_length ps args : List.length args = List.length ps ->
    (forall q, In q (combine ps args) -> wfq q) ->
    List.length (expand_actuals {| dd_args := map fst ps; dd_exp := exp |} args) = List.length (dt_new_params td exp ps).
  Proof.
    rewrite expand_actuals_eq. cbn [dd_args dd_exp]. intros Hlen. rewrite map_length, <- Hlen, skipn_all, app_nil_r.
    revert args Hlen. induction ps as [|[x k] ps IH]; intros [|e args] Hlen Hwf; cbn [List.length] in Hlen; try discriminate Hlen; [reflexivity|].
    rewrite dt_new_params_eq. cbn [map fst combine flat_map]. rewrite <- dt_new_params_eq.
    rewrite !app_length. rewrite IH; [|lia|intros q Hq; apply Hwf; now right].
    pose proof (Hwf ((x, k), e) (or_introl eq_refl)) as Hw. unfold wfq in Hw. cbn [fst snd] in Hw.
    unfold xact at 1. cbn [fst snd]. destruct (assoc_s exp x) as [paths|] eqn:E.
    - destruct (Hw paths eq_refl) as [[ty ->] [t ->]]. now rewrite !map_length.
    - destruct k; reflexivity.
  Qed.

  Definition renk (ke : pkind * expr) : pkind * expr := (fst ke, ren_e r (snd ke)).

  Lemma lookup_old z : forall pa, (forall q, In q pa -> wfq q) ->
    (forall x paths path, In (x, paths) exp -> In path paths -> nname x path <> z) ->
    lookup_pa z (flat_map dt_entry pa) = if isexp exp z then None else option_map renk (lookup_pa z pa).
  Proof.
    intros pa Hwf Hz. induction pa as [|[[x k] e] pa IH]; [now destruct (isexp exp z)|].
    assert (IH' : lookup_pa z (flat_map dt_entry pa) = (if isexp exp z then None else option_map renk (lookup_pa z pa))).
    { apply IH. intros q Hq. apply Hwf. now right. }
    pose proof (Hwf ((x, k), e) (or_introl eq_refl)) as Hw. unfold wfq in Hw. cbn [fst snd] in Hw.
    cbn [flat_map]. rewrite lookup_pa_app. unfold dt_entry at 1. cbn [fst snd lookup_pa].
    destruct (assoc_s exp x) as [paths|] eqn:E.
    - destruct (Hw paths eq_refl) as [[ty ->] [t ->]].
      rewrite lookup_map_miss.
      2:{ intros p Hp. apply (Hz x paths p); [now apply assoc_s_In|exact Hp]. }
      rewrite IH'. destruct (isexp exp z) eqn:Ez; [reflexivity|].
      destruct (String.eqb x z) eqn:Exz; [|reflexivity].
      apply String.eqb_eq in Exz. subst z. unfold isexp in Ez. rewrite E in Ez. discriminate Ez.
    - assert (L : lookup_pa z [((x, k), ren_e r e)] = if String.eqb x z then Some (k, ren_e r e) else None) by reflexivity.
      rewrite L. destruct (String.eqb x z) eqn:Exz.
      + apply String.eqb_eq in Exz. subst z. unfold isexp. rewrite E. reflexivity.
      + exact IH'.
  Qed.

  Hypothesis Hinj : forall x paths path x' paths' path', In (x, paths) exp -> In path paths ->
    In (x', paths') exp -> In path' paths' -> nname x path = nname x' path' -> x = x' /\ path = path'.

  Lemma lookup_new x paths path ty t : assoc_s exp x = Some paths -> In path paths ->
    forall pa, (forall q, In q pa -> wfq q) ->
    (forall q x' paths' path', In q pa -> In (x', paths') exp -> In path' paths' -> nname x' path' <> fst (fst q)) ->
    lookup_pa x pa = Some (PRec ty, EVar t) ->
    lookup_pa (nname x path) (flat_map dt_entry pa) = Some (nkind td ty path, EVar (r (join_pct t path))).
  Proof.
    intros Ex Hp. pose proof (assoc_s_In _ _ _ Ex) as Hin.
    induction pa as [|[[x0 k0] e0] pa IH]; intros Hwf Hnot L; [discriminate L|].
    pose proof (Hwf ((x0, k0), e0) (or_introl eq_refl)) as Hw. unfold wfq in Hw. cbn [fst snd] in Hw.
    cbn [flat_map]. rewrite lookup_pa_app. unfold dt_entry at 1. cbn [fst snd].
    cbn [lookup_pa] in L.
    assert (IH' : String.eqb x0 x = false ->
                  lookup_pa (nname x path) (flat_map dt_entry pa) = Some (nkind td ty path, EVar (r (join_pct t path)))).
    { intros Ne. rewrite Ne in L. apply IH; [intros q Hq; apply Hwf; now right| |exact L].
      intros q x' paths' path' Hq. apply Hnot. now right. }
    destruct (assoc_s exp x0) as [paths0|] eqn:E0.
    - destruct (Hw paths0 eq_refl) as [[ty0 ->] [t0 ->]].
      destruct (String.eqb x0 x) eqn:Ne.
      + apply String.eqb_eq in Ne. subst x0. injection L as -> ->. rewrite Ex in E0. injection E0 as <-.
        rewrite (lookup_map_hit (nname x) (nkind td ty) (fun p => EVar (r (join_pct t p))) paths path Hp); [reflexivity|].
        intros p Hp' Heq. now destruct (Hinj x paths p x paths path Hin Hp' Hin Hp Heq).
      + rewrite lookup_map_miss; [now apply IH'|].
        intros p Hp' Heq. destruct (Hinj x0 paths0 p x paths path (assoc_s_In _ _ _ E0) Hp' Hin Hp Heq) as [-> _].
        now rewrite String.eqb_refl in Ne.
    - assert (Ne : String.eqb x0 x = false).
      { destruct (String.eqb x0 x) eqn:Ne; [|reflexivity]. apply String.eqb_eq in Ne. subst x0. rewrite Ex in E0. discriminate E0. }
      assert (Nn : String.eqb x0 (nname x path) = false).
      { destruct (String.eqb x0 (nname x path)) eqn:Nn; [|reflexivity]. apply String.eqb_eq in Nn. exfalso.
        apply (Hnot ((x0, k0), e0) x paths path (or_introl eq_refl) Hin Hp). cbn [fst]. now symmetry. }
      assert (L0 : lookup_pa (nname x path) [((x0, k0), ren_e r e0)] = None) by (cbn [lookup_pa]; now rewrite Nn).
      rewrite L0. now apply IH'.
  Qed.
End Entries.


Lemma init_vars d fr s {A} (nf : A -> string) (K : A -> pkind) (tf : A -> string) l s0 :
  init_scalars d fr s (map (fun p => ((nf p, K p), EVar (tf p))) l) s0 = Some s0.
Proof.
  induction l as [|p l IH]; [reflexivity|]. cbn [map init_scalars]. destruct (K p); cbn [scalar_init obind is_var]; exact IH.
Qed.

Lemma is_shape_repeat k : forallb is_shape (repeat DShape k) = true.
Proof. induction k as [|k IH]; [reflexivity|exact IH]. Qed.

Lemma in_combine_fst {A B C} (x : A) (k : B) (e : C) : forall ps args,
  In ((x, k), e) (combine ps args) -> In (x, e) (combine (map fst ps) args).
Proof.
  induction ps as [|[y k0] ps IH]; intros [|e0 args] H; cbn [combine map fst In] in *; try contradiction.
  destruct H as [H|H]; [left; congruence|right; now apply IH].
Qed.

(** an assumed-shape dummy laid over a whole array whose lower bounds are 1 is that array *)
Lemma shape_view fr1 fr2 s c a1 a2 k l : aref_agree (fa fr1 a1) (fa fr2 a2) -> bnd_lb1 (ar_bnd (fa fr1 a1)) = true ->
  aref_agree (clamp_aref (fa fr1 a1))
    (match actual_seq fr2 s (EVar a2) with
     | Some sq => match dummy_bnd c sq (repeat DShape k) with Some b => mk_aref sq b | None => dead_aref l end
     | None => dead_aref l
     end).
Proof.
  intros [A [B C]] HB. cbn [actual_seq]. unfold dummy_bnd. rewrite is_shape_repeat. cbn [mk_aseq sq_ext].
  rewrite <- B. rewrite (bsize_shape1 _ HB).
  unfold aref_agree, clamp_aref, mk_aref; cbn [ar_loc ar_bnd ar_view sq_loc sq_at].
  split; [exact A|]. split; [reflexivity|]. intros i.
  destruct (in_bnd (ar_bnd (fa fr1 a1)) i) eqn:Ei; [|reflexivity].
  destruct (lin_range _ _ Ei) as [L1 L2].
  assert (H : (0 <=? lin (ar_bnd (fa fr1 a1)) i) && (lin (ar_bnd (fa fr1 a1)) i <? bsize (ar_bnd (fa fr1 a1))) = true).
  { apply andb_true_intro. split; [now apply Z.leb_le|now apply Z.ltb_lt]. }
  unfold mk_aseq; cbn [sq_at]. rewrite H, (delin_of_lin _ _ Ei). apply C.
Qed.

Lemma shape_achk fr1 fr2 s c a1 a2 k z : aref_agree (fa fr1 a1) (fa fr2 a2) -> bnd_lb1 (ar_bnd (fa fr1 a1)) = true ->
  achk fr2 s c ((z, PArr (repeat DShape k)), EVar a2) = true.
Proof.
  intros [A [B C]] HB. unfold achk. cbn [fst snd actual_seq]. unfold dummy_bnd. rewrite is_shape_repeat. cbn [mk_aseq sq_ext sq_len].
  rewrite <- B. rewrite (bsize_shape1 _ HB). apply Z.leb_refl.
Qed.


Section DT.
  Variable td : typedefs.
  Variable exp : list (string * list string).
  Variable params : list (string * pkind).
  Variable arrs : list (string * list (expr * expr)).
  Let m := dt_rmap exp.
  Variables NB D : string -> Prop.

  Hypothesis Hnd : nodup_s (map fst params) = true.
  Hypothesis Hnp : forall x k, In (x, k) params -> has_pct x = false.
  Hypothesis Hexp_nd : nodup_s (map fst exp) = true.
  Hypothesis Hexp : forall x paths, In (x, paths) exp -> exists ty, assoc_s params x = Some (PRec ty) /\
      forall path, In path paths -> comp_at 8 td ty path = Some CScal \/ exists k, comp_at 8 td ty path = Some (CArr k).
  Hypothesis Hm_nd : nodup_s (map snd m) = true.
  Hypothesis Hnew : forall k v, In (k, v) m -> ~ In v (map fst params) /\ ~ D v /\ ~ NB v.
  Hypothesis HD : forall z, D z -> has_pct z = false.
  Hypothesis HDp : forall x, In x (params_dim_names params) -> D x.
  Hypothesis HDa : forall x, In x (arrs_names arrs) -> D x.
  Hypothesis Hcallee : forall z, NB z -> has_pct z = true ->
      match assoc_s params (root_of z) with Some (PRec _) => in_dom m z = true | Some _ => False | None => True end.
  Hypothesis Hloc : forall x paths, In (x, paths) exp -> assoc_s arrs x = None.
  Hypothesis HlocInv : forall z bs c b, has_pct z = true -> assoc_s arrs z = Some bs -> eval_bnds c bs = Some b -> bnd_lb1 b = true.

  Variable r : string -> string.
  Variables sc ar : string -> bool.
  Variables fr1 fr2 : frame.
  Variable s : rstore.
  Variable args : list expr.
  Hypothesis Hok : ren_ok r.
  Hypothesis Hlen : List.length args = List.length params.
  Let pa1 := combine params args.
  Hypothesis Hsite : forall x paths, In (x, paths) exp -> exists k t, lookup_pa x pa1 = Some (k, EVar t).
  Let targs := expand_actuals {| dd_args := map fst params; dd_exp := exp |} args.
  Let N (x : string) : Prop := In x (flat_map names_e args) \/ In x (flat_map names_e targs).
  Hypothesis Hrel : krel r sc ar N fr1 fr2.
  Hypothesis HInv : forall z, has_pct z = true -> bnd_lb1 (ar_bnd (fa fr1 z)) = true.
  Hypothesis Hwk : forallb (wk_arg sc ar) pa1 = true.
  Hypothesis Hwkx : forall x paths ty t path, In (x, paths) exp -> In path paths -> lookup_pa x pa1 = Some (PRec ty, EVar t) ->
      match comp_at 8 td ty path with Some (CArr _) => ar (join_pct t path) = true | _ => sc (join_pct t path) = true end.
  Let pa2 := combine (dt_new_params td exp params) (map (ren_e r) targs).

  Lemma exp_entry x paths : In (x, paths) exp -> exists ty t,
    assoc_s exp x = Some paths /\ assoc_s params x = Some (PRec ty) /\ lookup_pa x pa1 = Some (PRec ty, EVar t) /\
    has_pct x = false /\
    (forall path, In path paths -> comp_at 8 td ty path = Some CScal \/ exists k, comp_at 8 td ty path = Some (CArr k)).
  Proof.
    intros Hin. destruct (Hexp x paths Hin) as [ty [Hp Hk]]. destruct (Hsite x paths Hin) as [k [t L]].
    pose proof (lookup_pa_assoc _ _ _ _ _ L) as A. rewrite Hp in A. injection A as <-.
    exists ty, t. split; [|split; [|split; [|split]]]; try assumption.
    - now apply nodup_s_In_assoc.
    - apply (Hnp x (PRec ty)). now apply assoc_s_In.
  Qed.

  Lemma wf_all q : In q pa1 -> wfq exp q.
  Proof.
    destruct q as [[x k] e]. intros Hq paths Ea. cbn [fst snd] in *. pose proof (assoc_s_In _ _ _ Ea) as Hin.
    destruct (exp_entry x paths Hin) as [ty [t [_ [Hp [L _]]]]].
    pose proof (lookup_pa_nodup x k e params args Hnd Hq) as L'. fold pa1 in L'. rewrite L in L'. injection L' as <- <-.
    split; eauto.
  Qed.

  Lemma in_m x paths path : In (x, paths) exp -> In path paths -> In (join_pct x path, nname x path) m.
  Proof. intros H1 H2. apply in_dt_rmap. exists x, paths, path. repeat split; assumption. Qed.

  Lemma nname_inj x paths path x' paths' path' : In (x, paths) exp -> In path paths ->
    In (x', paths') exp -> In path' paths' -> nname x path = nname x' path' -> x = x' /\ path = path'.
  Proof.
    intros H1 H2 H3 H4 E. pose proof (in_m x paths path H1 H2) as A. pose proof (in_m x' paths' path' H3 H4) as B.
    rewrite <- E in B. pose proof (nodup_snd_inj m _ _ _ Hm_nd A B) as J.
    destruct (exp_entry x paths H1) as [_ [_ [_ [_ [_ [P _]]]]]].
    destruct (exp_entry x' paths' H3) as [_ [_ [_ [_ [_ [P' _]]]]]].
    pose proof (split_join x path P) as S1. rewrite J, (split_join x' path' P') in S1. injection S1 as -> ->. now split.
  Qed.

  Lemma nname_not_param q x' paths' path' : In q pa1 -> In (x', paths') exp -> In path' paths' -> nname x' path' <> fst (fst q).
  Proof.
    destruct q as [[x k] e]. intros Hq H1 H2 E. cbn [fst] in E.
    destruct (Hnew _ _ (in_m x' paths' path' H1 H2)) as [A _]. apply A. rewrite E.
    apply in_combine_l in Hq. change x with (fst (x, k)). now apply in_map.
  Qed.

  Lemma pa2_eq : pa2 = flat_map (dt_entry td exp r) pa1.
  Proof. apply pa2_char; [exact Hlen|exact wf_all]. Qed.

  Lemma lookup2_old z : ~ In z (map snd m) ->
    lookup_pa z pa2 = if isexp exp z then None else option_map (renk r) (lookup_pa z pa1).
  Proof.
    intros Hz. rewrite pa2_eq. apply lookup_old; [exact wf_all|]. intros x paths path H1 H2 E. apply Hz.
    apply in_map_iff. exists (join_pct x path, z). split; [reflexivity|]. rewrite <- E. now apply (in_m x paths path).
  Qed.

  Lemma lookup2_new x paths path : In (x, paths) exp -> In path paths -> exists ty t,
    lookup_pa x pa1 = Some (PRec ty, EVar t) /\ assoc_s params x = Some (PRec ty) /\
    lookup_pa (nname x path) pa2 = Some (nkind td ty path, EVar (r (join_pct t path))).
  Proof.
    intros H1 H2. destruct (exp_entry x paths H1) as [ty [t [Ea [Hp [L _]]]]]. exists ty, t.
    split; [exact L|]. split; [exact Hp|]. rewrite pa2_eq.
    apply (lookup_new td exp r nname_inj x paths path ty t Ea H2 pa1); [exact wf_all| |exact L].
    intros q x' paths' path' Hq. exact (nname_not_param q x' paths' path' Hq).
  Qed.

  Lemma key_decomp z : in_dom m z = true -> exists x paths path,
    In (x, paths) exp /\ In path paths /\ z = join_pct x path /\ rn m z = nname x path.
  Proof.
    intros H. destruct (in_dom_In m z H) as [v [Hin Hrn]]. apply in_dt_rmap in Hin.
    destruct Hin as [x [paths [path [H1 [H2 [-> ->]]]]]]. exists x, paths, path. repeat split; assumption.
  Qed.

  Lemma lookup1_pct z : has_pct z = true -> lookup_pa z pa1 = None.
  Proof.
    intros Hz. destruct (lookup_pa z pa1) as [[k e]|] eqn:L; [|reflexivity].
    apply lookup_pa_in in L. destruct L as [_ L]. rewrite (Hnp z k L) in Hz. discriminate Hz.
  Qed.

  Definition fwdfree (z : string) : Prop := has_pct z = true -> assoc_s params (root_of z) = None.

  Lemma fwd1_none z : fwdfree z -> forward_root pa1 z = None.
  Proof.
    intros H. unfold forward_root. destruct (split_pct z) as [[root rest]|] eqn:E; [|reflexivity].
    assert (H0 : has_pct z = true) by (unfold has_pct; now rewrite E). specialize (H H0). unfold root_of in H. rewrite E in H.
    destruct (lookup_pa root pa1) as [[k e]|] eqn:L; [|reflexivity].
    apply lookup_pa_assoc in L. rewrite H in L. discriminate L.
  Qed.

  Lemma fwd2_none z : fwdfree z -> forward_root pa2 z = None.
  Proof.
    intros H. unfold forward_root. destruct (split_pct z) as [[root rest]|] eqn:E; [|reflexivity].
    assert (H0 : has_pct z = true) by (unfold has_pct; now rewrite E). specialize (H H0). unfold root_of in H. rewrite E in H.
    destruct (mem_s (map snd m) root) eqn:Em.
    - apply mem_s_In in Em. apply in_map_iff in Em. destruct Em as [[k v] [Ev Hin]]. cbn [snd] in Ev. subst v.
      apply in_dt_rmap in Hin. destruct Hin as [x [paths [path [H1 [H2 [-> ->]]]]]].
      destruct (lookup2_new x paths path H1 H2) as [ty [t [L [Hp L2]]]]. rewrite L2.
      destruct (exp_entry x paths H1) as [ty' [t' [_ [Hp' [_ [_ Hk]]]]]]. rewrite Hp in Hp'. injection Hp' as <-.
      unfold nkind. destruct (Hk path H2) as [E1|[k E1]]; rewrite E1; reflexivity.
    - rewrite lookup2_old.
      2:{ intros Hc. apply mem_s_In in Hc. rewrite Hc in Em. discriminate Em. }
      destruct (isexp exp root); [reflexivity|].
      destruct (lookup_pa root pa1) as [[k e]|] eqn:L; [|reflexivity].
      apply lookup_pa_assoc in L. rewrite H in L. discriminate L.
  Qed.

  Lemma actual_names_wk z k e : lookup_pa z pa1 = Some (k, e) ->
    (forall x, In x (names_e e) -> N x) /\ wk_arg sc ar ((z, k), e) = true.
  Proof.
    intros L. split.
    - intros x Hx. left. apply in_flat_map. exists e. split; [|exact Hx]. apply lookup_pa_in in L. tauto.
    - rewrite forallb_forall in Hwk. apply Hwk. now apply lookup_pa_In.
  Qed.

  Lemma component_actual_name x paths path ty t : In (x, paths) exp -> In path paths -> lookup_pa x pa1 = Some (PRec ty, EVar t) ->
    N (join_pct t path).
  Proof.
    intros H1 H2 L. right. apply in_flat_map. exists (EVar (join_pct t path)). split; [|cbn; auto].
    unfold targs. rewrite expand_actuals_eq. cbn [dd_args dd_exp]. apply in_or_app. left.
    apply in_flat_map. exists (x, EVar t). split.
    - apply in_combine_fst with (k := PRec ty). now apply lookup_pa_In.
    - unfold xact. cbn [fst snd]. rewrite (nodup_s_In_assoc exp x paths Hexp_nd H1). apply in_map_iff.
      exists path. split; [reflexivity|assumption].
  Qed.

  Lemma fs_old d z : ~ In z (map snd m) -> fwdfree z -> callee_fs d fr1 s pa1 z = callee_fs d fr2 s pa2 z.
  Proof.
    intros Hz Hf. unfold callee_fs. rewrite (lookup2_old z Hz), (fwd2_none z Hf), (fwd1_none z Hf).
    destruct (isexp exp z) eqn:Ez.
    - unfold isexp in Ez. destruct (assoc_s exp z) as [paths|] eqn:Ea; [|discriminate Ez].
      destruct (exp_entry z paths (assoc_s_In _ _ _ Ea)) as [ty [t [_ [_ [L _]]]]]. rewrite L. reflexivity.
    - destruct (lookup_pa z pa1) as [[k e]|] eqn:L; cbn [option_map renk fst snd]; [|reflexivity].
      destruct (actual_names_wk z k e L) as [HN W]. destruct k; try reflexivity. unfold wk_arg in W. cbn [fst snd] in W.
      apply (kren_sref_of r sc ar N fr1 fr2 s Hok Hrel); assumption.
  Qed.

  Lemma fa_old d c1 c2 z : envN D c1 c2 -> ~ In z (map snd m) -> fwdfree z ->
    aref_agree (callee_fa d fr1 s c1 pa1 arrs z) (callee_fa d fr2 s c2 pa2 arrs z).
  Proof.
    intros HE Hz Hf. unfold callee_fa. rewrite (lookup2_old z Hz), (fwd2_none z Hf), (fwd1_none z Hf).
    destruct (isexp exp z) eqn:Ez.
    - unfold isexp in Ez. destruct (assoc_s exp z) as [paths|] eqn:Ea; [|discriminate Ez].
      pose proof (assoc_s_In _ _ _ Ea) as Hin.
      destruct (exp_entry z paths Hin) as [ty [t [_ [_ [L _]]]]]. rewrite L.
      unfold local_aref. rewrite (Hloc z paths Hin). apply aref_agree_refl.
    - destruct (lookup_pa z pa1) as [[k e]|] eqn:L; cbn [option_map renk fst snd].
      + destruct (actual_names_wk z k e L) as [HN W]. destruct k; try apply aref_agree_refl.
        unfold wk_arg in W. cbn [fst snd] in W.
        pose proof (kren_actual_seq r sc ar N fr1 fr2 s Hok Hrel e W HN) as Hq.
        destruct (actual_seq fr1 s e) as [q1|]; destruct (actual_seq fr2 s (ren_e r e)) as [q2|];
          try contradiction; [|apply aref_agree_refl].
        cbn [oaseq_agree] in Hq. rewrite (dummy_bnd_envN D c1 c2 q1 q2 dims HE Hq).
        2:{ intros y Hy. apply HDp. unfold params_dim_names. apply in_flat_map. exists (z, PArr dims).
            split; [|exact Hy]. apply lookup_pa_in in L. tauto. }
        destruct (dummy_bnd c2 q2 dims); [now apply mk_aref_agree|apply aref_agree_refl].
      + rewrite (local_aref_envN D d c1 c2 arrs z HE HDa). apply aref_agree_refl.
  Qed.

  Lemma D_old z : D z -> ~ In z (map snd m) /\ fwdfree z.
  Proof.
    intros Hz. split.
    - intros Hc. apply in_map_iff in Hc. destruct Hc as [[k v] [Ev Hin]]. cbn [snd] in Ev. subst v.
      destruct (Hnew _ _ Hin) as [_ [A _]]. now apply A.
    - intros Hp. rewrite (HD z Hz) in Hp. discriminate Hp.
  Qed.

  Lemma dt_cenv_N d s0 : envN D (scal_env (callee_fs d fr1 s pa1) s0) (scal_env (callee_fs d fr2 s pa2) s0).
  Proof.
    split; [|reflexivity]. intros x Hx. cbn [scal_env ev_var]. destruct (D_old x Hx) as [A B].
    now rewrite (fs_old d x A B).
  Qed.

  Lemma init_dt d : forall pa s0, (forall q, In q pa -> In q pa1) ->
    init_scalars d fr1 s pa s0 = init_scalars d fr2 s (flat_map (dt_entry td exp r) pa) s0.
  Proof.
    induction pa as [|[[x k] e] pa IH]; intros s0 Hsub; [reflexivity|].
    assert (Hsub' : forall q, In q pa -> In q pa1) by (intros q Hq; apply Hsub; now right).
    pose proof (Hsub _ (or_introl eq_refl)) as Hq.
    pose proof (wf_all _ Hq) as Hw. unfold wfq in Hw. cbn [fst snd] in Hw.
    cbn [flat_map]. rewrite init_scalars_app. unfold dt_entry at 1. cbn [fst snd].
    destruct (assoc_s exp x) as [paths|] eqn:Ea.
    - destruct (Hw paths eq_refl) as [[ty ->] [t ->]]. rewrite init_vars. cbn [obind init_scalars is_var]. now apply IH.
    - assert (HNe : forall y, In y (names_e e) -> N y).
      { intros y Hy. left. apply in_flat_map. exists e. split; [|exact Hy]. now apply in_combine_r in Hq. }
      assert (W : wk_arg sc ar ((x, k), e) = true) by (rewrite forallb_forall in Hwk; now apply Hwk).
      unfold wk_arg in W. cbn [fst snd] in W.
      destruct k; cbn [init_scalars].
      + rewrite <- (kren_scalar_init r sc ar N fr1 fr2 s Hok Hrel e W HNe).
        destruct (scalar_init fr1 s e) as [o|]; cbn [obind]; [now apply IH|reflexivity].
      + cbn [obind]. now apply IH.
      + rewrite is_var_ren. destruct (is_var e); cbn [obind]; [now apply IH|reflexivity].
  Qed.

  Lemma dt_init_eq d s0 : init_scalars d fr1 s pa1 s0 = init_scalars d fr2 s pa2 s0.
  Proof. rewrite pa2_eq. apply init_dt. auto. Qed.

  Lemma dt_arrays_eq c1 c2 : envN D c1 c2 -> arrays_ok fr1 s c1 pa1 = arrays_ok fr2 s c2 pa2.
  Proof.
    intros HE. rewrite pa2_eq, !arrays_ok_forallb, forallb_flat_map. apply forallb_ext_Forall, Forall_forall.
    intros [[x k] e] Hq. pose proof (wf_all _ Hq) as Hw. unfold wfq in Hw. cbn [fst snd] in Hw.
    unfold dt_entry. cbn [fst snd]. destruct (assoc_s exp x) as [paths|] eqn:Ea.
    - destruct (Hw paths eq_refl) as [[ty ->] [t ->]].
      change (achk fr1 s c1 (x, PRec ty, EVar t)) with true. symmetry. apply forallb_forall.
      intros q Hq'. apply in_map_iff in Hq'. destruct Hq' as [path [<- Hp]].
      pose proof (assoc_s_In _ _ _ Ea) as Hin.
      pose proof (lookup_pa_nodup x (PRec ty) (EVar t) params args Hnd Hq) as L. fold pa1 in L.
      pose proof (Hwkx x paths ty t path Hin Hp L) as Wx.
      unfold nkind. destruct (comp_at 8 td ty path) as [[|k|ty']|] eqn:Ec; try reflexivity.
      apply (shape_achk fr1 fr2 s c2 (join_pct t path) (r (join_pct t path)) k); [|apply HInv, has_pct_join].
      apply Hrel; [exact (component_actual_name x paths path ty t Hin Hp L)|exact Wx].
    - cbn [forallb]. rewrite andb_true_r. unfold achk. cbn [fst snd]. destruct k; try reflexivity.
      assert (HNe : forall y, In y (names_e e) -> N y).
      { intros y Hy. left. apply in_flat_map. exists e. split; [|exact Hy]. now apply in_combine_r in Hq. }
      assert (W : wk_arg sc ar ((x, PArr dims), e) = true) by (rewrite forallb_forall in Hwk; now apply Hwk).
      unfold wk_arg in W. cbn [fst snd] in W.
      pose proof (kren_actual_seq r sc ar N fr1 fr2 s Hok Hrel e W HNe) as Hs.
      destruct (actual_seq fr1 s e) as [q1|]; destruct (actual_seq fr2 s (ren_e r e)) as [q2|];
        try contradiction; [|reflexivity].
      cbn [oaseq_agree] in Hs. rewrite (dummy_bnd_envN D c1 c2 q1 q2 dims HE Hs).
      2:{ intros y Hy. apply HDp. unfold params_dim_names. apply in_flat_map. exists (x, PArr dims).
          split; [|exact Hy]. now apply in_combine_l in Hq. }
      destruct (dummy_bnd c2 q2 dims); [|reflexivity]. destruct Hs as [_ [Hl _]]. now rewrite Hl.
  Qed.

  Lemma inv_c1 d c z : has_pct z = true -> bnd_lb1 (ar_bnd (callee_fa d fr1 s c pa1 arrs z)) = true.
  Proof.
    intros Hz. unfold callee_fa. rewrite (lookup1_pct z Hz). destruct (forward_root pa1 z) as [t'|] eqn:F.
    - cbn [clamp_aref ar_bnd]. apply HInv. unfold forward_root in F.
      destruct (split_pct z) as [[root rest]|]; [|discriminate F].
      destruct (lookup_pa root pa1) as [[k e]|]; [|discriminate F].
      destruct k; try discriminate F. destruct e; try discriminate F. injection F as <-. apply has_pct_join.
    - unfold local_aref. destruct (assoc_s arrs z) as [bs|] eqn:Ea; [|reflexivity].
      destruct (eval_bnds c bs) as [b|] eqn:Eb; [|reflexivity]. cbn [ar_bnd]. exact (HlocInv z bs c b Hz Ea Eb).
  Qed.

  Lemma bind_dt d p1 p2 :
    rp_params p1 = params -> rp_arrays p1 = arrs ->
    rp_params p2 = dt_new_params td exp params -> rp_arrays p2 = arrs ->
    match bind d fr1 s p1 args, bind d fr2 s p2 (map (ren_e r) targs) with
    | Some c1, Some c2 =>
        snd c1 = snd c2 /\
        krel (rn m) (dt_sc td params m) (dt_ar td params m) NB (fst c1) (fst c2) /\
        (forall z, has_pct z = true -> bnd_lb1 (ar_bnd (fa (fst c1) z)) = true)
    | None, None => True
    | _, _ => False
    end.
  Proof.
    intros E1 E2 E3 E4. unfold bind. rewrite E1, E2, E3, E4, map_length.
    assert (HL : List.length targs = List.length (dt_new_params td exp params)).
    { unfold targs. apply pa2_length; [exact Hlen|exact wf_all]. }
    rewrite HL, Hlen, !Nat.eqb_refl. cbn [negb]. fold pa1. fold pa2.
    rewrite <- (dt_init_eq d (clear_depth d s)).
    destruct (init_scalars d fr1 s pa1 (clear_depth d s)) as [s0|]; cbn [obind]; [|exact I].
    pose proof (dt_cenv_N d s0) as HE.
    rewrite <- (dt_arrays_eq _ _ HE), <- (locals_ok_envN D _ _ HE arrs HDa).
    destruct (arrays_ok fr1 s _ pa1 && locals_ok _ arrs); [|exact I].
    cbn [fst snd]. split; [reflexivity|]. split.
    - intros z Hz. cbn [fs fa]. destruct (in_dom m z) eqn:Ed.
      + destruct (key_decomp z Ed) as [x [paths [path [H1 [H2 [-> Hrn]]]]]].
        destruct (lookup2_new x paths path H1 H2) as [ty [t [L [Hp L2]]]].
        destruct (exp_entry x paths H1) as [ty' [t' [_ [Hp' [_ [P Hk]]]]]]. rewrite Hp in Hp'. injection Hp' as <-.
        unfold dt_sc, dt_ar, dt_kind. fold m. rewrite Ed. unfold root_of, rest_of. rewrite (split_join x path P), Hp, Hrn.
        (* left: the component name is forwarded to the caller's [t%path]; right: the new dummy is bound to it *)
        unfold callee_fs, callee_fa, forward_root.
        rewrite (lookup1_pct _ (has_pct_join x path)), (split_join x path P), L, L2.
        pose proof (Hwkx x paths ty t path H1 H2 L) as Wx.
        pose proof (component_actual_name x paths path ty t H1 H2 L) as Nx.
        unfold nkind. destruct (Hk path H2) as [Ec|[k Ec]]; rewrite Ec in *.
        * split; [intros _|intros Hc; discriminate Hc]. now apply Hrel.
        * split; [intros Hc; discriminate Hc|intros _]. apply shape_view; [now apply Hrel|apply HInv, has_pct_join].
      + rewrite (rn_out m z Ed).
        assert (Hn : ~ In z (map snd m)).
        { intros Hc. apply in_map_iff in Hc. destruct Hc as [[k v] [Ev Hin]]. cbn [snd] in Ev. subst v.
          destruct (Hnew _ _ Hin) as [_ [_ A]]. now apply A. }
        assert (Hf : fwdfree z).
        { intros Hp. pose proof (Hcallee z Hz Hp) as Hc. destruct (assoc_s params (root_of z)) as [k|]; [|reflexivity].
          destruct k; try contradiction. rewrite Hc in Ed. discriminate Ed. }
        split; intros _; [now apply fs_old|now apply fa_old].
    - intros z Hz. cbn [fa]. now apply inv_c1.
  Qed.
End DT.


Definition site_kP (td : typedefs) (pl : dtplan) (t : table) (sc ar : string -> bool) (g : string) (args : list expr) : Prop :=
  forall u, find_unit t g = Some u ->
    forallb (wk_arg sc ar) (combine (u_params u) args) = true /\
    forall x paths ty a path, In (x, paths) (dtplan_of pl g) -> In path paths ->
      lookup_pa x (combine (u_params u) args) = Some (PRec ty, EVar a) ->
      match comp_at 8 td ty path with Some (CArr _) => ar (join_pct a path) = true | _ => sc (join_pct a path) = true end.

Lemma dt_site_kb_P td pl t sc ar g args : dt_site_kb td pl t sc ar g args = true -> site_kP td pl t sc ar g args.
Proof.
  unfold dt_site_kb, site_kP. intros H u E. rewrite E in H. apply andb_prop in H. destruct H as [H1 H2].
  split; [exact H1|]. intros x paths ty a path Hin Hp L. rewrite forallb_forall in H2. specialize (H2 _ Hin).
  cbn [fst snd] in H2. rewrite L in H2. rewrite forallb_forall in H2. specialize (H2 _ Hp).
  destruct (comp_at 8 td ty path) as [[| |]|]; exact H2.
Qed.

Lemma wk_arg_true q : wk_arg ktrue ktrue q = true.
Proof.
  unfold wk_arg. destruct (snd (fst q)); [apply wk_e_true| |reflexivity].
  destruct (snd q); try reflexivity. cbn [wk_aact]. unfold ktrue at 1. cbn [andb]. apply wk_el_true.
Qed.

Lemma site_kP_true td pl t g args : site_kP td pl t ktrue ktrue g args.
Proof.
  intros u E. split.
  - apply forallb_Forall. apply Forall_forall. intros q _. apply wk_arg_true.
  - intros x paths ty a path _ _ _. destruct (comp_at 8 td ty path) as [[| |]|]; reflexivity.
Qed.

Lemma sites_and (P Q : string -> list expr -> Prop) ss :
  sites P ss -> sites Q ss -> sites (fun g a => P g a /\ Q g a) ss.
Proof. rewrite !sites_calls. intros HP HQ g a Hin. split; [apply HP|apply HQ]; exact Hin. Qed.

Lemma expand_nil (ps : list (string * pkind)) : forall args, List.length args = List.length ps ->
  expand_actuals {| dd_args := map fst ps; dd_exp := [] |} args = args.
Proof.
  intros args Hlen. rewrite expand_actuals_eq. cbn [dd_args dd_exp]. rewrite map_length, <- Hlen, skipn_all, app_nil_r.
  revert args Hlen. induction ps as [|[x k] ps IH]; intros [|e args] Hlen; cbn [List.length] in Hlen; try discriminate Hlen; [reflexivity|].
  cbn [map fst combine flat_map]. rewrite IH by lia. unfold xact. cbn [assoc_s fst snd]. reflexivity.
Qed.

Lemma assoc_s_map {A B} (f : A -> B) (l : list (string * A)) x :
  assoc_s (map (fun q => (fst q, f (snd q))) l) x = option_map f (assoc_s l x).
Proof.
  induction l as [|[k v] l IH]; [reflexivity|]. cbn [map assoc_s fst snd]. destruct (String.eqb k x); [reflexivity|exact IH].
Qed.

Lemma assoc_s_notin {A} (l : list (string * A)) x : ~ In x (map fst l) -> assoc_s l x = None.
Proof.
  induction l as [|[k v] l IH]; intros H; [reflexivity|]. cbn [assoc_s]. destruct (String.eqb k x) eqn:E.
  - apply String.eqb_eq in E. subst k. exfalso. apply H. now left.
  - apply IH. intros Hc. apply H. now right.
Qed.

Lemma lb1_bnds c : forall dims b, forallb dim_lb1 dims = true -> eval_bnds c (expl_bounds dims) = Some b -> bnd_lb1 b = true.
Proof.
  induction dims as [|dm dims IH]; intros b H E.
  - cbn in E. injection E as <-. reflexivity.
  - cbn [forallb] in H. apply andb_prop in H. destruct H as [H1 H2].
    destruct dm as [lo hi| |lo]; try discriminate H1. destruct lo; try discriminate H1. destruct hi; try discriminate H1.
    cbn [expl_bounds eval_bnds evalZ obind] in E.
    destruct (eval_bnds c (expl_bounds dims)) as [b'|] eqn:Eb; [|discriminate E]. cbn [obind] in E. injection E as <-.
    unfold bnd_lb1. cbn [forallb fst snd]. cbn [dim_lb1] in H1. rewrite H1. exact (IH b' H2 eq_refl).
Qed.

Record unit_facts (td : typedefs) (pl : dtplan) (t : table) (u : unit) : Prop := {
  uf_nd : nodup_s (map fst (u_params u)) = true;
  uf_np : forall x k, In (x, k) (u_params u) -> has_pct x = false;
  uf_exp_nd : nodup_s (map fst (dtplan_of pl (u_name u))) = true;
  uf_exp : forall x paths, In (x, paths) (dtplan_of pl (u_name u)) -> exists ty, assoc_s (u_params u) x = Some (PRec ty) /\
      forall path, In path paths -> comp_at 8 td ty path = Some CScal \/ exists k, comp_at 8 td ty path = Some (CArr k);
  uf_m_nd : nodup_s (map snd (dt_rmap (dtplan_of pl (u_name u)))) = true;
  uf_new : forall k v, In (k, v) (dt_rmap (dtplan_of pl (u_name u))) ->
      reserved v = false /\ ~ In v (all_names u (tcalls (dt_tc pl t) (u_body u)));
  uf_loc : forall z dims, has_pct z = true -> In (z, dims) (u_locals u) -> forallb dim_lb1 dims = true;
  uf_dim : forall z, In z (unit_dim_names u) -> has_pct z = false
}.

Lemma dt_unit_okb_spec td pl t u : dt_unit_okb td pl t u = true -> unit_facts td pl t u.
Proof.
  unfold dt_unit_okb. intros H.
  apply andb_prop in H. destruct H as [H H8]. apply andb_prop in H. destruct H as [H H7].
  apply andb_prop in H. destruct H as [H H6]. apply andb_prop in H. destruct H as [H H5].
  apply andb_prop in H. destruct H as [H H4]. apply andb_prop in H. destruct H as [H H3].
  apply andb_prop in H. destruct H as [H1 H2].
  rewrite forallb_forall in H2, H4, H6, H7, H8.
  (* H1..H8: the eight conjuncts of [dt_unit_okb] in order, one per field of [unit_facts] in order; H1, H3, H5 are
     fields as they stand *)
  constructor; try assumption.
  - intros x k Hin. specialize (H2 _ Hin). cbn [fst] in H2. apply andb_prop in H2. destruct H2 as [A _].
    now apply negb_true_iff in A.
  - intros x paths Hin. specialize (H4 _ Hin). cbn [fst snd] in H4.
    destruct (assoc_s (u_params u) x) as [[| |ty]|]; try discriminate H4.
    exists ty. split; [reflexivity|]. apply andb_prop in H4. destruct H4 as [_ H4]. rewrite forallb_forall in H4.
    intros path Hp. specialize (H4 _ Hp). destruct (comp_at 8 td ty path) as [[|k|]|]; try discriminate H4.
    + now left.
    + right. now exists k.
  - intros k v Hin. specialize (H6 _ Hin). cbn [snd] in H6. apply andb_prop in H6. destruct H6 as [H6 C].
    apply andb_prop in H6. destruct H6 as [A B]. apply negb_true_iff in A. apply negb_true_iff in C.
    split; [exact A|]. intros Hc. apply mem_s_In in Hc. rewrite Hc in C. discriminate C.
  - intros z dims Hz Hin. specialize (H7 _ Hin). cbn [fst snd] in H7. now rewrite Hz in H7.
  - intros z Hin. specialize (H8 _ Hin). now apply negb_true_iff in H8.
Qed.


Definition dt_new_unit (td : typedefs) (pl : dtplan) (t : table) (u : unit) : unit :=
  {| u_name := u_name u;
     u_params := dt_new_params td (dtplan_of pl (u_name u)) (u_params u);
     u_locals := u_locals u;
     u_body := ren (rn (dt_rmap (dtplan_of pl (u_name u)))) (tcalls (dt_tc pl t) (u_body u)) |}.

Lemma find_unit_apply_dtplan td pl t g :
  find_unit (apply_dtplan td pl t) g = option_map (dt_new_unit td pl t) (find_unit t g).
Proof.
  change (apply_dtplan td pl t) with (map (dt_new_unit td pl t) t). apply find_unit_map. reflexivity.
Qed.

Lemma dt_tc_found pl t g u args : find_unit t g = Some u -> List.length args = List.length (u_params u) ->
  dt_tc pl t g args = expand_actuals {| dd_args := map fst (u_params u); dd_exp := dtplan_of pl g |} args.
Proof.
  intros E Hlen. unfold dt_tc, dtplan_of. rewrite E. destruct (assoc_s pl g); [reflexivity|]. symmetry. now apply expand_nil.
Qed.

Definition scm_of (td : typedefs) (pl : dtplan) (t : table) (g : string) : string -> bool :=
  match find_unit t g with Some u => dt_sc td (u_params u) (dt_rmap (dtplan_of pl g)) | None => ktrue end.
Definition arm_of (td : typedefs) (pl : dtplan) (t : table) (g : string) : string -> bool :=
  match find_unit t g with Some u => dt_ar td (u_params u) (dt_rmap (dtplan_of pl g)) | None => ktrue end.

(** [bind_dt] for a routine of a tree inside the class: its hypotheses are what the class predicates say *)
Lemma bind_dt_unit td pl t g u : find_unit t g = Some u -> u_name u = g -> unit_facts td pl t u ->
  dt_unit_kb td pl t u = true ->
  forall d0 fr1 fr2 r sc ar args s0, ren_ok r ->
  dt_site_okb pl t g args = true -> site_kP td pl t sc ar g args ->
  krel r sc ar (anames (dt_tc pl t) g args) fr1 fr2 ->
  (forall z, has_pct z = true -> bnd_lb1 (ar_bnd (fa fr1 z)) = true) ->
  match bind d0 fr1 s0 (to_rproc u) args,
        bind d0 fr2 s0 (to_rproc (dt_new_unit td pl t u)) (map (ren_e r) (dt_tc pl t g args)) with
  | Some c1, Some c2 =>
      snd c1 = snd c2 /\
      krel (rn (dt_rmap (dtplan_of pl g))) (scm_of td pl t g) (arm_of td pl t g) (cnames (dt_tc pl t) (u_body u)) (fst c1) (fst c2) /\
      (forall z, has_pct z = true -> bnd_lb1 (ar_bnd (fa (fst c1) z)) = true)
  | None, None => True
  | _, _ => False
  end.
Proof.
  intros E Hname UF Hk d0 fr1 fr2 r sc ar args s0 Hok Hsite Hkp Hrel HI0.
  unfold scm_of, arm_of. rewrite E.
  unfold dt_site_okb in Hsite. rewrite E in Hsite.
  apply andb_prop in Hsite. destruct Hsite as [Hsite S3]. apply andb_prop in Hsite. destruct Hsite as [S1 S2].
  apply Nat.eqb_eq in S1. destruct (Hkp u E) as [W Wx].
  unfold dt_unit_kb in Hk. cbv zeta in Hk. rewrite Hname in Hk.
  apply andb_prop in Hk. destruct Hk as [Hk K3]. apply andb_prop in Hk. destruct Hk as [K1 K2].
  pose proof (dt_tc_found pl t g u args E S1) as Htc.
  rewrite Htc.
  destruct UF as [U1 U2 U3 U4 U5 U6 U7 U8]. rewrite Hname in U3, U4, U5, U6.
  set (exp := dtplan_of pl g) in *.
  set (NB := cnames (dt_tc pl t) (u_body u)).
  set (D := fun z => In z (unit_dim_names u)).
  refine (bind_dt td exp (u_params u) (rp_arrays (to_rproc u)) NB D U1 U2 U3 U4 U5 _ U8 _ _ _ _ _
                  r sc ar fr1 fr2 s0 args Hok S1 _ _ HI0 W Wx d0 (to_rproc u) (to_rproc (dt_new_unit td pl t u))
                  eq_refl eq_refl _ eq_refl).
  - (* Hnew *) intros k v Hin. destruct (U6 k v Hin) as [_ A]. unfold all_names in A.
    split; [|split]; intros Hc; apply A.
    + auto using in_or_app.
    + unfold D in Hc. auto 8 using in_or_app.
    + unfold NB, cnames in Hc. destruct Hc; auto 10 using in_or_app.
  - (* HDp *) intros x Hx. unfold D, unit_dim_names. apply in_or_app. now left.
  - (* HDa *) intros x Hx. now apply arrs_names_unit.
  - (* Hcallee *) intros z Hz Hp. unfold dt_callee_okb in S2. rewrite Hname in S2. rewrite forallb_forall in S2.
    specialize (S2 z (in_or_app _ _ _ Hz)). rewrite Hp in S2. fold exp in S2.
    destruct (assoc_s (u_params u) (root_of z)) as [[| |ty]|]; try discriminate S2; [exact S2|exact I].
  - (* Hloc *) intros x paths Hin. rewrite forallb_forall in K1. specialize (K1 _ Hin). cbn [fst] in K1.
    apply negb_true_iff in K1. cbn [to_rproc rp_arrays]. rewrite (assoc_s_map expl_bounds).
    rewrite assoc_s_notin; [reflexivity|]. intros Hc. apply mem_s_In in Hc. rewrite Hc in K1. discriminate K1.
  - (* HlocInv *) intros z bs c b Hz Ea Eb. cbn [to_rproc rp_arrays] in Ea. rewrite (assoc_s_map expl_bounds) in Ea.
    destruct (assoc_s (u_locals u) z) as [dims|] eqn:El; [|discriminate Ea]. cbn [option_map] in Ea. injection Ea as <-.
    apply (lb1_bnds c dims b); [|exact Eb]. apply (U7 z dims Hz). now apply assoc_s_In.
  - (* Hsite *) intros x paths Hin. rewrite forallb_forall in S3. specialize (S3 _ Hin). cbn [fst] in S3.
    destruct (lookup_pa x (combine (u_params u) args)) as [[k e]|]; [|discriminate S3].
    destruct e; try discriminate S3. now exists k, x0.
  - (* Hrel *) revert Hrel. apply krel_weaken. intros x Hx. unfold anames. rewrite Htc. exact Hx.
  - cbn [to_rproc dt_new_unit rp_params u_params]. now rewrite Hname.
Qed.

(** for code whose names are classified by [sc]/[ar], renamed by [r] and run in frames related accordingly (the body
    of a routine whose dummies are expanded); top-level code is the case of the classification that allows everything *)
Theorem expand_dt_sim td pl t : dtplan_okb td pl t = true -> dt_kinds_okb td pl t = true ->
  forall f d fr1 fr2 r sc ar ss s, ren_ok r ->
  sitesb (dt_site_okb pl t) ss = true -> sites (site_kP td pl t sc ar) ss -> forallb (wk_s sc ar) ss = true ->
  krel r sc ar (cnames (dt_tc pl t) ss) fr1 fr2 ->
  (forall z, has_pct z = true -> bnd_lb1 (ar_bnd (fa fr1 z)) = true) ->
  rexec (to_rprocs t) f d fr1 ss s = rexec (to_rprocs (apply_dtplan td pl t)) f d fr2 (ren r (tcalls (dt_tc pl t) ss)) s.
Proof.
  intros Hpl Hkd f d fr1 fr2 r sc ar ss s Hok Hss Hsk W Hrel HI.
  assert (Hunit : forall g u, find_unit t g = Some u ->
            u_name u = g /\ unit_facts td pl t u /\ sitesb (dt_site_okb pl t) (u_body u) = true /\
            dt_unit_kb td pl t u = true).
  { intros g u E. destruct (find_unit_In t g u E) as [Hin Hname].
    unfold dtplan_okb in Hpl. rewrite forallb_forall in Hpl. specialize (Hpl u Hin).
    apply andb_prop in Hpl. destruct Hpl as [A B].
    unfold dt_kinds_okb in Hkd. rewrite forallb_forall in Hkd. specialize (Hkd u Hin).
    split; [exact Hname|]. split; [now apply dt_unit_okb_spec|]. split; assumption. }
  apply (kind_sim (to_rprocs t) (to_rprocs (apply_dtplan td pl t))
           (fun g => rn (dt_rmap (dtplan_of pl g))) (scm_of td pl t) (arm_of td pl t) (dt_tc pl t)
           (fun _ sc ar g args => dt_site_okb pl t g args = true /\ site_kP td pl t sc ar g args)
           (fun fr1 _ => forall z, has_pct z = true -> bnd_lb1 (ar_bnd (fa fr1 z)) = true))
    with (sc := sc) (ar := ar); [| |exact Hok| |exact W|exact Hrel|exact HI].
  - intros g. rewrite !find_rproc_to_rprocs, find_unit_apply_dtplan. unfold scm_of, arm_of.
    destruct (find_unit t g) as [u|] eqn:E; cbn [option_map]; [|exact I].
    destruct (Hunit g u E) as [Hname [UF [Hs Hk]]]. unfold dt_unit_kb in Hk. cbv zeta in Hk. rewrite Hname in Hk.
    apply andb_prop in Hk. destruct Hk as [Hk K3]. apply andb_prop in Hk. destruct Hk as [K1 K2].
    split; [|split; [|split]].
    + cbn [to_rproc dt_new_unit rp_body u_body]. now rewrite Hname.
    + apply ren_ok_rn. intros y x Hin. rewrite <- Hname in Hin. destruct (uf_new _ _ _ _ UF y x Hin) as [A _].
      split; [|exact A]. apply reserved_pct. apply in_dt_rmap in Hin.
      destruct Hin as [x0 [paths [path [_ [_ [-> _]]]]]]. apply has_pct_join.
    + cbn [to_rproc rp_body]. apply sites_and.
      * revert Hs. apply sitesb_sites. auto.
      * revert K3. apply sitesb_sites. intros g0 a. apply dt_site_kb_P.
    + exact K2.
  - clear fr1 fr2 r sc ar Hok Hsk W Hrel HI.
    intros g p1 p2 d0 fr1 fr2 r sc ar args s0 E1 E2 Hok [Hsite Hkp] Hrel HI0.
    rewrite find_rproc_to_rprocs in E1. rewrite find_rproc_to_rprocs, find_unit_apply_dtplan in E2.
    destruct (find_unit t g) as [u|] eqn:E; cbn [option_map] in E1, E2; [|discriminate E1].
    injection E1 as <-. injection E2 as <-.
    destruct (Hunit g u E) as [Hname [UF [_ Hk]]].
    exact (bind_dt_unit td pl t g u E Hname UF Hk d0 fr1 fr2 r sc ar args s0 Hok Hsite Hkp Hrel HI0).
  - apply sites_and; [|exact Hsk]. revert Hss. apply sitesb_sites. auto.
Qed.


(** [wk_e] … [dt_kinds_okb] below are those of M_C34 part D, word for word, and [frelK] is [krel]: the names in which
    the statements of [kcoupled_sim] ([wk_s], [frelK]) and [expand_dt_preserves] ([dt_kinds_okb] and what it unfolds
    to) are written.  Everything above uses the M_C34 ones. *)
Section WK.
  Variables sc ar : string -> bool.

  Fixpoint wk_e (e : expr) : bool :=
    match e with
    | EVar x => sc x
    | ESum _ cs | EProd _ cs | EAnd cs | EOr cs => forallb wk_e cs
    | EQuot _ a b | EPow _ a b | ECmp _ a b => wk_e a && wk_e b
    | ENot a => wk_e a
    | ECall f args => ar f && forallb wk_e args
    | _ => true
    end.

  (** an actual in the position of an array dummy *)
  Definition wk_aact (e : expr) : bool :=
    match e with EVar a => ar a | ECall a ds => ar a && forallb wk_e ds | _ => true end.

  Fixpoint wk_s (st : stmt) : bool :=
    match st with
    | SAssign x e => sc x && wk_e e
    | SStore a i e => ar a && forallb wk_e i && wk_e e
    | SDo v lo hi stp b =>
        sc v && wk_e lo && wk_e hi && (match stp with Some e => wk_e e | None => true end) && forallb wk_s b
    | SWhile c b => wk_e c && forallb wk_s b
    | SIf c t e => wk_e c && forallb wk_s t && forallb wk_s e
    | SCall _ _ => true
    | SSkip _ => true
    end.
End WK.

Definition frelK (r : string -> string) (sc ar : string -> bool) (N : string -> Prop) (fr1 fr2 : frame) : Prop :=
  forall x, N x -> (sc x = true -> fs fr1 x = fs fr2 (r x)) /\ (ar x = true -> aref_agree (fa fr1 x) (fa fr2 (r x))).


Section KCoupled.
  Variables ps1 ps2 : rprocs.
  Variable rm : string -> string -> string.
  Variables scm arm : string -> string -> bool.
  Variable tc : string -> list expr -> list expr.
  Variable site_ok : (string -> string) -> (string -> bool) -> (string -> bool) -> string -> list expr -> Prop.
  Variable Inv : frame -> frame -> Prop.

  Hypothesis Hprocs : forall g,
    match find_rproc ps1 g, find_rproc ps2 g with
    | Some p1, Some p2 => rp_body p2 = ren (rm g) (tcalls tc (rp_body p1)) /\ ren_ok (rm g) /\
                          sites (site_ok (rm g) (scm g) (arm g)) (rp_body p1) /\
                          forallb (wk_s (scm g) (arm g)) (rp_body p1) = true
    | None, None => True
    | _, _ => False
    end.
  Hypothesis Hbind : forall g p1 p2 d fr1 fr2 r sc ar args s,
    find_rproc ps1 g = Some p1 -> find_rproc ps2 g = Some p2 -> ren_ok r -> site_ok r sc ar g args ->
    frelK r sc ar (nma tc g args) fr1 fr2 -> Inv fr1 fr2 ->
    match bind d fr1 s p1 args, bind d fr2 s p2 (map (ren_e r) (tc g args)) with
    | Some c1, Some c2 => snd c1 = snd c2 /\ frelK (rm g) (scm g) (arm g) (nm tc (rp_body p1)) (fst c1) (fst c2) /\
                          Inv (fst c1) (fst c2)
    | None, None => True
    | _, _ => False
    end.

  Theorem kcoupled_sim : forall f d fr1 fr2 r sc ar ss s,
    ren_ok r -> sites (site_ok r sc ar) ss -> forallb (wk_s sc ar) ss = true ->
    frelK r sc ar (nm tc ss) fr1 fr2 -> Inv fr1 fr2 ->
    rexec ps1 f d fr1 ss s = rexec ps2 f d fr2 (ren r (tcalls tc ss)) s.
  Proof. exact (kind_sim ps1 ps2 rm scm arm tc site_ok Inv Hprocs Hbind). Qed.
End KCoupled.

(** an actual is used according to the kind of its dummy *)
Definition wk_arg (sc ar : string -> bool) (q : (string * pkind) * expr) : bool :=
  match snd (fst q) with PScal => wk_e sc ar (snd q) | PArr _ => wk_aact sc ar (snd q) | PRec _ => true end.

(** the kind of an expanded component name of a routine (dummies [params], renaming [m]) *)
Definition dt_kind (td : typedefs) (params : list (string * pkind)) (m : rmap) (z : string) : option comp :=
  if in_dom m z then
    match assoc_s params (root_of z) with Some (PRec ty) => comp_at 8 td ty (rest_of z) | _ => None end
  else None.
Definition dt_sc td params m z : bool := match dt_kind td params m z with Some (CArr _) => false | _ => true end.
Definition dt_ar td params m z : bool := match dt_kind td params m z with Some CScal => false | _ => true end.

(** a call site seen from a caller whose names are classified by [sc]/[ar]: every actual is used according to the
    kind of its dummy, and the components [a%path] passed for an expanded dummy have the kind the callee expects *)
Definition dt_site_kb (td : typedefs) (pl : dtplan) (t : table) (sc ar : string -> bool) (g : string) (args : list expr) : bool :=
  match find_unit t g with
  | None => true
  | Some u =>
      forallb (wk_arg sc ar) (combine (u_params u) args) &&
      forallb (fun e => match lookup_pa (fst e) (combine (u_params u) args) with
                        | Some (PRec ty, EVar a) =>
                            forallb (fun path => match comp_at 8 td ty path with
                                                 | Some (CArr _) => ar (join_pct a path)
                                                 | _ => sc (join_pct a path) end) (snd e)
                        | _ => true
                        end) (dtplan_of pl g)
  end.

(** one routine: an expanded dummy is not also a local array; the body uses the expanded component names according
    to their kind in the type definition (scalar components only as scalars, array components only as arrays), also
    at its call sites *)
Definition dt_unit_kb (td : typedefs) (pl : dtplan) (t : table) (u : unit) : bool :=
  let exp := dtplan_of pl (u_name u) in
  let m := dt_rmap exp in
  let sc := dt_sc td (u_params u) m in
  let ar := dt_ar td (u_params u) m in
  forallb (fun e => negb (mem_s (map fst (u_locals u)) (fst e))) exp
  && forallb (wk_s sc ar) (u_body u)
  && sitesb (dt_site_kb td pl t sc ar) (u_body u).

Definition dt_kinds_okb (td : typedefs) (pl : dtplan) (t : table) : bool := forallb (dt_unit_kb td pl t) t.

Theorem expand_dt_preserves td pl t : dtplan_okb td pl t = true -> dt_kinds_okb td pl t = true ->
  forall f d fr ss s, sitesb (dt_site_okb pl t) ss = true ->
  (forall z, has_pct z = true -> bnd_lb1 (ar_bnd (fa fr z)) = true) ->
  rexec (to_rprocs t) f d fr ss s = rexec (to_rprocs (apply_dtplan td pl t)) f d fr (tcalls (dt_tc pl t) ss) s.
Proof.
  intros Hpl Hkd f d fr ss s Hss HI. rewrite <- (ren_id (tcalls (dt_tc pl t) ss)).
  apply (expand_dt_sim td pl t Hpl Hkd) with (sc := ktrue) (ar := ktrue); try assumption.
  - apply ren_ok_id.
  - apply sites_calls. intros g a _. apply site_kP_true.
  - apply wk_ss_true.
  - apply krel_true. intros x _. split; [reflexivity|apply aref_agree_refl].
Qed.


Module Refute.
  Local Open Scope string_scope.
  Definition ss1 : list stmt := [SCall "g" [EVar "t"]].
  Lemma top_inv arrays : (forall a b, In (a, b) arrays -> bnd_lb1 b = true) ->
    forall z, has_pct z = true -> bnd_lb1 (ar_bnd (fa (top_frame arrays) z)) = true.
  Proof.
    intros H z _. cbn [top_frame fa]. destruct (assoc_s arrays z) as [b|] eqn:E; [|reflexivity].
    cbn [ar_bnd]. apply (H z b). now apply assoc_s_In.
  Qed.

  (** a scalar component used as an array *)
  Definition td1 : typedefs := [("T", [("s", CScal)])].
  Definition pl1 : dtplan := [("g", [("x", ["s"])])].
  Definition t1 : table :=
    [{| u_name := "g"; u_params := [("x", PRec "T")]; u_locals := []; u_body := [SStore "x%s" [] (EInt 7)] |}].

  Theorem expand_dt_unrestricted_refuted :
    ~ (forall td pl t, dtplan_okb td pl t = true ->
       forall f d fr ss s, sitesb (dt_site_okb pl t) ss = true ->
       (forall z, has_pct z = true -> bnd_lb1 (ar_bnd (fa fr z)) = true) ->
       rexec (to_rprocs t) f d fr ss s = rexec (to_rprocs (apply_dtplan td pl t)) f d fr (tcalls (dt_tc pl t) ss) s).
  Proof.
    intros H. specialize (H td1 pl1 t1 eq_refl 5%nat O (top_frame []) ss1 rempty eq_refl).
    specialize (H (top_inv [] (fun a b (F : In (a, b) []) => match F with end))).
    apply (f_equal (option_map (fun s => rav s (O, "t%s") []))) in H. vm_compute in H. discriminate H.
  Qed.
  Example kinds_rejects_1 : dt_kinds_okb td1 pl1 t1 = false.
  Proof. reflexivity. Qed.

  (** an expanded dummy that is also a local array: the original run fails, the rewritten one does not *)
  Definition t2 : table :=
    [{| u_name := "g"; u_params := [("x", PRec "T")]; u_locals := [("x", [DExpl (EInt 1) (EInt 3)])];
        u_body := [SStore "x" [EInt 1] (EInt 5)] |}].
  Example local_clash :
    dtplan_okb td1 pl1 t2 = true /\ sitesb (dt_site_okb pl1 t2) ss1 = true /\ dt_kinds_okb td1 pl1 t2 = false /\
    rexec (to_rprocs t2) 5 O (top_frame []) ss1 rempty = None /\
    rexec (to_rprocs (apply_dtplan td1 pl1 t2)) 5 O (top_frame []) (tcalls (dt_tc pl1 t2) ss1) rempty <> None.
  Proof.
    split; [reflexivity|]. split; [reflexivity|]. split; [reflexivity|]. split; [reflexivity|].
    intros E. vm_compute in E. discriminate E.
  Qed.

  (** the caller's type has an array component [c], the callee's type a scalar component [c] *)
  Definition td3 : typedefs := [("T1", [("c", CArr 1)]); ("T2", [("c", CScal)])].
  Definition pl3 : dtplan := [("g", [("x", ["c"])]); ("h", [("y", ["c"])])].
  Definition t3 : table :=
    [{| u_name := "g"; u_params := [("x", PRec "T1")]; u_locals := []; u_body := [SCall "h" [EVar "x"]] |};
     {| u_name := "h"; u_params := [("y", PRec "T2")]; u_locals := []; u_body := [SAssign "y%c" (EInt 3)] |}].
  Example type_clash :
    dtplan_okb td3 pl3 t3 = true /\ sitesb (dt_site_okb pl3 t3) ss1 = true /\ dt_kinds_okb td3 pl3 t3 = false /\
    option_map (fun s => rsv s (O, "t%c")) (rexec (to_rprocs t3) 5 O (top_frame []) ss1 rempty) = Some 3 /\
    option_map (fun s => rsv s (O, "t%c"))
      (rexec (to_rprocs (apply_dtplan td3 pl3 t3)) 5 O (top_frame []) (tcalls (dt_tc pl3 t3) ss1) rempty) = Some 0.
  Proof. repeat split; reflexivity. Qed.

  (** the hypotheses are satisfiable on a tree with scalar, array and nested components, a nested call and a
      local derived-type variable *)
  Definition td4 : typedefs :=
    [("T", [("n", CScal); ("a", CArr 1); ("in", CRec "U")]); ("U", [("s", CScal); ("b", CArr 2)])].
  Definition t4 : table :=
    [{| u_name := "g"; u_params := [("x", PRec "T"); ("k", PScal)]; u_locals := [("w%a", [DExpl (EInt 1) (EInt 4)])];
        u_body := [SAssign "x%n" (ESum false [EVar "k"; ECall "x%a" [EInt 2]]);
                   SStore "x%in%b" [EInt 1; EVar "k"] (EVar "x%in%s");
                   SStore "w%a" [EInt 3] (EVar "x%n");
                   SCall "h" [EVar "x"; ECall "w%a" [EInt 3]]] |};
     {| u_name := "h"; u_params := [("y", PRec "T"); ("v", PScal)]; u_locals := [];
        u_body := [SStore "y%a" [EInt 1] (ESum false [EVar "v"; EVar "y%in%s"]); SAssign "v" (ECall "y%a" [EInt 2])] |}].
  Definition pl4 : dtplan := [("g", [("x", ["a"; "in%b"; "in%s"; "n"])]); ("h", [("y", ["a"; "in%s"])])].
  Example class_inhabited :
    dtplan_okb td4 pl4 t4 = true /\ dt_kinds_okb td4 pl4 t4 = true /\
    sitesb (dt_site_okb pl4 t4) [SCall "g" [EVar "t"; EInt 2]] = true.
  Proof. repeat split; reflexivity. Qed.
End Refute.

Print Assumptions expand_dt_preserves.
Print Assumptions kcoupled_sim.
Print Assumptions Refute.expand_dt_unrestricted_refuted.
