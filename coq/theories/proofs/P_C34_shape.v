(** P_C34_shape.v — explicit argument shapes: one call.

    The callee [k] has assumed-shape array dummies; the rewrite [es_proc] gives them explicit dimensions over new
    integer dummies [news] (appended to the dummy list) and the call passes the caller's variables of the same
    names.  Under the dynamic condition [es_match] (in the caller, at the call, the explicit dimensions evaluate
    to [1 : extent] of the actual) the two calls give the same result. *)
From Coq Require Import ZArith List Bool String Ascii Lia.
From LV Require Import Base.Expr Base.ListFacts Base.ExprFacts Base.MiniF models.M_C34 proofs.P_C34_sim.
Import ListNotations.
Open Scope Z_scope.

Lemma es_body_unchanged sh news p : rp_body (es_proc sh news p) = rp_body p.
Proof. reflexivity. Qed.

Lemma find_set_same ps k p p' : find_rproc ps k = Some p -> find_rproc (set_rproc ps k p') k = Some p'.
Proof.
  induction ps as [|[g q] ps IH]; cbn [find_rproc set_rproc]; [discriminate|].
  destruct (String.eqb g k) eqn:E; cbn [find_rproc]; rewrite E; [reflexivity|assumption].
Qed.

Lemma find_set_other ps k p' g : g <> k -> find_rproc (set_rproc ps k p') g = find_rproc ps g.
Proof.
  intros Hg. induction ps as [|[h q] ps IH]; cbn [find_rproc set_rproc]; [reflexivity|].
  destruct (String.eqb h k) eqn:E; cbn [find_rproc].
  - apply String.eqb_eq in E. subst h. destruct (String.eqb k g) eqn:E2; [|reflexivity].
    apply String.eqb_eq in E2. congruence.
  - destruct (String.eqb h g); [reflexivity|assumption].
Qed.

Lemma init_scalars_frame d fr s pa : forall s0 s1, init_scalars d fr s pa s0 = Some s1 ->
  (forall l, fst l <> d -> rsv s1 l = rsv s0 l) /\ (forall l i, rav s1 l i = rav s0 l i).
Proof.
  induction pa as [|[[z k] e] pa IH]; intros s0 s1; cbn [init_scalars].
  - intros H; injection H as <-. split; reflexivity.
  - destruct k.
    + destruct (scalar_init fr s e) as [o|]; cbn [obind]; [|discriminate].
      intros H. apply IH in H. destruct H as [H1 H2]. destruct o as [v|]; [|split; assumption].
      split.
      * intros l Hl. rewrite H1 by assumption. cbn [set_rsv rsv]. unfold loc_eqb. cbn [fst snd].
        destruct (Nat.eqb (fst l) d) eqn:E; [apply Nat.eqb_eq in E; contradiction|reflexivity].
      * intros l i. rewrite H2. reflexivity.
    + apply IH.
    + destruct (is_var e); [apply IH|discriminate].
Qed.

Lemma init_read d fr s pa s1 r :
  init_scalars (S d) fr s pa (clear_depth (S d) s) = Some s1 -> (sref_depth r <= d)%nat -> read_s s1 r = read_s s r.
Proof.
  intros H Hr. apply init_scalars_frame in H. destruct H as [H1 H2].
  destruct r as [l|l i]; cbn [read_s sref_depth] in *.
  - rewrite H1 by lia. cbn [clear_depth rsv].
    destruct (Nat.eqb (fst l) (S d)) eqn:E; [apply Nat.eqb_eq in E; lia|reflexivity].
  - rewrite H2. cbn [clear_depth rav].
    destruct (Nat.eqb (fst l) (S d)) eqn:E; [apply Nat.eqb_eq in E; lia|reflexivity].
Qed.

(* The new dimensions are evaluated in the callee's [scal_env], which has no arrays, and compared with their value in
   the caller's [renv], which has: [envN] does not apply, but array-free expressions evaluate alike. *)
Definition vars_eq (c1 c2 : env) (l : list string) : Prop := forall x, In x l -> ev_var c1 x = ev_var c2 x.

Lemma vars_eq_app_l c1 c2 a b : vars_eq c1 c2 (a ++ b) -> vars_eq c1 c2 a.
Proof. intros H x Hx. apply H. apply in_or_app. now left. Qed.
Lemma vars_eq_app_r c1 c2 a b : vars_eq c1 c2 (a ++ b) -> vars_eq c1 c2 b.
Proof. intros H x Hx. apply H. apply in_or_app. now right. Qed.
Lemma vars_eq_incl c1 c2 (a b : list string) : (forall x, In x a -> In x b) -> vars_eq c1 c2 b -> vars_eq c1 c2 a.
Proof. intros Hi H x Hx. apply H, Hi, Hx. Qed.

Lemma Forall_pure c1 c2 (P : expr -> Prop) cs :
  Forall (fun e => pure_e e = true -> vars_eq c1 c2 (names_e e) -> P e) cs ->
  forallb pure_e cs = true -> vars_eq c1 c2 (flat_map names_e cs) -> Forall P cs.
Proof.
  induction 1 as [|a l H _ IH]; cbn [forallb flat_map]; intros Hp HN; constructor; apply andb_prop in Hp.
  - apply H; [apply Hp|exact (vars_eq_app_l _ _ _ _ HN)].
  - apply IH; [apply Hp|exact (vars_eq_app_r _ _ _ _ HN)].
Qed.

Lemma evalZ_pure c1 c2 : forall e, pure_e e = true -> vars_eq c1 c2 (names_e e) -> evalZ c1 e = evalZ c2 e.
Proof.
  induction e as [v|v|x|b|p cs IH|p cs IH|p e1 e2 IHe1 IHe2|p e1 e2 IHe1 IHe2|op e1 e2 _ _|cs _|cs _|e _|f args _] using expr_ind';
    intros Hp HN; try reflexivity; cbn [pure_e names_e] in Hp, HN; try discriminate Hp.
  - cbn [evalZ]. rewrite HN; [reflexivity|now left].
  - cbn [evalZ]. apply fold_obind_same. exact (Forall_pure c1 c2 _ cs IH Hp HN).
  - cbn [evalZ]. apply fold_obind_same. exact (Forall_pure c1 c2 _ cs IH Hp HN).
  - apply andb_prop in Hp. cbn [evalZ].
    now rewrite (IHe1 (proj1 Hp) (vars_eq_app_l _ _ _ _ HN)), (IHe2 (proj2 Hp) (vars_eq_app_r _ _ _ _ HN)).
  - apply andb_prop in Hp. cbn [evalZ].
    now rewrite (IHe1 (proj1 Hp) (vars_eq_app_l _ _ _ _ HN)), (IHe2 (proj2 Hp) (vars_eq_app_r _ _ _ _ HN)).
Qed.

Lemma expl_bnd_pure c1 c2 len : forall dims acc, forallb pure_dim dims = true ->
  vars_eq c1 c2 (flat_map dim_names dims) -> expl_bnd c1 len dims acc = expl_bnd c2 len dims acc.
Proof.
  induction dims as [|dm dims IH]; intros acc Hp HN; [reflexivity|].
  cbn [forallb flat_map] in Hp, HN. apply andb_prop in Hp. destruct Hp as [Hd Hp].
  destruct dm as [lo hi| |lo]; try discriminate Hd. cbn [pure_dim dim_names] in Hd, HN. apply andb_prop in Hd.
  pose proof (vars_eq_app_l _ _ _ _ HN) as HNd. cbn [expl_bnd].
  rewrite (evalZ_pure c1 c2 lo (proj1 Hd) (vars_eq_app_l _ _ _ _ HNd)),
          (evalZ_pure c1 c2 hi (proj2 Hd) (vars_eq_app_r _ _ _ _ HNd)).
  apply obind_cong; [reflexivity|]. intros a. apply obind_cong; [reflexivity|]. intros b.
  now rewrite (IH _ Hp (vars_eq_app_r _ _ _ _ HN)).
Qed.

Definition es_dims (sh : list (string * list dim)) (z : string) (ds : list dim) : list dim :=
  match assoc_s sh z with Some ds' => if all_shape ds then ds' else ds | None => ds end.
Definition es_kind (sh : list (string * list dim)) (z : string) (k : pkind) : pkind :=
  match k with PArr ds => PArr (es_dims sh z ds) | _ => k end.

Lemma es_param_eq sh z k : es_param sh (z, k) = (z, es_kind sh z k).
Proof.
  unfold es_param, es_kind, es_dims. cbn [fst snd]. destruct k; try reflexivity.
  destruct (assoc_s sh z); [|reflexivity]. destruct (all_shape dims); reflexivity.
Qed.

Lemma init_scalars_es sh d fr s P : forall args s0,
  init_scalars d fr s (combine (map (es_param sh) P) args) s0 = init_scalars d fr s (combine P args) s0.
Proof.
  induction P as [|[z k] P IH]; intros [|e args] s0; cbn [map combine]; try reflexivity.
  rewrite es_param_eq. cbn [init_scalars]. destruct k; cbn [es_kind].
  - apply obind_cong; [reflexivity|]. intros o. apply IH.
  - apply IH.
  - destruct (is_var e); [apply IH|reflexivity].
Qed.

Lemma init_scalars_news d fr s news : forall s0,
  init_scalars d fr s (combine (map (fun x : string => (x, PScal)) news) (map EVar news)) s0 = Some s0.
Proof. induction news as [|z l IH]; intros s0; [reflexivity|]. cbn [map combine init_scalars scalar_init obind]. apply IH. Qed.

Lemma lookup_pa_es sh z P : forall args,
  lookup_pa z (combine (map (es_param sh) P) args) =
  option_map (fun ke => (es_kind sh z (fst ke), snd ke)) (lookup_pa z (combine P args)).
Proof.
  induction P as [|[x k] P IH]; intros [|e args]; cbn [map combine]; try reflexivity.
  rewrite es_param_eq. cbn [lookup_pa]. destruct (String.eqb x z) eqn:E; [|apply IH].
  apply String.eqb_eq in E. subst. reflexivity.
Qed.

Lemma lookup_pa_news z news :
  lookup_pa z (combine (map (fun x : string => (x, PScal)) news) (map EVar news)) =
  if mem_s news z then Some (PScal, EVar z) else None.
Proof.
  induction news as [|x l IH]; [reflexivity|]. cbn [map combine lookup_pa]. unfold mem_s. cbn [existsb].
  rewrite (String.eqb_sym z x). destruct (String.eqb x z) eqn:E; cbn [orb].
  - apply String.eqb_eq in E. subst. reflexivity.
  - exact IH.
Qed.

Lemma lookup_pa_notin z P : forall args, ~ In z (map fst P) -> lookup_pa z (combine P args) = None.
Proof.
  induction P as [|[x k] P IH]; intros [|e args] H; cbn [combine lookup_pa]; try reflexivity.
  destruct (String.eqb x z) eqn:E.
  - apply String.eqb_eq in E. subst. exfalso. apply H. now left.
  - apply IH. intros Hin. apply H. now right.
Qed.

Lemma arrays_ok_app fr s c a : forall b, arrays_ok fr s c (a ++ b) = arrays_ok fr s c a && arrays_ok fr s c b.
Proof.
  induction a as [|[[z k] e] a IH]; intros b; [reflexivity|]. cbn [app arrays_ok]. destruct k; try apply IH.
  destruct (actual_seq fr s e) as [sq|]; [|reflexivity].
  destruct (dummy_bnd c sq dims) as [bd|]; [|reflexivity].
  rewrite IH. apply andb_assoc.
Qed.

Lemma arrays_ok_news fr s c news :
  arrays_ok fr s c (combine (map (fun x : string => (x, PScal)) news) (map EVar news)) = true.
Proof. induction news as [|z l IH]; [reflexivity|]. cbn [map combine arrays_ok]. exact IH. Qed.

(* the body of [es_match] for one array entry *)
Definition es_entry (fr : frame) (s : rstore) (sh : list (string * list dim)) (z : string) (ds : list dim) (e : expr) : Prop :=
  match assoc_s sh z, actual_seq fr s e with
  | Some ds', Some sq => all_shape ds = true ->
                         expl_bnd (renv fr s) (sq_len sq) ds' 1 = Some (map (fun n => (1, n)) (sq_ext sq))
  | _, _ => True
  end.

Lemma es_match_lookup fr s sh z pa : es_match fr s sh pa ->
  forall ds e, lookup_pa z pa = Some (PArr ds, e) -> es_entry fr s sh z ds e.
Proof.
  induction pa as [|[[x k] e0] pa IH]; cbn [lookup_pa]; [discriminate|].
  destruct k; cbn [es_match].
  - intros Hm ds e. destruct (String.eqb x z); [discriminate|now apply IH].
  - intros [H1 H2] ds e. destruct (String.eqb x z) eqn:E; [|now apply IH].
    intros H. injection H as -> ->. apply String.eqb_eq in E. subst. exact H1.
  - intros Hm ds e. destruct (String.eqb x z); [discriminate|now apply IH].
Qed.

Section ESBind.
  Variable sh : list (string * list dim).
  Variable news : list string.
  Variable fr : frame.
  Variable s : rstore.
  Variables cenv cenv' : env.
  Hypothesis Hsh : forall z ds', assoc_s sh z = Some ds' ->
    forallb pure_dim ds' = true /\ forall x, In x (flat_map dim_names ds') -> In x news.
  Hypothesis HE : envN (fun x => ~ In x news) cenv cenv'.
  Hypothesis HCN : forall x, In x news -> ev_var cenv' x = ev_var (renv fr s) x.

  Lemma dummy_bnd_es z ds e sq :
    (forall x, In x (flat_map dim_names ds) -> ~ In x news) ->
    actual_seq fr s e = Some sq -> es_entry fr s sh z ds e ->
    dummy_bnd cenv sq ds = dummy_bnd cenv' sq (es_dims sh z ds).
  Proof.
    unfold es_dims, es_entry. intros Hnd Hseq He. rewrite Hseq in He.
    pose proof (dummy_bnd_envN _ cenv cenv' sq sq ds HE (aseq_agree_refl sq) Hnd) as Hsame.
    destruct (assoc_s sh z) as [ds'|] eqn:Ea; [|exact Hsame].
    destruct (all_shape ds) eqn:Eall; [|exact Hsame].
    destruct (Hsh z ds' Ea) as [Hpure Hnm]. specialize (He eq_refl).
    unfold dummy_bnd at 1. unfold all_shape in Eall. rewrite Eall.
    unfold dummy_bnd. destruct (forallb is_shape ds') eqn:Es; [reflexivity|].
    rewrite <- He. symmetry. apply expl_bnd_pure; [exact Hpure|].
    intros x Hx. apply HCN, Hnm, Hx.
  Qed.

  Lemma arrays_ok_es : forall P args,
    (forall q, In q P -> forall x, In x (kind_dim_names (snd q)) -> ~ In x news) ->
    es_match fr s sh (combine P args) ->
    arrays_ok fr s cenv (combine P args) = arrays_ok fr s cenv' (combine (map (es_param sh) P) args).
  Proof.
    induction P as [|[z k] P IH]; intros [|e args] HP Hm; cbn [map combine]; try reflexivity.
    rewrite es_param_eq.
    assert (HP' : forall q, In q P -> forall x, In x (kind_dim_names (snd q)) -> ~ In x news).
    { intros q Hq. apply HP. now right. }
    cbn [combine] in Hm.
    destruct k; cbn [es_kind arrays_ok]; cbn [es_match] in Hm.
    - apply IH; assumption.
    - destruct Hm as [He Hm].
      assert (He' : es_entry fr s sh z dims e) by exact He.
      destruct (actual_seq fr s e) as [sq|] eqn:Eq; [|reflexivity].
      rewrite <- (dummy_bnd_es z dims e sq (HP (z, PArr dims) (or_introl eq_refl)) Eq He').
      destruct (dummy_bnd cenv sq dims); [|reflexivity]. now rewrite (IH args HP' Hm).
    - apply IH; assumption.
  Qed.

End ESBind.

Lemma es_static_facts sh news p : es_static sh news p = true ->
  (forall x, In x news -> ~ In x (rproc_names p)) /\
  (forall z ds', assoc_s sh z = Some ds' ->
     forallb pure_dim ds' = true /\ forall x, In x (flat_map dim_names ds') -> In x news).
Proof.
  unfold es_static. intros H. apply andb_true_iff in H. destruct H as [H H3].
  apply andb_true_iff in H. destruct H as [_ H2].
  rewrite forallb_forall in H2, H3. split.
  - intros x Hx. specialize (H2 x Hx). apply andb_true_iff in H2. destruct H2 as [_ H2].
    apply negb_true_iff in H2. intros Hin. apply mem_s_In in Hin. congruence.
  - intros z ds' Ha. apply assoc_s_In in Ha. specialize (H3 _ Ha). cbn [snd] in H3.
    apply andb_true_iff in H3. destruct H3 as [A B]. split; [exact A|].
    rewrite forallb_forall in B. intros x Hx. apply mem_s_In. now apply B.
Qed.

Lemma rpn_param p q : In q (rp_params p) -> In (fst q) (rproc_names p).
Proof. intros H. unfold rproc_names. apply in_or_app. left. now apply in_map. Qed.
Lemma rpn_param_dim p q x : In q (rp_params p) -> In x (kind_dim_names (snd q)) -> In x (rproc_names p).
Proof.
  intros H Hx. unfold rproc_names. apply in_or_app. right. apply in_or_app. left.
  apply in_flat_map. exists q. now split.
Qed.
Lemma rpn_array_bnd p x : In x (arrs_names (rp_arrays p)) -> In x (rproc_names p).
Proof. intros H. unfold rproc_names. do 3 (apply in_or_app; right). apply in_or_app. left. exact H. Qed.
Lemma rpn_body p x : In x (names (rp_body p)) -> In x (rproc_names p).
Proof. intros H. unfold rproc_names. do 4 (apply in_or_app; right). exact H. Qed.

Lemma no_rec_es sh P :
  forallb norecb P = true -> forallb norecb (map (es_param sh) P) = true.
Proof.
  intros H. rewrite forallb_forall in *. intros q Hq. apply in_map_iff in Hq. destruct Hq as [[z k] [<- Hin]].
  specialize (H _ Hin). rewrite es_param_eq. unfold norecb in *. cbn [snd] in *. destruct k; [reflexivity|reflexivity|discriminate H].
Qed.

Lemma es_bind sh news p d fr s args :
  no_rec p = true -> es_static sh news p = true ->
  List.length args = List.length (rp_params p) ->
  (forall z, In z news -> (sref_depth (fs fr z) <= d)%nat) ->
  es_match fr s sh (combine (rp_params p) args) ->
  match bind (S d) fr s p args, bind (S d) fr s (es_proc sh news p) (args ++ map EVar news) with
  | Some c1, Some c2 => snd c1 = snd c2 /\ frel (fun x => x) (fun x => ~ In x news) (fst c1) (fst c2)
  | None, None => True
  | _, _ => False
  end.
Proof.
  intros Hnr Hst Hlen Hdep Hm.
  destruct (es_static_facts sh news p Hst) as [Hnew Hsh].
  pose proof (rpn_param p) as Hn0. pose proof (rpn_param_dim p) as Hn1. pose proof (rpn_array_bnd p) as Hn2.
  unfold no_rec in Hnr. unfold bind. cbn [es_proc rp_params rp_arrays].
  set (P := rp_params p) in *. set (NP := map (fun x : string => (x, PScal)) news).
  assert (Hlen2 : Nat.eqb (List.length (args ++ map EVar news)) (List.length (map (es_param sh) P ++ NP)) = true).
  { unfold NP. rewrite !app_length, !map_length, Hlen. apply Nat.eqb_refl. }
  assert (HFR : forall z, forward_root (combine P args) z = None) by (intros z; apply forward_root_none; exact Hnr).
  assert (HFR' : forall z, forward_root (combine (map (es_param sh) P ++ NP) (args ++ map EVar news)) z = None).
  { intros z. apply forward_root_none. rewrite forallb_app. apply andb_true_iff. split.
    - apply no_rec_es. exact Hnr.
    - unfold NP. rewrite forallb_forall. intros q Hq. apply in_map_iff in Hq. destruct Hq as [x [<- _]]. reflexivity. }
  rewrite Hlen2. rewrite Hlen, Nat.eqb_refl. cbn [negb].
  set (pa := combine P args) in *.
  set (pa' := combine (map (es_param sh) P ++ NP) (args ++ map EVar news)) in *.
  assert (Epa' : pa' = combine (map (es_param sh) P) args ++ combine NP (map EVar news)).
  { apply combine_app2. rewrite map_length. now symmetry. }
  assert (Einit : forall s0, init_scalars (S d) fr s pa' s0 = init_scalars (S d) fr s pa s0).
  { intros s0. rewrite Epa', init_scalars_app, init_scalars_es. fold pa.
    destruct (init_scalars (S d) fr s pa s0); cbn [obind]; [apply init_scalars_news|reflexivity]. }
  rewrite Einit.
  destruct (init_scalars (S d) fr s pa (clear_depth (S d) s)) as [s0|] eqn:E0; cbn [obind]; [|exact I].
  assert (Hlk : forall z, ~ In z news ->
            lookup_pa z pa' = option_map (fun ke => (es_kind sh z (fst ke), snd ke)) (lookup_pa z pa)).
  { intros z Hz. rewrite Epa', lookup_pa_app, lookup_pa_es. fold pa.
    destruct (lookup_pa z pa) as [[k e]|]; cbn [option_map]; [reflexivity|].
    unfold NP. rewrite lookup_pa_news. destruct (mem_s news z) eqn:E; [|reflexivity].
    apply mem_s_In in E. contradiction. }
  assert (Hlkn : forall z, In z news -> lookup_pa z pa' = Some (PScal, EVar z)).
  { intros z Hz. rewrite Epa', lookup_pa_app, lookup_pa_es. rewrite (lookup_pa_notin z P args).
    - cbn [option_map]. unfold NP. rewrite lookup_pa_news. apply mem_s_In in Hz. now rewrite Hz.
    - intros Hin. apply (Hnew z Hz). apply in_map_iff in Hin. destruct Hin as [q [<- Hq]]. now apply Hn0. }
  set (fsc := callee_fs (S d) fr s pa). set (fsc' := callee_fs (S d) fr s pa').
  assert (HV : forall x, ~ In x news -> fsc x = fsc' x).
  { intros x Hx. unfold fsc, fsc', callee_fs. rewrite (Hlk x Hx), HFR, HFR'.
    destruct (lookup_pa x pa) as [[k e]|]; cbn [option_map fst snd]; [|reflexivity].
    destruct k; reflexivity. }
  set (cenv := scal_env fsc s0). set (cenv' := scal_env fsc' s0).
  assert (HE : envN (fun x => ~ In x news) cenv cenv').
  { split; [|reflexivity]. intros x Hx. unfold cenv, cenv'. cbn [scal_env ev_var]. now rewrite (HV x Hx). }
  assert (HCN : forall x, In x news -> ev_var cenv' x = ev_var (renv fr s) x).
  { intros x Hx. unfold cenv', fsc', callee_fs. cbn [scal_env ev_var renv]. rewrite (Hlkn x Hx). cbn [sref_of].
    apply (init_read d fr s pa s0); [exact E0|]. apply Hdep. exact Hx. }
  assert (HPd : forall q, In q P -> forall x, In x (kind_dim_names (snd q)) -> ~ In x news).
  { intros q Hq x Hx Hin. apply (Hnew x Hin). now apply (Hn1 q). }
  assert (HAd : forall x, In x (arrs_names (rp_arrays p)) -> ~ In x news).
  { intros x Hx Hin. apply (Hnew x Hin). now apply Hn2. }
  assert (EA : arrays_ok fr s cenv' pa' = arrays_ok fr s cenv pa).
  { rewrite Epa', arrays_ok_app. unfold NP. rewrite arrays_ok_news, andb_true_r. symmetry.
    apply (arrays_ok_es sh news fr s cenv cenv' Hsh HE HCN P args HPd Hm). }
  rewrite EA, <- (locals_ok_envN _ cenv cenv' HE _ HAd).
  destruct (arrays_ok fr s cenv pa && locals_ok cenv (rp_arrays p)); [|exact I].
  cbn [fst snd]. split; [reflexivity|]. intros x Hx. cbn [fs fa]. split; [exact (HV x Hx)|].
  unfold callee_fa. rewrite (Hlk x Hx), HFR, HFR'.
  destruct (lookup_pa x pa) as [[k e]|] eqn:El; cbn [option_map fst snd].
  - destruct k; cbn [es_kind]; try apply aref_agree_refl.
    destruct (actual_seq fr s e) as [sq|] eqn:Eq; [|apply aref_agree_refl].
    assert (Hin : In (x, PArr dims) P) by (apply (lookup_pa_in x P args _ e); exact El).
    rewrite <- (dummy_bnd_es sh news fr s cenv cenv' Hsh HE HCN x dims e sq (HPd _ Hin) Eq
                  (es_match_lookup fr s sh x pa Hm dims e El)).
    apply aref_agree_refl.
  - rewrite (local_aref_envN _ (S d) cenv cenv' (rp_arrays p) x HE HAd). apply aref_agree_refl.
Qed.

Theorem explicit_shape_is_semantic_noop ps k p sh news args f d fr s :
  (forall g q, find_rproc ps g = Some q -> no_rec q = true /\ sites (fun g' _ => g' <> k) (rp_body q)) ->
  find_rproc ps k = Some p ->
  es_static sh news p = true ->
  List.length args = List.length (rp_params p) ->
  (forall z, In z news -> (sref_depth (fs fr z) <= d)%nat) ->
  es_match fr s sh (combine (rp_params p) args) ->
  rexec1 (rexec ps f) ps d fr (SCall k args) s =
  rexec1 (rexec (set_rproc ps k (es_proc sh news p)) f) (set_rproc ps k (es_proc sh news p)) d fr (SCall k (args ++ map EVar news)) s.
Proof.
  intros Htab Hk Hst Hlen Hdep Hm.
  destruct (Htab k p Hk) as [Hnr Hsk].
  destruct (es_static_facts sh news p Hst) as [Hnew _].
  set (p' := es_proc sh news p). set (ps' := set_rproc ps k p').
  cbn [rexec1]. rewrite Hk. unfold ps'. rewrite (find_set_same ps k p p' Hk). fold ps'. cbn [obind].
  pose proof (es_bind sh news p d fr s args Hnr Hst Hlen Hdep Hm) as HB. fold p' in HB.
  destruct (bind (S d) fr s p args) as [c1|]; destruct (bind (S d) fr s p' (args ++ map EVar news)) as [c2|];
    try contradiction; [|reflexivity].
  cbn [obind]. destruct HB as [Hs Hfr]. rewrite <- Hs.
  change (rp_body p') with (rp_body p).
  pose proof (coupled_sim ps ps' (fun _ x => x) (fun _ a => a) (fun _ g _ => g <> k) (fun _ _ => True)) as HC.
  rewrite <- (ren_id (rp_body p)) at 2. rewrite <- (tcalls_id (rp_body p)) at 2.
  apply HC; clear HC.
  - intros g. destruct (String.eqb g k) eqn:E.
    + apply String.eqb_eq in E. subst g. rewrite Hk. unfold ps'. rewrite (find_set_same ps k p p' Hk).
      rewrite tcalls_id, ren_id. split; [reflexivity|]. split; [apply ren_ok_id|exact Hsk].
    + assert (Hg : g <> k) by (intros ->; rewrite String.eqb_refl in E; discriminate E).
      unfold ps'. rewrite (find_set_other ps k p' g Hg).
      destruct (find_rproc ps g) as [q|] eqn:Eg; [|exact I].
      rewrite tcalls_id, ren_id. split; [reflexivity|]. split; [apply ren_ok_id|].
      exact (proj2 (Htab g q Eg)).
  - intros g p1 p2 d0 f1 f2 r0 args0 s0 E1 E2 Hok0 Hg Hr _. cbv beta in Hg.
    unfold ps' in E2. rewrite (find_set_other ps k p' g Hg), E1 in E2. injection E2 as <-.
    exact (bind_ren_coupled g d0 r0 f1 f2 s0 p1 args0 _ (proj1 (Htab g p1 E1)) Hok0 Hr).
  - apply ren_ok_id.
  - exact Hsk.
  - revert Hfr. apply frel_weaken. unfold nm. rewrite tcalls_id. intros x Hx Hin.
    apply (Hnew x Hin). apply rpn_body. tauto.
  - exact I.
Qed.

Print Assumptions es_body_unchanged.
Print Assumptions explicit_shape_is_semantic_noop.
