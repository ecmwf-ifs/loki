(** P_C34_sim.v — simulation lemmas for the by-reference interpreter [rexec] of M_C34.

    The file starts with the auxiliary definitions the C34 proofs share ([achk]: the size check of one array dummy;
    [aseq_agree]: element sequences that agree; [bnds_names], [arrs_names], [params_dim_names]: the names in
    dimension expressions) and with facts about lists, [assoc_s], [lookup_pa], [init_scalars] and reserved names.  Then:
    1. Related frames: evaluation of expressions and of the actuals of a call commutes with a renaming of the
       frame ([kren_evalZ] …), for names used according to a classification of their aspects ([krel]).
    2. Evaluation only depends on the names that occur ([evalZ_envN] and what follows for the pieces of [bind]).
    3. A predicate on the call sites of a statement list is a predicate on [calls] ([sites_calls], [sitesb_calls]).
    4. [kind_sim]: a coupled caller/callee rewrite (renaming of bodies + rewriting of the actual argument lists)
       preserves runs, given that [bind] builds related callee frames at every call site.  [coupled_sim] is the
       instance for the classification that allows everything.
    5. [bind_ren]: for procedures without derived-type dummies, [bind] from related caller frames gives callee
       frames that agree on every name ([bind_ren_coupled]: in the form [coupled_sim] asks for).
    6. [coupled_id]: [coupled_sim] for one table and no rewriting of actual lists, any renaming ([ren_id], [tcalls_id]
       say that nothing is rewritten).  Its corollaries: [rexec_agree] (frames that agree on the names of the code) and
       [rexec_rename] (a renamed body runs like the original in the composed frame). *)
From Coq Require Import ZArith List Bool String Ascii Lia.
From LV Require Import Base.Expr Base.ListFacts Base.ExprFacts Base.MiniF models.M_C34.
Import ListNotations.
Open Scope Z_scope.

Definition achk (fr : frame) (s : rstore) (cenv : env) (q : (string * pkind) * expr) : bool :=
  match snd (fst q) with
  | PArr dims =>
      match actual_seq fr s (snd q) with
      | Some sq => match dummy_bnd cenv sq dims with Some b => bsize b <=? sq_len sq | None => false end
      | None => false
      end
  | _ => true
  end.

Definition norecb (q : string * pkind) : bool := match snd q with PRec _ => false | _ => true end.

Definition aseq_agree (q1 q2 : aseq) : Prop :=
  sq_loc q1 = sq_loc q2 /\ sq_len q1 = sq_len q2 /\ sq_ext q1 = sq_ext q2 /\ forall o, sq_at q1 o = sq_at q2 o.
Definition oaseq_agree (o1 o2 : option aseq) : Prop :=
  match o1, o2 with Some q1, Some q2 => aseq_agree q1 q2 | None, None => True | _, _ => False end.

Definition bnds_names (bs : list (expr * expr)) : list string :=
  flat_map (fun b => names_e (fst b) ++ names_e (snd b)) bs.

Definition arrs_names (arrs : list (string * list (expr * expr))) : list string :=
  flat_map (fun l => bnds_names (snd l)) arrs.

Definition params_dim_names (ps : list (string * pkind)) : list string :=
  flat_map (fun p => kind_dim_names (snd p)) ps.

Lemma obind_cong {A B} (o1 o2 : option A) (f g : A -> option B) :
  o1 = o2 -> (forall x, f x = g x) -> obind o1 f = obind o2 g.
Proof. intros -> H. destruct o2; cbn; [apply H|reflexivity]. Qed.

Lemma Forall_flat {A B} (g : A -> list B) (P : A -> Prop) (N : B -> Prop) cs :
  Forall (fun e => (forall x, In x (g e) -> N x) -> P e) cs ->
  (forall x, In x (flat_map g cs) -> N x) -> Forall P cs.
Proof.
  induction 1 as [|a l H _ IH]; intros HN; constructor.
  - apply H. intros x Hx. apply HN. cbn [flat_map]. apply in_or_app. now left.
  - apply IH. intros x Hx. apply HN. cbn [flat_map]. apply in_or_app. now right.
Qed.

Lemma combine_app2 {A B} (l1 l2 : list A) (m1 m2 : list B) : List.length l1 = List.length m1 ->
  combine (l1 ++ l2) (m1 ++ m2) = combine l1 m1 ++ combine l2 m2.
Proof.
  revert m1. induction l1 as [|a l1 IH]; intros [|b m1] H; cbn [List.length] in H; try discriminate H; [reflexivity|].
  cbn [app combine]. f_equal. apply IH. lia.
Qed.

Lemma assoc_s_In {A} (l : list (string * A)) x v : assoc_s l x = Some v -> In (x, v) l.
Proof.
  induction l as [|[k w] l IH]; cbn [assoc_s]; [discriminate|].
  destruct (String.eqb k x) eqn:E.
  - intros H. injection H as ->. apply String.eqb_eq in E. subst. now left.
  - intros H. right. now apply IH.
Qed.

Lemma mem_s_In l x : mem_s l x = true <-> In x l.
Proof. apply existsb_eqb_In. Qed.

Lemma in_dom_In m z : in_dom m z = true -> exists x, In (z, x) m /\ rn m z = x.
Proof.
  unfold in_dom, rn. destruct (assoc_s m z) as [x|] eqn:E; [|discriminate].
  intros _. exists x. split; [now apply assoc_s_In|reflexivity].
Qed.

Lemma rn_out m z : in_dom m z = false -> rn m z = z.
Proof. unfold in_dom, rn. destruct (assoc_s m z); [discriminate|reflexivity]. Qed.

Lemma lookup_pa_In z pa k e : lookup_pa z pa = Some (k, e) -> In ((z, k), e) pa.
Proof.
  induction pa as [|[[x k0] e0] pa IH]; cbn [lookup_pa]; [discriminate|].
  destruct (String.eqb x z) eqn:E.
  - intros H. injection H as -> ->. apply String.eqb_eq in E. subst. now left.
  - intros H. right. now apply IH.
Qed.

Lemma lookup_pa_in z ps args k e : lookup_pa z (combine ps args) = Some (k, e) -> In e args /\ In (z, k) ps.
Proof. intros H. apply lookup_pa_In in H. split; [eapply in_combine_r|eapply in_combine_l]; exact H. Qed.

Lemma lookup_pa_assoc z k e : forall ps args, lookup_pa z (combine ps args) = Some (k, e) -> assoc_s ps z = Some k.
Proof.
  induction ps as [|[x k0] ps IH]; intros [|e0 args]; cbn [combine lookup_pa assoc_s]; try discriminate.
  destruct (String.eqb x z).
  - intros H. now injection H as -> _.
  - apply IH.
Qed.

Lemma lookup_pa_nodup z k e : forall ps args, nodup_s (map fst ps) = true ->
  In ((z, k), e) (combine ps args) -> lookup_pa z (combine ps args) = Some (k, e).
Proof.
  induction ps as [|[x k0] ps IH]; intros [|e0 args] Hnd Hin; cbn [combine] in *; try contradiction.
  cbn [map fst nodup_s] in Hnd. apply andb_prop in Hnd. destruct Hnd as [H1 H2].
  cbn [lookup_pa]. destruct Hin as [Hin|Hin].
  - injection Hin as -> -> ->. now rewrite String.eqb_refl.
  - destruct (String.eqb x z) eqn:E; [|now apply IH].
    apply String.eqb_eq in E. subst x. apply in_combine_l in Hin.
    assert (Hm : mem_s (map fst ps) z = true).
    { apply mem_s_In. change z with (fst (z, k)). now apply in_map. }
    rewrite Hm in H1. discriminate H1.
Qed.

Lemma lookup_pa_app z l1 l2 :
  lookup_pa z (l1 ++ l2) = match lookup_pa z l1 with Some v => Some v | None => lookup_pa z l2 end.
Proof.
  induction l1 as [|[[x k] e] l1 IH]; cbn [app lookup_pa]; [reflexivity|].
  destruct (String.eqb x z); [reflexivity|exact IH].
Qed.

Lemma lookup_pa_ren r z ps : forall args,
  lookup_pa z (combine ps (map (ren_e r) args)) =
  option_map (fun ke => (fst ke, ren_e r (snd ke))) (lookup_pa z (combine ps args)).
Proof.
  induction ps as [|[x k] ps IH]; intros [|e args]; cbn [combine map lookup_pa option_map]; try reflexivity.
  destruct (String.eqb x z); [reflexivity|apply IH].
Qed.

Lemma init_scalars_app d fr s : forall l1 l2 s0,
  init_scalars d fr s (l1 ++ l2) s0 = obind (init_scalars d fr s l1 s0) (fun s1 => init_scalars d fr s l2 s1).
Proof.
  induction l1 as [|[[z k] e] l1 IH]; intros l2 s0; [reflexivity|].
  cbn [app init_scalars]. destruct k.
  - destruct (scalar_init fr s e) as [o|]; cbn [obind]; [apply IH|reflexivity].
  - apply IH.
  - destruct (is_var e); [apply IH|reflexivity].
Qed.

Lemma arrays_ok_forallb fr s cenv pa : arrays_ok fr s cenv pa = forallb (achk fr s cenv) pa.
Proof.
  induction pa as [|[[z k] e] pa IH]; [reflexivity|].
  cbn [arrays_ok forallb]. unfold achk at 1. cbn [fst snd].
  destruct k; cbn [andb]; try exact IH.
  destruct (actual_seq fr s e) as [sq|]; [|reflexivity].
  destruct (dummy_bnd cenv sq dims); [|reflexivity]. now rewrite IH.
Qed.

Lemma forward_root_none ps args z : forallb norecb ps = true -> forward_root (combine ps args) z = None.
Proof.
  intros Hnr. unfold forward_root. destruct (split_pct z) as [[root rest]|]; [|reflexivity].
  destruct (lookup_pa root (combine ps args)) as [[k e]|] eqn:E; [|reflexivity].
  destruct k; try reflexivity.
  apply lookup_pa_in in E. destruct E as [_ E].
  rewrite forallb_forall in Hnr. apply Hnr in E. discriminate E.
Qed.

Lemma intrinsic_unreserved f vs : reserved f = false -> intrinsic f vs = None.
Proof.
  unfold reserved. intros H. apply intrinsic_none. destruct (String.eqb f ":"); [discriminate H|exact H].
Qed.

Lemma ren_ok_intrinsic r f vs : ren_ok r -> intrinsic (r f) vs = intrinsic f vs.
Proof.
  intros Hok. destruct (Hok f) as [H1 H2]. destruct (reserved f) eqn:E.
  - now rewrite H2.
  - now rewrite !intrinsic_unreserved.
Qed.

Lemma ren_ok_colon r f : ren_ok r -> String.eqb (r f) ":" = String.eqb f ":".
Proof.
  intros Hok. assert (HR : reserved ":" = true) by reflexivity.
  destruct (String.eqb f ":") eqn:E.
  - apply String.eqb_eq in E. subst f. destruct (Hok ":"%string) as [_ H]. rewrite (H HR). reflexivity.
  - destruct (String.eqb (r f) ":") eqn:E2; [|reflexivity].
    apply String.eqb_eq in E2. destruct (Hok f) as [H1 H2]. rewrite E2, HR in H1.
    symmetry in H1. apply H2 in H1. rewrite H1 in E2. subst f. discriminate E.
Qed.

Lemma ren_ok_id : ren_ok (fun x => x).
Proof. intros f. split; [reflexivity|]. intros _. reflexivity. Qed.

Lemma aref_agree_refl a : aref_agree a a.
Proof. repeat split. Qed.

Lemma aref_agree_sym a b : aref_agree a b -> aref_agree b a.
Proof. intros [A [B C]]. repeat split; try (symmetry; assumption). intros i. symmetry. apply C. Qed.

Lemma aref_agree_trans a b c : aref_agree a b -> aref_agree b c -> aref_agree a c.
Proof.
  intros [A [B C]] [A' [B' C']]. repeat split; try (etransitivity; eassumption).
  intros i. now rewrite C, C'.
Qed.

Lemma aseq_agree_refl q : aseq_agree q q.
Proof. repeat split. Qed.

Lemma mk_aseq_agree l len at1 at2 ext : (forall o, at1 o = at2 o) ->
  aseq_agree (mk_aseq l len at1 ext) (mk_aseq l len at2 ext).
Proof.
  intros H. unfold aseq_agree, mk_aseq; cbn [sq_loc sq_len sq_ext sq_at]. repeat split.
  intros o. now rewrite H.
Qed.

Lemma mk_aref_agree q1 q2 b : aseq_agree q1 q2 -> aref_agree (mk_aref q1 b) (mk_aref q2 b).
Proof.
  intros [Hloc [_ [_ Hat]]]. unfold aref_agree, mk_aref; cbn [ar_loc ar_bnd ar_view].
  repeat split; [assumption|]. intros i. now rewrite Hat.
Qed.

Lemma frel_weaken r (N N' : string -> Prop) fr1 fr2 :
  (forall x, N' x -> N x) -> frel r N fr1 fr2 -> frel r N' fr1 fr2.
Proof. intros H Hr x Hx. apply Hr, H, Hx. Qed.

(** A name has a scalar and an array aspect in a frame.  [sc]/[ar] classify the names that may be used as scalars /
    as arrays; [wk_e], [wk_s] of M_C34 check that code uses them accordingly.  [krel] relates the aspects the
    classification allows; with [ktrue] it is [frel]. *)

Definition krel (r : string -> string) (sc ar : string -> bool) (N : string -> Prop) (fr1 fr2 : frame) : Prop :=
  forall x, N x -> (sc x = true -> fs fr1 x = fs fr2 (r x)) /\ (ar x = true -> aref_agree (fa fr1 x) (fa fr2 (r x))).

Lemma krel_weaken r sc ar (N N' : string -> Prop) fr1 fr2 :
  (forall x, N' x -> N x) -> krel r sc ar N fr1 fr2 -> krel r sc ar N' fr1 fr2.
Proof. intros H Hr x Hx. apply Hr, H, Hx. Qed.

Definition ktrue (_ : string) : bool := true.

Lemma krel_true r N fr1 fr2 : krel r ktrue ktrue N fr1 fr2 <-> frel r N fr1 fr2.
Proof.
  split; intros H x Hx; destruct (H x Hx) as [A B].
  - split; [apply A|apply B]; reflexivity.
  - split; intros _; assumption.
Qed.

(** splits every boolean conjunction among the hypotheses *)
Ltac spl := repeat match goal with H : _ && _ = true |- _ => apply andb_prop in H; destruct H end.

Lemma wk_e_true e : wk_e ktrue ktrue e = true.
Proof.
  induction e using expr_ind'; cbn [wk_e]; try reflexivity; try (now apply forallb_Forall);
    try (now rewrite IHe1, IHe2); try assumption.
Qed.

Lemma wk_el_true l : forallb (wk_e ktrue ktrue) l = true.
Proof. apply forallb_Forall. apply Forall_forall. intros e _. apply wk_e_true. Qed.

Lemma wk_aact_true e : wk_aact ktrue ktrue e = true.
Proof. destruct e; try reflexivity. apply wk_el_true. Qed.

Lemma wk_s_true st : wk_s ktrue ktrue st = true.
Proof.
  induction st as [x e|a i e|v lo hi stp b IHb|c b IHb|c t e IHt IHe|f a|l] using stmt_ind'; cbn [wk_s]; rewrite ?wk_e_true, ?wk_el_true; try reflexivity.
  - rewrite (proj2 (forallb_Forall _ _) IHb). destruct stp; [now rewrite wk_e_true|reflexivity].
  - now rewrite (proj2 (forallb_Forall _ _) IHb).
  - now rewrite (proj2 (forallb_Forall _ _) IHt), (proj2 (forallb_Forall _ _) IHe).
Qed.

Lemma wk_ss_true ss : forallb (wk_s ktrue ktrue) ss = true.
Proof. apply forallb_Forall. apply Forall_forall. intros st _. apply wk_s_true. Qed.

Section KRen.
  Variable r : string -> string.
  Variables sc ar : string -> bool.
  Variable N : string -> Prop.
  Variables fr1 fr2 : frame.
  Variable s : rstore.
  Hypothesis Hok : ren_ok r.
  Hypothesis Hrel : krel r sc ar N fr1 fr2.

  Let NE (e : expr) : Prop := forall x, In x (names_e e) -> N x.
  Let NL (l : list expr) : Prop := forall x, In x (flat_map names_e l) -> N x.

  Lemma NL_head e l : NL (e :: l) -> NE e.
  Proof. intros H x Hx. apply H. cbn [flat_map]. apply in_or_app. now left. Qed.
  Lemma NL_tail e l : NL (e :: l) -> NL l.
  Proof. intros H x Hx. apply H. cbn [flat_map]. apply in_or_app. now right. Qed.
  Lemma NL_in e l : NL l -> In e l -> NE e.
  Proof. intros H Hin x Hx. apply H. apply in_flat_map. exists e. now split. Qed.
  Lemma NE_call_fun f l : NE (ECall f l) -> N f.
  Proof. intros H. apply H. cbn [names_e In]. now left. Qed.
  Lemma NE_call_args f l : NE (ECall f l) -> NL l.
  Proof. intros H x Hx. apply H. cbn [names_e In]. now right. Qed.

  Lemma kren_evalZ e : wk_e sc ar e = true -> NE e -> evalZ (renv fr1 s) e = evalZ (renv fr2 s) (ren_e r e).
  Proof.
    induction e using expr_ind'; intros W HN; cbn [ren_e]; try reflexivity; cbn [wk_e] in W.
    - cbn [evalZ renv ev_var]. destruct (Hrel x) as [E _]; [apply HN; cbn; auto|]. now rewrite (E W).
    - cbn [evalZ]. apply fold_obind_ext. apply (Forall_flat names_e _ N); [|exact HN]. now apply (Forall_impl_forallb (wk_e sc ar)).
    - cbn [evalZ]. apply fold_obind_ext. apply (Forall_flat names_e _ N); [|exact HN]. now apply (Forall_impl_forallb (wk_e sc ar)).
    - apply andb_prop in W as [W1 W2]. cbn [evalZ]. rewrite IHe1, IHe2; try assumption; [reflexivity| |];
        intros x Hx; apply HN; cbn [names_e]; apply in_or_app; auto.
    - apply andb_prop in W as [W1 W2]. cbn [evalZ]. rewrite IHe1, IHe2; try assumption; [reflexivity| |];
        intros x Hx; apply HN; cbn [names_e]; apply in_or_app; auto.
    - apply andb_prop in W as [Wf Wa]. rewrite !evalZ_call. apply obind_cong.
      + apply omap_list_ext_map. apply (Forall_flat names_e _ N); [now apply (Forall_impl_forallb (wk_e sc ar))|].
        intros x Hx. apply HN. cbn [names_e]. now right.
      + intros vs. rewrite ren_ok_intrinsic by assumption. destruct (intrinsic f vs); [reflexivity|].
        destruct (Hrel f) as [_ E]; [apply HN; cbn; auto|]. destruct (E Wf) as [A [B C]].
        cbn [renv ev_fun]. now rewrite A, B, C.
  Qed.

  Lemma kren_evalB e : wk_e sc ar e = true -> NE e -> evalB (renv fr1 s) e = evalB (renv fr2 s) (ren_e r e).
  Proof.
    induction e using expr_ind'; intros W HN; cbn [ren_e]; try reflexivity; cbn [wk_e] in W.
    - apply andb_prop in W as [W1 W2]. cbn [evalB]. rewrite (kren_evalZ e1), (kren_evalZ e2); try assumption; [reflexivity| |];
        intros x Hx; apply HN; cbn [names_e]; apply in_or_app; auto.
    - cbn [evalB]. apply fold_obind_ext. apply (Forall_flat names_e _ N); [|exact HN]. now apply (Forall_impl_forallb (wk_e sc ar)).
    - cbn [evalB]. apply fold_obind_ext. apply (Forall_flat names_e _ N); [|exact HN]. now apply (Forall_impl_forallb (wk_e sc ar)).
    - cbn [evalB]. rewrite IHe; [reflexivity|exact W|exact HN].
  Qed.

  Lemma kren_omap {B} (f g : expr -> option B) l :
    (forall e, wk_e sc ar e = true -> NE e -> f e = g (ren_e r e)) -> forallb (wk_e sc ar) l = true -> NL l ->
    omap_list f l = omap_list g (map (ren_e r) l).
  Proof.
    intros H W HN. apply omap_list_ext_map. apply (Forall_flat names_e _ N); [|exact HN].
    apply (Forall_impl_forallb (wk_e sc ar)); [|exact W]. apply Forall_forall. intros e _. apply H.
  Qed.

  Lemma kren_evalZ_list l : forallb (wk_e sc ar) l = true -> NL l ->
    omap_list (evalZ (renv fr1 s)) l = omap_list (evalZ (renv fr2 s)) (map (ren_e r) l).
  Proof. apply kren_omap. exact kren_evalZ. Qed.

  Lemma kren_eval_adim e : wk_e sc ar e = true -> NE e -> eval_adim (renv fr1 s) e = eval_adim (renv fr2 s) (ren_e r e).
  Proof.
    intros W HN. pose proof (kren_evalZ e W HN) as HZ.
    destruct e; try (unfold eval_adim; rewrite HZ; reflexivity).
    destruct args as [|lo [|hi [|x t]]]; try (unfold eval_adim; rewrite HZ; reflexivity).
    unfold eval_adim. rewrite HZ. cbn [ren_e map]. rewrite (ren_ok_colon r f Hok).
    destruct (String.eqb f ":"); [|reflexivity].
    cbn [wk_e forallb] in W. spl. pose proof (NE_call_args _ _ HN) as HL.
    rewrite (kren_evalZ lo), (kren_evalZ hi); try assumption; [reflexivity| |].
    - exact (NL_head _ _ (NL_tail _ _ HL)).
    - exact (NL_head _ _ HL).
  Qed.

  Lemma kren_actual_seq e : wk_aact sc ar e = true -> NE e ->
    oaseq_agree (actual_seq fr1 s e) (actual_seq fr2 s (ren_e r e)).
  Proof.
    intros W HN. destruct e; cbn [ren_e actual_seq]; try exact I; cbn [wk_aact] in W.
    - destruct (Hrel x) as [_ E]; [apply HN; cbn; auto|]. destruct (E W) as [A [B C]].
      rewrite <- A, <- B. cbn [oaseq_agree]. apply mk_aseq_agree. intros o. apply C.
    - apply andb_prop in W as [Wf Wa]. destruct (Hok f) as [R1 _]. rewrite R1. destruct (reserved f); [exact I|].
      destruct (Hrel f (NE_call_fun _ _ HN)) as [_ E]. destruct (E Wf) as [A [B C]].
      rewrite <- (kren_omap _ _ args kren_eval_adim Wa (NE_call_args _ _ HN)).
      destruct (omap_list (eval_adim (renv fr1 s)) args) as [ads|]; cbn [obind]; [|exact I].
      rewrite <- A, <- B. destruct (all_idx ads) as [i|].
      + destruct (in_bnd (ar_bnd (fa fr1 f)) i); [|exact I].
        cbn [oaseq_agree]. apply mk_aseq_agree. intros o. apply C.
      + destruct (adims_ok (ar_bnd (fa fr1 f)) ads); [|exact I].
        cbn [oaseq_agree]. apply mk_aseq_agree. intros o. apply C.
  Qed.

  Lemma kren_scalar_init e : wk_e sc ar e = true -> NE e -> scalar_init fr1 s e = scalar_init fr2 s (ren_e r e).
  Proof.
    intros W HN. pose proof (kren_evalZ e W HN) as HZ.
    destruct e; try (unfold scalar_init; rewrite HZ; reflexivity).
    - reflexivity.
    - unfold scalar_init. rewrite HZ. cbn [ren_e]. destruct (Hok f) as [R1 _]. rewrite R1.
      destruct (reserved f); [reflexivity|]. cbn [wk_e] in W. apply andb_prop in W as [Wf Wa].
      rewrite <- (kren_evalZ_list args Wa (NE_call_args _ _ HN)).
      destruct (Hrel f (NE_call_fun _ _ HN)) as [_ E]. destruct (E Wf) as [A [B C]]. now rewrite B.
  Qed.

  Lemma kren_sref_of e dflt : wk_e sc ar e = true -> NE e -> sref_of fr1 s e dflt = sref_of fr2 s (ren_e r e) dflt.
  Proof.
    intros W HN. destruct e; try reflexivity; cbn [wk_e] in W.
    - cbn [ren_e sref_of]. destruct (Hrel x) as [E _]; [apply HN; cbn; auto|]. exact (E W).
    - apply andb_prop in W as [Wf Wa]. cbn [ren_e sref_of]. destruct (Hok f) as [R1 _]. rewrite R1. destruct (reserved f); [reflexivity|].
      rewrite <- (kren_evalZ_list args Wa (NE_call_args _ _ HN)).
      destruct (Hrel f (NE_call_fun _ _ HN)) as [_ E]. destruct (E Wf) as [A [B C]].
      destruct (omap_list (evalZ (renv fr1 s)) args) as [i|]; [|reflexivity].
      now rewrite A, B, C.
  Qed.
End KRen.

(** The scalar environments of two callee frames agree outside the dummies a rewrite removes or adds; dimension
    expressions do not mention those, so everything [bind] computes from them is the same. *)

Definition envN (D : string -> Prop) (c1 c2 : env) : Prop :=
  (forall x, D x -> ev_var c1 x = ev_var c2 x) /\ (forall f a, ev_fun c1 f a = ev_fun c2 f a).

Lemma envN_refl D c : envN D c c.
Proof. split; reflexivity. Qed.

Lemma evalZ_envN D c1 c2 : envN D c1 c2 ->
  forall e, (forall x, In x (names_e e) -> D x) -> evalZ c1 e = evalZ c2 e.
Proof.
  intros [Hv Hf]. induction e using expr_ind'; intros HN; try reflexivity.
  - cbn [evalZ]. rewrite Hv; [reflexivity|]. apply HN. cbn. auto.
  - cbn [evalZ]. apply fold_obind_same. now apply (Forall_flat names_e _ D).
  - cbn [evalZ]. apply fold_obind_same. now apply (Forall_flat names_e _ D).
  - cbn [evalZ]. rewrite IHe1, IHe2; [reflexivity| |];
      intros x Hx; apply HN; cbn [names_e]; apply in_or_app; auto.
  - cbn [evalZ]. rewrite IHe1, IHe2; [reflexivity| |];
      intros x Hx; apply HN; cbn [names_e]; apply in_or_app; auto.
  - rewrite !evalZ_call. apply obind_cong.
    + apply omap_list_ext. apply (Forall_flat names_e _ D); [assumption|].
      intros x Hx. apply HN. cbn [names_e]. now right.
    + intros vs. now rewrite Hf.
Qed.

Lemma expl_bnd_envN D c1 c2 len : envN D c1 c2 -> forall dims acc,
  (forall x, In x (flat_map dim_names dims) -> D x) -> expl_bnd c1 len dims acc = expl_bnd c2 len dims acc.
Proof.
  intros HE. induction dims as [|dm dims IH]; intros acc HN; [reflexivity|].
  assert (HN' : forall x, In x (flat_map dim_names dims) -> D x).
  { intros x Hx. apply HN. cbn [flat_map]. apply in_or_app. now right. }
  assert (HN0 : forall x, In x (dim_names dm) -> D x).
  { intros x Hx. apply HN. cbn [flat_map]. apply in_or_app. now left. }
  destruct dm; cbn [expl_bnd]; cbn [dim_names] in HN0.
  - rewrite (evalZ_envN D c1 c2 HE lo), (evalZ_envN D c1 c2 HE hi).
    + apply obind_cong; [reflexivity|]. intros a. apply obind_cong; [reflexivity|]. intros b. now rewrite IH.
    + intros x Hx. apply HN0. apply in_or_app. now right.
    + intros x Hx. apply HN0. apply in_or_app. now left.
  - reflexivity.
  - now rewrite (evalZ_envN D c1 c2 HE lo HN0).
Qed.

Lemma dummy_bnd_envN D c1 c2 q1 q2 dims : envN D c1 c2 -> aseq_agree q1 q2 ->
  (forall x, In x (flat_map dim_names dims) -> D x) -> dummy_bnd c1 q1 dims = dummy_bnd c2 q2 dims.
Proof.
  intros HE [_ [Hlen [Hext _]]] HN. unfold dummy_bnd. rewrite Hlen, Hext.
  now rewrite (expl_bnd_envN D c1 c2 (sq_len q2) HE dims 1 HN).
Qed.

Lemma eval_bnds_envN D c1 c2 : envN D c1 c2 -> forall bs,
  (forall x, In x (bnds_names bs) -> D x) -> eval_bnds c1 bs = eval_bnds c2 bs.
Proof.
  intros HE. induction bs as [|[lo hi] bs IH]; intros HN; [reflexivity|].
  cbn [eval_bnds]. rewrite (evalZ_envN D c1 c2 HE lo), (evalZ_envN D c1 c2 HE hi), IH; [reflexivity| | |].
  - intros x Hx. apply HN. unfold bnds_names. cbn [flat_map]. apply in_or_app. now right.
  - intros x Hx. apply HN. unfold bnds_names. cbn [flat_map fst snd]. auto 6 using in_or_app.
  - intros x Hx. apply HN. unfold bnds_names. cbn [flat_map fst snd]. auto 6 using in_or_app.
Qed.

Lemma locals_ok_envN D c1 c2 : envN D c1 c2 -> forall arrs,
  (forall x, In x (arrs_names arrs) -> D x) -> locals_ok c1 arrs = locals_ok c2 arrs.
Proof.
  intros HE. induction arrs as [|[z bs] arrs IH]; intros HN; [reflexivity|].
  cbn [locals_ok]. rewrite (eval_bnds_envN D c1 c2 HE bs), IH; [reflexivity| |].
  - intros x Hx. apply HN. unfold arrs_names. cbn [flat_map]. apply in_or_app. now right.
  - intros x Hx. apply HN. unfold arrs_names. cbn [flat_map snd]. apply in_or_app. now left.
Qed.

Lemma local_aref_envN D d c1 c2 arrs z : envN D c1 c2 ->
  (forall x, In x (arrs_names arrs) -> D x) -> local_aref d c1 arrs z = local_aref d c2 arrs z.
Proof.
  intros HE HN. unfold local_aref. destruct (assoc_s arrs z) as [bs|] eqn:E; [|reflexivity].
  rewrite (eval_bnds_envN D c1 c2 HE bs); [reflexivity|].
  intros x Hx. apply HN. unfold arrs_names. apply in_flat_map. exists (z, bs). split; [now apply assoc_s_In|exact Hx].
Qed.

Definition env_ext (e1 e2 : env) : Prop :=
  (forall x, ev_var e1 x = ev_var e2 x) /\ (forall f a, ev_fun e1 f a = ev_fun e2 f a).

Lemma env_ext_envN e1 e2 D : env_ext e1 e2 -> envN D e1 e2.
Proof. intros [Hv Hf]. split; [intros x _; apply Hv|exact Hf]. Qed.

Lemma evalZ_env_ext e1 e2 : env_ext e1 e2 -> forall e, evalZ e1 e = evalZ e2 e.
Proof. intros [Hv Hf]. now apply evalZ_ext. Qed.

Lemma evalB_env_ext e1 e2 : env_ext e1 e2 -> forall e, evalB e1 e = evalB e2 e.
Proof. intros [Hv Hf]. now apply evalB_ext. Qed.

Lemma rexec_cons ps f d fr st rest s :
  rexec ps (S f) d fr (st :: rest) s =
  obind (rexec1 (rexec ps f) ps d fr st s) (fun s' => rexec ps f d fr rest s').
Proof. reflexivity. Qed.

Lemma rdo_loop_ext run1 run2 v dl n : (forall s, run1 s = run2 s) ->
  forall i s, rdo_loop run1 v dl n i s = rdo_loop run2 v dl n i s.
Proof.
  intros H. induction n as [|n IH]; intros i s; cbn [rdo_loop]; [reflexivity|].
  apply obind_cong; [apply H|]. intros s2. apply IH.
Qed.

Lemma sites_go P b :
  (fix go (l : list stmt) : Prop := match l with [] => True | x :: r => sites_s P x /\ go r end) b = sites P b.
Proof. induction b as [|x b IH]; [reflexivity|]. cbn [sites]. rewrite <- IH. reflexivity. Qed.

Lemma sites_s_do P v lo hi stp b : sites_s P (SDo v lo hi stp b) = sites P b.
Proof. exact (sites_go P b). Qed.
Lemma sites_s_while P c b : sites_s P (SWhile c b) = sites P b.
Proof. exact (sites_go P b). Qed.
Lemma sites_s_if P c t e : sites_s P (SIf c t e) = (sites P t /\ sites P e).
Proof. rewrite <- !sites_go. reflexivity. Qed.

Lemma sites_list P b : Forall (fun st => sites_s P st <-> forall g a, In (g, a) (calls_s st) -> P g a) b ->
  (sites P b <-> forall g a, In (g, a) (calls b) -> P g a).
Proof.
  unfold calls. induction 1 as [|st b H _ IH]; cbn [sites flat_map].
  - split; [intros _ g a []|trivial].
  - rewrite H, IH. split.
    + intros [H1 H2] g a Hin. apply in_app_or in Hin. destruct Hin; auto.
    + intros H0. split; intros g a Hin; apply H0, in_or_app; auto.
Qed.

Lemma sites_s_calls P st : sites_s P st <-> forall g a, In (g, a) (calls_s st) -> P g a.
Proof.
  induction st as [x e|a i e|v lo hi stp b IHb|c b IHb|c t e IHt IHe|f a|l] using stmt_ind'; cbn [calls_s]; try (split; [intros _ g a0 []|intros _; exact I]).
  - rewrite sites_s_do. now apply sites_list.
  - rewrite sites_s_while. now apply sites_list.
  - rewrite sites_s_if, (sites_list P t IHt), (sites_list P e IHe). split.
    + intros [H1 H2] g a Hin. apply in_app_or in Hin. destruct Hin; auto.
    + intros H1. split; intros g a Hin; apply H1, in_or_app; auto.
  - cbn [sites_s]. split.
    + intros HP g' a' [E|[]]. injection E as <- <-. exact HP.
    + intros HP. apply HP. now left.
Qed.

Lemma sites_calls P ss : sites P ss <-> forall g a, In (g, a) (calls ss) -> P g a.
Proof. apply sites_list. apply Forall_forall. intros st _. apply sites_s_calls. Qed.

Lemma sites_impl (P Q : string -> list expr -> Prop) : (forall g a, P g a -> Q g a) ->
  forall ss, sites P ss -> sites Q ss.
Proof. intros H ss. rewrite !sites_calls. intros HP g a Hin. apply H, HP, Hin. Qed.

Lemma sitesb_go P b :
  (fix go (l : list stmt) : bool := match l with [] => true | x :: r => sitesb_s P x && go r end) b = sitesb P b.
Proof. induction b as [|x b IH]; [reflexivity|]. cbn [sitesb]. rewrite <- IH. reflexivity. Qed.

Lemma sitesb_list P b : Forall (fun st => sitesb_s P st = forallb (fun c => P (fst c) (snd c)) (calls_s st)) b ->
  sitesb P b = forallb (fun c => P (fst c) (snd c)) (calls b).
Proof.
  unfold calls. induction 1 as [|st b H _ IH]; cbn [sitesb flat_map]; [reflexivity|].
  now rewrite forallb_app, H, IH.
Qed.

Lemma sitesb_s_calls P st : sitesb_s P st = forallb (fun c => P (fst c) (snd c)) (calls_s st).
Proof.
  induction st as [x e|a i e|v lo hi stp b IHb|c b IHb|c t e IHt IHe|f a|l] using stmt_ind'; cbn [calls_s]; try reflexivity.
  - cbn [sitesb_s]. rewrite sitesb_go. now apply sitesb_list.
  - cbn [sitesb_s]. rewrite sitesb_go. now apply sitesb_list.
  - cbn [sitesb_s]. rewrite !sitesb_go, forallb_app, (sitesb_list P t IHt), (sitesb_list P e IHe). reflexivity.
  - cbn [sitesb_s forallb fst snd]. now rewrite andb_true_r.
Qed.

Lemma sitesb_calls P ss : sitesb P ss = forallb (fun c => P (fst c) (snd c)) (calls ss).
Proof. apply sitesb_list. apply Forall_forall. intros st _. apply sitesb_s_calls. Qed.

Lemma sitesb_sites Pb (P : string -> list expr -> Prop) : (forall g a, Pb g a = true -> P g a) ->
  forall ss, sitesb Pb ss = true -> sites P ss.
Proof.
  intros HP ss. rewrite sitesb_calls, forallb_forall, sites_calls. intros H g a Hin. apply HP, (H (g, a) Hin).
Qed.

(** membership in the names of a statement list whose head is given by its constructor: walk the appends *)
Ltac inn := unfold names, tcalls; cbn [names_s tcall_s flat_map map In]; auto 12 using in_or_app.

Section CodeNames.
  Variable tc : string -> list expr -> list expr.

  Definition cnames (ss : list stmt) (x : string) : Prop := In x (names ss) \/ In x (names (tcalls tc ss)).
  Definition anames (g : string) (args : list expr) (x : string) : Prop :=
    In x (flat_map names_e args) \/ In x (flat_map names_e (tc g args)).

  Lemma cn_head st rest x : In x (names_s st) -> cnames (st :: rest) x.
  Proof. intros H. left. inn. Qed.
  Lemma cn_head_t st rest x : In x (names_s (tcall_s tc st)) -> cnames (st :: rest) x.
  Proof. intros H. right. inn. Qed.
  Lemma cn_tail st rest x : cnames rest x -> cnames (st :: rest) x.
  Proof. unfold cnames. intros [H|H]; [left|right]; revert H; inn. Qed.
  Lemma cn_single st rest x : cnames [st] x -> cnames (st :: rest) x.
  Proof. unfold cnames. intros [H|H]; [left|right]; revert H; unfold names, tcalls; cbn [map flat_map];
         rewrite ?app_nil_r, ?in_app_iff; tauto. Qed.
  Lemma cn_sub st rest b y :
    (forall z, In z (names b) -> In z (names_s st)) ->
    (forall z, In z (names (tcalls tc b)) -> In z (names_s (tcall_s tc st))) ->
    cnames b y -> cnames (st :: rest) y.
  Proof. intros H1 H2 [Hy|Hy]; [apply cn_head, H1|apply cn_head_t, H2]; exact Hy. Qed.
End CodeNames.

Section KindSim.
  Variables ps1 ps2 : rprocs.
  Variable rm : string -> string -> string.            (* [rm g]: renaming applied to the body of procedure g *)
  Variables scm arm : string -> string -> bool.        (* [scm g], [arm g]: classification of the names of procedure g *)
  Variable tc : string -> list expr -> list expr.      (* rewriting of the actual argument list of calls to g *)
  (* condition on a call site, under the caller's renaming and classification *)
  Variable site_ok : (string -> string) -> (string -> bool) -> (string -> bool) -> string -> list expr -> Prop.
  Variable Inv : frame -> frame -> Prop.               (* an invariant of the pairs of frames, preserved by [bind] *)

  Hypothesis Hprocs : forall g,
    match find_rproc ps1 g, find_rproc ps2 g with
    | Some p1, Some p2 => rp_body p2 = ren (rm g) (tcalls tc (rp_body p1)) /\ ren_ok (rm g) /\
                          sites (site_ok (rm g) (scm g) (arm g)) (rp_body p1) /\
                          forallb (wk_s (scm g) (arm g)) (rp_body p1) = true
    | None, None => True
    | _, _ => False
    end.
  Hypothesis Hbind : forall g p1 p2 d fr1 fr2 r sc ar args s,
    find_rproc ps1 g = Some p1 -> find_rproc ps2 g = Some p2 -> ren_ok r -> site_ok r sc ar g args ->
    krel r sc ar (anames tc g args) fr1 fr2 -> Inv fr1 fr2 ->
    match bind d fr1 s p1 args, bind d fr2 s p2 (map (ren_e r) (tc g args)) with
    | Some c1, Some c2 => snd c1 = snd c2 /\ krel (rm g) (scm g) (arm g) (cnames tc (rp_body p1)) (fst c1) (fst c2) /\
                          Inv (fst c1) (fst c2)
    | None, None => True
    | _, _ => False
    end.

  Theorem kind_sim : forall f d fr1 fr2 r sc ar ss s,
    ren_ok r -> sites (site_ok r sc ar) ss -> forallb (wk_s sc ar) ss = true ->
    krel r sc ar (cnames tc ss) fr1 fr2 -> Inv fr1 fr2 ->
    rexec ps1 f d fr1 ss s = rexec ps2 f d fr2 (ren r (tcalls tc ss)) s.
  Proof.
    induction f as [|f IH]; intros d fr1 fr2 r sc ar ss s Hok Hs W Hrel HI; [reflexivity|].
    destruct ss as [|st rest]; [reflexivity|].
    change (ren r (tcalls tc (st :: rest))) with (ren_s r (tcall_s tc st) :: ren r (tcalls tc rest)).
    rewrite !rexec_cons. destruct Hs as [Hs1 Hs2]. cbn [forallb] in W. apply andb_prop in W. destruct W as [W1 W2].
    apply obind_cong.
    2:{ intros s'. apply (IH d fr1 fr2 r sc ar); [assumption|assumption|assumption| |assumption].
        revert Hrel. apply krel_weaken. apply cn_tail. }
    pose proof (kren_evalZ r sc ar _ fr1 fr2 s Hok Hrel) as HZ.
    pose proof (kren_evalB r sc ar _ fr1 fr2 s Hok Hrel) as HB.
    pose proof (kren_evalZ_list r sc ar _ fr1 fr2 s Hok Hrel) as HL.
    destruct st as [x e|a idx e|v lo hi stp body|c body|c tb eb|g args|l]; cbn [tcall_s ren_s rexec1]; cbn [wk_s] in W1.
    - apply andb_prop in W1 as [Wx We]. apply obind_cong.
      + apply HZ; [assumption|]. intros y Hy. apply cn_head. inn.
      + intros v. destruct (Hrel x) as [E _]; [apply cn_head; inn|]. now rewrite (E Wx).
    - apply andb_prop in W1 as [W1 We]. apply andb_prop in W1 as [Wa Wi]. apply obind_cong.
      + apply HL; [assumption|]. intros y Hy. apply cn_head. inn.
      + intros i. apply obind_cong.
        * apply HZ; [assumption|]. intros y Hy. apply cn_head. inn.
        * intros v. destruct (Hrel a) as [_ E]; [apply cn_head; inn|]. destruct (E Wa) as [A [B C]]. now rewrite A, B, C.
    - apply andb_prop in W1 as [W1 Wb]. apply andb_prop in W1 as [W1 Wst]. apply andb_prop in W1 as [W1 Whi].
      apply andb_prop in W1 as [Wv Wlo].
      apply obind_cong; [apply HZ; [assumption|]; intros y Hy; apply cn_head; inn|]. intros a.
      apply obind_cong; [apply HZ; [assumption|]; intros y Hy; apply cn_head; inn|]. intros b.
      apply obind_cong.
      + destruct stp as [e|]; cbn [option_map]; [|reflexivity].
        apply HZ; [assumption|]. intros y Hy. apply cn_head. inn.
      + intros dl. destruct (dl =? 0); [reflexivity|].
        destruct (Hrel v) as [E _]; [apply cn_head; inn|]. rewrite (E Wv).
        apply rdo_loop_ext. intros s0.
        apply (IH d fr1 fr2 r sc ar body s0 Hok); [|assumption| |exact HI].
        * now rewrite sites_s_do in Hs1.
        * revert Hrel. apply krel_weaken. intros y. apply cn_sub; intros z; inn.
    - apply andb_prop in W1 as [Wc Wb].
      apply obind_cong; [apply HB; [assumption|]; intros y Hy; apply cn_head; inn|]. intros b.
      destruct b; [|reflexivity]. apply obind_cong.
      + apply (IH d fr1 fr2 r sc ar body s Hok); [|assumption| |exact HI].
        * now rewrite sites_s_while in Hs1.
        * revert Hrel. apply krel_weaken. intros y. apply cn_sub; intros z; inn.
      + intros s1. apply (IH d fr1 fr2 r sc ar [SWhile c body] s1 Hok); [| | |exact HI].
        * split; [exact Hs1|exact I].
        * cbn [forallb wk_s]. now rewrite Wc, Wb.
        * revert Hrel. apply krel_weaken. apply cn_single.
    - apply andb_prop in W1 as [W1 Web]. apply andb_prop in W1 as [Wc Wtb].
      apply obind_cong; [apply HB; [assumption|]; intros y Hy; apply cn_head; inn|]. intros b.
      rewrite sites_s_if in Hs1. destruct Hs1 as [Ht He].
      destruct b.
      + apply (IH d fr1 fr2 r sc ar tb s Hok Ht); [assumption| |exact HI].
        revert Hrel. apply krel_weaken. intros y. apply cn_sub; intros z; inn.
      + apply (IH d fr1 fr2 r sc ar eb s Hok He); [assumption| |exact HI].
        revert Hrel. apply krel_weaken. intros y. apply cn_sub; intros z; inn.
    - assert (Hrel' : krel r sc ar (anames tc g args) fr1 fr2).
      { revert Hrel. apply krel_weaken. intros y [Hy|Hy]; [apply cn_head|apply cn_head_t]; exact Hy. }
      pose proof (Hprocs g) as Hp. pose proof (Hbind g) as Hb.
      destruct (find_rproc ps1 g) as [p1|]; destruct (find_rproc ps2 g) as [p2|]; try contradiction; [|reflexivity].
      cbn [obind]. destruct Hp as [Hbody [Hokg [Hsg Hwg]]].
      specialize (Hb p1 p2 (S d) fr1 fr2 r sc ar args s eq_refl eq_refl Hok Hs1 Hrel' HI).
      destruct (bind (S d) fr1 s p1 args) as [c1|];
        destruct (bind (S d) fr2 s p2 (map (ren_e r) (tc g args))) as [c2|]; try contradiction; [|reflexivity].
      cbn [obind]. destruct Hb as [Hsnd [Hfr HI']]. rewrite Hbody, <- Hsnd.
      now apply (IH (S d) (fst c1) (fst c2) (rm g) (scm g) (arm g)).
    - reflexivity.
  Qed.
End KindSim.

Section Coupled.
  Variables ps1 ps2 : rprocs.
  Variable rm : string -> string -> string.
  Variable tc : string -> list expr -> list expr.
  Variable site_ok : (string -> string) -> string -> list expr -> Prop.
  Variable Inv : frame -> frame -> Prop.

  (* [nm], [nma] are [cnames tc], [anames tc] *)
  Definition nm (ss : list stmt) (x : string) : Prop := In x (names ss) \/ In x (names (tcalls tc ss)).
  Definition nma (g : string) (args : list expr) (x : string) : Prop :=
    In x (flat_map names_e args) \/ In x (flat_map names_e (tc g args)).

  Hypothesis Hprocs : forall g,
    match find_rproc ps1 g, find_rproc ps2 g with
    | Some p1, Some p2 => rp_body p2 = ren (rm g) (tcalls tc (rp_body p1)) /\ ren_ok (rm g) /\ sites (site_ok (rm g)) (rp_body p1)
    | None, None => True
    | _, _ => False
    end.
  Hypothesis Hbind : forall g p1 p2 d fr1 fr2 r args s,
    find_rproc ps1 g = Some p1 -> find_rproc ps2 g = Some p2 -> ren_ok r -> site_ok r g args ->
    frel r (nma g args) fr1 fr2 -> Inv fr1 fr2 ->
    match bind d fr1 s p1 args, bind d fr2 s p2 (map (ren_e r) (tc g args)) with
    | Some c1, Some c2 => snd c1 = snd c2 /\ frel (rm g) (nm (rp_body p1)) (fst c1) (fst c2) /\ Inv (fst c1) (fst c2)
    | None, None => True
    | _, _ => False
    end.

  (** [kind_sim] for the classification that allows everything: the site condition below also says [sc = ktrue] and
      [ar = ktrue], so that [Hbind] is only needed for related frames in the sense of [frel] *)
  Theorem coupled_sim : forall f d fr1 fr2 r ss s,
    ren_ok r -> sites (site_ok r) ss -> frel r (nm ss) fr1 fr2 -> Inv fr1 fr2 ->
    rexec ps1 f d fr1 ss s = rexec ps2 f d fr2 (ren r (tcalls tc ss)) s.
  Proof.
    intros f d fr1 fr2 r ss s Hok Hs Hrel HI.
    apply (kind_sim ps1 ps2 rm (fun _ => ktrue) (fun _ => ktrue) tc
             (fun r0 sc ar g a => sc = ktrue /\ ar = ktrue /\ site_ok r0 g a) Inv) with (sc := ktrue) (ar := ktrue);
      try assumption.
    - intros g. generalize (Hprocs g).
      destruct (find_rproc ps1 g) as [p1|], (find_rproc ps2 g) as [p2|]; try exact (fun H => H).
      intros [Hb [Hr Hsi]]. split; [exact Hb|]. split; [exact Hr|]. split; [|apply wk_ss_true].
      revert Hsi. apply sites_impl. auto.
    - intros g p1 p2 d0 f1 f2 r0 sc ar args s0 E1 E2 Hok0 [-> [-> Hsite]] Hr HI0.
      generalize (Hbind g p1 p2 d0 f1 f2 r0 args s0 E1 E2 Hok0 Hsite (proj1 (krel_true _ _ _ _) Hr) HI0).
      destruct (bind d0 f1 s0 p1 args) as [c1|], (bind d0 f2 s0 p2 (map (ren_e r0) (tc g args))) as [c2|];
        try exact (fun H => H).
      intros [A [B C]]. split; [exact A|]. split; [apply krel_true, B|exact C].
    - revert Hs. apply sites_impl. auto.
    - apply wk_ss_true.
    - apply krel_true, Hrel.
  Qed.
End Coupled.

Section BindRen.
  Variable r : string -> string.
  Variable N : string -> Prop.
  Variables fr1 fr2 : frame.
  Variable s : rstore.
  Hypothesis Hok : ren_ok r.
  Hypothesis Hrel : frel r N fr1 fr2.

  Let HK : krel r ktrue ktrue N fr1 fr2 := proj2 (krel_true r N fr1 fr2) Hrel.
  Let NL (l : list expr) : Prop := forall x, In x (flat_map names_e l) -> N x.

  Lemma is_var_ren e : is_var (ren_e r e) = is_var e.
  Proof. destruct e; reflexivity. Qed.

  Lemma ren_init_scalars d ps : forall args s0, NL args ->
    init_scalars d fr1 s (combine ps args) s0 = init_scalars d fr2 s (combine ps (map (ren_e r) args)) s0.
  Proof.
    induction ps as [|[z k] ps IH]; intros [|e args] s0 HN; cbn [combine map init_scalars]; try reflexivity.
    destruct k.
    - rewrite <- (kren_scalar_init r ktrue ktrue N fr1 fr2 s Hok HK e (wk_e_true e) (NL_head N _ _ HN)).
      apply obind_cong; [reflexivity|]. intros o. apply IH. exact (NL_tail N _ _ HN).
    - apply IH. exact (NL_tail N _ _ HN).
    - rewrite is_var_ren. destruct (is_var e); [|reflexivity]. apply IH. exact (NL_tail N _ _ HN).
  Qed.

  Lemma ren_callee_fs d ps args z : forallb norecb ps = true -> NL args ->
    callee_fs d fr1 s (combine ps args) z = callee_fs d fr2 s (combine ps (map (ren_e r) args)) z.
  Proof.
    intros Hnr HN. unfold callee_fs. rewrite lookup_pa_ren, !forward_root_none by assumption.
    destruct (lookup_pa z (combine ps args)) as [[k e]|] eqn:E; cbn [option_map fst snd]; [|reflexivity].
    destruct k; try reflexivity.
    apply (kren_sref_of r ktrue ktrue N fr1 fr2 s Hok HK); [apply wk_e_true|].
    apply (NL_in N e args HN). now apply lookup_pa_in in E.
  Qed.

  Variables c1 c2 : env.
  Variable D : string -> Prop.
  Hypothesis HE : envN D c1 c2.

  Lemma ren_arrays_ok ps : forall args, NL args -> (forall x, In x (params_dim_names ps) -> D x) ->
    arrays_ok fr1 s c1 (combine ps args) = arrays_ok fr2 s c2 (combine ps (map (ren_e r) args)).
  Proof.
    induction ps as [|[z k] ps IH]; intros [|e args] HN HD; cbn [combine map arrays_ok]; try reflexivity.
    assert (HD' : forall x, In x (params_dim_names ps) -> D x).
    { intros x Hx. apply HD. unfold params_dim_names. cbn [flat_map]. apply in_or_app. now right. }
    pose proof (IH args (NL_tail N e args HN) HD') as IHa.
    destruct k; try exact IHa.
    pose proof (kren_actual_seq r ktrue ktrue N fr1 fr2 s Hok HK e (wk_aact_true e) (NL_head N e args HN)) as Hq.
    destruct (actual_seq fr1 s e) as [q1|]; destruct (actual_seq fr2 s (ren_e r e)) as [q2|];
      try contradiction; [|reflexivity].
    cbn [oaseq_agree] in Hq. rewrite (dummy_bnd_envN D c1 c2 q1 q2 dims HE Hq).
    2:{ intros x Hx. apply HD. unfold params_dim_names. cbn [flat_map snd kind_dim_names]. apply in_or_app. now left. }
    destruct (dummy_bnd c2 q2 dims); [|reflexivity].
    destruct Hq as [_ [Hlen _]]. now rewrite Hlen, IHa.
  Qed.

  Lemma ren_callee_fa d ps args arrs z :
    forallb norecb ps = true -> NL args ->
    (forall x, In x (params_dim_names ps) -> D x) -> (forall x, In x (arrs_names arrs) -> D x) ->
    aref_agree (callee_fa d fr1 s c1 (combine ps args) arrs z)
               (callee_fa d fr2 s c2 (combine ps (map (ren_e r) args)) arrs z).
  Proof.
    intros Hnr HN HD HA. unfold callee_fa. rewrite lookup_pa_ren, !forward_root_none by exact Hnr.
    destruct (lookup_pa z (combine ps args)) as [[k e]|] eqn:E; cbn [option_map fst snd].
    - destruct k; try apply aref_agree_refl.
      pose proof (lookup_pa_in z ps args _ _ E) as [He Hk].
      pose proof (kren_actual_seq r ktrue ktrue N fr1 fr2 s Hok HK e (wk_aact_true e) (NL_in N e args HN He)) as Hq.
      destruct (actual_seq fr1 s e) as [q1|]; destruct (actual_seq fr2 s (ren_e r e)) as [q2|];
        try contradiction; [|apply aref_agree_refl].
      cbn [oaseq_agree] in Hq. rewrite (dummy_bnd_envN D c1 c2 q1 q2 dims HE Hq).
      2:{ intros x Hx. apply HD. unfold params_dim_names. apply in_flat_map. exists (z, PArr dims). now split. }
      destruct (dummy_bnd c2 q2 dims); [|apply aref_agree_refl].
      now apply mk_aref_agree.
    - rewrite (local_aref_envN D d c1 c2 arrs z HE HA). apply aref_agree_refl.
  Qed.
End BindRen.

Lemma bind_ren d r fr1 fr2 s p args : no_rec p = true -> ren_ok r ->
  frel r (fun x => In x (flat_map names_e args)) fr1 fr2 ->
  match bind d fr1 s p args, bind d fr2 s p (map (ren_e r) args) with
  | Some c1, Some c2 => snd c1 = snd c2 /\ frel (fun x => x) (fun _ => True) (fst c1) (fst c2)
  | None, None => True
  | _, _ => False
  end.
Proof.
  intros Hnr Hok Hrel. unfold no_rec in Hnr. unfold bind. rewrite map_length.
  destruct (negb (Nat.eqb (List.length args) (List.length (rp_params p)))); [exact I|].
  set (N := fun x => In x (flat_map names_e args)) in *.
  assert (HN : forall x, In x (flat_map names_e args) -> N x) by (intros x Hx; exact Hx).
  rewrite <- (ren_init_scalars r N fr1 fr2 s Hok Hrel d (rp_params p) args (clear_depth d s) HN).
  destruct (init_scalars d fr1 s (combine (rp_params p) args) (clear_depth d s)) as [s0|]; cbn [obind]; [|exact I].
  assert (HE : envN (fun _ => True) (scal_env (callee_fs d fr1 s (combine (rp_params p) args)) s0)
                    (scal_env (callee_fs d fr2 s (combine (rp_params p) (map (ren_e r) args))) s0)).
  { split; [|reflexivity]. intros x _. cbn [scal_env ev_var].
    now rewrite (ren_callee_fs r N fr1 fr2 s Hok Hrel d (rp_params p) args x Hnr HN). }
  rewrite <- (ren_arrays_ok r N fr1 fr2 s Hok Hrel _ _ _ HE (rp_params p) args HN (fun _ _ => I)).
  rewrite <- (fun arrs => locals_ok_envN _ _ _ HE arrs (fun _ _ => I)).
  destruct (arrays_ok fr1 s _ _ && locals_ok _ _); [|exact I].
  cbn [fst snd]. split; [reflexivity|]. intros x _. cbn [fs fa]. split.
  - exact (ren_callee_fs r N fr1 fr2 s Hok Hrel d (rp_params p) args x Hnr HN).
  - exact (ren_callee_fa r N fr1 fr2 s Hok Hrel _ _ _ HE d (rp_params p) args (rp_arrays p) x Hnr HN
             (fun _ _ => I) (fun _ _ => I)).
Qed.

Lemma ren_e_fix r e : (forall x, In x (names_e e) -> r x = x) -> ren_e r e = e.
Proof.
  induction e using expr_ind'; intros HN; cbn [ren_e]; try reflexivity.
  - rewrite HN; [reflexivity|]. cbn. auto.
  - f_equal. apply map_id_Forall. now apply (Forall_flat names_e _ (fun x => r x = x)).
  - f_equal. apply map_id_Forall. now apply (Forall_flat names_e _ (fun x => r x = x)).
  - rewrite IHe1, IHe2; [reflexivity| |]; intros x Hx; apply HN; cbn [names_e]; apply in_or_app; auto.
  - rewrite IHe1, IHe2; [reflexivity| |]; intros x Hx; apply HN; cbn [names_e]; apply in_or_app; auto.
  - rewrite IHe1, IHe2; [reflexivity| |]; intros x Hx; apply HN; cbn [names_e]; apply in_or_app; auto.
  - f_equal. apply map_id_Forall. now apply (Forall_flat names_e _ (fun x => r x = x)).
  - f_equal. apply map_id_Forall. now apply (Forall_flat names_e _ (fun x => r x = x)).
  - now rewrite IHe.
  - rewrite HN by (cbn; auto). f_equal. apply map_id_Forall.
    apply (Forall_flat names_e _ (fun x => r x = x)); [assumption|].
    intros x Hx. apply HN. cbn [names_e]. now right.
Qed.

Lemma ren_e_id e : ren_e (fun x => x) e = e.
Proof. apply ren_e_fix. reflexivity. Qed.

Lemma map_ren_e_id l : map (ren_e (fun x => x)) l = l.
Proof. apply map_id_Forall. apply Forall_forall. intros e _. apply ren_e_id. Qed.

Lemma ren_s_id st : ren_s (fun x => x) st = st.
Proof.
  induction st as [x e|a i e|v lo hi stp b IHb|c b IHb|c t e IHt IHe|f a|l] using stmt_ind'; cbn [ren_s]; rewrite ?ren_e_id, ?map_ren_e_id; try reflexivity.
  - rewrite (map_id_Forall _ _ IHb). destruct stp; cbn [option_map]; now rewrite ?ren_e_id.
  - now rewrite (map_id_Forall _ _ IHb).
  - now rewrite (map_id_Forall _ _ IHt), (map_id_Forall _ _ IHe).
Qed.

Lemma ren_id ss : ren (fun x => x) ss = ss.
Proof. unfold ren. apply map_id_Forall. apply Forall_forall. intros st _. apply ren_s_id. Qed.

Lemma tcall_s_id st : tcall_s (fun _ a => a) st = st.
Proof.
  induction st as [x e|a i e|v lo hi stp b IHb|c b IHb|c t e IHt IHe|f a|l] using stmt_ind'; cbn [tcall_s]; try reflexivity.
  - now rewrite (map_id_Forall _ _ IHb).
  - now rewrite (map_id_Forall _ _ IHb).
  - now rewrite (map_id_Forall _ _ IHt), (map_id_Forall _ _ IHe).
Qed.

Lemma tcalls_id ss : tcalls (fun _ a => a) ss = ss.
Proof. unfold tcalls. apply map_id_Forall. apply Forall_forall. intros st _. apply tcall_s_id. Qed.

(** [bind_ren] as the [bind] hypothesis of [coupled_sim], for a table in which the callee is the same on both sides
    (the final [True] is the trivial frame invariant) *)
Lemma bind_ren_coupled g d r fr1 fr2 s p args (N : string -> Prop) : no_rec p = true -> ren_ok r ->
  frel r (nma (fun _ a => a) g args) fr1 fr2 ->
  match bind d fr1 s p args, bind d fr2 s p (map (ren_e r) args) with
  | Some c1, Some c2 => snd c1 = snd c2 /\ frel (fun x => x) N (fst c1) (fst c2) /\ True
  | None, None => True
  | _, _ => False
  end.
Proof.
  intros Hnr Hok Hr.
  assert (Hr' : frel r (fun x => In x (flat_map names_e args)) fr1 fr2).
  { revert Hr. apply frel_weaken. intros x Hx. now left. }
  generalize (bind_ren d r fr1 fr2 s p args Hnr Hok Hr').
  destruct (bind d fr1 s p args) as [c1|], (bind d fr2 s p (map (ren_e r) args)) as [c2|]; try exact (fun H => H).
  intros [HB1 HB2]. split; [exact HB1|]. split; [|exact I]. revert HB2. apply frel_weaken. intros; exact I.
Qed.

Lemma coupled_id ps : (forall g p, find_rproc ps g = Some p -> no_rec p = true) ->
  forall f d fr1 fr2 r ss s, ren_ok r -> frel r (fun x => In x (names ss)) fr1 fr2 ->
  rexec ps f d fr1 ss s = rexec ps f d fr2 (ren r ss) s.
Proof.
  intros Hnr f d fr1 fr2 r ss s Hok Hrel.
  pose proof (coupled_sim ps ps (fun _ x => x) (fun _ a => a) (fun _ _ _ => True) (fun _ _ => True)) as HC.
  rewrite <- (tcalls_id ss) at 2. apply HC; clear HC.
  - intros g. destruct (find_rproc ps g) as [p|]; [|exact I].
    rewrite tcalls_id, ren_id. split; [reflexivity|]. split; [apply ren_ok_id|].
    apply sites_calls. intros; exact I.
  - intros g p1 p2 d0 f1 f2 r0 args s0 E1 E2 Hok0 _ Hr _. rewrite E1 in E2. injection E2 as <-.
    exact (bind_ren_coupled g d0 r0 f1 f2 s0 p1 args _ (Hnr g p1 E1) Hok0 Hr).
  - assumption.
  - apply sites_calls. intros; exact I.
  - revert Hrel. apply frel_weaken. unfold nm. rewrite tcalls_id. tauto.
  - exact I.
Qed.

(** frames that agree on the names of the code give the same run (table without derived-type dummies) *)
Theorem rexec_agree ps : (forall g p, find_rproc ps g = Some p -> no_rec p = true) ->
  forall f d fr1 fr2 ss s, frel (fun x => x) (fun x => In x (names ss)) fr1 fr2 ->
  rexec ps f d fr1 ss s = rexec ps f d fr2 ss s.
Proof.
  intros Hnr f d fr1 fr2 ss s Hrel.
  rewrite (coupled_id ps Hnr f d fr1 fr2 (fun x => x) ss s ren_ok_id Hrel). now rewrite ren_id.
Qed.

(** renaming a body = running the original in the composed frame (table without derived-type dummies) *)
Theorem rexec_rename ps : (forall g p, find_rproc ps g = Some p -> no_rec p = true) ->
  forall f d fr r ss s, ren_ok r ->
  rexec ps f d {| fs := fun x => fs fr (r x); fa := fun x => fa fr (r x) |} ss s = rexec ps f d fr (ren r ss) s.
Proof.
  intros Hnr f d fr r ss s Hok. apply (coupled_id ps Hnr); [assumption|].
  intros x _. cbn [fs fa]. split; [reflexivity|apply aref_agree_refl].
Qed.

Print Assumptions coupled_sim.
Print Assumptions bind_ren.
Print Assumptions rexec_agree.
Print Assumptions rexec_rename.
