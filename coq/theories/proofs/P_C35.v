(** C35 — column-major index map, the canonical C environment, main statements and refutations. *)
From Coq Require Import ZArith QArith List Bool String Lia ZifyBool.
From LV Require models.M_C06.
From LV Require Import Base.Expr Base.MiniF Base.ListFacts Base.ExprFacts models.M_C36 models.M_C35 proofs.P_C36_base proofs.P_C36_sem proofs.P_C36 proofs.P_C35_sem.
Import ListNotations.
Open Scope Z_scope.

(** * The column-major offset is a bijection between the (0-based) box and [0, size) *)
Lemma flat_nil sh : flat sh [] = 0.
Proof. destruct sh; reflexivity. Qed.

Lemma flat_cons n sh d r : flat (n :: sh) (d :: r) = d + n * flat sh r.
Proof. destruct r; [rewrite flat_nil; cbn; lia | reflexivity]. Qed.

Lemma size_pos sh : Forall (fun n => 0 < n) sh -> 0 < size sh.
Proof. induction 1 as [|n r Hn _ IH]; cbn [size]; nia. Qed.

Lemma flat_bounds sh idx : in_box0 sh idx -> 0 <= flat sh idx < size sh.
Proof.
  unfold in_box0. induction 1 as [|n d sh idx Hd Hr IH].
  - cbn. lia.
  - rewrite flat_cons. cbn [size]. nia.
Qed.

Lemma flat_inj sh : forall i1 i2, in_box0 sh i1 -> in_box0 sh i2 -> flat sh i1 = flat sh i2 -> i1 = i2.
Proof.
  unfold in_box0. induction sh as [|n sh IH]; intros i1 i2 H1 H2 Hf.
  - inversion H1; inversion H2; reflexivity.
  - inversion H1 as [|? d1 ? r1 Hd1 Hr1]; subst. inversion H2 as [|? d2 ? r2 Hd2 Hr2]; subst.
    rewrite !flat_cons in Hf.
    pose proof (flat_bounds sh r1 Hr1) as B1. pose proof (flat_bounds sh r2 Hr2) as B2.
    assert (flat sh r1 = flat sh r2 /\ d1 = d2) as [Ef Ed].
    { apply (Z.div_mod_unique n); lia. }
    subst. f_equal. apply IH; assumption.
Qed.

Lemma unflat_cons n m sh p : unflat (n :: m :: sh) p = (p mod n) :: unflat (m :: sh) (p / n).
Proof. reflexivity. Qed.

Lemma flat_surj sh : Forall (fun n => 0 < n) sh -> forall p, 0 <= p < size sh ->
  in_box0 sh (unflat sh p) /\ flat sh (unflat sh p) = p.
Proof.
  unfold in_box0. induction 1 as [|n sh Hn Hsh IH]; intros p Hp.
  - split; [constructor | cbn in *; lia].
  - destruct sh as [|m sh'].
    + cbn [size] in Hp. cbn [unflat]. split; [constructor; [lia | constructor] | reflexivity].
    + rewrite unflat_cons. cbn [size] in Hp.
      assert (Hq : 0 <= p / n < size (m :: sh')).
      { split; [apply Z.div_pos; lia|]. apply Z.div_lt_upper_bound; [lia|]. cbn [size]. nia. }
      destruct (IH (p / n) Hq) as [IB IF]. split.
      * constructor; [apply Z.mod_pos_bound; lia | exact IB].
      * rewrite flat_cons, IF. pose proof (Z.div_mod p n ltac:(lia)). lia.
Qed.

Lemma unflat_flat sh idx : Forall (fun n => 0 < n) sh -> in_box0 sh idx -> unflat sh (flat sh idx) = idx.
Proof.
  intros Hpos Hb. pose proof (flat_bounds sh idx Hb) as Hr.
  destruct (flat_surj sh Hpos _ Hr) as [Hb2 Hf]. apply (flat_inj sh); assumption.
Qed.

Lemma box1_box0 sh idx : box1 sh idx -> in_box0 sh (map (fun k => k - 1) idx).
Proof. unfold box1, in_box0. induction 1 as [|n k sh idx Hk _ IH]; cbn [map]; constructor; [lia | exact IH]. Qed.

Lemma box0_box1 sh l : in_box0 sh l -> box1 sh (map (Z.add 1) l).
Proof. unfold box1, in_box0. induction 1 as [|n d sh l Hd _ IH]; cbn [map]; constructor; [lia | exact IH]. Qed.

Lemma map_succ_pred idx : map (Z.add 1) (map (fun k => k - 1) idx) = idx.
Proof. induction idx as [|k r IH]; cbn [map]; [reflexivity|]. rewrite IH. f_equal. lia. Qed.

(** Fortran a(i1,..,ik) (1-based, column-major) <-> C a[flat] : a bijection between the declared box and [0, size) *)
Theorem index_map_bijection sh : Forall (fun n => 0 < n) sh ->
  (forall idx, box1 sh idx -> 0 <= flat sh (map (fun k => k - 1) idx) < size sh) /\
  (forall i1 i2, box1 sh i1 -> box1 sh i2 ->
     flat sh (map (fun k => k - 1) i1) = flat sh (map (fun k => k - 1) i2) -> i1 = i2) /\
  (forall p, 0 <= p < size sh -> exists idx, box1 sh idx /\ flat sh (map (fun k => k - 1) idx) = p).
Proof.
  intros Hpos. split; [|split].
  - intros idx Hb. apply flat_bounds, box1_box0, Hb.
  - intros i1 i2 H1 H2 Hf. apply (flat_inj sh _ _ (box1_box0 _ _ H1) (box1_box0 _ _ H2)) in Hf.
    rewrite <- (map_succ_pred i1), <- (map_succ_pred i2), Hf. reflexivity.
  - intros p Hp. destruct (flat_surj sh Hpos p Hp) as [Hb Hf].
    exists (map (Z.add 1) (unflat sh p)). split.
    + apply box0_box1, Hb.
    + assert (E : map (fun k => k - 1) (map (Z.add 1) (unflat sh p)) = unflat sh p).
      { clear. induction (unflat sh p) as [|k r IH]; cbn [map]; [reflexivity|]. rewrite IH. f_equal. lia. }
      rewrite E. exact Hf.
Qed.

Lemma shift_cenv_rel byref decl rho : shapes_pos decl -> crho_ok decl rho ->
  c_env_rel byref decl rho (shift_cenv byref decl rho).
Proof.
  intros Hpos Hok. repeat split.
  - intros x Hx. cbn. rewrite Hx. reflexivity.
  - intros x Hx. cbn. rewrite Hx. reflexivity.
  - intros a idx v Ha Hv. destruct (is_arr_assoc decl a Ha) as (sh & Hsh).
    exists sh. split; [exact Hsh|]. pose proof (Hok a sh idx v Hsh Hv) as Hbox. split; [exact Hbox|].
    cbn. unfold shape_of in *. rewrite Hsh.
    pose proof (flat_bounds sh _ (box1_box0 _ _ Hbox)) as Hr.
    unfold in_range. assert (E : (0 <=? flat sh (map (fun k => k - 1) idx)) && (flat sh (map (fun k => k - 1) idx) <? size sh) = true) by lia.
    rewrite E, (unflat_flat sh _ (Hpos a sh Hsh) (box1_box0 _ _ Hbox)), map_succ_pred. exact Hv.
Qed.

Theorem cexpr_preserves_on_class byref decl rho e v :
  shapes_pos decl -> crho_ok decl rho -> arrs_ok (map fst decl) = true ->
  c_int_class (map fst decl) e = true -> evalZ rho e = Some v ->
  evalC (shift_cenv byref decl rho) (c_model byref decl e) = Some (CI v).
Proof.
  intros Hpos Hr Hok Hc Hv.
  exact (cexpr_preserves byref decl rho _ (shift_cenv_rel byref decl rho Hpos Hr) Hok Hpos e v Hc Hv).
Qed.

Theorem ccond_preserves_on_class byref decl rho e b :
  shapes_pos decl -> crho_ok decl rho -> arrs_ok (map fst decl) = true ->
  c_class_b (map fst decl) e = true -> evalB rho e = Some b ->
  evalC (shift_cenv byref decl rho) (c_model byref decl e) = Some (b2c b).
Proof.
  intros Hpos Hr Hok Hc Hv.
  exact (ccond_preserves byref decl rho _ (shift_cenv_rel byref decl rho Hpos Hr) Hok Hpos e b Hc Hv).
Qed.

(** the generated subscript: reading a(i1,..,ik) in Fortran = reading a[i1-1 + n1*(i2-1 + ...)] in C *)
Theorem c_index_map_correct byref decl rho a idx ks v :
  shapes_pos decl -> crho_ok decl rho -> arrs_ok (map fst decl) = true ->
  is_arr (map fst decl) a = true ->
  forallb (c_int_class (map fst decl)) idx = true -> forallb (no_arr (map fst decl)) idx = true ->
  omap_list (evalZ rho) idx = Some ks -> ev_fun rho a ks = Some v ->
  evalC (shift_cenv byref decl rho) (c_model byref decl (ECall a idx)) = Some (CI v).
Proof.
  intros Hpos Hr Hok Ha Hc Hn Hk Hv.
  apply cexpr_preserves_on_class; try assumption.
  - cbn [c_int_class]. rewrite Hc, Ha, Hn. reflexivity.
  - rewrite evalZ_call, Hk. cbn [obind]. rewrite (not_intrinsic (map fst decl) a Hok Ha). exact Hv.
Qed.

Definition cex_decl : list (string * list Z) := [("a"%string, [4]); ("b"%string, [4; 3])].
Definition cex_rho : env := ex_rho.
(** a(i + 1) - mod(b(n, 2) * m, 3) / 2 + (-n) * r   with r passed by reference *)
Definition cex_expr : expr :=
  ESum false [ECall "a" [ESum false [EVar "i"; EInt 1]];
              EProd false [EPy (-1); EQuot false (ECall "mod" [EProd false [ECall "b" [EVar "n"; EInt 2]; EVar "m"]; EInt 3]) (EInt 2)];
              EProd false [EProd true [EPy (-1); EVar "n"]; EVar "r"]].

Lemma cex_shapes_pos : shapes_pos cex_decl.
Proof.
  intros a sh H. unfold cex_decl, shape_of in H. cbn [assoc_s] in H.
  destruct (String.eqb "a" a); [injection H as <-; repeat constructor|].
  destruct (String.eqb "b" a); [injection H as <-; repeat constructor | discriminate].
Qed.

Lemma cex_rho_ok : crho_ok cex_decl cex_rho.
Proof.
  intros a sh idx v Hsh Hv.
  assert (Hb : rho_ok ex_decl ex_rho) by exact ex_rho_ok.
  unfold cex_decl, shape_of in Hsh. cbn [assoc_s] in Hsh.
  destruct (String.eqb "a" a) eqn:Ea.
  - injection Hsh as <-. specialize (Hb a [(1, 4)] idx v). unfold ex_decl in Hb. cbn [assoc_s] in Hb. rewrite Ea in Hb.
    specialize (Hb eq_refl Hv). unfold in_box in Hb. unfold box1.
    inversion Hb as [|? k ? r Hk Hr]; subst. inversion Hr; subst. cbn in Hk. clear - Hk. repeat constructor; cbn; lia.
  - destruct (String.eqb "b" a) eqn:Eb; [|discriminate]. injection Hsh as <-.
    specialize (Hb a [(1, 4); (1, 3)] idx v). unfold ex_decl in Hb. cbn [assoc_s] in Hb. rewrite Ea, Eb in Hb.
    specialize (Hb eq_refl Hv). unfold in_box in Hb. unfold box1.
    inversion Hb as [|? k ? r Hk Hr]; subst. inversion Hr as [|? k2 ? r2 Hk2 Hr2]; subst. inversion Hr2; subst.
    cbn in Hk, Hk2. clear - Hk Hk2. repeat constructor; cbn; lia.
Qed.

Lemma c_class_inhabited :
  shapes_pos cex_decl /\ crho_ok cex_decl cex_rho /\ arrs_ok (map fst cex_decl) = true /\
  c_int_class (map fst cex_decl) cex_expr = true /\ evalZ cex_rho cex_expr = Some 31 /\
  evalC (shift_cenv ["r"%string] cex_decl cex_rho) (c_model ["r"%string] cex_decl cex_expr) = Some (CI 31).
Proof.
  split; [exact cex_shapes_pos|]. split; [exact cex_rho_ok|]. repeat split.
Qed.

Definition ce_nm (n m : Z) : cenv := cenv_of [("n"%string, n); ("m"%string, m)] [] [].
Definition rho_nm (n m : Z) : env := fenv_of [("n"%string, n); ("m"%string, m)] [].

(** abs -> fabs makes the division a double division: abs(n)/2*2 is 2 in Fortran (n = 3), 3 after conversion to int in C *)
Lemma c_double_division_refuted :
  exists e, evalZ (rho_nm 3 0) e = Some 2 /\
    exists cv, evalC (ce_nm 3 0) (c_model [] [] e) = Some cv /\ c_to_int cv = 3.
Proof.
  exists (EProd false [EQuot false (ECall "abs" [EVar "n"]) (EInt 2); EInt 2]). split; [reflexivity|].
  eexists. split; reflexivity.
Qed.

(** mod is printed as (a)%(b) WITHOUT enclosing parentheses: as a factor, n*mod(m, 3) reads (n*m)%3.
    [mod_factor_text] is the token list Loki prints, typed in by hand: that it is what CCodegen emits for this
    expression is established by the correspondence of the check, not in Coq ([c_model] itself gives the Fortran value) *)
Definition mod_factor_text : list ctok :=
  [KId "n"; KStar; KLP; KId "m"; KRP; KPct; KLP; KInt 3; KRP].
Lemma c_mod_factor_refuted :
  evalZ (rho_nm 2 5) (EProd false [EVar "n"; ECall "mod" [EVar "m"; EInt 3]]) = Some 4 /\
  exists t, c_parse mod_factor_text = Some t /\ evalC (ce_nm 2 5) t = Some (CI 1).
Proof. split; [reflexivity|]. eexists. split; reflexivity. Qed.

(** C06's F1i reached from real source (a module parameter hf = 7/2 inlined into n*hf): the text C06's model of
    CCodeMapper prints for Product(n, Quotient(7, 2)) reads (n*7)/2 *)
Lemma c_print_refuted_prod_quot :
  let e := EProd false [EVar "n"; EQuot false (EInt 7) (EInt 2)] in
  evalZ (rho_nm 3 0) e = Some 9 /\
  exists t, c_parse (map tok_c (M_C06.print_c e 0)) = Some t /\ evalC (ce_nm 3 0) t = Some (CI 10).
Proof. split; [reflexivity|]. eexists. split; reflexivity. Qed.

(** a subscript inside a subscript is neither shifted nor flattened: a(b(n)) becomes a[b[n] - 1] *)
Definition cnest_decl : list (string * list Z) := [("a"%string, [4]); ("b"%string, [4])].
Definition cnest_env : cenv :=
  cenv_of [("n"%string, 1)] [] [("a"%string, [(0, 10); (1, 20); (2, 30); (3, 40)]); ("b"%string, [(0, 2); (1, 3); (2, 4); (3, 1)])].
Lemma c_nested_index_refuted :
  exists e, evalZ nest_rho e = Some 20 /\ evalC cnest_env (c_model [] cnest_decl e) = Some (CI 30).
Proof. exists (ECall "a" [ECall "b" [EVar "n"]]). split; reflexivity. Qed.
