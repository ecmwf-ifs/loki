(** C35 — the wider class: the double-valued intrinsics (abs -> fabs, 2-argument min/max -> fmin/fmax, literal powers ->
    pow) outside of divisions, [mod] and subscripts.  The C value is then an int or a double that is (exactly) the
    Fortran integer, so the conversion on assignment gives the Fortran value. *)
From Coq Require Import ZArith QArith List Bool String Lia ZifyBool.
From LV Require Import Base.Expr Base.MiniF Base.ListFacts Base.ExprFacts models.M_C36 models.M_C35 proofs.P_C36_base proofs.P_C36_sem proofs.P_C36 proofs.P_C35_sem.
Import ListNotations.
Open Scope Z_scope.

(** the C value [cv] is the integer [v] (as an int, or as a double equal to it) *)
Definition c_is (v : Z) (cv : cval) : Prop := match cv with CI z => z = v | CD q => q == inject_Z v end.

Lemma cq_is v cv : c_is v cv -> cq cv == inject_Z v.
Proof. destruct cv; cbn; [intros ->; reflexivity | auto]. Qed.

Lemma c_to_int_is v cv : c_is v cv -> c_to_int cv = v.
Proof.
  destruct cv as [z|q]; cbn; [auto|]. intros H. unfold Qeq in H. cbn in H. rewrite Z.mul_1_r in H. rewrite H.
  apply Z.quot_mul. discriminate.
Qed.

(** the double branch of [c_arith], on doubles that are integers *)
Lemma q_arith_is op a b qa qb : (op = OAdd \/ op = OSub \/ op = OMul) -> qa == inject_Z a -> qb == inject_Z b ->
  exists z,
    match op with
    | OAdd => Some (CD (Qred (qa + qb))) | OSub => Some (CD (Qred (qa - qb))) | OMul => Some (CD (Qred (qa * qb)))
    | ODiv => if Qnum qb =? 0 then None else Some (CD (Qred (qa / qb)))
    | _ => None
    end = Some z /\ c_is (match op with OAdd => a + b | OSub => a - b | _ => a * b end) z.
Proof.
  intros Hop Qa Qb. destruct Hop as [-> | [-> | ->]]; eexists; (split; [reflexivity|]); cbn [c_is]; rewrite Qred_correct, Qa, Qb.
  - now rewrite inject_Z_plus.
  - unfold Zminus. now rewrite inject_Z_plus, inject_Z_opp.
  - now rewrite inject_Z_mult.
Qed.

Lemma c_arith_is op a b x y : (op = OAdd \/ op = OSub \/ op = OMul) -> c_is a x -> c_is b y ->
  exists z, c_arith op x y = Some z /\
            c_is (match op with OAdd => a + b | OSub => a - b | _ => a * b end) z.
Proof.
  intros Hop Hx Hy.
  destruct x as [xa|xq], y as [yb|yq]; try exact (q_arith_is op a b _ _ Hop (cq_is _ _ Hx) (cq_is _ _ Hy)).
  cbn [c_is] in Hx, Hy. subst. destruct Hop as [-> | [-> | ->]]; eexists; split; reflexivity.
Qed.

Lemma c_neg_is a x : c_is a x -> c_is (- a) (c_neg x).
Proof. destruct x; cbn [c_neg c_is]; [intros ->; reflexivity|]. intros H. rewrite Qred_correct, H, inject_Z_opp. reflexivity. Qed.

Lemma Qcompare_inject a b : Qcompare (inject_Z a) (inject_Z b) = Z.compare a b.
Proof. unfold Qcompare. cbn. rewrite !Z.mul_1_r. reflexivity. Qed.

Lemma cmp_q_inject op a b : cmp_q op (inject_Z a) (inject_Z b) = cmp_z op a b.
Proof.
  unfold cmp_q, cmp_z. rewrite Qcompare_inject.
  destruct op; destruct (Z.compare_spec a b); try reflexivity; try lia;
    repeat match goal with |- context [?x =? ?y] => destruct (Z.eqb_spec x y) | |- context [?x <? ?y] => destruct (Z.ltb_spec x y)
                      | |- context [?x <=? ?y] => destruct (Z.leb_spec x y) end; cbn; try reflexivity; try lia.
Qed.

Lemma cmp_q_is op a b x y : c_is a x -> c_is b y -> cmp_q op (cq x) (cq y) = cmp_z op a b.
Proof.
  intros Hx Hy. rewrite <- cmp_q_inject. unfold cmp_q.
  rewrite (Qcompare_comp _ _ (cq_is _ _ Hx) _ _ (cq_is _ _ Hy)). reflexivity.
Qed.

Lemma c_cmp_is op a b x y : c_is a x -> c_is b y -> c_cmp op x y = b2c (cmp_z op a b).
Proof.
  intros Hx Hy. pose proof (cmp_q_is op a b x y Hx Hy) as H.
  destruct x, y; cbn [c_cmp]; try (rewrite H; reflexivity). cbn in Hx, Hy. subst. reflexivity.
Qed.

Lemma c_if_is a b ca cb u v cu cv : c_is a ca -> c_is b cb -> c_is u cu -> c_is v cv ->
  c_is (if a <? b then u else v) (CD (if cmp_q Clt (cq ca) (cq cb) then cq cu else cq cv)).
Proof.
  intros Ha Hb Hu Hv. cbn [c_is]. rewrite (cmp_q_is Clt a b ca cb Ha Hb). cbn [cmp_z]. destruct (a <? b); now apply cq_is.
Qed.

(** [fmin] / [fmax] as [c_builtin] computes them *)
Lemma c_min_is a b ca cb : c_is a ca -> c_is b cb ->
  c_is (Z.min a b) (CD (if cmp_q Clt (cq cb) (cq ca) then cq cb else cq ca)).
Proof.
  intros Ha Hb. replace (Z.min a b) with (if b <? a then b else a) by (destruct (Z.ltb_spec b a); lia). now apply c_if_is.
Qed.

Lemma c_max_is a b ca cb : c_is a ca -> c_is b cb ->
  c_is (Z.max a b) (CD (if cmp_q Clt (cq ca) (cq cb) then cq cb else cq ca)).
Proof.
  intros Ha Hb. replace (Z.max a b) with (if a <? b then b else a) by (destruct (Z.ltb_spec a b); lia). now apply c_if_is.
Qed.

Lemma dbl_cases f n : dbl_intrinsic f n = true ->
  (f = "min"%string /\ n = 2%nat) \/ (f = "max"%string /\ n = 2%nat) \/ (f = "abs"%string /\ n = 1%nat).
Proof.
  unfold dbl_intrinsic. intros H. apply orb_prop in H as [H|H]; apply andb_prop in H as [Hf Hn]; apply Nat.eqb_eq in Hn.
  - apply orb_prop in Hf as [Hf|Hf]; apply String.eqb_eq in Hf; auto.
  - apply String.eqb_eq in Hf. auto.
Qed.

Lemma q_abs_is a q : q == inject_Z a -> q_abs q == inject_Z (Z.abs a).
Proof.
  unfold Qeq, q_abs. cbn. rewrite !Z.mul_1_r. intros H. rewrite H, Z.abs_mul. f_equal.
Qed.

Lemma qpow_is a q n : q == inject_Z a -> qpow_pos q n == inject_Z (a ^ Z.of_nat n).
Proof.
  intros H. induction n as [|n IH].
  - reflexivity.
  - cbn [qpow_pos]. rewrite Nat2Z.inj_succ, Z.pow_succ_r by lia. rewrite inject_Z_mult, IH, H. reflexivity.
Qed.

Section CExt.
  Variable byref : list string.
  Variable decl : list (string * list Z).
  Let arrs := map fst decl.
  Variables (rho : env) (ce : cenv).
  Hypothesis Hrel : c_env_rel byref decl rho ce.
  Hypothesis Hok : arrs_ok arrs = true.
  Hypothesis Hpos : forall a sh, shape_of decl a = Some sh -> Forall (fun n => 0 < n) sh.
  (** no array is called like one of the C functions *)
  Hypothesis Hcn : forallb (fun a => negb (existsb (String.eqb a) ["fmin"; "fmax"; "fabs"]%string)) arrs = true.

  Notation ECv := (EC byref ce).

  Lemma c_name_not_arr f : existsb (String.eqb f) ["fmin"; "fmax"; "fabs"]%string = true -> is_arr arrs f = false.
  Proof.
    intros Hf. destruct (is_arr arrs f) eqn:E; [|reflexivity].
    unfold is_arr in E. apply existsb_exists in E. destruct E as (a & Hin & Heq). apply String.eqb_eq in Heq. subst a.
    rewrite forallb_forall in Hcn. specialize (Hcn f Hin). rewrite Hf in Hcn. discriminate.
  Qed.

  Definition ECis (p : pyexpr) (v : Z) : Prop := exists cv, ECv p = Some cv /\ c_is v cv.

  Lemma ECis_int p v : ECv p = Some (CI v) -> ECis p v.
  Proof. intros H. exists (CI v). split; [exact H | reflexivity]. Qed.

  Lemma ECis_bin op cop a b x y :
    (cop = OAdd \/ cop = OSub \/ cop = OMul) ->
    py2c byref (PBin op a b) = CBin cop (py2c byref a) (py2c byref b) ->
    ECis a x -> ECis b y ->
    ECis (PBin op a b) (match cop with OAdd => x + y | OSub => x - y | _ => x * y end).
  Proof.
    intros Hop E (cx & Ha & Hx) (cy & Hb & Hy).
    destruct (c_arith_is cop x y cx cy Hop Hx Hy) as (z & Hz & Hiz).
    exists z. split; [|exact Hiz]. unfold EC in *. rewrite E.
    destruct Hop as [-> | [-> | ->]]; cbn [evalC]; rewrite Ha, Hb; exact Hz.
  Qed.

  Lemma ECis_neg a x : ECis a x -> ECis (PNeg a) (- x).
  Proof.
    intros (cx & Ha & Hx). exists (c_neg cx). split; [|apply c_neg_is, Hx].
    unfold EC in *. cbn [py2c evalC]. rewrite Ha. reflexivity.
  Qed.

  Lemma ECis_arith : reads_arith ECis.
  Proof.
    split.
    - intros a b x y. exact (ECis_bin BAdd OAdd a b x y (or_introl eq_refl) eq_refl).
    - intros a b x y. exact (ECis_bin BSub OSub a b x y (or_intror (or_introl eq_refl)) eq_refl).
    - intros a b x y. exact (ECis_bin BMul OMul a b x y (or_intror (or_intror eq_refl)) eq_refl).
    - exact ECis_neg.
    - intros v. apply ECis_int, (ra_lit _ (ECi_arith byref ce)).
  Qed.

  Lemma facts_gfacts e v : facts byref decl ce e v -> gfacts ECis arrs e v.
  Proof. intros [HA HB]. split; [apply ECis_int, HA | intros Ht; apply ECis_int, (HB Ht)]. Qed.

  (** [fmin], [fmax], [fabs] on arguments that are the Fortran integers *)
  Lemma ECis_dcall f ps vs w : dbl_intrinsic f (List.length vs) = true -> Forall2 ECis ps vs ->
    match intrinsic f vs with Some r => r | None => ev_fun rho f vs end = Some w ->
    is_arr arrs (rename_c f) = false /\ ECis (PCall (rename_py (rename_c f)) ps) w.
  Proof.
    intros Hk HP Hv. apply dbl_cases in Hk as [[-> Hn]|[[-> Hn]|[-> Hn]]];
      (destruct vs as [|x1 [|x2 [|x3 r]]]; try discriminate Hn); cbn in Hv; injection Hv as <-;
      inversion HP as [|p1 ? ? ? (c1 & H1 & I1) HP1]; subst.
    1, 2: inversion HP1 as [|p2 ? ? ? (c2 & H2 & I2) HP2]; subst; inversion HP2; subst.
    3: inversion HP1; subst.
    - change (rename_c "min") with "fmin"%string. change (rename_py "fmin") with "fmin"%string.
      split; [exact (c_name_not_arr "fmin" eq_refl)|].
      exists (CD (if cmp_q Clt (cq c2) (cq c1) then cq c2 else cq c1)). split; [|exact (c_min_is _ _ _ _ I1 I2)].
      unfold EC in *. cbn [map py2c String.eqb Ascii.eqb Bool.eqb c_fname evalC]. now rewrite H1, H2.
    - change (rename_c "max") with "fmax"%string. change (rename_py "fmax") with "fmax"%string.
      split; [exact (c_name_not_arr "fmax" eq_refl)|].
      exists (CD (if cmp_q Clt (cq c1) (cq c2) then cq c2 else cq c1)). split; [|exact (c_max_is _ _ _ _ I1 I2)].
      unfold EC in *. cbn [map py2c String.eqb Ascii.eqb Bool.eqb c_fname evalC]. now rewrite H1, H2.
    - change (rename_c "abs") with "fabs"%string. change (rename_py "fabs") with "fabs"%string.
      split; [exact (c_name_not_arr "fabs" eq_refl)|].
      exists (CD (q_abs (cq c1))). split; [|apply q_abs_is, cq_is, I1].
      unfold EC in *. cbn [map py2c String.eqb Ascii.eqb Bool.eqb c_fname evalC]. now rewrite H1.
  Qed.

  Definition Pd : expr -> Prop := holds ECis arrs rho (c_ext_class arrs) (c_pre decl).

  Lemma int_class_Pd : forall e, c_int_class arrs e = true -> Pd e.
  Proof. intros e Hi _ v Hv. apply facts_gfacts. exact (Pc_all byref decl rho ce Hrel Hok Hpos e Hi v Hv). Qed.

  Lemma Pd_all : forall e, Pd e.
  Proof.
    induction e using expr_ind'; unfold Pd; intros Hc w Hv; try discriminate.
    - apply (int_class_Pd (EInt v) eq_refl Hc w Hv).
    - apply (int_class_Pd (EPy v) eq_refl Hc w Hv).
    - apply (int_class_Pd (EVar x) eq_refl Hc w Hv).
    - exact (holds_sum ECis ECis_arith arrs rho (c_ext_class arrs) (c_pre decl) p cs w H Hc Hv).
    - exact (holds_prod ECis ECis_arith arrs rho (c_ext_class arrs) (c_pre decl) (fun c _ => c_pre_m1 decl c) p cs w H Hc Hv).
    - cbn [c_ext_class] in Hc.
      apply (int_class_Pd (EQuot p e1 e2)); [cbn [c_int_class]; exact Hc | cbn [c_ext_class]; exact Hc | exact Hv].
    - cbn [c_ext_class] in Hc. destruct e2; try discriminate.
      apply andb_prop in Hc. destruct Hc as [Hc Hn].
      cbn [evalZ] in Hv. destruct (evalZ rho e1) as [a|] eqn:Ea; [|discriminate]. cbn [obind] in Hv.
      unfold pow_z in Hv. rewrite Hn in Hv. injection Hv as <-.
      split; [|discriminate]. cbn [c_pre py_ast].
      destruct (IHe1 Hc a Ea) as [(cv & HA & His) _].
      exists (CD (Qred (qpow_pos (cq cv) (Z.to_nat v)))). split.
      + unfold EC in *. cbn [py2c evalC]. rewrite HA.
        pose proof (ra_lit _ (ECi_arith byref ce) v) as Hl. unfold ECi, EC in Hl. rewrite Hl.
        cbn [c_builtin String.eqb Ascii.eqb Bool.eqb]. rewrite Hn. reflexivity.
      + cbn [c_is]. rewrite Qred_correct, (qpow_is a _ _ (cq_is _ _ His)). rewrite Z2Nat.id by (apply Z.leb_le; exact Hn). reflexivity.
    - (* a call: array reads and [mod] are in the integer class, the rest is fmin / fmax / fabs *)
      cbn [c_ext_class] in Hc.
      destruct (is_arr arrs f || String.eqb f "mod") eqn:Eam.
      { apply (int_class_Pd (ECall f args) Hc); [cbn [c_ext_class]; rewrite Eam; exact Hc | exact Hv]. }
      apply orb_false_elim in Eam. destruct Eam as [Ea Em].
      apply andb_prop in Hc. destruct Hc as [Hk Hca].
      rewrite evalZ_call in Hv. destruct (omap_list (evalZ rho) args) as [vs|] eqn:E; [|discriminate].
      cbn [obind] in Hv. apply omap_list_some in E.
      pose proof (gfacts_values _ _ _ _ (holds_children ECis arrs rho _ _ args vs H Hca E)) as HP.
      rewrite c_pre_call, (not_arr_assoc decl f Ea), Em. cbn [andb].
      split; [|discriminate]. cbn [py_ast].
      rewrite (Forall2_length _ _ _ E) in Hk. destruct (ECis_dcall f _ vs w Hk HP Hv) as [Hna Hcall].
      rewrite Hna. exact Hcall.
  Qed.

  Theorem cexpr_preserves_with_doubles e v :
    c_ext_class arrs e = true -> evalZ rho e = Some v ->
    exists cv, evalC ce (c_model byref decl e) = Some cv /\ c_to_int cv = v.
  Proof.
    intros Hc Hv. destruct (proj1 (Pd_all e Hc v Hv)) as (cv & H & I).
    exists cv. split; [exact H | apply c_to_int_is, I].
  Qed.

  Definition Pdb (e : expr) : Prop :=
    c_ext_class_b arrs e = true -> forall b, evalB rho e = Some b -> ECv (py_ast arrs (c_pre decl e) false) = Some (b2c b).

  Lemma Pdb_chain (k : bool) cs b : Forall Pdb cs -> (2 <=? List.length cs)%nat && forallb (c_ext_class_b arrs) cs = true ->
    obind (omap_list (evalB rho) cs) (fun vs => Some (if k then andl vs else orl vs)) = Some b ->
    ECv (boolop_ast k (map (fun c => py_ast arrs c false) (map (c_pre decl) cs))) = Some (b2c b).
  Proof.
    intros HF Hc Hv. apply andb_prop in Hc as [Hn Hc].
    destruct (omap_list (evalB rho) cs) as [bs|] eqn:E; [|discriminate]. injection Hv as <-. apply omap_list_some in E.
    rewrite map_map. apply boolop_c_eval; [|destruct cs; [discriminate Hn|discriminate]].
    exact (Forall2_class (c_ext_class_b arrs) _ (fun p x => ECv p = Some (b2c x))
             (fun c => py_ast arrs (c_pre decl c) false) cs bs HF Hc E).
  Qed.

  Lemma Pdb_all : forall e, Pdb e.
  Proof.
    induction e using expr_ind'; unfold Pdb; intros Hc b0 Hv; try discriminate.
    - cbn in Hv. injection Hv as <-. reflexivity.
    - cbn [c_ext_class_b] in Hc. apply andb_prop in Hc. destruct Hc as [Hc1 Hc2].
      cbn [evalB] in Hv. destruct (evalZ rho e1) as [x|] eqn:E1; [|discriminate].
      destruct (evalZ rho e2) as [y|] eqn:E2; [|discriminate]. cbn [obind] in Hv. injection Hv as <-.
      destruct (proj1 (Pd_all e1 Hc1 x E1)) as (c1 & H1 & I1). destruct (proj1 (Pd_all e2 Hc2 y E2)) as (c2 & H2 & I2).
      unfold EC in *. cbn [c_pre py_ast py2c evalC]. rewrite H1, H2. rewrite (c_cmp_is op x y c1 c2 I1 I2). reflexivity.
    - rewrite evalB_and in Hv. exact (Pdb_chain true cs b0 H Hc Hv).
    - rewrite evalB_or in Hv. exact (Pdb_chain false cs b0 H Hc Hv).
    - cbn [c_ext_class_b] in Hc. cbn [evalB] in Hv.
      destruct (evalB rho e) as [x|] eqn:E1; [|discriminate]. cbn [obind] in Hv. injection Hv as <-.
      unfold EC. cbn [c_pre py_ast py2c evalC]. pose proof (IHe Hc x E1) as H1. unfold EC in H1. rewrite H1.
      rewrite truthy_b2c. reflexivity.
  Qed.

  Theorem ccond_preserves_with_doubles e b :
    c_ext_class_b arrs e = true -> evalB rho e = Some b -> evalC ce (c_model byref decl e) = Some (b2c b).
  Proof. intros Hc Hv. exact (Pdb_all e Hc b Hv). Qed.
End CExt.
