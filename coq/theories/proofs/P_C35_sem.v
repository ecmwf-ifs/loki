(** C35 — the MiniC value of the modelled C expression equals the Fortran value on the integer-typed class. *)
From Coq Require Import ZArith QArith List Bool String Lia ZifyBool.
From LV Require Import Base.Expr Base.MiniF Base.ListFacts Base.ExprFacts models.M_C36 models.M_C35 proofs.P_C36_base proofs.P_C36_sem proofs.P_C36.
Import ListNotations.
Open Scope Z_scope.

Lemma assoc_is_arr_gen {A} (l : list (string * A)) a v : assoc_s l a = Some v -> is_arr (map fst l) a = true.
Proof.
  unfold is_arr. induction l as [|[k w] r IH]; cbn [assoc_s map fst existsb]; [discriminate|].
  destruct (String.eqb k a) eqn:E.
  - intros _. rewrite String.eqb_sym, E. reflexivity.
  - intros H. rewrite (IH H). apply orb_true_r.
Qed.

Section CPreservation.
  Variable byref : list string.
  Variable decl : list (string * list Z).
  Let arrs := map fst decl.
  Variables (rho : env) (ce : cenv).
  Hypothesis Hrel : c_env_rel byref decl rho ce.
  Hypothesis Hok : arrs_ok arrs = true.
  (** every declared extent is positive: a factor [n] of the flattened subscript is then not [-1], which
      [prod_ast] would print as a unary minus ([facts_scale]) *)
  Hypothesis Hpos : forall a sh, shape_of decl a = Some sh -> Forall (fun n => 0 < n) sh.

  (** value of the C reading of a Python-side structural AST *)
  Definition EC (p : pyexpr) : option cval := evalC ce (py2c byref p).

  Lemma EC_bin op cop a b x y :
    py2c byref (PBin op a b) = CBin cop (py2c byref a) (py2c byref b) ->
    cop <> OAnd -> cop <> OOr ->
    EC a = Some x -> EC b = Some y -> EC (PBin op a b) = c_arith cop x y.
  Proof.
    unfold EC. intros E Hn1 Hn2 Ha Hb. rewrite E. destruct cop; try congruence; cbn [evalC]; rewrite Ha, Hb; reflexivity.
  Qed.

  (** the integer reading: [p] evaluates to the C int [x] *)
  Definition ECi (p : pyexpr) (x : Z) : Prop := EC p = Some (CI x).

  Lemma ECi_arith : reads_arith ECi.
  Proof.
    split; unfold ECi, EC.
    - intros a b x y Ha Hb. cbn [py2c evalC]. now rewrite Ha, Hb.
    - intros a b x y Ha Hb. cbn [py2c evalC]. now rewrite Ha, Hb.
    - intros a b x y Ha Hb. cbn [py2c evalC]. now rewrite Ha, Hb.
    - intros a x Ha. cbn [py2c evalC]. now rewrite Ha.
    - intros v. unfold lit_ast. destruct (v <? 0); cbn; [now rewrite Z.opp_involutive|reflexivity].
  Qed.

  Lemma ECi_num0 x : ECi (PNum 0) x -> x = 0.
  Proof. unfold ECi, EC. cbn. congruence. Qed.
  Lemma ECi_bad x : ~ ECi PBad x.
  Proof. unfold ECi, EC. cbn. discriminate. Qed.

  (** the two facts the induction carries for a tree: its value, and (as a [-] term of a Sum) the value of its tail *)
  Definition facts (e : expr) (v : Z) : Prop :=
    EC (py_ast arrs e false) = Some (CI v) /\
    (term_neg e = true -> EC (py_ast arrs e true) = Some (CI (- v))).

  Lemma facts_scale n e v : n <> -1 -> facts e v -> facts (EProd false [EInt n; e]) (n * v).
  Proof.
    intros Hn [HA _]. split; [|discriminate].
    cbn [py_ast map andb]. cbn [prod_ast is_m1]. destruct (Z.eqb_spec n (-1)) as [E|E]; [contradiction|].
    exact (ra_mul ECi ECi_arith _ _ n v (ra_lit ECi ECi_arith n) HA).
  Qed.

  Lemma facts_flat_tree : forall ds sh ks,
    Forall2 facts ds ks -> Forall (fun n => 0 < n) sh -> ds <> [] ->
    facts (flat_tree sh ds) (flat sh ks).
  Proof using Hpos.
    induction ds as [|d r IH]; intros sh ks HF Hsh Hne; [congruence|].
    inversion HF as [|? k ? kr Hd Hr]; subst.
    destruct r as [|d2 r'].
    - inversion Hr; subst. destruct sh; exact Hd.
    - destruct sh as [|n sh']; [inversion Hr; subst; exact Hd|].
      inversion Hsh as [|? ? Hn Hsh']; subst.
      inversion Hr as [|? k2 ? kr' Hd2 Hr']; subst.
      change (flat_tree (n :: sh') (d :: d2 :: r')) with (ESum false [d; EProd false [EInt n; flat_tree sh' (d2 :: r')]]).
      change (flat (n :: sh') (k :: k2 :: kr')) with (k + n * flat sh' (k2 :: kr')).
      apply (gfacts_sum2 ECi ECi_arith arrs); [exact Hd|]. apply facts_scale; [intros ->; discriminate Hn|]. apply IH; [exact Hr | exact Hsh' | discriminate].
  Qed.

  Lemma assoc_is_arr (a : string) sh : shape_of decl a = Some sh -> is_arr arrs a = true.
  Proof. apply assoc_is_arr_gen. Qed.

  Lemma not_arr_assoc (a : string) : is_arr arrs a = false -> shape_of decl a = None.
  Proof.
    intros H. destruct (shape_of decl a) eqn:E; [|reflexivity]. rewrite (assoc_is_arr _ _ E) in H. discriminate.
  Qed.

  Lemma c_pre_call f args :
    c_pre decl (ECall f args) =
    match shape_of decl f with
    | Some sh => ECall f [flat_tree sh (map shift_idx args)]
    | None => ECall (if String.eqb f "mod" && existsb has_dcall args then "fmod"%string else rename_c f)
                    (map (c_pre decl) args)
    end.
  Proof. reflexivity. Qed.

  Lemma arr_not_dbl f : is_arr arrs f = true -> dbl_name f = false.
  Proof.
    intros H. pose proof (arr_not_intrinsic_name arrs f Hok H) as Hn.
    unfold intrinsic_name in Hn. cbn [existsb] in Hn.
    apply orb_false_elim in Hn as [_ Hn]. apply orb_false_elim in Hn as [_ Hn]. exact Hn.
  Qed.

  (** the integer class has no double-valued intrinsic, so [mod] stays [%] *)
  Lemma int_no_dcall : forall e, c_int_class arrs e = true -> has_dcall e = false.
  Proof.
    assert (Hl : forall cs, Forall (fun e => c_int_class arrs e = true -> has_dcall e = false) cs ->
                 forallb (c_int_class arrs) cs = true -> existsb has_dcall cs = false).
    { induction 1 as [|c r Hc _ IH]; [reflexivity|]. cbn [forallb existsb]. intros H.
      apply andb_prop in H. destruct H as [H1 H2]. rewrite (Hc H1), (IH H2). reflexivity. }
    induction e using expr_ind'; cbn [c_int_class has_dcall]; intros Hc; try reflexivity; try discriminate.
    - apply andb_prop in Hc. destruct Hc as [_ Hc]. apply Hl; assumption.
    - apply andb_prop in Hc. destruct Hc as [Hc _]. apply andb_prop in Hc. destruct Hc as [_ Hc]. apply Hl; assumption.
    - apply andb_prop in Hc. destruct Hc as [H1 H2]. rewrite (IHe1 H1), (IHe2 H2). reflexivity.
    - apply andb_prop in Hc. destruct Hc as [Hca Hk]. rewrite (Hl args H Hca), orb_false_r.
      destruct (is_arr arrs f) eqn:Ea; [apply arr_not_dbl, Ea|].
      apply andb_prop in Hk. destruct Hk as [Hm _]. apply String.eqb_eq in Hm. subst f. reflexivity.
  Qed.

  Lemma c_is_py_m1_pre c : is_py_m1 (c_pre decl c) = is_py_m1 c.
  Proof. destruct c; try reflexivity. rewrite c_pre_call. destruct (shape_of decl f); reflexivity. Qed.
  Lemma c_is_m1_pre c : is_m1 (c_pre decl c) = is_m1 c.
  Proof. destruct c; try reflexivity. rewrite c_pre_call. destruct (shape_of decl f); reflexivity. Qed.
  Lemma ints_no_dcall args : forallb (c_int_class arrs) args = true -> existsb has_dcall args = false.
  Proof.
    induction args as [|a r IH]; [reflexivity|]. cbn [forallb existsb]. intros H.
    apply andb_prop in H. destruct H as [H1 H2]. rewrite (int_no_dcall a H1), (IH H2). reflexivity.
  Qed.

  (** no array reference: [c_pre] only renames intrinsics; on the integer class (only [mod]) it is the identity *)
  Lemma c_pre_id : forall e, no_arr arrs e = true -> c_int_class arrs e = true -> c_pre decl e = e.
  Proof.
    assert (Hmap : forall cs, Forall (fun e => no_arr arrs e = true -> c_int_class arrs e = true -> c_pre decl e = e) cs ->
                   forallb (no_arr arrs) cs = true -> forallb (c_int_class arrs) cs = true -> map (c_pre decl) cs = cs).
    { induction 1 as [|c r Hc _ IH]; [reflexivity|]. cbn [forallb map]. intros H1 H2.
      apply andb_prop in H1. apply andb_prop in H2. destruct H1, H2. rewrite Hc, IH by assumption. reflexivity. }
    induction e using expr_ind'; cbn [no_arr c_int_class]; intros Hn Hc; try reflexivity; try discriminate.
    - cbn [c_pre]. apply andb_prop in Hc. destruct Hc as [_ Hc]. rewrite Hmap by assumption. reflexivity.
    - cbn [c_pre]. apply andb_prop in Hc. destruct Hc as [Hc _]. apply andb_prop in Hc. destruct Hc as [_ Hc].
      rewrite Hmap by assumption. reflexivity.
    - apply andb_prop in Hn. destruct Hn as [Hn1 Hn2]. apply andb_prop in Hc. destruct Hc as [Hc1 Hc2].
      cbn [c_pre]. rewrite IHe1, IHe2 by assumption. reflexivity.
    - apply andb_prop in Hn. destruct Hn as [Hf Hn]. apply negb_true_iff in Hf.
      apply andb_prop in Hc. destruct Hc as [Hca Hk]. rewrite Hf in Hk. apply andb_prop in Hk. destruct Hk as [Hm _].
      apply String.eqb_eq in Hm. subst f.
      pose proof (ints_no_dcall args Hca) as Hd.
      rewrite c_pre_call, (not_arr_assoc _ Hf), Hd. cbn [andb]. rewrite andb_false_r. change (rename_c "mod") with "mod"%string.
      rewrite Hmap by assumption. reflexivity.
  Qed.

  Definition Pc : expr -> Prop := holds ECi arrs rho (c_int_class arrs) (c_pre decl).

  Lemma c_pre_m1 c : is_m1 (c_pre decl c) = is_m1 c /\ is_py_m1 (c_pre decl c) = is_py_m1 c.
  Proof. split; [apply c_is_m1_pre|apply c_is_py_m1_pre]. Qed.

  Lemma Pc_all : forall e, Pc e.
  Proof.
    induction e using expr_ind'; intros Hc w Hv; try discriminate.
    - cbn in Hv. injection Hv as <-. split; [apply (ra_lit ECi ECi_arith) | discriminate].
    - cbn in Hv. injection Hv as <-. split; [apply (ra_lit ECi ECi_arith) | discriminate].
    - cbn in Hv. injection Hv as <-. split; [|discriminate].
      unfold ECi, EC. cbn [c_pre py_ast py2c]. destruct Hrel as (Hval & Hptr & _).
      destruct (existsb (String.eqb x) byref) eqn:Eb; cbn [evalC].
      + rewrite (Hptr x Eb). reflexivity.
      + rewrite (Hval x Eb). reflexivity.
    - exact (holds_sum ECi ECi_arith arrs rho (c_int_class arrs) (c_pre decl) p cs w H Hc Hv).
    - exact (holds_prod ECi ECi_arith arrs rho (c_int_class arrs) (c_pre decl) (fun c _ => c_pre_m1 c) p cs w H Hc Hv).
    - cbn [c_int_class] in Hc. apply andb_prop in Hc. destruct Hc as [Hc1 Hc2].
      cbn [evalZ] in Hv. destruct (evalZ rho e1) as [a|] eqn:E1; [|discriminate].
      destruct (evalZ rho e2) as [b|] eqn:E2; [|discriminate]. cbn [obind] in Hv.
      unfold div_z in Hv. destruct (b =? 0) eqn:Eb; [discriminate|]. injection Hv as <-.
      split; [|discriminate]. cbn [c_pre py_ast].
      destruct (IHe1 Hc1 a E1) as [HA1 _]. destruct (IHe2 Hc2 b E2) as [HA2 _].
      unfold ECi, EC in *. cbn [py2c evalC]. rewrite HA1, HA2. cbn [c_arith]. rewrite Eb. reflexivity.
    - (* a call: an array read or [mod] *)
      cbn [c_int_class] in Hc. apply andb_prop in Hc. destruct Hc as [Hca Hk].
      rewrite evalZ_call in Hv. destruct (omap_list (evalZ rho) args) as [vs|] eqn:E; [|discriminate].
      cbn [obind] in Hv. apply omap_list_some in E.
      rewrite c_pre_call.
      destruct (is_arr arrs f) eqn:Ea.
      + (* [f] is an array: a read at the flattened, shifted subscript *)
        rewrite (not_intrinsic arrs f Hok Ea) in Hv.
        destruct Hrel as (_ & _ & Harr). destruct (Harr f vs w Ea Hv) as (sh & Hsh & Hbox & Hcell).
        rewrite Hsh. split; [|discriminate]. cbn [py_ast map]. rewrite Ea. unfold ECi, EC. cbn [py2c].
        pose proof (holds_shifted ECi ECi_arith arrs rho _ _ (no_arr arrs) args vs
                      c_pre_id ECi_num0 ECi_bad H Hca Hk E) as HF.
        destruct args as [|a0 ar].
        * inversion E; subst. cbn [map] in Hcell.
          assert (E0 : flat sh [] = 0) by (destruct sh; reflexivity). rewrite E0 in Hcell.
          assert (E1 : flat_tree sh [] = EInt 0) by (destruct sh; reflexivity). cbn [map]. rewrite E1.
          cbn. rewrite Hcell. reflexivity.
        * destruct (facts_flat_tree _ sh _ HF (Hpos f sh Hsh) ltac:(discriminate)) as [HA _].
          unfold EC in HA. cbn [evalC]. rewrite HA, Hcell. reflexivity.
      + (* [f] is [mod] *)
        apply andb_prop in Hk. destruct Hk as [Hm Hlen]. apply String.eqb_eq in Hm. subst f.
        pose proof (ints_no_dcall args Hca) as Hd.
        rewrite (not_arr_assoc _ Ea), Hd, andb_false_r. change (rename_c "mod") with "mod"%string. split; [|discriminate].
        pose proof (gfacts_values _ _ _ _ (holds_children ECi arrs rho _ _ args vs H Hca E)) as HP.
        cbn [py_ast]. rewrite Ea. change (rename_py "mod") with "mod"%string.
        apply Nat.eqb_eq in Hlen.
        destruct args as [|a1 [|a2 [|a3 ar]]]; cbn in Hlen; try discriminate.
        inversion E as [|? x1 ? vs1 _ E1]; subst. inversion E1 as [|? x2 ? vs2 _ E2]; subst. inversion E2; subst.
        cbn [map] in HP. inversion HP as [|? ? ? ? Hp1 HP1]; subst. inversion HP1 as [|? ? ? ? Hp2 _]; subst.
        cbn in Hv. destruct (x2 =? 0) eqn:Eb; [discriminate|]. injection Hv as <-.
        unfold ECi, EC in *. cbn [map py2c String.eqb Ascii.eqb Bool.eqb evalC]. rewrite Hp1, Hp2. cbn [c_arith]. rewrite Eb. reflexivity.
  Qed.

  Theorem cexpr_preserves e v :
    c_int_class arrs e = true -> evalZ rho e = Some v -> evalC ce (c_model byref decl e) = Some (CI v).
  Proof. intros Hc Hv. exact (proj1 (Pc_all e Hc v Hv)). Qed.

  (** * Logical expressions: && and || chains (same-operator children are spliced by the printer) *)
  Definition cop (k : bool) : cexpr -> cexpr -> cexpr := CBin (if k then OAnd else OOr).
  Definition bop (k : bool) (a b : bool) : bool := if k then a && b else a || b.

  Lemma cop_cong k a x y : evalC ce x = evalC ce y -> evalC ce (cop k a x) = evalC ce (cop k a y).
  Proof. intros H. unfold cop. destruct k; cbn [evalC]; rewrite H; reflexivity. Qed.

  Lemma truthy_b2c b : c_truthy (b2c b) = b.
  Proof. destruct b; reflexivity. Qed.

  Lemma cop_assoc k x y z : evalC ce (cop k (cop k x y) z) = evalC ce (cop k x (cop k y z)).
  Proof.
    unfold cop. destruct k; cbn [evalC];
      destruct (evalC ce x) as [vx|]; try reflexivity; destruct (c_truthy vx); cbn [b2c c_truthy Z.eqb negb]; try reflexivity;
      destruct (evalC ce y) as [vy|]; try reflexivity; destruct (c_truthy vy); cbn [b2c c_truthy Z.eqb negb]; try reflexivity;
      destruct (evalC ce z) as [vz|]; try reflexivity; rewrite truthy_b2c; reflexivity.
  Qed.

  Lemma cop_val k x y a b : evalC ce x = Some (b2c a) -> evalC ce y = Some (b2c b) ->
    evalC ce (cop k x y) = Some (b2c (bop k a b)).
  Proof.
    intros Hx Hy. unfold cop, bop. destruct k; cbn [evalC]; rewrite Hx, truthy_b2c; destruct a; cbn [andb orb]; try reflexivity;
      rewrite Hy, truthy_b2c; reflexivity.
  Qed.

  Lemma fold_cop k r : forall acc c,
    evalC ce (fold_left (cop k) r (cop k acc c)) = evalC ce (cop k acc (fold_left (cop k) r c)).
  Proof.
    induction r as [|d r IH]; intros acc c; [reflexivity|]. cbn [fold_left].
    rewrite (IH (cop k acc c) d). rewrite cop_assoc. apply cop_cong. symmetry. apply IH.
  Qed.

  Lemma py2c_boolop k c l : py2c byref (PBoolOp k (c :: l)) = fold_left (cop k) (map (py2c byref) l) (py2c byref c).
  Proof. reflexivity. Qed.

  (** folding the spliced children of one child [p] onto an accumulator = combining with [p] itself *)
  Lemma splice_fold k p acc : EC p <> None ->
    evalC ce (fold_left (cop k) (map (py2c byref) (splice k p)) acc) = evalC ce (cop k acc (py2c byref p)).
  Proof.
    intros Hp. destruct p; try reflexivity.
    cbn [splice]. destruct (Bool.eqb is_and k) eqn:E; [|reflexivity].
    apply eqb_prop in E. subst is_and. destruct cs as [|c l]; [exfalso; apply Hp; reflexivity|].
    rewrite py2c_boolop. cbn [map fold_left]. apply fold_cop.
  Qed.

  Lemma splice_head k p X : EC p <> None ->
    exists c r, map (py2c byref) (splice k p ++ X) = c :: r /\
        evalC ce (fold_left (cop k) r c) = evalC ce (fold_left (cop k) (map (py2c byref) X) (py2c byref p)).
  Proof.
    intros Hp.
    assert (Hdef : exists c r, map (py2c byref) ([p] ++ X) = c :: r /\
              evalC ce (fold_left (cop k) r c) = evalC ce (fold_left (cop k) (map (py2c byref) X) (py2c byref p))).
    { eexists _, _. split; reflexivity. }
    destruct p; try exact Hdef.
    cbn [splice]. destruct (Bool.eqb is_and k) eqn:E; [|exact Hdef].
    apply eqb_prop in E. subst is_and. destruct cs as [|c l]; [exfalso; apply Hp; reflexivity|].
    exists (py2c byref c), (map (py2c byref) (l ++ X)). split; [reflexivity|].
    rewrite py2c_boolop, map_app, fold_left_app. reflexivity.
  Qed.

  Lemma fold_cop_cong k r : forall a b, evalC ce a = evalC ce b -> evalC ce (fold_left (cop k) r a) = evalC ce (fold_left (cop k) r b).
  Proof.
    induction r as [|d r IH]; intros a b H; [exact H|]. cbn [fold_left]. apply IH.
    unfold cop. destruct k; cbn [evalC]; rewrite H; reflexivity.
  Qed.

  Lemma boolchain_fold k ps bs : Forall2 (fun p b => EC p = Some (b2c b)) ps bs ->
    forall acc a, evalC ce acc = Some (b2c a) ->
    evalC ce (fold_left (cop k) (map (py2c byref) (flat_map (splice k) ps)) acc)
    = Some (b2c (bop k a (if k then andl bs else orl bs))).
  Proof.
    induction 1 as [|p b ps bs Hp _ IH]; intros acc a Ha.
    - cbn. rewrite Ha. unfold bop. destruct k, a; reflexivity.
    - cbn [flat_map]. rewrite map_app, fold_left_app.
      assert (Hd : EC p <> None) by (rewrite Hp; discriminate).
      assert (Hin : evalC ce (fold_left (cop k) (map (py2c byref) (splice k p)) acc) = Some (b2c (bop k a b))).
      { rewrite (splice_fold k p acc Hd). apply cop_val; assumption. }
      (* continue from a canonical accumulator with the same value *)
      rewrite (fold_cop_cong k _ _ (cop k acc (py2c byref p))).
      + rewrite (IH _ (bop k a b)); [|apply cop_val; assumption].
        unfold bop. destruct k, a, b; reflexivity.
      + rewrite Hin. symmetry. apply cop_val; assumption.
  Qed.

  Lemma boolop_c_eval k ps bs : Forall2 (fun p b => EC p = Some (b2c b)) ps bs -> ps <> [] ->
    EC (boolop_ast k ps) = Some (b2c (if k then andl bs else orl bs)).
  Proof.
    intros HF Hne. destruct HF as [|p b ps bs Hp HF]; [congruence|].
    unfold EC. rewrite boolop_ast_flat. cbn [flat_map].
    assert (Hd : EC p <> None) by (rewrite Hp; discriminate).
    destruct (splice_head k p (flat_map (splice k) ps) Hd) as (c & r & Hmap & Hval).
    cbn [py2c]. rewrite Hmap. fold (cop k). rewrite Hval.
    rewrite (boolchain_fold k ps bs HF _ b Hp). unfold bop. destruct k; reflexivity.
  Qed.

  Definition Pcb (e : expr) : Prop :=
    c_class_b arrs e = true -> forall b, evalB rho e = Some b -> EC (py_ast arrs (c_pre decl e) false) = Some (b2c b).

  (** an [&&] / [||] chain, [k] telling which *)
  Lemma Pcb_chain (k : bool) cs b : Forall Pcb cs -> (2 <=? List.length cs)%nat && forallb (c_class_b arrs) cs = true ->
    obind (omap_list (evalB rho) cs) (fun vs => Some (if k then andl vs else orl vs)) = Some b ->
    EC (boolop_ast k (map (fun c => py_ast arrs c false) (map (c_pre decl) cs))) = Some (b2c b).
  Proof.
    intros HF Hc Hv. apply andb_prop in Hc as [Hn Hc].
    destruct (omap_list (evalB rho) cs) as [bs|] eqn:E; [|discriminate]. injection Hv as <-. apply omap_list_some in E.
    rewrite map_map. apply boolop_c_eval; [|destruct cs; [discriminate Hn|discriminate]].
    exact (Forall2_class (c_class_b arrs) _ (fun p x => EC p = Some (b2c x))
             (fun c => py_ast arrs (c_pre decl c) false) cs bs HF Hc E).
  Qed.

  Lemma Pcb_all : forall e, Pcb e.
  Proof.
    induction e using expr_ind'; unfold Pcb; intros Hc b0 Hv; try discriminate.
    - cbn in Hv. injection Hv as <-. reflexivity.
    - cbn [c_class_b] in Hc. apply andb_prop in Hc. destruct Hc as [Hc1 Hc2].
      cbn [evalB] in Hv. destruct (evalZ rho e1) as [x|] eqn:E1; [|discriminate].
      destruct (evalZ rho e2) as [y|] eqn:E2; [|discriminate]. cbn [obind] in Hv. injection Hv as <-.
      unfold EC. cbn [c_pre py_ast py2c evalC].
      pose proof (proj1 (Pc_all e1 Hc1 x E1)) as H1. pose proof (proj1 (Pc_all e2 Hc2 y E2)) as H2.
      unfold ECi, EC in H1, H2. rewrite H1, H2. reflexivity.
    - rewrite evalB_and in Hv. exact (Pcb_chain true cs b0 H Hc Hv).
    - rewrite evalB_or in Hv. exact (Pcb_chain false cs b0 H Hc Hv).
    - cbn [c_class_b] in Hc. cbn [evalB] in Hv.
      destruct (evalB rho e) as [x|] eqn:E1; [|discriminate]. cbn [obind] in Hv. injection Hv as <-.
      unfold EC. cbn [c_pre py_ast py2c evalC]. pose proof (IHe Hc x E1) as H1. unfold EC in H1. rewrite H1.
      rewrite truthy_b2c. reflexivity.
  Qed.

  Theorem ccond_preserves e b :
    c_class_b arrs e = true -> evalB rho e = Some b -> evalC ce (c_model byref decl e) = Some (b2c b).
  Proof. intros Hc Hv. exact (Pcb_all e Hc b Hv). Qed.
End CPreservation.
