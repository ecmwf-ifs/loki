(** C36 — main statements: preservation against the canonical Python environment [shift_env], refutations with
    concrete witnesses, the index shift, SIGN. *)
From Coq Require Import ZArith QArith List Bool String Lia ZifyBool.
From LV Require Import Base.Expr Base.MiniF Base.ListFacts Base.ExprFacts Base.MiniFFacts models.M_C10 models.M_C36 proofs.P_C36_base proofs.P_C36_sem proofs.P_C36_range.
Import ListNotations.
Open Scope Z_scope.

Lemma assoc_s_In {A} (l : list (string * A)) a v : assoc_s l a = Some v -> In (a, v) l.
Proof.
  induction l as [|[k w] r IH]; cbn [assoc_s]; [discriminate|].
  destruct (String.eqb k a) eqn:E.
  - apply String.eqb_eq in E. subst. intros [= <-]. left. reflexivity.
  - intros H. right. apply IH, H.
Qed.

Lemma In_assoc_s {A} (l : list (string * A)) a v : NoDup (map fst l) -> In (a, v) l -> assoc_s l a = Some v.
Proof.
  induction l as [|[k w] r IH]; cbn [map fst assoc_s]; intros Hnd Hin; [contradiction|].
  inversion Hnd as [|? ? Hni Hnd']; subst.
  destruct Hin as [[= -> ->]|Hin].
  - rewrite String.eqb_refl. reflexivity.
  - destruct (String.eqb k a) eqn:E; [|apply IH; assumption].
    apply String.eqb_eq in E. subst. exfalso. apply Hni. apply (in_map fst) in Hin. exact Hin.
Qed.

Lemma is_arr_assoc {A} (l : list (string * A)) a : is_arr (map fst l) a = true -> exists v, assoc_s l a = Some v.
Proof.
  unfold is_arr. induction l as [|[k w] r IH]; cbn [map fst existsb assoc_s]; [discriminate|].
  rewrite String.eqb_sym. destruct (String.eqb k a) eqn:E; [eexists; reflexivity|]. cbn [orb]. exact IH.
Qed.

Lemma pos_roundtrip bs idx : in_box bs idx ->
  map (fun bp : (Z * Z) * Z => fst (fst bp) + snd bp) (combine bs (pos_of bs idx)) = idx.
Proof.
  unfold in_box, pos_of. induction 1 as [|b k bs idx _ _ IH]; [reflexivity|].
  cbn [combine map fst snd]. rewrite IH. f_equal. lia.
Qed.

Lemma shift_env_rel decl rho : NoDup (map fst decl) -> rho_ok decl rho -> env_rel decl rho (shift_env decl rho).
Proof.
  intros Hnd Hok. repeat split.
  - intros a bs Hin. cbn. rewrite (In_assoc_s decl a bs Hnd Hin). reflexivity.
  - intros a idx v Ha Hv. destruct (is_arr_assoc decl a Ha) as (bs & Hbs).
    exists bs. split; [apply assoc_s_In, Hbs|]. pose proof (Hok a bs idx v Hbs Hv) as Hbox.
    split; [exact Hbox|]. cbn. rewrite Hbs, (pos_roundtrip bs idx Hbox). exact Hv.
Qed.

Theorem pyexpr_preserves_on_class decl rho e v :
  NoDup (map fst decl) -> lower_one decl -> arrs_ok (map fst decl) = true -> rho_ok decl rho ->
  py_class (map fst decl) e = true -> evalZ rho e = Some v ->
  evalPy (shift_env decl rho) (pygen_model (map fst decl) e) = POk (VInt v).
Proof.
  intros Hnd Hlb Hok Hr Hc Hv.
  exact (pyexpr_preserves decl rho _ (shift_env_rel decl rho Hnd Hr) Hlb Hok e v Hc Hv).
Qed.

Theorem pycond_preserves_on_class decl rho e b :
  NoDup (map fst decl) -> lower_one decl -> arrs_ok (map fst decl) = true -> rho_ok decl rho ->
  py_class_b (map fst decl) e = true -> evalB rho e = Some b ->
  evalPy (shift_env decl rho) (pygen_model (map fst decl) e) = POk (VBool b).
Proof.
  intros Hnd Hlb Hok Hr Hc Hv.
  exact (pycond_preserves decl rho _ (shift_env_rel decl rho Hnd Hr) Hlb Hok e b Hc Hv).
Qed.

(** the index shift on its own: reading [a(i1,..,in)] in Fortran = reading [a[i1-1,..,in-1]] in Python *)
Theorem index_shift_correct decl rho a idx ks v :
  NoDup (map fst decl) -> lower_one decl -> arrs_ok (map fst decl) = true -> rho_ok decl rho ->
  is_arr (map fst decl) a = true ->
  forallb (py_class (map fst decl)) idx = true -> forallb (no_arr (map fst decl)) idx = true ->
  omap_list (evalZ rho) idx = Some ks -> ev_fun rho a ks = Some v ->
  evalPy (shift_env decl rho) (pygen_model (map fst decl) (ECall a idx)) = POk (VInt v).
Proof.
  intros Hnd Hlb Hok Hr Ha Hc Hn Hk Hv.
  apply pyexpr_preserves_on_class; try assumption.
  - cbn [py_class]. rewrite Hc, Ha, Hn. reflexivity.
  - rewrite evalZ_call, Hk. cbn [obind].
    rewrite (not_intrinsic (map fst decl) a Hok Ha). exact Hv.
Qed.

Definition ex_decl : list (string * list (Z * Z)) := [("a"%string, [(1, 4)]); ("b"%string, [(1, 4); (1, 3)])].
Definition ex_rho : env :=
  fenv_of [("n"%string, 3); ("m"%string, -2); ("i"%string, 2)]
          [("a"%string, [([1], 10); ([2], 20); ([3], 30); ([4], 40)]);
           ("b"%string, [([1; 1], 1); ([2; 1], 2); ([3; 1], 3); ([4; 1], 4); ([1; 2], 5); ([2; 2], 6); ([3; 2], 7); ([4; 2], 8);
                 ([1; 3], 9); ([2; 3], 10); ([3; 3], 11); ([4; 3], 12)])].
(** a(i + 1) - b(min(max(n, 1), 4), 2) * abs(m) ** 2 + (-n) *)
Definition ex_expr : expr :=
  ESum false [ECall "a" [ESum false [EVar "i"; EInt 1]];
              EProd false [EPy (-1); EProd false [ECall "b" [ECall "min" [ECall "max" [EVar "n"; EInt 1]; EInt 4]; EInt 2];
                                                  EPow false (ECall "abs" [EVar "m"]) (EInt 2)]];
              EProd true [EPy (-1); EVar "n"]].

(** [rho_ok] for environments given by association lists is decidable *)
Fixpoint in_box_b (bs : list (Z * Z)) (idx : list Z) : bool :=
  match bs, idx with
  | [], [] => true
  | b :: r, k :: q => (fst b <=? k) && (k <=? snd b) && in_box_b r q
  | _, _ => false
  end.

Definition cells_ok (decl : list (string * list (Z * Z))) (cells : list (string * list (list Z * Z))) : bool :=
  forallb (fun al : string * list (list Z * Z) =>
             match assoc_s decl (fst al) with
             | Some bs => forallb (fun iv : list Z * Z => in_box_b bs (fst iv)) (snd al)
             | None => true
             end) cells.

Lemma in_box_b_ok bs idx : in_box_b bs idx = true -> in_box bs idx.
Proof.
  unfold in_box. revert idx. induction bs as [|b r IH]; intros [|k q] H; cbn [in_box_b] in H; try discriminate.
  - constructor.
  - apply andb_prop in H. destruct H as [H1 H2]. constructor; [lia | apply IH, H2].
Qed.

Lemma assoc_zs_In l k v : assoc_zs l k = Some v -> In (k, v) l.
Proof.
  induction l as [|[k' w] r IH]; cbn [assoc_zs]; [discriminate|].
  destruct (list_z_eqb k' k) eqn:E.
  - apply list_z_eqb_eq in E. subst. intros [= <-]. left. reflexivity.
  - intros H. right. apply IH, H.
Qed.

Lemma fenv_rho_ok decl sc cells : cells_ok decl cells = true -> rho_ok decl (fenv_of sc cells).
Proof.
  intros H a bs idx v Hbs Hv. cbn in Hv.
  destruct (assoc_s cells a) as [l|] eqn:El; [|discriminate].
  apply assoc_s_In in El. apply assoc_zs_In in Hv.
  unfold cells_ok in H. rewrite forallb_forall in H. specialize (H _ El). cbn [fst snd] in H. rewrite Hbs in H.
  rewrite forallb_forall in H. specialize (H _ Hv). cbn [fst] in H. apply in_box_b_ok, H.
Qed.

Lemma ex_rho_ok : rho_ok ex_decl ex_rho.
Proof. apply fenv_rho_ok. reflexivity. Qed.

Lemma class_inhabited :
  NoDup (map fst ex_decl) /\ lower_one ex_decl /\ arrs_ok (map fst ex_decl) = true /\ rho_ok ex_decl ex_rho /\
  py_class (map fst ex_decl) ex_expr = true /\ evalZ ex_rho ex_expr = Some (-1) /\
  evalPy (shift_env ex_decl ex_rho) (pygen_model (map fst ex_decl) ex_expr) = POk (VInt (-1)).
Proof.
  split; [|split; [|split; [|split; [|split; [|split]]]]]; try reflexivity.
  - cbn. repeat constructor; cbn; intuition discriminate.
  - intros a bs [[= <- <-]|[[= <- <-]|[]]]; repeat constructor.
  - apply ex_rho_ok.
Qed.

(** * Refutations of the unconditional statement (each with the value CPython computes for the generated text) *)
Definition rho_nm (n m : Z) : env := fenv_of [("n"%string, n); ("m"%string, m)] [].

(** F12: integer division becomes true division *)
Lemma py_int_division_refuted :
  exists rho e v, evalZ rho e = Some v /\
    evalPy (shift_env [] rho) (pygen_model [] e) = POk (VFloat (7 # 2)) /\ v = 3.
Proof. exists (rho_nm 7 2), (EQuot false (EVar "n") (EVar "m")), 3. repeat split. Qed.

(** ... and the damage is not repaired by converting the final result back to an integer: (n/m)*m *)
Lemma py_int_division_refuted_2 :
  exists rho e, evalZ rho e = Some 6 /\ evalPy (shift_env [] rho) (pygen_model [] e) = POk (VFloat (7 # 1)).
Proof. exists (rho_nm 7 2), (EProd false [EQuot true (EVar "n") (EVar "m"); EVar "m"]). split; reflexivity. Qed.

(** mod is emitted verbatim: an undefined name *)
Lemma py_mod_refuted :
  exists rho e v, evalZ rho e = Some v /\ evalPy (shift_env [] rho) (pygen_model [] e) = PErr (ENameError "mod").
Proof. exists (rho_nm 7 2), (ECall "mod" [EVar "n"; EVar "m"]), 1. split; reflexivity. Qed.

(** a negative exponent: Fortran's integer 2**(-1) = 0, Python's 0.5 *)
Lemma py_neg_exponent_refuted :
  exists rho e, evalZ rho e = Some 0 /\ evalPy (shift_env [] rho) (pygen_model [] e) = POk (VFloat (1 # 2)).
Proof. exists (rho_nm 0 0), (EPow false (EInt 2) (EProd true [EPy (-1); EInt 1])). split; reflexivity. Qed.

(** a subscript inside a subscript is not shifted: a(b(n)) becomes a[b[n] - 1] *)
Definition nest_decl : list (string * list (Z * Z)) := [("a"%string, [(1, 4)]); ("b"%string, [(1, 4)])].
Definition nest_rho : env :=
  fenv_of [("n"%string, 1)]
          [("a"%string, [([1], 10); ([2], 20); ([3], 30); ([4], 40)]); ("b"%string, [([1], 2); ([2], 3); ([3], 4); ([4], 1)])].
Lemma py_nested_index_refuted :
  exists e, evalZ nest_rho e = Some 20 /\
    evalPy (shift_env nest_decl nest_rho) (pygen_model (map fst nest_decl) e) = POk (VInt 30).
Proof. exists (ECall "a" [ECall "b" [EVar "n"]]). split; reflexivity. Qed.

(** the declared lower bound is ignored: c(0:3), c(0) becomes c[-1], the LAST element *)
Definition lb_decl : list (string * list (Z * Z)) := [("c"%string, [(0, 3)])].
Definition lb_rho : env := fenv_of [] [("c"%string, [([0], 5); ([1], 6); ([2], 7); ([3], 8)])].
Lemma py_lower_bound_refuted :
  exists e, evalZ lb_rho e = Some 5 /\
    evalPy (shift_env lb_decl lb_rho) (pygen_model (map fst lb_decl) e) = POk (VInt 8).
Proof. exists (ECall "c" [EInt 0]). split; reflexivity. Qed.

(** SIGN(a, b) becomes a * np.sign(b): right for a >= 0 and b <> 0 only *)
Lemma py_sign_value rho x y :
  evalPy (shift_env [] rho) (pygen_model [] (ECall "sign" [EVar x; EVar y]))
  = POk (VInt (ev_var rho x * Z.sgn (ev_var rho y))).
Proof. reflexivity. Qed.

Lemma py_sign_on_class rho x y : 0 <= ev_var rho x -> ev_var rho y <> 0 ->
  evalPy (shift_env [] rho) (pygen_model [] (ECall "sign" [EVar x; EVar y]))
  = POk (VInt (fortran_sign (ev_var rho x) (ev_var rho y))).
Proof.
  intros Hx Hy. rewrite py_sign_value. unfold fortran_sign. do 2 f_equal.
  destruct (0 <=? ev_var rho y) eqn:E; lia.
Qed.

Lemma py_sign_refuted :
  exists rho, evalPy (shift_env [] rho) (pygen_model [] (ECall "sign" [EVar "n"; EVar "m"])) = POk (VInt (-3)) /\
              fortran_sign (ev_var rho "n") (ev_var rho "m") = 3.
Proof. exists (rho_nm (-3) 2). split; reflexivity. Qed.

Lemma py_sign_zero_refuted :
  exists rho, evalPy (shift_env [] rho) (pygen_model [] (ECall "sign" [EVar "n"; EVar "m"])) = POk (VInt 0) /\
              fortran_sign (ev_var rho "n") (ev_var rho "m") = 3.
Proof. exists (rho_nm 3 0). split; reflexivity. Qed.
