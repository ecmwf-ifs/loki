(** C36/C35 — the values of n-ary sums / products / logical chains as [sumz] / [prodz] / [andl] / [orl] of the
    values of the operands. *)
From Coq Require Import ZArith List Bool String Lia.
From LV Require Import Base.Expr Base.ListFacts Base.ExprFacts.
Import ListNotations.
Open Scope Z_scope.

Fixpoint sumz (l : list Z) : Z := match l with [] => 0 | x :: r => x + sumz r end.
Fixpoint prodz (l : list Z) : Z := match l with [] => 1 | x :: r => x * prodz r end.
Fixpoint andl (l : list bool) : bool := match l with [] => true | x :: r => x && andl r end.
Fixpoint orl (l : list bool) : bool := match l with [] => false | x :: r => x || orl r end.

(** the folds of [Base.ExprFacts] written with the named sums and products *)
Lemma fold_right_sumz l : fold_right Z.add 0 l = sumz l.
Proof. induction l as [|x r IH]; cbn; congruence. Qed.
Lemma fold_right_prodz l : fold_right Z.mul 1 l = prodz l.
Proof. induction l as [|x r IH]; cbn; congruence. Qed.
Lemma fold_right_andl l : fold_right andb true l = andl l.
Proof. induction l as [|x r IH]; cbn; congruence. Qed.
Lemma fold_right_orl l : fold_right orb false l = orl l.
Proof. induction l as [|x r IH]; cbn; congruence. Qed.

Lemma evalZ_sum rho p cs :
  evalZ rho (ESum p cs) = obind (omap_list (evalZ rho) cs) (fun vs => Some (sumz vs)).
Proof. rewrite ExprFacts.evalZ_sum. destruct (omap_list _ cs); cbn [obind]; [now rewrite fold_right_sumz|reflexivity]. Qed.

Lemma evalZ_prod rho p cs :
  evalZ rho (EProd p cs) = obind (omap_list (evalZ rho) cs) (fun vs => Some (prodz vs)).
Proof. rewrite ExprFacts.evalZ_prod. destruct (omap_list _ cs); cbn [obind]; [now rewrite fold_right_prodz|reflexivity]. Qed.

Lemma evalB_and rho cs :
  evalB rho (EAnd cs) = obind (omap_list (evalB rho) cs) (fun vs => Some (andl vs)).
Proof. rewrite ExprFacts.evalB_and. destruct (omap_list _ cs); cbn [obind]; [now rewrite fold_right_andl|reflexivity]. Qed.

Lemma evalB_or rho cs :
  evalB rho (EOr cs) = obind (omap_list (evalB rho) cs) (fun vs => Some (orl vs)).
Proof. rewrite ExprFacts.evalB_or. destruct (omap_list _ cs); cbn [obind]; [now rewrite fold_right_orl|reflexivity]. Qed.

Lemma fold_left_mul_prodz xs x : fold_left Z.mul xs x = x * prodz xs.
Proof. revert x. induction xs as [|y r IH]; intros x; cbn [fold_left prodz]; [lia|]. rewrite IH. lia. Qed.

Lemma fold_left_add_sumz xs x : fold_left Z.add xs x = x + sumz xs.
Proof. revert x. induction xs as [|y r IH]; intros x; cbn [fold_left sumz]; [lia|]. rewrite IH. lia. Qed.

Lemma forallb_Forall {A} (p : A -> bool) l : forallb p l = true -> Forall (fun x => p x = true) l.
Proof. intros H. apply Forall_forall. intros x Hx. eapply forallb_forall in H; eauto. Qed.

(** from what an induction over [expr] proves of the children of a node to the values of the rewritten children *)
Lemma Forall2_class {A B C} (cls : A -> bool) (R : A -> B -> Prop) (Q : C -> B -> Prop) (g : A -> C) cs vs :
  Forall (fun c => cls c = true -> forall v, R c v -> Q (g c) v) cs -> forallb cls cs = true ->
  Forall2 R cs vs -> Forall2 Q (map g cs) vs.
Proof.
  intros HF Hc H2. induction H2 as [|c x cs vs Hx _ IH]; [constructor|].
  inversion HF as [|? ? Hc0 HF']; subst. cbn [forallb] in Hc. apply andb_prop in Hc as [Hc1 Hc2].
  cbn [map]. constructor; auto.
Qed.
