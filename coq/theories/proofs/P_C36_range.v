(** C36 — loop ranges and slices emitted by pygen vs Fortran DO trips / array sections. *)
From Coq Require Import ZArith List Bool Lia ZifyBool.
From LV Require Import Base.Expr models.M_C10 proofs.P_C10 models.M_C36.
Import ListNotations.
Open Scope Z_scope.

(** [range(a, b + s, s)] has the Fortran trip count when the stride divides the distance (always for +-1):
    with [b - a = q * s] both counts are [q + 1] clipped at 0.  Proved for an ascending loop and mirrored. *)
Lemma pygen_len_div a b s : s <> 0 -> (b - a) mod s = 0 ->
  py_range_len a (b + s) s = M_C10.trip_count a b s.
Proof.
  assert (Hpos : forall a b s, 0 < s -> (b - a) mod s = 0 -> py_range_len a (b + s) s = M_C10.trip_count a b s).
  { clear. intros a b s Hs Hm. apply Z.div_exact in Hm; [|lia].
    replace (b + s) with (b + s - 1 + 1) by ring. rewrite len_pos, !trip_count_pos by exact Hs.
    replace (b + s - 1 - a) with ((b - a) / s * s + (s - 1)) by lia.
    now rewrite Z.div_add_l, (Z.div_small (s - 1)), Z.add_0_r by lia. }
  intros Hs Hm. assert (H : s < 0 \/ 0 < s) by lia. destruct H as [H|H]; [|now apply Hpos].
  rewrite <- py_range_len_opp, <- trip_count_opp by exact Hs.
  replace (- (b + s)) with (- b + - s) by ring. apply Hpos; [lia|].
  replace (- b - - a) with (- (b - a)) by ring. rewrite Z.mod_opp_opp, Hm by exact Hs. reflexivity.
Qed.

Lemma loop_range_conversion_correct a b s : s <> 0 -> (b - a) mod s = 0 ->
  pygen_range a b s = do_trips a b s.
Proof.
  intros Hs Hm. unfold pygen_range, py_range, do_trips. now rewrite pygen_len_div.
Qed.

Lemma loop_range_unit_stride a b s : s = 1 \/ s = -1 -> pygen_range a b s = do_trips a b s.
Proof.
  intros [-> | ->]; apply loop_range_conversion_correct; try lia.
  - apply Z.mod_1_r.
  - pose proof (Z.mod_neg_bound (b - a) (-1)). lia.
Qed.

Lemma loop_range_refuted : exists a b s, 0 < s /\ a <= b /\ pygen_range a b s <> do_trips a b s.
Proof. exists 1, 4, 2. repeat split; try lia. vm_compute. discriminate. Qed.

(** a loop that Fortran does not enter at all is entered by the generated Python *)
Lemma loop_range_zero_trip_refuted : exists a b s, do_trips a b s = [] /\ pygen_range a b s <> [].
Proof. exists 3, 2, 2. split; vm_compute; [reflexivity | discriminate]. Qed.

Lemma loop_var_after_loop a b s : s <> 0 -> (b - a) mod s = 0 ->
  (0 < M_C10.trip_count a b s -> python_final a b s = Some (fortran_final a b s - s)) /\
  (M_C10.trip_count a b s = 0 -> python_final a b s = None).
Proof.
  intros Hs Hm. unfold python_final. rewrite loop_range_conversion_correct by assumption.
  unfold do_trips, fortran_final. split; intros H.
  - destruct (Z.to_nat (M_C10.trip_count a b s)) as [|n] eqn:E; [lia|].
    rewrite <- Nat.add_1_r, iota_steps_app, rev_app_distr. cbn [iota_steps rev app]. f_equal. lia.
  - rewrite H. reflexivity.
Qed.

Lemma py_range_len_empty a e s : 0 < s -> e <= a -> py_range_len a e s = 0.
Proof. intros Hs He. unfold py_range_len. replace (0 <? s) with true by lia. now replace (a <? e) with false by lia. Qed.

(** for a forward slice [slice.indices] clips a non-negative bound at the length *)
Lemma slice_adj_clip n s x : 0 < s -> 0 <= x -> slice_adj n s x = Z.min x n.
Proof.
  intros Hs Hx. unfold slice_adj. replace (x <? 0) with false by lia. replace (s <? 0) with false by lia.
  destruct (Z.leb_spec n x); lia.
Qed.

Lemma slice_conversion_correct n l u s : 1 <= l -> 0 <= u <= n -> 0 < s ->
  map (Z.add 1) (pygen_slice n l u s) = fortran_section l u s.
Proof.
  intros Hl Hu Hs. unfold pygen_slice, py_slice, fortran_section, do_trips, py_range.
  rewrite !slice_adj_clip, (Z.min_l u n), (map_iota_steps _ s s), <- len_pos by (intros; lia).
  destruct (Z.min_spec (l - 1) n) as [[_ ->] | [Hout ->]].
  - replace (1 + (l - 1)) with l by ring. do 2 f_equal. unfold py_range_len.
    replace (l - 1 <? u) with (l <? u + 1) by lia. replace (u - (l - 1) - 1) with (u + 1 - l - 1) by ring.
    replace (u <? l - 1) with (u + 1 <? l) by lia. replace (l - 1 - u - 1) with (l - (u + 1) - 1) by ring.
    reflexivity.
  - (* the section starts beyond the array: both sides are empty *)
    now rewrite !py_range_len_empty by lia.
Qed.

Lemma slice_negative_stride_refuted : exists n l u s,
  1 <= u <= l /\ l <= n /\ s < 0 /\ map (Z.add 1) (pygen_slice n l u s) <> fortran_section l u s.
Proof. exists 4, 4, 1, (-1). repeat split; try lia. vm_compute. discriminate. Qed.
