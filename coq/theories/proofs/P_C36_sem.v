(** C36 — the MiniPy value of the modelled Python expression equals the Fortran value on the class. *)
From Coq Require Import ZArith QArith List Bool String Lia ZifyBool.
From LV Require Import Base.Expr Base.MiniF Base.ListFacts Base.ExprFacts models.M_C10 models.M_C36 proofs.P_C36_base.
Import ListNotations.
Open Scope Z_scope.

(** * Unfolding lemmas for the nested fixpoints of [evalPy] *)
Definition short (is_and : bool) (v : pyval) : bool := if is_and then negb (truthy v) else truthy v.

Definition eval_boolop (pe : pyenv) (is_and : bool) : list pyexpr -> pyres :=
  fix go (l : list pyexpr) : pyres :=
    match l with
    | [] => PErr EUnmodelled
    | c :: r =>
        match r with
        | [] => evalPy pe c
        | _ :: _ =>
            match evalPy pe c with
            | POk v => if (if is_and then negb (truthy v) else truthy v) then POk v else go r
            | PErr err => PErr err
            end
        end
    end.

Definition eval_args (pe : pyenv) : list pyexpr -> list pyval + pyerr :=
  fix go (l : list pyexpr) : list pyval + pyerr :=
    match l with
    | [] => inl []
    | a :: r => match evalPy pe a with
                | POk v => match go r with inl vs => inl (v :: vs) | inr err => inr err end
                | PErr err => inr err
                end
    end.

Definition eval_idxs (pe : pyenv) : list pyexpr -> list Z + pyerr :=
  fix go (l : list pyexpr) : list Z + pyerr :=
    match l with
    | [] => inl []
    | i :: r => match evalPy pe i with
                | POk v => match as_index v with
                           | Some k => match go r with inl ks => inl (k :: ks) | inr err => inr err end
                           | None => inr EIndexError
                           end
                | PErr err => inr err
                end
    end.

Lemma evalPy_boolop pe k l : evalPy pe (PBoolOp k l) = eval_boolop pe k l.
Proof. reflexivity. Qed.
Lemma evalPy_call pe f args :
  evalPy pe (PCall f args) =
  if known_fun f then match eval_args pe args with inl vs => py_builtin f vs | inr err => PErr err end
  else PErr (ENameError f).
Proof. reflexivity. Qed.
Lemma evalPy_index pe a idx :
  evalPy pe (PIndex a idx) = match eval_idxs pe idx with inl ks => py_read pe a ks | inr err => PErr err end.
Proof. reflexivity. Qed.
Lemma evalPy_bin pe op a b x y :
  evalPy pe a = POk x -> evalPy pe b = POk y -> evalPy pe (PBin op a b) = py_binop op x y.
Proof. intros Ha Hb. cbn [evalPy]. rewrite Ha, Hb. reflexivity. Qed.

Lemma eval_args_ints pe ps xs :
  Forall2 (fun p x => evalPy pe p = POk (VInt x)) ps xs -> eval_args pe ps = inl (map VInt xs).
Proof.
  induction 1 as [|p x ps xs Hp _ IH]; [reflexivity|].
  cbn [eval_args map]. rewrite Hp. fold (eval_args pe). rewrite IH. reflexivity.
Qed.

Lemma eval_idxs_ints pe ps xs :
  Forall2 (fun p x => evalPy pe p = POk (VInt x)) ps xs -> eval_idxs pe ps = inl xs.
Proof.
  induction 1 as [|p x ps xs Hp _ IH]; [reflexivity|].
  cbn [eval_idxs]. rewrite Hp. cbn [as_index]. fold (eval_idxs pe). rewrite IH. reflexivity.
Qed.

(** * Syntactic facts about [prod_ast], [sum_ast], [py_ast]: they hold before any evaluation of the AST is chosen *)
Lemma prod_ast_chain cs ps :
  (forall c0 c1, cs = [c0; c1] -> is_m1 c0 = false) -> prod_ast cs ps = chain BMul ps.
Proof.
  intros H. destruct cs as [|c0 [|c1 [|c2 cr]]]; try reflexivity.
  destruct ps as [|p0 [|p1 [|p2 pr]]]; try reflexivity.
  cbn [prod_ast]. rewrite (H c0 c1 eq_refl). reflexivity.
Qed.

Lemma py_ast_t arrs e : term_neg e = false -> py_ast arrs e true = py_ast arrs e false.
Proof. destruct e; try reflexivity. intros H. cbn [py_ast]. rewrite H. reflexivity. Qed.

Lemma is_py_m1_is_m1 c : is_py_m1 c = true -> is_m1 c = true.
Proof. destruct c; try discriminate. exact (fun H => H). Qed.

Lemma is_m1_val rho c : is_m1 c = true -> evalZ rho c = Some (-1).
Proof. destruct c; cbn; try discriminate; intros H; f_equal; lia. Qed.

Lemma sum_ast_snoc l p : l <> [] -> sum_ast (l ++ [(true, p)]) = PBin BSub (sum_ast l) p.
Proof.
  destruct l as [|[n0 p0] r]; [congruence|]. intros _. cbn [sum_ast app]. rewrite fold_left_app. reflexivity.
Qed.

(** * The arithmetic skeleton of [py_ast]

    [E p x] reads "the AST [p] has the integer value [x]".  Sums, products and their [-] terms are built from
    binary [+ - *], unary minus and literals only, so what follows holds for every reading that respects those:
    MiniPy below, the two C readings of C35. *)
Record reads_arith (E : pyexpr -> Z -> Prop) : Prop := {
  ra_add : forall a b x y, E a x -> E b y -> E (PBin BAdd a b) (x + y);
  ra_sub : forall a b x y, E a x -> E b y -> E (PBin BSub a b) (x - y);
  ra_mul : forall a b x y, E a x -> E b y -> E (PBin BMul a b) (x * y);
  ra_neg : forall a x, E a x -> E (PNeg a) (- x);
  ra_lit : forall v, E (lit_ast v) v
}.

Section Arith.
  Variable E : pyexpr -> Z -> Prop.
  Hypothesis HE : reads_arith E.

  Lemma E_ext p x y : x = y -> E p x -> E p y.
  Proof. now intros ->. Qed.

  Lemma chain_mul_E r : forall xs p0 x0,
    E p0 x0 -> Forall2 E r xs -> E (fold_left (PBin BMul) r p0) (x0 * prodz xs).
  Proof.
    induction r as [|p r IH]; intros xs p0 x0 H0 HF; inversion HF as [|? y ? ys Hp Hr]; subst; cbn [fold_left prodz].
    - apply (E_ext p0 x0); [ring|exact H0].
    - apply (E_ext _ (x0 * y * prodz ys)); [ring|]. apply IH; [now apply (ra_mul E HE)|exact Hr].
  Qed.

  Lemma prod_ast_E cs ps vs :
    Forall2 E ps vs -> Forall2 (fun c x => is_m1 c = true -> x = -1) cs vs -> ps <> [] ->
    E (prod_ast cs ps) (prodz vs).
  Proof.
    intros HP HM Hne.
    assert (Hchain : E (chain BMul ps) (prodz vs)).
    { destruct HP as [|p0 x0 r xs Hq0 Hr]; [congruence|]. cbn [chain prodz]. now apply chain_mul_E. }
    destruct cs as [|c0 [|c1 [|c2 cr]]].
    1, 2, 4: rewrite prod_ast_chain; [exact Hchain | intros ? ? [=]].
    destruct (is_m1 c0) eqn:Em.
    - inversion HM as [|? x0 ? vs1 Hm0 HM1]; subst. inversion HM1 as [|? x1 ? vs2 _ HM2]; subst. inversion HM2; subst.
      inversion HP as [|p0 ? ps1 ? _ HP1]; subst. inversion HP1 as [|p1 ? ps2 ? Hp1 HP2]; subst. inversion HP2; subst.
      cbn [prod_ast]. rewrite Em. apply (E_ext _ (- x1)); [|now apply (ra_neg E HE)].
      rewrite (Hm0 Em). cbn [prodz]. ring.
    - rewrite prod_ast_chain; [exact Hchain|]. intros ? ? [= <- <-]. exact Em.
  Qed.

  Lemma sum_ast_E ts xs :
    Forall2 (fun (np : bool * pyexpr) x => E (snd np) (if fst np then - x else x)) ts xs ->
    ts <> [] -> E (sum_ast ts) (sumz xs).
  Proof.
    assert (Hfold : forall r zs acc a, E acc a ->
      Forall2 (fun (np : bool * pyexpr) x => E (snd np) (if fst np then - x else x)) r zs ->
      E (fold_left (fun acc (np : bool * pyexpr) => PBin (if fst np then BSub else BAdd) acc (snd np)) r acc) (a + sumz zs)).
    { clear ts xs. induction r as [|[n p] r IH]; intros zs acc a Ha HF; inversion HF as [|? x ? ys Hp Hr]; subst; cbn [fold_left sumz].
      - apply (E_ext acc a); [ring|exact Ha].
      - cbn [fst snd] in *. apply (E_ext _ (a + x + sumz ys)); [ring|]. apply IH; [|exact Hr].
        destruct n; [apply (E_ext _ (a - - x)); [ring|now apply (ra_sub E HE)]|now apply (ra_add E HE)]. }
    intros HF Hne. destruct HF as [|[n0 p0] x0 r ys Hs0 Hr]; [congruence|]. cbn [sum_ast sumz]. cbn [fst snd] in Hs0.
    apply Hfold; [|exact Hr]. destruct n0; [|exact Hs0]. apply (E_ext _ (- - x0)); [ring|now apply (ra_neg E HE)].
  Qed.

  (** the two facts an induction over [expr] carries for a tree: its value, and (as a [-] term of a Sum) the
      value of its tail *)
  Variable arrs : list string.
  Definition gfacts (e : expr) (v : Z) : Prop :=
    E (py_ast arrs e false) v /\ (term_neg e = true -> E (py_ast arrs e true) (- v)).

  Lemma gfacts_ext e x y : x = y -> gfacts e x -> gfacts e y.
  Proof. now intros ->. Qed.

  Lemma gfacts_values cs vs : Forall2 gfacts cs vs -> Forall2 E (map (fun c => py_ast arrs c false) cs) vs.
  Proof. induction 1 as [|c x cs vs [Hc _] _ IH]; cbn [map]; constructor; assumption. Qed.

  Lemma gfacts_sum p cs vs : Forall2 gfacts cs vs -> cs <> [] -> gfacts (ESum p cs) (sumz vs).
  Proof.
    intros HF Hne. split; [|discriminate]. cbn [py_ast]. apply sum_ast_E; [|destruct cs; [congruence|discriminate]].
    clear Hne. induction HF as [|c x cs vs [HA HB] _ IH]; cbn [map]; constructor; [|exact IH].
    cbn [fst snd]. destruct (term_neg c) eqn:Et; [now apply HB|]. now rewrite py_ast_t.
  Qed.

  Lemma gfacts_prod p cs vs :
    Forall2 gfacts cs vs -> Forall2 (fun c x => is_m1 c = true -> x = -1) cs vs -> cs <> [] ->
    term_neg (EProd p cs) && match cs with [_] => true | _ => false end = false ->
    gfacts (EProd p cs) (prodz vs).
  Proof.
    intros HF HM Hne Hs. pose proof (gfacts_values cs vs HF) as HP. split.
    - cbn [py_ast andb]. apply prod_ast_E; [exact HP|exact HM|]. destruct cs; [congruence|discriminate].
    - intros Ht. cbn [py_ast]. rewrite Ht in *. cbn [andb] in *.
      destruct p; [discriminate|]. destruct cs as [|c0 [|c1 r]]; try discriminate.
      inversion HP as [|? x0 ? vs' _ HP']; subst. inversion HM as [|? ? ? ? Hm0 HM']; subst.
      cbn [map tl]. cbn [map] in HP'. apply (E_ext _ (prodz vs')); [|apply prod_ast_E; [exact HP'|exact HM'|discriminate]].
      rewrite (Hm0 (is_py_m1_is_m1 _ Ht)). cbn [prodz]. ring.
  Qed.

  Lemma gfacts_sum2 x y vx vy : gfacts x vx -> gfacts y vy -> gfacts (ESum false [x; y]) (vx + vy).
  Proof.
    intros Hx Hy. apply (gfacts_ext _ (sumz [vx; vy])); [cbn; ring|].
    apply gfacts_sum; [constructor; [exact Hx|constructor; [exact Hy|constructor]]|discriminate].
  Qed.

  Lemma gfacts_M1 : gfacts M1 (-1).
  Proof. split; [exact (ra_neg E HE _ _ (ra_lit E HE 1))|intros _; exact (ra_lit E HE 1)]. Qed.

  (** the subscript [d - 1] *)
  Lemma gfacts_shift_idx d k :
    (forall x, E (PNum 0) x -> x = 0) -> (forall x, ~ E PBad x) -> gfacts d k -> gfacts (shift_idx d) (k - 1).
  Proof.
    intros H0 Hbad Hd.
    assert (Hgen : gfacts (ESum false [d; M1]) (k - 1)).
    { apply (gfacts_ext _ (k + -1)); [ring|]. apply gfacts_sum2; [exact Hd | exact gfacts_M1]. }
    destruct d; try exact Hgen.
    - destruct v; try exact Hgen. destruct Hd as [HA _]. rewrite (H0 _ HA). exact gfacts_M1.
    - split; [|discriminate]. destruct Hd as [HA _].
      cbn [shift_idx py_ast]. cbn [py_ast] in HA. rewrite map_app. cbn [map].
      change (term_neg M1) with true. change (py_ast arrs M1 true) with (PNum 1).
      destruct cs as [|c0 r]; [destruct (Hbad _ HA)|].
      rewrite sum_ast_snoc by discriminate. exact (ra_sub E HE _ _ _ _ HA (ra_lit E HE 1)).
  Qed.

  (** the step of such an induction at a Sum or a Product: [pre] is the preprocessing of the generator, [cls]
      the class, and [holds e] what the induction proves of [e] *)
  Variables (rho : env) (cls : expr -> bool) (pre : expr -> expr).
  Hypothesis pre_m1 : forall c, cls c = true -> is_m1 (pre c) = is_m1 c /\ is_py_m1 (pre c) = is_py_m1 c.

  Definition holds (e : expr) : Prop := cls e = true -> forall v, evalZ rho e = Some v -> gfacts (pre e) v.

  Lemma holds_children cs vs : Forall holds cs -> forallb cls cs = true ->
    Forall2 (fun c x => evalZ rho c = Some x) cs vs -> Forall2 gfacts (map pre cs) vs.
  Proof. apply Forall2_class. Qed.

  (** the class clauses are taken as [py_class], [c_int_class] and [c_ext_class] spell them at a Sum / Product *)
  Lemma holds_sum p cs v : Forall holds cs ->
    negb (match cs with [] => true | _ => false end) && forallb cls cs = true ->
    evalZ rho (ESum p cs) = Some v -> gfacts (ESum p (map pre cs)) v.
  Proof.
    intros HF Hc Hv. apply andb_prop in Hc as [Hne Hc]. rewrite evalZ_sum in Hv. destruct (omap_list (evalZ rho) cs) as [vs|] eqn:E0; [|discriminate].
    injection Hv as <-. apply omap_list_some in E0.
    apply gfacts_sum; [now apply holds_children|destruct cs; [discriminate Hne|discriminate]].
  Qed.

  Lemma holds_prod p cs v : Forall holds cs ->
    negb (match cs with [] => true | _ => false end) && forallb cls cs
      && negb (term_neg (EProd p cs) && match cs with [_] => true | _ => false end) = true ->
    evalZ rho (EProd p cs) = Some v -> gfacts (EProd p (map pre cs)) v.
  Proof.
    intros HF Hc Hv. apply andb_prop in Hc as [Hc Hs]. apply andb_prop in Hc as [Hne Hc]. apply negb_true_iff in Hs.
    rewrite evalZ_prod in Hv. destruct (omap_list (evalZ rho) cs) as [vs|] eqn:E0; [|discriminate].
    injection Hv as <-. apply omap_list_some in E0.
    apply gfacts_prod; [now apply holds_children| |destruct cs; [discriminate Hne|discriminate]|].
    - revert Hc E0. apply Forall2_class, Forall_forall. intros c _ Hcc x Hx Hm.
      rewrite (proj1 (pre_m1 c Hcc)) in Hm. rewrite (is_m1_val rho c Hm) in Hx. congruence.
    - destruct p; [reflexivity|]. destruct cs as [|c0 r]; [reflexivity|].
      cbn [forallb] in Hc. apply andb_prop in Hc as [Hc0 _].
      cbn [map term_neg] in *. rewrite (proj2 (pre_m1 c0 Hc0)). destruct r; exact Hs.
  Qed.

  (** the subscripts of an array reference: children without array references, which [pre] leaves alone, shifted by one *)
  Lemma holds_shifted (noarr : expr -> bool) cs vs :
    (forall c, noarr c = true -> cls c = true -> pre c = c) ->
    (forall x, E (PNum 0) x -> x = 0) -> (forall x, ~ E PBad x) ->
    Forall holds cs -> forallb cls cs = true -> forallb noarr cs = true ->
    Forall2 (fun c x => evalZ rho c = Some x) cs vs ->
    Forall2 gfacts (map shift_idx cs) (map (fun k => k - 1) vs).
  Proof.
    intros Hid H0 Hbad HF Hc Hn E0. induction E0 as [|c x cs vs Hx _ IH]; [constructor|].
    inversion HF as [|? ? Hc0 HF']; subst. cbn [forallb] in Hc, Hn.
    apply andb_prop in Hc as [Hc1 Hc2]. apply andb_prop in Hn as [Hn1 Hn2].
    cbn [map]. constructor; [|now apply IH].
    apply gfacts_shift_idx; [exact H0|exact Hbad|]. rewrite <- (Hid c Hn1 Hc1). exact (Hc0 Hc1 x Hx).
  Qed.
End Arith.

Lemma lit_ast_eval pe v : evalPy pe (lit_ast v) = POk (VInt v).
Proof. unfold lit_ast. destruct (v <? 0) eqn:E; cbn; do 2 f_equal; lia. Qed.

Lemma fold_min_ints r : forall a,
  fold_left (fun acc v => if lt_val v acc then v else acc) (map VInt r) (VInt a) = VInt (fold_left Z.min r a).
Proof.
  induction r as [|x r IH]; intros a; [reflexivity|]. cbn [map fold_left lt_val].
  destruct (x <? a) eqn:E; rewrite IH; do 2 f_equal; lia.
Qed.
Lemma fold_max_ints r : forall a,
  fold_left (fun acc v => if lt_val acc v then v else acc) (map VInt r) (VInt a) = VInt (fold_left Z.max r a).
Proof.
  induction r as [|x r IH]; intros a; [reflexivity|]. cbn [map fold_left lt_val].
  destruct (a <? x) eqn:E; rewrite IH; do 2 f_equal; lia.
Qed.

(** * and / or chains with spliced same-operator children *)
Lemma eval_boolop_app pe k L : forall rest v,
  eval_boolop pe k L = POk v -> rest <> [] ->
  eval_boolop pe k (L ++ rest) = if short k v then POk v else eval_boolop pe k rest.
Proof.
  induction L as [|c r IH]; intros rest v H Hne; [discriminate|].
  destruct r as [|c2 r'].
  - cbn [eval_boolop] in H. destruct rest as [|x rest']; [congruence|].
    cbn [app eval_boolop]. rewrite H. reflexivity.
  - change ((c :: c2 :: r') ++ rest) with (c :: ((c2 :: r') ++ rest)).
    assert (E1 : eval_boolop pe k (c :: c2 :: r') =
                 match evalPy pe c with
                 | POk w => if short k w then POk w else eval_boolop pe k (c2 :: r')
                 | PErr err => PErr err end) by reflexivity.
    assert (E2 : eval_boolop pe k (c :: ((c2 :: r') ++ rest)) =
                 match evalPy pe c with
                 | POk w => if short k w then POk w else eval_boolop pe k ((c2 :: r') ++ rest)
                 | PErr err => PErr err end) by reflexivity.
    rewrite E2. rewrite E1 in H. destruct (evalPy pe c) as [w|err]; [|discriminate].
    destruct (short k w) eqn:Es.
    + injection H as <-. rewrite Es. reflexivity.
    + apply IH; assumption.
Qed.

Definition splice (is_and : bool) (p : pyexpr) : list pyexpr :=
  match p with PBoolOp b l => if Bool.eqb b is_and then l else [p] | _ => [p] end.

Lemma splice_eval pe k p v : evalPy pe p = POk v -> eval_boolop pe k (splice k p) = POk v /\ splice k p <> [].
Proof.
  intros H. destruct p; try (split; [exact H | discriminate]).
  cbn [splice]. destruct (Bool.eqb is_and k) eqn:E.
  - apply eqb_prop in E. subst. rewrite evalPy_boolop in H. split; [exact H|]. intros ->. discriminate.
  - split; [exact H | discriminate].
Qed.

Lemma boolop_ast_flat k ps : boolop_ast k ps = PBoolOp k (flat_map (splice k) ps).
Proof. reflexivity. Qed.

Lemma boolop_eval pe k ps bs :
  Forall2 (fun p b => evalPy pe p = POk (VBool b)) ps bs -> ps <> [] ->
  evalPy pe (boolop_ast k ps) = POk (VBool (if k then andl bs else orl bs)).
Proof.
  intros HF Hne. rewrite boolop_ast_flat, evalPy_boolop.
  induction HF as [|p b ps bs Hp HF IH]; [congruence|]. clear Hne.
  cbn [flat_map]. destruct (splice_eval pe k p _ Hp) as [Hs Hn].
  destruct ps as [|p2 ps'].
  - inversion HF; subst. cbn [flat_map]. rewrite app_nil_r, Hs. destruct k, b; reflexivity.
  - assert (Hne2 : flat_map (splice k) (p2 :: ps') <> []).
    { inversion HF as [|? b2 ? ? Hp2 _]; subst. cbn [flat_map]. destruct (splice_eval pe k p2 _ Hp2) as [_ Hn2].
      destruct (splice k p2); [congruence | discriminate]. }
    rewrite (eval_boolop_app pe k _ _ _ Hs Hne2).
    rewrite IH by discriminate.
    destruct k, b; cbn; reflexivity.
Qed.

Lemma mapped_cases f n : mapped_intrinsic f n = true ->
  (f = "min"%string /\ (2 <=? n)%nat = true) \/ (f = "max"%string /\ (2 <=? n)%nat = true) \/ (f = "abs"%string /\ n = 1%nat).
Proof.
  unfold mapped_intrinsic. intros H. apply orb_prop in H as [H|H]; apply andb_prop in H as [Hf Hn].
  - apply orb_prop in Hf as [Hf|Hf]; apply String.eqb_eq in Hf; auto.
  - apply String.eqb_eq in Hf. apply Nat.eqb_eq in Hn. auto.
Qed.

Lemma mapped_not_sign f n : mapped_intrinsic f n = true -> String.eqb f "sign" = false.
Proof. intros H. apply mapped_cases in H as [[-> _]|[[-> _]|[-> _]]]; reflexivity. Qed.

(** Python's builtin on ints computes what the Fortran intrinsic computes *)
Lemma mapped_builtin rho f vs w : mapped_intrinsic f (List.length vs) = true ->
  match intrinsic f vs with Some r => r | None => ev_fun rho f vs end = Some w ->
  known_fun (rename_py f) = true /\ py_builtin (rename_py f) (map VInt vs) = POk (VInt w).
Proof.
  intros Hk Hv. apply mapped_cases in Hk as [[-> Hn]|[[-> Hn]|[-> Hn]]];
    (destruct vs as [|a [|b r]]; try discriminate Hn); cbn in Hv; injection Hv as <-; (split; [reflexivity|]).
  - change (rename_py "min") with "min"%string. unfold py_builtin. cbn [map String.eqb Ascii.eqb Bool.eqb].
    change (VInt b :: map VInt r) with (map VInt (b :: r)). now rewrite fold_min_ints.
  - change (rename_py "max") with "max"%string. unfold py_builtin. cbn [map String.eqb Ascii.eqb Bool.eqb].
    change (VInt b :: map VInt r) with (map VInt (b :: r)). now rewrite fold_max_ints.
  - reflexivity.
Qed.

Lemma pre_call_class arrs f args :
  py_class arrs (ECall f args) = true ->
  pre_py arrs (ECall f args) =
  if is_arr arrs f then ECall f (map shift_idx args) else ECall f (map (pre_py arrs) args).
Proof.
  intros H. cbn [pre_py]. destruct (is_arr arrs f) eqn:Ea; [reflexivity|].
  cbn [py_class] in H. rewrite Ea in H. apply andb_prop in H. destruct H as [_ H].
  rewrite (mapped_not_sign _ _ H). reflexivity.
Qed.

Lemma pre_py_m1 arrs c : py_class arrs c = true ->
  is_m1 (pre_py arrs c) = is_m1 c /\ is_py_m1 (pre_py arrs c) = is_py_m1 c.
Proof.
  intros H. destruct c; try (split; reflexivity).
  rewrite (pre_call_class _ _ _ H). destruct (is_arr arrs f); split; reflexivity.
Qed.

(** no array reference and no sign call: [pre_py] is the identity *)
Lemma pre_id arrs : forall e, no_arr arrs e = true -> py_class arrs e = true -> pre_py arrs e = e.
Proof.
  assert (Hmap : forall cs, Forall (fun e => no_arr arrs e = true -> py_class arrs e = true -> pre_py arrs e = e) cs ->
                 forallb (no_arr arrs) cs = true -> forallb (py_class arrs) cs = true -> map (pre_py arrs) cs = cs).
  { induction 1 as [|c r Hc _ IH]; [reflexivity|]. cbn [forallb map]. intros H1 H2.
    apply andb_prop in H1. apply andb_prop in H2. destruct H1, H2. rewrite Hc, IH by assumption. reflexivity. }
  induction e using expr_ind'; cbn [no_arr py_class]; intros Hn Hc; try reflexivity; try discriminate.
  - cbn [pre_py]. apply andb_prop in Hc. destruct Hc as [_ Hc]. rewrite Hmap by assumption. reflexivity.
  - cbn [pre_py]. apply andb_prop in Hc. destruct Hc as [Hc _]. apply andb_prop in Hc. destruct Hc as [_ Hc].
    rewrite Hmap by assumption. reflexivity.
  - destruct e2; try discriminate. apply andb_prop in Hn. destruct Hn as [Hn _]. apply andb_prop in Hc. destruct Hc as [Hc _].
    cbn [pre_py]. rewrite IHe1 by assumption. reflexivity.
  - apply andb_prop in Hn. destruct Hn as [Hf Hn]. apply negb_true_iff in Hf.
    assert (Hc' := Hc). cbn [py_class] in Hc'. apply andb_prop in Hc'. destruct Hc' as [Hca _].
    rewrite (pre_call_class arrs f args) by exact Hc. rewrite Hf. rewrite Hmap by assumption. reflexivity.
Qed.

(** array names are not intrinsic names, so a read of an array is not evaluated as an intrinsic *)
Lemma arr_not_intrinsic_name arrs f : arrs_ok arrs = true -> is_arr arrs f = true -> intrinsic_name f = false.
Proof.
  intros Hok H. apply existsb_exists in H as (a & Hin & Heq). apply String.eqb_eq in Heq. subst a.
  apply negb_true_iff. unfold arrs_ok in Hok. rewrite forallb_forall in Hok. exact (Hok f Hin).
Qed.

Lemma not_intrinsic arrs f : arrs_ok arrs = true -> is_arr arrs f = true -> forall vs, intrinsic f vs = None.
Proof.
  intros Hok H vs. pose proof (arr_not_intrinsic_name arrs f Hok H) as Hn.
  unfold intrinsic_name in Hn. cbn [existsb] in Hn.
  apply orb_false_elim in Hn as [E1 Hn]. apply orb_false_elim in Hn as [E2 Hn]. apply orb_false_elim in Hn as [E3 Hn].
  apply orb_false_elim in Hn as [E4 Hn]. apply orb_false_elim in Hn as [E5 _].
  unfold intrinsic. now rewrite E1, E2, E3, E4, E5.
Qed.

Section Preservation.
  Variable decl : list (string * list (Z * Z)).
  Let arrs := map fst decl.
  Variables (rho : env) (pe : pyenv).
  Hypothesis Hrel : env_rel decl rho pe.
  Hypothesis Hlb : lower_one decl.
  Hypothesis Hok : arrs_ok arrs = true.

  Definition Epy (p : pyexpr) (x : Z) : Prop := evalPy pe p = POk (VInt x).

  Lemma Epy_arith : reads_arith Epy.
  Proof.
    split; unfold Epy.
    - intros a b x y Ha Hb. exact (evalPy_bin pe BAdd a b _ _ Ha Hb).
    - intros a b x y Ha Hb. exact (evalPy_bin pe BSub a b _ _ Ha Hb).
    - intros a b x y Ha Hb. exact (evalPy_bin pe BMul a b _ _ Ha Hb).
    - intros a x Ha. cbn [evalPy]. now rewrite Ha.
    - apply lit_ast_eval.
  Qed.

  Lemma Epy_num0 x : Epy (PNum 0) x -> x = 0.
  Proof. unfold Epy. cbn. congruence. Qed.
  Lemma Epy_bad x : ~ Epy PBad x.
  Proof. unfold Epy. cbn. discriminate. Qed.

  Lemma box_norm bs idx : Forall (fun b => fst b = 1) bs -> in_box bs idx ->
    norm_idxs (map extent bs) (map (fun k => k - 1) idx) = Some (map (fun k => k - 1) idx) /\
    pos_of bs idx = map (fun k => k - 1) idx.
  Proof.
    intros Hb Hbox. unfold in_box in Hbox. induction Hbox as [|[lo hi] k bs idx Hk _ IH]; [split; reflexivity|].
    inversion Hb as [|? ? Hb1 Hb']; subst. cbn [fst snd] in *. subst lo.
    destruct (IH Hb') as [IH1 IH2]. split.
    - cbn [map norm_idxs]. rewrite IH1. unfold norm_idx, extent. cbn [fst snd].
      assert (E : (0 <=? k - 1) && (k - 1 <? hi - 1 + 1) = true) by lia. rewrite E. reflexivity.
    - unfold pos_of in *. cbn [combine map fst snd]. rewrite IH2. reflexivity.
  Qed.

  Lemma array_read a idx v : is_arr arrs a = true -> ev_fun rho a idx = Some v ->
    py_read pe a (map (fun k => k - 1) idx) = POk (VInt v).
  Proof.
    intros Ha Hv. destruct Hrel as (_ & Hs & Hc).
    destruct (Hc a idx v Ha Hv) as (bs & Hin & Hbox & Hcell).
    unfold py_read. rewrite (Hs a bs Hin).
    destruct (box_norm bs idx (Hlb a bs Hin) Hbox) as [Hn Hp]. rewrite Hn. rewrite <- Hp, Hcell. reflexivity.
  Qed.

  (** [Pa e] / [Pb e] below: what the induction proves of an arithmetic / a logical expression [e] *)
  Definition Pa : expr -> Prop := holds Epy arrs rho (py_class arrs) (pre_py arrs).

  Lemma Pa_all : forall e, Pa e.
  Proof.
    induction e using expr_ind'; intros Hc w Hv; try discriminate.
    - cbn in Hv. injection Hv as <-. split; [apply lit_ast_eval | discriminate].
    - cbn in Hv. injection Hv as <-. split; [apply lit_ast_eval | discriminate].
    - cbn in Hv. injection Hv as <-. split; [|discriminate].
      unfold Epy. cbn. destruct Hrel as (Hvar & _). rewrite Hvar. reflexivity.
    - exact (holds_sum Epy Epy_arith arrs rho (py_class arrs) (pre_py arrs) p cs w H Hc Hv).
    - exact (holds_prod Epy Epy_arith arrs rho (py_class arrs) (pre_py arrs) (pre_py_m1 arrs) p cs w H Hc Hv).
    - cbn [py_class] in Hc. destruct e2; try discriminate.
      apply andb_prop in Hc. destruct Hc as [Hc Hn].
      cbn [evalZ] in Hv. destruct (evalZ rho e1) as [a|] eqn:Ea; [|discriminate]. cbn [obind] in Hv.
      unfold pow_z in Hv. rewrite Hn in Hv. injection Hv as <-.
      split; [|discriminate]. cbn [pre_py py_ast].
      destruct (IHe1 Hc a Ea) as [HA _]. unfold Epy.
      rewrite (evalPy_bin pe BPow _ _ _ _ HA (lit_ast_eval pe v)). cbn. rewrite Hn. reflexivity.
    - rewrite (pre_call_class arrs f args) by exact Hc.
      cbn [py_class] in Hc. apply andb_prop in Hc. destruct Hc as [Hca Hk].
      rewrite evalZ_call in Hv. destruct (omap_list (evalZ rho) args) as [vs|] eqn:E; [|discriminate].
      cbn [obind] in Hv. apply omap_list_some in E.
      destruct (is_arr arrs f) eqn:Ea; (split; [unfold Epy|discriminate]).
      + (* [f] is an array: a read at the shifted subscripts *)
        rewrite (not_intrinsic arrs f Hok Ea) in Hv.
        cbn [py_ast]. rewrite Ea. rewrite evalPy_index.
        pose proof (holds_shifted Epy Epy_arith arrs rho _ _ (no_arr arrs) args vs
                      (pre_id arrs) Epy_num0 Epy_bad H Hca Hk E) as HI.
        rewrite (eval_idxs_ints pe _ _ (gfacts_values _ _ _ _ HI)). apply array_read; assumption.
      + (* [f] is one of min / max / abs *)
        pose proof (gfacts_values _ _ _ _ (holds_children Epy arrs rho _ _ args vs H Hca E)) as HP.
        rewrite (Forall2_length _ _ _ E) in Hk. destruct (mapped_builtin rho f vs w Hk Hv) as [Hkn Hb].
        cbn [py_ast]. rewrite Ea, evalPy_call, Hkn, (eval_args_ints pe _ _ HP). exact Hb.
  Qed.

  Theorem pyexpr_preserves e v :
    py_class arrs e = true -> evalZ rho e = Some v -> evalPy pe (pygen_model arrs e) = POk (VInt v).
  Proof. intros Hc Hv. exact (proj1 (Pa_all e Hc v Hv)). Qed.

  Definition Pb (e : expr) : Prop :=
    py_class_b arrs e = true -> forall b, evalB rho e = Some b ->
    evalPy pe (py_ast arrs (pre_py arrs e) false) = POk (VBool b).

  (** an [and] / [or] chain, [k] telling which *)
  Lemma Pb_chain (k : bool) cs b : Forall Pb cs -> (2 <=? List.length cs)%nat && forallb (py_class_b arrs) cs = true ->
    obind (omap_list (evalB rho) cs) (fun vs => Some (if k then andl vs else orl vs)) = Some b ->
    evalPy pe (boolop_ast k (map (fun c => py_ast arrs c false) (map (pre_py arrs) cs))) = POk (VBool b).
  Proof.
    intros HF Hc Hv. apply andb_prop in Hc as [Hn Hc].
    destruct (omap_list (evalB rho) cs) as [bs|] eqn:E; [|discriminate]. injection Hv as <-. apply omap_list_some in E.
    rewrite map_map. apply boolop_eval; [|destruct cs; [discriminate Hn|discriminate]].
    exact (Forall2_class (py_class_b arrs) _ (fun p x => evalPy pe p = POk (VBool x))
             (fun c => py_ast arrs (pre_py arrs c) false) cs bs HF Hc E).
  Qed.

  Lemma Pb_all : forall e, Pb e.
  Proof.
    induction e using expr_ind'; unfold Pb; intros Hc b0 Hv; try discriminate.
    - cbn in Hv. injection Hv as <-. reflexivity.
    - cbn [py_class_b] in Hc. apply andb_prop in Hc. destruct Hc as [Hc1 Hc2].
      cbn [evalB] in Hv. destruct (evalZ rho e1) as [x|] eqn:E1; [|discriminate].
      destruct (evalZ rho e2) as [y|] eqn:E2; [|discriminate]. cbn [obind] in Hv. injection Hv as <-.
      cbn [pre_py py_ast evalPy].
      rewrite (proj1 (Pa_all e1 Hc1 x E1)), (proj1 (Pa_all e2 Hc2 y E2)). reflexivity.
    - rewrite evalB_and in Hv. exact (Pb_chain true cs b0 H Hc Hv).
    - rewrite evalB_or in Hv. exact (Pb_chain false cs b0 H Hc Hv).
    - cbn [py_class_b] in Hc. cbn [evalB] in Hv.
      destruct (evalB rho e) as [x|] eqn:E1; [|discriminate]. cbn [obind] in Hv. injection Hv as <-.
      cbn [pre_py py_ast evalPy]. rewrite (IHe Hc x E1). reflexivity.
  Qed.

  Theorem pycond_preserves e b :
    py_class_b arrs e = true -> evalB rho e = Some b -> evalPy pe (pygen_model arrs e) = POk (VBool b).
  Proof. intros Hc Hv. exact (Pb_all e Hc b Hv). Qed.
End Preservation.
