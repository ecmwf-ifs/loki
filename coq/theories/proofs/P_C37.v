(** C37 — soundness of the validator, loop distribution / interchange as corollaries.  Defines [hl], [hloops]. *)
From Coq Require Import ZArith List Bool String Lia.
From LV Require Import Base.Expr Base.ListFacts Base.MiniF Base.MiniFFacts models.M_C37
     proofs.P_C37_base proofs.P_C37_in proofs.P_C37_out proofs.P_C37_dem.
Import ListNotations.
Open Scope Z_scope.

Lemma outside_dec k s a idx :
  outside k s a idx \/
  (mem a (k_H k) = true /\ exists j r, idx = j :: r /\ sv s (k_lo k) <= j <= sv s (k_hi k)).
Proof.
  unfold outside. destruct (mem a (k_H k)) eqn:Ha; [|now left; left].
  destruct idx as [|j r]; [left; now right|].
  destruct (Z_lt_dec j (sv s (k_lo k))); [left; right; now left|].
  destruct (Z_lt_dec (sv s (k_hi k)) j); [left; right; now right|].
  right. split; [reflexivity|]. exists j, r. split; [reflexivity|lia].
Qed.

Theorem same_projection_same_arrays k k' ps p p' s s1 s1' :
  in_class k false p = true -> in_class k' false p' = true ->
  k_h k' = k_h k -> k_lo k' = k_lo k -> k_hi k' = k_hi k -> k_H k' = k_H k ->
  project (k_h k) p = project (k_h k) p' ->
  runs ps p s s1 -> runs ps p' s s1' -> forall a idx, av s1 a idx = av s1' a idx.
Proof.
  intros C1 C2 Eh El Eu EH Ep R1 R2 a idx.
  unfold in_class in C1, C2. apply andb_true_iff in C1. destruct C1 as [WF1 C1].
  apply andb_true_iff in C2. destruct C2 as [WF2 C2].
  destruct (out_sim k ps WF1 p s s1 C1 R1) as [_ _ F1 S1].
  destruct (out_sim k' ps WF2 p' s s1' C2 R2) as [_ _ F2 S2].
  destruct (outside_dec k s a idx) as [Ho|[Ha [j [r [-> Hj]]]]].
  - rewrite F1 by exact Ho. rewrite F2; [reflexivity|]. unfold outside in *. now rewrite EH, El, Eu.
  - destruct (S1 j _ Hj (agr_start k j s)) as [c1 [Q1 A1]].
    assert (Hj' : sv s (k_lo k') <= j <= sv s (k_hi k')) by (now rewrite El, Eu).
    destruct (S2 j _ Hj' (agr_start k' j s)) as [c2 [Q2 A2]].
    rewrite Eh, <- Ep in Q2. pose proof (runs_det _ _ _ _ _ Q1 Q2) as E. subst c2.
    rewrite (ag_col k _ _ _ _ A1 a r Ha). rewrite <- EH in Ha. now rewrite (ag_col k' _ _ _ _ A2 a r Ha).
Qed.

Lemma addh_id h Dm : forall s, dclean_s h Dm false s = true -> addh_s h s = s.
Proof.
  induction s using stmt_ind'; intros E; cbn [addh_s]; try reflexivity.
  - cbn [dclean_s] in E. apply andb_true_iff in E. destruct E as [_ E].
    now rewrite (map_id_Forall _ _ (Forall_impl_forallb _ _ b H E)).
  - cbn in E. discriminate.
  - cbn [dclean_s] in E. apply andb_true_iff in E. destruct E as [E E3]. apply andb_true_iff in E. destruct E as [_ E2].
    now rewrite (map_id_Forall _ _ (Forall_impl_forallb _ _ t H E2)), (map_id_Forall _ _ (Forall_impl_forallb _ _ e H0 E3)).
  - cbn in E. discriminate.
Qed.

Lemma addh_id_list h Dm l : dclean h Dm false l = true -> map (addh_s h) l = l.
Proof.
  intros E. apply map_id_Forall. apply (Forall_impl_forallb (dclean_s h Dm false)); [|exact E].
  apply Forall_forall. intros s _. apply addh_id.
Qed.

(** Idea: an array cell outside the horizontal range is untouched by both programs ([out_sim], frame).  For a
    column [j] of the range, [out_sim] turns the run of [p] into a run of its column program from [s[h:=j]];
    [dem_sim] carries that run to the demoted column program, started in [dinit] (scalar [t] := cell [t(j)]);
    that store is related to [s] for [p'], so [out_sim] for [p'] yields a run of the same program from it;
    the two runs coincide ([runs_det]) and the cell is read off through [agr] and [drel]. *)
Theorem V_sound seqv ar h lo hi H Dm p p' ps s s1 s1' :
  V false seqv ar h lo hi H Dm p p' = true ->
  runs ps p s s1 -> runs ps p' s s1' -> arrays_agree_except Dm s1 s1'.
Proof.
  intros HV R1 R2 a idx Ha. unfold V in HV.
  set (k := mk_ctx h lo hi H (locals h p)) in *.
  set (k' := mk_ctx h lo hi (filter (fun a => negb (mem a Dm)) H) (locals h p')) in *.
  apply andb_true_iff in HV. destruct HV as [HV Heq]. apply andb_true_iff in HV. destruct HV as [HV Hcl].
  apply andb_true_iff in HV. destruct HV as [HV Hintr]. apply andb_true_iff in HV. destruct HV as [HV HhD].
  apply andb_true_iff in HV. destruct HV as [HV HsL]. apply andb_true_iff in HV. destruct HV as [HV HsH].
  apply andb_true_iff in HV. destruct HV as [C1 C2]. apply negb_true_iff in HhD.
  assert (Heq' : demote h Dm (project h p) = project h p').
  { apply stmts_eqb_eq. destruct seqv; [|exact Heq]. now rewrite (addh_id_list h Dm _ Hcl) in Heq. }
  unfold in_class in C1, C2. apply andb_true_iff in C1. destruct C1 as [WF1 C1].
  apply andb_true_iff in C2. destruct C2 as [WF2 C2].
  destruct (out_sim k ps WF1 p s s1 C1 R1) as [_ _ F1 S1].
  destruct (out_sim k' ps WF2 p' s s1' C2 R2) as [_ _ F2 S2].
  assert (HH' : mem a (k_H k') = mem a (k_H k)).
  { unfold k', k. cbn [k_H mk_ctx]. rewrite mem_filter, Ha. cbn [negb]. apply andb_true_r. }
  destruct (outside_dec k s a idx) as [Ho|[HaH [j [r [-> Hj]]]]].
  - rewrite F1 by exact Ho. rewrite F2; [reflexivity|]. unfold outside in *. rewrite HH'. exact Ho.
  - destruct (S1 j _ Hj (agr_start k j s)) as [c1 [Q1 A1]].
    set (c0 := set_sv h j s) in *.
    assert (Hc0 : sv c0 h = j) by (unfold c0; cbn; now rewrite String.eqb_refl).
    pose proof (drel_dinit h Dm j c0 Hc0) as DR0.
    destruct (dem_sim h Dm ps j HhD Hintr (project h p) c0 (dinit j Dm c0) c1 Hcl DR0 Q1) as [q1 [Q1' DR1]].
    rewrite Heq' in Q1'.
    assert (AG : agr k' [] j s (dinit j Dm c0)).
    { split.
      - intros x Hx [Hl|Hd]; [|cbn in Hd; discriminate]. rewrite dinit_sv.
        destruct (mem x Dm) eqn:Hm.
        + pose proof (subset_mem _ _ _ HsL Hm) as Hc. cbn in Hl, Hc. congruence.
        + unfold c0. cbn. cbn in Hx. destruct (String.eqb x h) eqn:E; [apply String.eqb_eq in E; congruence|reflexivity].
      - unfold k'. cbn [k_h mk_ctx]. rewrite dinit_sv, HhD. exact Hc0.
      - intros b q _. now rewrite dinit_av.
      - intros b q _. now rewrite dinit_av. }
    destruct (S2 j _ Hj AG) as [q2 [Q2 A2]].
    pose proof (runs_det _ _ _ _ _ Q1' Q2) as E. subst q2.
    rewrite (ag_col k _ _ _ _ A1 a r HaH).
    rewrite <- HH' in HaH. rewrite (ag_col k' _ _ _ _ A2 a r HaH).
    apply (dr_av h Dm j _ _ DR1). intros [A _]. congruence.
Qed.

(** the horizontal loop of context [k] around a body *)
Definition hl (k : ctx) (body : list stmt) : stmt := SDo (k_h k) (EVar (k_lo k)) (EVar (k_hi k)) None body.

Section Mono.
Variable k : ctx.

Definition mono_s (s : stmt) : Prop :=
  forall D1 D2 D1', (forall x, mem x D1 = true -> mem x D2 = true) -> chk_in_s k false D1 s = Some D1' ->
  exists D2', chk_in_s k false D2 s = Some D2' /\ (forall x, mem x D1' = true -> mem x D2' = true).

Lemma mono_list l : Forall mono_s l ->
  forall D1 D2 D1', (forall x, mem x D1 = true -> mem x D2 = true) -> chk_in k false D1 l = Some D1' ->
  exists D2', chk_in k false D2 l = Some D2' /\ (forall x, mem x D1' = true -> mem x D2' = true).
Proof.
  induction 1 as [|s r Hs _ IH]; intros D1 D2 D1' Hsub E; cbn in E.
  - inversion E. subst. exists D2. split; [reflexivity|exact Hsub].
  - destruct (chk_in_s k false D1 s) as [Da|] eqn:E1; [|discriminate].
    destruct (Hs D1 D2 Da Hsub E1) as [Db [E2 Hab]].
    destruct (IH Da Db D1' Hab E) as [D2' [E3 H3]].
    exists D2'. split; [|exact H3]. cbn. now rewrite E2.
Qed.

Lemma forallb_ok_mono D1 D2 l :
  (forall x, mem x D1 = true -> mem x D2 = true) -> forallb (ok_e k true D1) l = true -> forallb (ok_e k true D2) l = true.
Proof.
  intros Hs H. rewrite forallb_forall in *. intros e He. eapply ok_e_mono; [exact Hs|now apply H].
Qed.

Lemma mem_cons_mono (v : string) D1 D2 :
  (forall x, mem x D1 = true -> mem x D2 = true) -> forall x, mem x (v :: D1) = true -> mem x (v :: D2) = true.
Proof.
  intros Hs x. rewrite !mem_cons. intros H. apply orb_true_iff in H. apply orb_true_iff.
  destruct H; [now left|right; now apply Hs].
Qed.

Lemma mono_all : forall s, mono_s s.
Proof.
  induction s using stmt_ind'; intros D1 D2 D1' Hsub E.
  - cbn in E. destruct (mem x (k_L k)) eqn:Hx; [|discriminate]. cbn in E.
    destruct (ok_e k true D1 e) eqn:He; inversion E. subst.
    exists (x :: D2). cbn. rewrite Hx, (ok_e_mono k true D1 D2 e Hsub He). split; [reflexivity|now apply mem_cons_mono].
  - cbn in E. destruct (mem a (k_H k)) eqn:Ha; [|discriminate]. cbn in E.
    destruct (head_is (k_h k) i) eqn:Hh; [|discriminate]. cbn in E.
    destruct (forallb (ok_e k true D1) i) eqn:Hi; [|discriminate]. cbn in E.
    destruct (ok_e k true D1 e) eqn:He; inversion E. subst D1'.
    exists D2. cbn. rewrite Ha, Hh, (forallb_ok_mono D1 D2 i Hsub Hi), (ok_e_mono k true D1 D2 e Hsub He).
    split; [reflexivity|exact Hsub].
  - rewrite chk_in_s_do in E.
    destruct (mem v (k_L k)) eqn:Hv; [|discriminate]. cbn in E.
    destruct (ok_e k true D1 lo) eqn:Hlo; [|discriminate]. cbn in E.
    destruct (ok_e k true D1 hi) eqn:Hhi; [|discriminate]. cbn in E.
    destruct (ok_oe k true D1 st) eqn:Hst; [|discriminate]. cbn in E.
    destruct (chk_in k false (v :: D1) b) as [Db|] eqn:Eb; inversion E. subst.
    destruct (mono_list b H (v :: D1) (v :: D2) Db (mem_cons_mono v D1 D2 Hsub) Eb) as [Db2 [Eb2 _]].
    exists (v :: D2). rewrite chk_in_s_do, Hv, (ok_e_mono k true D1 D2 lo Hsub Hlo), (ok_e_mono k true D1 D2 hi Hsub Hhi).
    assert (Hst2 : ok_oe k true D2 st = true).
    { destruct st; [|reflexivity]. cbn in *. eapply ok_e_mono; eassumption. }
    rewrite Hst2, Eb2. cbn. split; [reflexivity|now apply mem_cons_mono].
  - cbn in E. discriminate.
  - rewrite chk_in_s_if in E. destruct (ok_e k true D1 c) eqn:Hc; [|discriminate].
    destruct (chk_in k false D1 t) as [Dt|] eqn:Et; [|discriminate].
    destruct (chk_in k false D1 e) as [De|] eqn:Ee; inversion E. subst.
    destruct (mono_list t H D1 D2 Dt Hsub Et) as [Dt2 [Et2 Ht]].
    destruct (mono_list e H0 D1 D2 De Hsub Ee) as [De2 [Ee2 He]].
    exists (inter Dt2 De2). rewrite chk_in_s_if, (ok_e_mono k true D1 D2 c Hsub Hc), Et2, Ee2.
    split; [reflexivity|]. intros x. rewrite !mem_inter. intros Hx. apply andb_true_iff in Hx. destruct Hx as [A B].
    now rewrite (Ht x A), (He x B).
  - cbn in E. discriminate.
  - cbn in E. inversion E. subst. exists D2. split; [reflexivity|exact Hsub].
Qed.

Lemma chk_in_mono l D1 D2 D1' :
  (forall x, mem x D1 = true -> mem x D2 = true) -> chk_in k false D1 l = Some D1' ->
  exists D2', chk_in k false D2 l = Some D2' /\ (forall x, mem x D1' = true -> mem x D2' = true).
Proof. apply mono_list. apply Forall_forall. intros s _. apply mono_all. Qed.

Lemma chk_in_app A B D :
  chk_in k false D (A ++ B) = match chk_in k false D A with Some D1 => chk_in k false D1 B | None => None end.
Proof.
  revert D. induction A as [|s r IH]; intros D; [reflexivity|]. cbn.
  destruct (chk_in_s k false D s); [apply IH|reflexivity].
Qed.

Lemma fusion_in_class A B : in_class k false [hl k A; hl k B] = true -> in_class k false [hl k (A ++ B)] = true.
Proof.
  unfold in_class, chk_out. cbn [forallb chk_out_s hl]. rewrite String.eqb_refl.
  intros H. apply andb_true_iff in H. destruct H as [WF H]. rewrite WF. cbn [andb].
  apply andb_true_iff in H. destruct H as [HA H]. apply andb_true_iff in H. destruct H as [HB _].
  apply andb_true_iff in HA. destruct HA as [HA1 HA]. apply andb_true_iff in HB. destruct HB as [_ HB].
  rewrite HA1. cbn [andb]. rewrite andb_true_r.
  destruct (chk_in k false [] A) as [DA|] eqn:EA; [|discriminate].
  destruct (chk_in k false [] B) as [DB|] eqn:EB; [|discriminate].
  rewrite chk_in_app, EA.
  destruct (chk_in_mono B [] DA DB (fun x => absurd_mode) EB) as [D2 [E2 _]].
  now rewrite E2.
Qed.

End Mono.

Lemma project_hl k body : project (k_h k) [hl k body] = project (k_h k) body.
Proof. unfold project, hl. cbn [flat_map proj_s]. rewrite String.eqb_refl. apply app_nil_r. Qed.

(** the loop-distribution core of SCCDevector + SCCRevector: a horizontal loop around a sequence computes the same arrays
    as the sequence of horizontal loops (the rewrite is used in both directions; the fused form is in the class whenever the
    distributed one is) *)
Theorem loop_distribution k ps A B s s1 s2 :
  in_class k false [hl k A; hl k B] = true ->
  runs ps [hl k A; hl k B] s s1 -> runs ps [hl k (A ++ B)] s s2 ->
  forall a idx, av s1 a idx = av s2 a idx.
Proof.
  intros C R1 R2. apply (same_projection_same_arrays k k ps _ _ s s1 s2 C (fusion_in_class k A B C)); auto.
  rewrite project_hl. unfold project, hl. cbn [flat_map proj_s]. rewrite String.eqb_refl.
  rewrite app_nil_r. unfold project. now rewrite flat_map_app.
Qed.

Fixpoint hloops (k : ctx) (bodies : list (list stmt)) : list stmt :=
  match bodies with [] => [] | b :: r => hl k b :: hloops k r end.

Lemma project_hloops k bodies : project (k_h k) (hloops k bodies) = project (k_h k) (List.concat bodies).
Proof.
  induction bodies as [|b r IH]; [reflexivity|]. cbn [hloops List.concat].
  change (hl k b :: hloops k r) with ([hl k b] ++ hloops k r). unfold project in *.
  rewrite !flat_map_app. f_equal; [|exact IH]. apply (project_hl k b).
Qed.

Theorem loop_distribution_n k ps bodies s s1 s2 :
  in_class k false (hloops k bodies) = true -> in_class k false [hl k (List.concat bodies)] = true ->
  runs ps (hloops k bodies) s s1 -> runs ps [hl k (List.concat bodies)] s s2 ->
  forall a idx, av s1 a idx = av s2 a idx.
Proof.
  intros C1 C2 R1 R2. apply (same_projection_same_arrays k k ps _ _ s s1 s2 C1 C2); auto.
  now rewrite project_hloops, project_hl.
Qed.

(** interchange of a vertical loop with the horizontal loop (vector sections that contain a vertical loop) *)
Theorem loop_interchange k1 k2 ps v lo hi st A s s1 s2 :
  k_h k2 = k_h k1 -> k_lo k2 = k_lo k1 -> k_hi k2 = k_hi k1 -> k_H k2 = k_H k1 ->
  in_class k1 false [SDo v lo hi st [hl k1 A]] = true ->
  in_class k2 false [hl k2 [SDo v lo hi st A]] = true ->
  runs ps [SDo v lo hi st [hl k1 A]] s s1 -> runs ps [hl k2 [SDo v lo hi st A]] s s2 ->
  forall a idx, av s1 a idx = av s2 a idx.
Proof.
  intros Eh El Eu EH C1 C2 R1 R2.
  apply (same_projection_same_arrays k1 k2 ps _ _ s s1 s2 C1 C2 Eh El Eu EH); auto.
  assert (Hv : String.eqb v (k_h k1) = false).
  { unfold in_class, chk_out in C2. cbn [forallb chk_out_s hl] in C2. rewrite String.eqb_refl in C2.
    apply andb_true_iff in C2. destruct C2 as [WF C2].
    apply andb_true_iff in C2. destruct C2 as [C2 _]. apply andb_true_iff in C2. destruct C2 as [_ C2].
    cbn [chk_in] in C2. rewrite chk_in_s_do in C2.
    destruct (mem v (k_L k2)) eqn:Hm; [|discriminate].
    destruct (String.eqb v (k_h k1)) eqn:E; [|reflexivity]. apply String.eqb_eq in E. subst v.
    rewrite <- Eh in Hm. pose proof (h_not_local k2 WF). congruence. }
  unfold project, hl. cbn [flat_map proj_s]. rewrite Eh, String.eqb_refl, Hv. cbn [flat_map proj_s].
  now rewrite !app_nil_r.
Qed.
