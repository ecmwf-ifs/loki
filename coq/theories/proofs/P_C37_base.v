(** C37 — helpers, the agreement relation between the global store and a column store,
    evaluation of class expressions. *)
From Coq Require Import ZArith List Bool String Lia.
From LV Require Import Base.Expr Base.ListFacts Base.ExprFacts Base.MiniF Base.MiniFFacts models.M_C37.
Import ListNotations.
Open Scope Z_scope.

Lemma mem_cons x y l : mem x (y :: l) = String.eqb x y || mem x l.
Proof. reflexivity. Qed.

Lemma mem_In x l : mem x l = true <-> In x l.
Proof. apply existsb_eqb_In. Qed.

Lemma mem_filter x (p : string -> bool) l : mem x (filter p l) = mem x l && p x.
Proof.
  induction l as [|y r IH]; [reflexivity|]. cbn [filter].
  destruct (p y) eqn:Ey; rewrite ?mem_cons, IH; destruct (String.eqb x y) eqn:E; try reflexivity;
    apply String.eqb_eq in E; subst; cbn; rewrite Ey; [reflexivity|apply andb_false_r].
Qed.

Lemma mem_false_neq x y l : mem x l = false -> mem y l = true -> x <> y.
Proof. intros A B E. subst. congruence. Qed.

Lemma neqb_neq x y : negb (String.eqb x y) = true -> x <> y.
Proof. intros E. apply negb_true_iff in E. now apply String.eqb_neq. Qed.

Lemma absurd_mode {P : Prop} : false = true -> P.
Proof. discriminate. Qed.

Lemma subset_mem a b x : subset a b = true -> mem x a = true -> mem x b = true.
Proof.
  unfold subset. rewrite forallb_forall. intros H Hx. apply mem_In in Hx. now apply H.
Qed.

Lemma list_z_eqb_refl l : list_z_eqb l l = true.
Proof. exact (MiniFFacts.list_z_eqb_refl l). Qed.

Lemma omap_list_head rho x rest vs :
  omap_list (evalZ rho) (EVar x :: rest) = Some vs -> exists r, vs = ev_var rho x :: r.
Proof.
  cbn. destruct (omap_list (evalZ rho) rest) as [r|]; cbn; [|discriminate]. intros E. inversion E. now exists r.
Qed.

(** * a run of a compound statement, transported to a statement of the same shape in another store;
    [Q] is what is to be known of the store reached there *)
Lemma runs1_do_sim ps v lo hi st b lo' hi' st' b' g c g' (Q : store -> Prop) :
  evalZ (env_st g) lo = evalZ (env_st c) lo' -> evalZ (env_st g) hi = evalZ (env_st c) hi' ->
  match st with None => Some 1 | Some e => evalZ (env_st g) e end =
  match st' with None => Some 1 | Some e => evalZ (env_st c) e end ->
  (forall d n a0, loop_runs ps b v d n a0 g g' -> exists c', loop_runs ps b' v d n a0 c c' /\ Q c') ->
  runs1 ps (SDo v lo hi st b) g g' -> exists c', runs1 ps (SDo v lo' hi' st' b') c c' /\ Q c'.
Proof.
  intros El Eh Es Hl Hr. apply runs1_do in Hr. destruct Hr as [a0 [b0 [d [Ea [Eb [Ed [Hd L]]]]]]].
  destruct (Hl _ _ _ L) as [c' [L' HQ]]. exists c'. split; [|exact HQ].
  apply runs1_do. exists a0, b0, d. rewrite <- El, <- Eh, <- Es. now repeat split.
Qed.

Lemma runs1_if_sim ps c t e c' t' e' g q g' (Q : store -> Prop) :
  evalB (env_st g) c = evalB (env_st q) c' ->
  (runs ps t g g' -> exists q', runs ps t' q q' /\ Q q') ->
  (runs ps e g g' -> exists q', runs ps e' q q' /\ Q q') ->
  runs1 ps (SIf c t e) g g' -> exists q', runs1 ps (SIf c' t' e') q q' /\ Q q'.
Proof.
  intros Ec Ht He [f Ef]. cbn in Ef. apply obind_some in Ef. destruct Ef as [bv [Ebv Ef]]. rewrite Ec in Ebv.
  assert (H : exists q', runs ps (if bv then t' else e') q q' /\ Q q')
    by (destruct bv; [apply Ht|apply He]; now exists f).
  destruct H as [q' [R HQ]]. exists q'. split; [|exact HQ]. now apply (runs1_if ps c' t' e' q q' bv Ebv).
Qed.

(** [R] relates the stores between iterations, [Rb] at the start of a body and after the loop *)
Lemma loop_runs_sim ps (R Rb : store -> store -> Prop) body body' v d :
  (forall a s t, R s t -> Rb (set_sv v a s) (set_sv v a t)) ->
  (forall s t s', Rb s t -> runs ps body s s' -> exists t', runs ps body' t t' /\ R s' t') ->
  forall n a s t s', R s t -> loop_runs ps body v d n a s s' ->
  exists t', loop_runs ps body' v d n a t t' /\ Rb s' t'.
Proof.
  intros Hset Hb. induction n as [|n IH]; intros a s t s' H L; inversion L as [|? ? ? s1 ? B L2]; subst.
  - exists (set_sv v a t). split; [constructor|now apply Hset].
  - destruct (Hb _ _ _ (Hset a s t H) B) as [t1 [B1 R1]]. destruct (IH _ _ _ _ R1 L2) as [t' [L' F]].
    exists t'. split; [econstructor; eassumption|exact F].
Qed.

Lemma head_is_inv x l : head_is x l = true -> exists rest, l = EVar x :: rest.
Proof.
  destruct l as [|e rest]; cbn; [discriminate|]. destruct e; cbn; try discriminate.
  intros E. apply String.eqb_eq in E. subst. now exists rest.
Qed.

Lemma head_is_idx x g idx iv : head_is x idx = true -> eval_idx g idx = Some iv -> exists r, iv = sv g x :: r.
Proof. intros Hhd Eiv. apply head_is_inv in Hhd. destruct Hhd as [rest ->]. exact (omap_list_head _ _ _ _ Eiv). Qed.

Lemma is_var_inv x e : is_var x e = true -> e = EVar x.
Proof. destruct e; cbn; try discriminate. intros E. apply String.eqb_eq in E. now subst. Qed.

(** * the relation between the global store [g] and the store [c] of column [i] *)
Section Agree.
Variable k : ctx.

Record agr (D : list string) (i : Z) (g c : store) : Prop := {
  ag_sc : forall x, x <> k_h k -> (mem x (k_L k) = false \/ mem x D = true) -> sv g x = sv c x;
  ag_h : sv c (k_h k) = i;
  ag_col : forall a r, mem a (k_H k) = true -> av g a (i :: r) = av c a (i :: r);
  ag_oth : forall a idx, mem a (k_H k) = false -> av g a idx = av c a idx }.

Lemma agr_weaken D1 D2 i g c :
  (forall x, mem x D2 = true -> mem x D1 = true) -> agr D1 i g c -> agr D2 i g c.
Proof.
  intros Hs [A B C E]. split; try assumption.
  intros x Hx [Hl|Hd]; apply A; auto.
Qed.

Lemma agr_nil D i g c : agr D i g c -> agr [] i g c.
Proof. apply agr_weaken. cbn. discriminate. Qed.

Lemma agr_set_both D i g c x v :
  x <> k_h k -> agr D i g c -> agr (x :: D) i (set_sv x v g) (set_sv x v c).
Proof.
  intros Hx [A B C E]. split.
  - intros y Hy Hc. cbn [sv set_sv]. destruct (String.eqb y x) eqn:Eq; [reflexivity|].
    apply A; [exact Hy|]. destruct Hc as [Hl|Hd]; [now left|]. right. rewrite mem_cons, Eq in Hd. exact Hd.
  - cbn [sv set_sv]. destruct (String.eqb (k_h k) x) eqn:Eq; [|exact B]. apply String.eqb_eq in Eq. congruence.
  - exact C.
  - exact E.
Qed.

Lemma agr_set_both_same D i g c x v :
  x <> k_h k -> agr D i g c -> agr D i (set_sv x v g) (set_sv x v c).
Proof.
  intros Hx H. eapply agr_weaken; [|apply agr_set_both; eassumption].
  intros y Hy. rewrite mem_cons, Hy. apply orb_true_r.
Qed.

Lemma agr_set_h_left D i g c v : agr D i g c -> agr D i (set_sv (k_h k) v g) c.
Proof.
  intros [A B C E]. split; cbn; try assumption.
  intros y Hy Hc. destruct (String.eqb y (k_h k)) eqn:Eq; [apply String.eqb_eq in Eq; congruence|]. now apply A.
Qed.

Lemma agr_store D i g c a r v :
  mem a (k_H k) = true -> agr D i g c -> agr D i (set_av a (i :: r) v g) (set_av a (i :: r) v c).
Proof.
  intros Ha [A B C E]. split; cbn; try assumption.
  - intros b q Hb. destruct (String.eqb b a && ((i =? i) && list_z_eqb q r)); [reflexivity|now apply C].
  - intros b idx Hb. destruct (String.eqb b a) eqn:Eq.
    + apply String.eqb_eq in Eq. subst. congruence.
    + cbn. now apply E.
Qed.

Lemma ok_e_eval D i g c inm :
  agr D i g c -> (inm = true -> sv g (k_h k) = i) -> forall e,
  ok_e k inm D e = true ->
  evalZ (env_st g) e = evalZ (env_st c) e /\ evalB (env_st g) e = evalB (env_st c) e.
Proof.
  intros Hag Hh. induction e using expr_ind'; intros Hok; cbn [ok_e] in Hok.
  - split; reflexivity.
  - split; reflexivity.
  - split; [|reflexivity]. cbn. f_equal.
    destruct (String.eqb x (k_h k)) eqn:Eq.
    + apply String.eqb_eq in Eq. subst x. rewrite (Hh Hok). symmetry. apply (ag_h _ _ _ _ Hag).
    + apply (ag_sc _ _ _ _ Hag); [intros ->; now rewrite String.eqb_refl in Eq|].
      apply orb_true_iff in Hok. destruct Hok as [Hl|Hd]; [left; now apply negb_true_iff in Hl|now right].
  - split; reflexivity.
  - destruct (Forall_and_inv _ _ (Forall_impl_forallb _ _ cs H Hok)) as [HZ _].
    split; [|reflexivity]. cbn [evalZ]. now apply fold_obind_same.
  - destruct (Forall_and_inv _ _ (Forall_impl_forallb _ _ cs H Hok)) as [HZ _].
    split; [|reflexivity]. cbn [evalZ]. now apply fold_obind_same.
  - apply andb_true_iff in Hok. destruct Hok as [H1 H2].
    destruct (IHe1 H1) as [E1 _], (IHe2 H2) as [E2 _]. split; [|reflexivity]. cbn [evalZ]. now rewrite E1, E2.
  - apply andb_true_iff in Hok. destruct Hok as [H1 H2].
    destruct (IHe1 H1) as [E1 _], (IHe2 H2) as [E2 _]. split; [|reflexivity]. cbn [evalZ]. now rewrite E1, E2.
  - apply andb_true_iff in Hok. destruct Hok as [H1 H2].
    destruct (IHe1 H1) as [E1 _], (IHe2 H2) as [E2 _]. split; [reflexivity|]. cbn [evalB]. now rewrite E1, E2.
  - destruct (Forall_and_inv _ _ (Forall_impl_forallb _ _ cs H Hok)) as [_ HB].
    split; [reflexivity|]. cbn [evalB]. now apply fold_obind_same.
  - destruct (Forall_and_inv _ _ (Forall_impl_forallb _ _ cs H Hok)) as [_ HB].
    split; [reflexivity|]. cbn [evalB]. now apply fold_obind_same.
  - destruct (IHe Hok) as [_ E]. split; [reflexivity|]. cbn [evalB]. now rewrite E.
  - apply andb_true_iff in Hok. destruct Hok as [H1 H2].
    destruct (Forall_and_inv _ _ (Forall_impl_forallb _ _ args H H2)) as [HF _].
    split; [|reflexivity]. rewrite !evalZ_call, (omap_list_ext _ _ args HF).
    destruct (omap_list (evalZ (env_st c)) args) as [vs|] eqn:Ev; [|reflexivity]. cbn [obind].
    destruct (intrinsic f vs); [reflexivity|]. cbn. f_equal.
    destruct (mem f (k_H k)) eqn:Hf.
    + apply andb_true_iff in H1. destruct H1 as [Hin Hhd].
      apply head_is_inv in Hhd. destruct Hhd as [rest ->].
      apply omap_list_head in Ev. destruct Ev as [r ->]. cbn.
      rewrite (ag_h _ _ _ _ Hag). now apply (ag_col _ _ _ _ Hag).
    + now apply (ag_oth _ _ _ _ Hag).
Qed.

Lemma ok_e_evalZ D i g c inm e :
  agr D i g c -> (inm = true -> sv g (k_h k) = i) -> ok_e k inm D e = true -> evalZ (env_st g) e = evalZ (env_st c) e.
Proof. intros A B C. now destruct (ok_e_eval D i g c inm A B e C). Qed.

Lemma ok_e_evalB D i g c inm e :
  agr D i g c -> (inm = true -> sv g (k_h k) = i) -> ok_e k inm D e = true -> evalB (env_st g) e = evalB (env_st c) e.
Proof. intros A B C. now destruct (ok_e_eval D i g c inm A B e C). Qed.

Lemma ok_oe_eval D i g c inm st :
  agr D i g c -> (inm = true -> sv g (k_h k) = i) -> ok_oe k inm D st = true ->
  match st with None => Some 1 | Some e => evalZ (env_st g) e end = match st with None => Some 1 | Some e => evalZ (env_st c) e end.
Proof. destruct st; cbn; [apply ok_e_evalZ|reflexivity]. Qed.

Lemma ok_idx_eval D i g c inm idx :
  agr D i g c -> (inm = true -> sv g (k_h k) = i) -> forallb (ok_e k inm D) idx = true -> eval_idx g idx = eval_idx c idx.
Proof.
  intros A B C. apply omap_list_ext.
  rewrite forallb_forall in C. apply Forall_forall. intros e He. apply (ok_e_evalZ D i g c inm); auto.
Qed.

Lemma ok_e_mono inm D1 D2 e :
  (forall x, mem x D1 = true -> mem x D2 = true) -> ok_e k inm D1 e = true -> ok_e k inm D2 e = true.
Proof.
  intros Hs. induction e using expr_ind'; cbn [ok_e]; intros Hok; try reflexivity;
    (* the binary nodes EQuot, EPow, ECmp *)
    try (apply andb_true_iff in Hok; destruct Hok as [H1 H2]; apply andb_true_iff; split; auto; fail);
    (* the list nodes ESum, EProd, EAnd, EOr, through the [Forall] induction hypothesis [H] *)
    try (rewrite forallb_forall in *; rewrite Forall_forall in H; intros a Ha; apply H; auto; fail).
  (* left, in this order: EVar, ENot, ECall *)
  - destruct (String.eqb x (k_h k)); [exact Hok|].
    apply orb_true_iff in Hok. apply orb_true_iff. destruct Hok; [now left|right; now apply Hs].
  - auto.
  - apply andb_true_iff in Hok. destruct Hok as [H1 H2]. apply andb_true_iff. split; [exact H1|].
    rewrite forallb_forall in *. rewrite Forall_forall in H. intros a Ha. apply H; auto.
Qed.

End Agree.
