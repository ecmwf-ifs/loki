(** C37 — demotion [t(h)] -> [t] on column programs is a simulation (the storage of column [i] of
    [t] and the scalar [t] are isomorphic while [h = i]). *)
From Coq Require Import ZArith List Bool String Lia.
From LV Require Import Base.Expr Base.ListFacts Base.ExprFacts Base.MiniF Base.MiniFFacts models.M_C37 proofs.P_C37_base.
Import ListNotations.
Open Scope Z_scope.

Lemma is_hidx_inv h idx : is_hidx h idx = true -> idx = [EVar h].
Proof.
  destruct idx as [|e [|e2 r]]; cbn; try discriminate. intros E. apply is_var_inv in E. now subst.
Qed.

Section Demote.
Variable h : string.
Variable Dm : list string.
Variable ps : procs.
Variable i : Z.
Hypothesis Hh : mem h Dm = false.
Hypothesis Hintr : disjoint Dm intrinsic_names = true.

Lemma dm_not_intrinsic t vs : mem t Dm = true -> intrinsic t vs = None.
Proof.
  intros Ht. apply intrinsic_not_In. apply (proj1 (disjoint_existsb_eqb Dm intrinsic_names) Hintr). now apply mem_In.
Qed.

Record drel (c q : store) : Prop := {
  dr_h : sv c h = i;
  dr_sc : forall x, mem x Dm = false -> sv c x = sv q x;
  dr_dm : forall t, mem t Dm = true -> sv q t = av c t [i];
  dr_av : forall a idx, ~ (mem a Dm = true /\ idx = [i]) -> av c a idx = av q a idx }.

Lemma dem_e_eval c q : drel c q -> forall e, dclean_e h Dm e = true ->
  evalZ (env_st c) e = evalZ (env_st q) (dem_e h Dm e) /\ evalB (env_st c) e = evalB (env_st q) (dem_e h Dm e).
Proof.
  intros R. induction e using expr_ind'; intros Hc; cbn [dclean_e] in Hc; cbn [dem_e].
  - split; reflexivity.
  - split; reflexivity.
  - split; [|reflexivity]. cbn. f_equal. apply (dr_sc _ _ R). now apply negb_true_iff in Hc.
  - split; reflexivity.
  - destruct (Forall_and_inv _ _ (Forall_impl_forallb _ _ cs H Hc)) as [HZ _].
    split; [|reflexivity]. cbn [evalZ]. now apply fold_obind_ext.
  - destruct (Forall_and_inv _ _ (Forall_impl_forallb _ _ cs H Hc)) as [HZ _].
    split; [|reflexivity]. cbn [evalZ]. now apply fold_obind_ext.
  - apply andb_true_iff in Hc. destruct Hc as [H1 H2].
    destruct (IHe1 H1) as [E1 _], (IHe2 H2) as [E2 _]. split; [|reflexivity]. cbn [evalZ]. now rewrite E1, E2.
  - apply andb_true_iff in Hc. destruct Hc as [H1 H2].
    destruct (IHe1 H1) as [E1 _], (IHe2 H2) as [E2 _]. split; [|reflexivity]. cbn [evalZ]. now rewrite E1, E2.
  - apply andb_true_iff in Hc. destruct Hc as [H1 H2].
    destruct (IHe1 H1) as [E1 _], (IHe2 H2) as [E2 _]. split; [reflexivity|]. cbn [evalB]. now rewrite E1, E2.
  - destruct (Forall_and_inv _ _ (Forall_impl_forallb _ _ cs H Hc)) as [_ HB].
    split; [reflexivity|]. cbn [evalB]. now apply fold_obind_ext.
  - destruct (Forall_and_inv _ _ (Forall_impl_forallb _ _ cs H Hc)) as [_ HB].
    split; [reflexivity|]. cbn [evalB]. now apply fold_obind_ext.
  - destruct (IHe Hc) as [_ E]. split; [reflexivity|]. cbn [evalB]. now rewrite E.
  - destruct (mem f Dm) eqn:Hf.
    + rewrite Hc. cbn [andb]. apply is_hidx_inv in Hc. subst args. split; [|reflexivity].
      rewrite evalZ_call. cbn [omap_list obind evalZ env_st ev_var].
      rewrite (dm_not_intrinsic f _ Hf). cbn.
      rewrite (dr_h _ _ R). f_equal. symmetry. now apply (dr_dm _ _ R).
    + cbn [andb].
      destruct (Forall_and_inv _ _ (Forall_impl_forallb _ _ args H Hc)) as [HF _].
      split; [|reflexivity]. rewrite !evalZ_call, (omap_list_ext_map _ (evalZ (env_st q)) (dem_e h Dm) args HF).
      destruct (omap_list (evalZ (env_st q)) (map (dem_e h Dm) args)) as [vs|]; [|reflexivity]. cbn [obind].
      destruct (intrinsic f vs); [reflexivity|]. cbn. f_equal. apply (dr_av _ _ R). intros [A _]. congruence.
Qed.

Lemma dem_evalZ c q e : drel c q -> dclean_e h Dm e = true -> evalZ (env_st c) e = evalZ (env_st q) (dem_e h Dm e).
Proof. intros R Hc. now destruct (dem_e_eval c q R e Hc). Qed.

Lemma dem_evalB c q e : drel c q -> dclean_e h Dm e = true -> evalB (env_st c) e = evalB (env_st q) (dem_e h Dm e).
Proof. intros R Hc. now destruct (dem_e_eval c q R e Hc). Qed.

Lemma dem_oe_eval c q st : drel c q -> dclean_oe h Dm st = true ->
  match st with None => Some 1 | Some e => evalZ (env_st c) e end =
  match option_map (dem_e h Dm) st with None => Some 1 | Some e => evalZ (env_st q) e end.
Proof. destruct st; cbn; [apply dem_evalZ|reflexivity]. Qed.

Lemma dem_idx_eval c q idx : drel c q -> forallb (dclean_e h Dm) idx = true ->
  eval_idx c idx = eval_idx q (map (dem_e h Dm) idx).
Proof.
  intros R Hc. apply omap_list_ext_map.
  rewrite forallb_forall in Hc. apply Forall_forall. intros e He. apply dem_evalZ; auto.
Qed.

Lemma drel_set c q x v : mem x Dm = false -> x <> h -> drel c q -> drel (set_sv x v c) (set_sv x v q).
Proof.
  intros Hx Hxh [A B C E]. split.
  - cbn. destruct (String.eqb h x) eqn:Eq; [apply String.eqb_eq in Eq; congruence|exact A].
  - intros y Hy. cbn. destruct (String.eqb y x); [reflexivity|now apply B].
  - intros t Ht. cbn. destruct (String.eqb t x) eqn:Eq; [apply String.eqb_eq in Eq; congruence|now apply C].
  - exact E.
Qed.

Lemma drel_store c q a iv v : mem a Dm = false -> drel c q -> drel (set_av a iv v c) (set_av a iv v q).
Proof.
  intros Ha [A B C E]. split.
  - exact A.
  - exact B.
  - intros t Ht. cbn. destruct (String.eqb t a) eqn:Eq; [apply String.eqb_eq in Eq; congruence|]. cbn. now apply C.
  - intros b idx Hn. cbn. destruct (String.eqb b a && list_z_eqb idx iv); [reflexivity|now apply E].
Qed.

Lemma drel_demoted_store c q t v : mem t Dm = true -> drel c q -> drel (set_av t [i] v c) (set_sv t v q).
Proof.
  intros Ht [A B C E]. split.
  - exact A.
  - intros y Hy. cbn. destruct (String.eqb y t) eqn:Eq; [apply String.eqb_eq in Eq; congruence|now apply B].
  - intros u Hu. cbn. destruct (String.eqb u t) eqn:Eq.
    + cbn. now rewrite Z.eqb_refl.
    + cbn. now apply C.
  - intros b idx Hn. cbn. destruct (String.eqb b t) eqn:Eq.
    + apply String.eqb_eq in Eq. subst b. cbn. destruct (list_z_eqb idx [i]) eqn:El.
      * apply list_z_eqb_eq in El. subst. exfalso. apply Hn. now split.
      * now apply E.
    + cbn. now apply E.
Qed.

Definition dem_sim_s (s : stmt) : Prop :=
  forall c q c1, dclean_s h Dm false s = true -> drel c q -> runs1 ps s c c1 ->
  exists q1, runs1 ps (dem_s h Dm s) q q1 /\ drel c1 q1.

Definition dem_sim_l (l : list stmt) : Prop :=
  forall c q c1, dclean h Dm false l = true -> drel c q -> runs ps l c c1 ->
  exists q1, runs ps (demote h Dm l) q q1 /\ drel c1 q1.

Lemma dem_sim_list l : Forall dem_sim_s l -> dem_sim_l l.
Proof.
  induction 1 as [|s r Hs _ IH]; intros c q c1 E R Hr.
  - apply runs_nil_inv in Hr. subst. exists q. split; [apply runs_nil|exact R].
  - unfold dclean in E. cbn in E. apply andb_true_iff in E. destruct E as [E1 E2].
    apply runs_cons_inv in Hr. destruct Hr as [c0 [R1 R2]].
    destruct (Hs c q c0 E1 R R1) as [q0 [Q1 D1]].
    destruct (IH c0 q0 c1 E2 D1 R2) as [q1 [Q2 D2]].
    exists q1. split; [|exact D2]. unfold demote. cbn [map]. eapply runs_cons; eassumption.
Qed.

Lemma dem_sim_all : forall s, dem_sim_s s.
Proof.
  induction s using stmt_ind'; intros c0 q c1 E R Hr.
  - cbn in E. apply andb_true_iff in E. destruct E as [E E3]. apply andb_true_iff in E. destruct E as [E1 E2].
    apply negb_true_iff in E1. apply neqb_neq in E2.
    apply runs1_assign_inv in Hr. destruct Hr as [v [Ev ->]].
    exists (set_sv x v q). split; [|now apply drel_set].
    cbn [dem_s]. apply runs1_assign. rewrite <- (dem_evalZ c0 q e R E3). exact Ev.
  - cbn [dclean_s] in E. apply andb_true_iff in E. destruct E as [E1 E2].
    apply runs1_store_inv in Hr. destruct Hr as [iv [v [Eiv [Ev ->]]]].
    cbn [dem_s]. destruct (mem a Dm) eqn:Ha.
    + rewrite E1. cbn [andb]. apply is_hidx_inv in E1. subst i0.
      cbn in Eiv. inversion Eiv. subst iv. rewrite (dr_h _ _ R).
      exists (set_sv a v q). split; [|now apply drel_demoted_store].
      apply runs1_assign. rewrite <- (dem_evalZ c0 q e R E2). exact Ev.
    + cbn [andb]. exists (set_av a iv v q). split; [|now apply drel_store].
      apply runs1_store; [now rewrite <- (dem_idx_eval c0 q i0 R E1)|now rewrite <- (dem_evalZ c0 q e R E2)].
  - cbn [dclean_s] in E. apply andb_true_iff in E. destruct E as [E E6]. apply andb_true_iff in E. destruct E as [E E5].
    apply andb_true_iff in E. destruct E as [E E4]. apply andb_true_iff in E. destruct E as [E E3].
    apply andb_true_iff in E. destruct E as [E1 E2]. apply negb_true_iff in E1. apply neqb_neq in E2.
    cbn [dem_s]. apply (runs1_do_sim ps v lo hi st b _ _ _ (demote h Dm b) c0 q c1 (fun q1 => drel c1 q1)
                          (dem_evalZ c0 q lo R E3) (dem_evalZ c0 q hi R E4) (dem_oe_eval c0 q st R E5)); [|exact Hr].
    intros d n a0.
    exact (loop_runs_sim ps drel drel b (demote h Dm b) v d (fun a s t => drel_set s t v a E1 E2)
             (fun s t s' Rs => dem_sim_list b H s t s' E6 Rs) n a0 c0 q c1 R).
  - cbn in E. discriminate.
  - cbn [dclean_s] in E. apply andb_true_iff in E. destruct E as [E E3]. apply andb_true_iff in E. destruct E as [E1 E2].
    cbn [dem_s]. apply (runs1_if_sim ps c t e _ (demote h Dm t) (demote h Dm e) c0 q c1 (fun q1 => drel c1 q1)
                          (dem_evalB c0 q c R E1)); [| |exact Hr].
    + exact (dem_sim_list t H c0 q c1 E2 R).
    + exact (dem_sim_list e H0 c0 q c1 E3 R).
  - cbn in E. discriminate.
  - apply runs1_skip_inv in Hr. subst c1. exists q. split; [apply runs1_skip|exact R].
Qed.

Theorem dem_sim l : dem_sim_l l.
Proof. apply dem_sim_list. apply Forall_forall. intros s _. apply dem_sim_all. Qed.

(** the start store of the demoted column program: scalar [t] := cell [t(i)] *)
Fixpoint dinit (l : list string) (c : store) : store :=
  match l with
  | [] => c
  | t :: r => set_sv t (av c t [i]) (dinit r c)
  end.

Lemma dinit_av l c : av (dinit l c) = av c.
Proof. induction l as [|t r IH]; [reflexivity|]. cbn. exact IH. Qed.

Lemma dinit_sv l c x : sv (dinit l c) x = if mem x l then av c x [i] else sv c x.
Proof.
  induction l as [|t r IH]; [reflexivity|]. cbn [dinit sv set_sv]. rewrite mem_cons.
  destruct (String.eqb x t) eqn:E; cbn [orb]; [|exact IH]. apply String.eqb_eq in E. now subst.
Qed.

Lemma drel_dinit c : sv c h = i -> drel c (dinit Dm c).
Proof.
  intros Hc. split.
  - exact Hc.
  - intros x Hx. now rewrite dinit_sv, Hx.
  - intros t Ht. now rewrite dinit_sv, Ht.
  - intros a idx _. now rewrite dinit_av.
Qed.

End Demote.

