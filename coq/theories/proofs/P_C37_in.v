(** C37 — inside one horizontal iteration.
    [in_sim]: the iteration of the own column is simulated by the column program;
    [in_frame]: an iteration of another column changes only local scalars and cells of its own column. *)
From Coq Require Import ZArith List Bool String Lia.
From LV Require Import Base.Expr Base.MiniF Base.MiniFFacts models.M_C37 proofs.P_C37_base.
Import ListNotations.
Open Scope Z_scope.

Lemma chk_in_s_do k calls D v lo hi st b :
  chk_in_s k calls D (SDo v lo hi st b) =
  if mem v (k_L k) && ok_e k true D lo && ok_e k true D hi && ok_oe k true D st then
    match chk_in k calls (v :: D) b with Some _ => Some (v :: D) | None => None end
  else None.
Proof. reflexivity. Qed.

Lemma chk_in_s_if k calls D c t e :
  chk_in_s k calls D (SIf c t e) =
  if ok_e k true D c then
    match chk_in k calls D t, chk_in k calls D e with Some Dt, Some De => Some (inter Dt De) | _, _ => None end
  else None.
Proof. reflexivity. Qed.

Lemma mem_inter x a b : mem x (inter a b) = mem x a && mem x b.
Proof. apply mem_filter. Qed.

(** a three-part conjunction *)
Ltac split3 := split; [|split].

Section InMode.
Variable k : ctx.
Variable ps : procs.
Hypothesis WF : wf_ctx k = true.

Lemma h_not_local : mem (k_h k) (k_L k) = false.
Proof.
  pose proof WF as W. unfold wf_ctx in W. repeat (apply andb_true_iff in W; destruct W as [W ?]). now apply negb_true_iff in W.
Qed.

Lemma local_neq_h v : mem v (k_L k) = true -> v <> k_h k.
Proof. intros Hv E. subst. rewrite h_not_local in Hv. discriminate. Qed.

Lemma lo_hi_facts :
  mem (k_lo k) (k_L k) = false /\ mem (k_hi k) (k_L k) = false /\ k_lo k <> k_h k /\ k_hi k <> k_h k.
Proof.
  pose proof WF as W. unfold wf_ctx in W. repeat (apply andb_true_iff in W; destruct W as [W ?]).
  repeat match goal with H : negb _ = true |- _ => apply negb_true_iff in H end.
  repeat split; try assumption.
  - intros E. rewrite E, String.eqb_refl in *. discriminate.
  - intros E. rewrite E, String.eqb_refl in *. discriminate.
Qed.

Lemma sv_set_other_h v a g : v <> k_h k -> sv (set_sv v a g) (k_h k) = sv g (k_h k).
Proof. intros N. cbn. destruct (String.eqb (k_h k) v) eqn:E; [apply String.eqb_eq in E; congruence|reflexivity]. Qed.

Definition incl_s (s : stmt) : Prop :=
  forall D D', chk_in_s k false D s = Some D' -> forall x, mem x D = true -> mem x D' = true.

Lemma chk_in_incl_list l :
  Forall incl_s l -> forall D D', chk_in k false D l = Some D' -> forall x, mem x D = true -> mem x D' = true.
Proof.
  induction 1 as [|s r Hs _ IH]; intros D D' E x Hx; cbn in E.
  - inversion E. now subst.
  - destruct (chk_in_s k false D s) as [D1|] eqn:E1; [|discriminate].
    eapply IH; [exact E|]. eapply Hs; eassumption.
Qed.

Lemma chk_in_s_incl : forall s, incl_s s.
Proof.
  induction s as [| |? ? ? ? b IHb|? b IHb|? t e IHt IHe| |] using stmt_ind'; intros D D' E y Hy.
  - cbn in E. destruct (mem x (k_L k) && ok_e k true D e); inversion E. subst. rewrite mem_cons, Hy. apply orb_true_r.
  - cbn in E. destruct (mem a (k_H k) && head_is (k_h k) i && forallb (ok_e k true D) i && ok_e k true D e); inversion E. now subst.
  - rewrite chk_in_s_do in E.
    destruct (mem v (k_L k) && ok_e k true D lo && ok_e k true D hi && ok_oe k true D st); [|discriminate].
    destruct (chk_in k false (v :: D) b); inversion E. subst. rewrite mem_cons, Hy. apply orb_true_r.
  - cbn in E. discriminate.
  - rewrite chk_in_s_if in E. destruct (ok_e k true D c); [|discriminate].
    destruct (chk_in k false D t) as [Dt|] eqn:Et; [|discriminate].
    destruct (chk_in k false D e) as [De|] eqn:Ee; [|discriminate].
    inversion E. subst. rewrite mem_inter.
    rewrite (chk_in_incl_list t IHt D Dt Et y Hy), (chk_in_incl_list e IHe D De Ee y Hy). reflexivity.
  - cbn in E. discriminate.
  - cbn in E. inversion E. now subst.
Qed.

Lemma chk_in_incl l D D' : chk_in k false D l = Some D' -> forall x, mem x D = true -> mem x D' = true.
Proof. apply chk_in_incl_list. apply Forall_forall. intros s _. apply chk_in_s_incl. Qed.

Section Own.
Variable i : Z.

Definition in_sim_s (s : stmt) : Prop :=
  forall D D' g c g', chk_in_s k false D s = Some D' -> agr k D i g c -> sv g (k_h k) = i -> runs1 ps s g g' ->
  exists c', runs ps (proj_s (k_h k) s) c c' /\ agr k D' i g' c' /\ sv g' (k_h k) = i.

Definition in_sim_l (l : list stmt) : Prop :=
  forall D D' g c g', chk_in k false D l = Some D' -> agr k D i g c -> sv g (k_h k) = i -> runs ps l g g' ->
  exists c', runs ps (project (k_h k) l) c c' /\ agr k D' i g' c' /\ sv g' (k_h k) = i.

Lemma in_sim_list l : Forall in_sim_s l -> in_sim_l l.
Proof.
  induction 1 as [|s r Hs _ IH]; intros D D' g c g' E Hag Hh Hr.
  - cbn in E. inversion E. subst. apply runs_nil_inv in Hr. subst. exists c. split3; auto. apply runs_nil.
  - cbn in E. destruct (chk_in_s k false D s) as [D1|] eqn:E1; [|discriminate].
    apply runs_cons_inv in Hr. destruct Hr as [g1 [R1 R2]].
    destruct (Hs D D1 g c g1 E1 Hag Hh R1) as [c1 [C1 [A1 H1]]].
    destruct (IH D1 D' g1 c1 g' E A1 H1 R2) as [c' [C2 [A2 H2]]].
    exists c'. split3; auto. unfold project. cbn [flat_map]. eapply runs_app; eassumption.
Qed.

Lemma in_sim_all : forall s, in_sim_s s.
Proof.
  induction s as [| |? ? ? ? b IHb|? b IHb|? t e IHt IHe| |] using stmt_ind'; intros D D' g q g' E Hag Hh Hr.
  - cbn in E. destruct (mem x (k_L k)) eqn:Hx; [|discriminate]. cbn in E.
    destruct (ok_e k true D e) eqn:He; inversion E. subst D'.
    apply runs1_assign_inv in Hr. destruct Hr as [v [Ev ->]].
    assert (Hxh : x <> k_h k) by now apply local_neq_h.
    exists (set_sv x v q). split3.
    + apply runs_single, runs1_assign. rewrite <- (ok_e_evalZ k D i g q true e Hag (fun _ => Hh) He). exact Ev.
    + now apply agr_set_both.
    + now rewrite sv_set_other_h.
  - cbn in E. destruct (mem a (k_H k)) eqn:Ha; [|discriminate]. cbn in E.
    destruct (head_is (k_h k) i0) eqn:Hhd; [|discriminate]. cbn in E.
    destruct (forallb (ok_e k true D) i0) eqn:Hi; [|discriminate]. cbn in E.
    destruct (ok_e k true D e) eqn:He; inversion E. subst D'.
    apply runs1_store_inv in Hr. destruct Hr as [iv [v [Eiv [Ev ->]]]].
    destruct (head_is_idx _ g i0 iv Hhd Eiv) as [r ->]. rewrite Hh in *.
    exists (set_av a (i :: r) v q). split3; [|now apply agr_store|exact Hh].
    apply runs_single, runs1_store.
    + now rewrite <- (ok_idx_eval k D i g q true i0 Hag (fun _ => Hh) Hi).
    + now rewrite <- (ok_e_evalZ k D i g q true e Hag (fun _ => Hh) He).
  - (* inside the body of a vertical loop the relation has the DO variable [v] assigned *)
    rewrite chk_in_s_do in E.
    destruct (mem v (k_L k)) eqn:Hv; [|discriminate]. cbn in E.
    destruct (ok_e k true D lo) eqn:Hlo; [|discriminate]. cbn in E.
    destruct (ok_e k true D hi) eqn:Hhi; [|discriminate]. cbn in E.
    destruct (ok_oe k true D st) eqn:Hst; [|discriminate]. cbn in E.
    destruct (chk_in k false (v :: D) b) as [Db|] eqn:Eb; inversion E. subst D'.
    assert (Hvh : v <> k_h k) by now apply local_neq_h.
    cbn [proj_s]. destruct (String.eqb v (k_h k)) eqn:Eq; [apply String.eqb_eq in Eq; congruence|].
    destruct (runs1_do_sim ps v lo hi st b lo hi st (project (k_h k) b) g q g'
                (fun q' => agr k (v :: D) i g' q' /\ sv g' (k_h k) = i)
                (ok_e_evalZ k D i g q true lo Hag (fun _ => Hh) Hlo) (ok_e_evalZ k D i g q true hi Hag (fun _ => Hh) Hhi)
                (ok_oe_eval k D i g q true st Hag (fun _ => Hh) Hst)) as [q' [C HQ]]; [|exact Hr|].
    + intros d n a0 L.
      eapply (loop_runs_sim ps (fun s t => agr k D i s t /\ sv s (k_h k) = i)
                (fun s t => agr k (v :: D) i s t /\ sv s (k_h k) = i)); [| |exact (conj Hag Hh)|exact L].
      * intros a s t [A Hs]. split; [now apply agr_set_both|now rewrite sv_set_other_h].
      * intros s t s' [A Hs] R. destruct (in_sim_list b IHb (v :: D) Db s t s' Eb A Hs R) as [t' [C1 [A1 H1]]].
        exists t'. split; [exact C1|split; [|exact H1]].
        eapply agr_weaken; [|exact A1]. intros x Hx. eapply chk_in_incl; [exact Eb|]. rewrite mem_cons, Hx. apply orb_true_r.
    + exists q'. split; [now apply runs_single|exact HQ].
  - cbn in E. discriminate.
  - rewrite chk_in_s_if in E. destruct (ok_e k true D c) eqn:Hc; [|discriminate].
    destruct (chk_in k false D t) as [Dt|] eqn:Et; [|discriminate].
    destruct (chk_in k false D e) as [De|] eqn:Ee; inversion E. subst D'.
    destruct (runs1_if_sim ps c t e c (project (k_h k) t) (project (k_h k) e) g q g'
                (fun q' => agr k (inter Dt De) i g' q' /\ sv g' (k_h k) = i)
                (ok_e_evalB k D i g q true c Hag (fun _ => Hh) Hc)) as [q' [C HQ]]; [| |exact Hr|].
    + intros R. destruct (in_sim_list t IHt D Dt g q g' Et Hag Hh R) as [q' [C1 [A1 H1]]].
      exists q'. split; [exact C1|split; [|exact H1]].
      eapply agr_weaken; [|exact A1]. intros x Hx. rewrite mem_inter in Hx. now apply andb_true_iff in Hx.
    + intros R. destruct (in_sim_list e IHe D De g q g' Ee Hag Hh R) as [q' [C1 [A1 H1]]].
      exists q'. split; [exact C1|split; [|exact H1]].
      eapply agr_weaken; [|exact A1]. intros x Hx. rewrite mem_inter in Hx. now apply andb_true_iff in Hx.
    + exists q'. split; [now apply runs_single|exact HQ].
  - cbn in E. discriminate.
  - cbn in E. inversion E. subst D'. apply runs1_skip_inv in Hr. subst g'.
    exists q. split3; auto. apply runs_nil.
Qed.

Theorem in_sim l : in_sim_l l.
Proof. apply in_sim_list. apply Forall_forall. intros s _. apply in_sim_all. Qed.

End Own.

Definition frame_in (j : Z) (g g' : store) : Prop :=
  (forall x, mem x (k_L k) = false -> sv g' x = sv g x) /\
  (forall a idx, mem a (k_H k) = false \/ hd_error idx <> Some j -> av g' a idx = av g a idx).

Lemma frame_in_refl j g : frame_in j g g.
Proof. split; auto. Qed.

Lemma frame_in_trans j g1 g2 g3 : frame_in j g1 g2 -> frame_in j g2 g3 -> frame_in j g1 g3.
Proof.
  intros [A1 B1] [A2 B2]. split.
  - intros x Hx. now rewrite A2, A1.
  - intros a idx H. now rewrite B2, B1.
Qed.

Lemma frame_in_h j g g' : frame_in j g g' -> sv g' (k_h k) = sv g (k_h k).
Proof. intros [A _]. apply A. apply h_not_local. Qed.

Definition in_frame_s (s : stmt) : Prop :=
  forall D D' g g' j, chk_in_s k false D s = Some D' -> sv g (k_h k) = j -> runs1 ps s g g' -> frame_in j g g'.

Definition in_frame_l (l : list stmt) : Prop :=
  forall D D' g g' j, chk_in k false D l = Some D' -> sv g (k_h k) = j -> runs ps l g g' -> frame_in j g g'.

Lemma in_frame_list l : Forall in_frame_s l -> in_frame_l l.
Proof.
  induction 1 as [|s r Hs _ IH]; intros D D' g g' j E Hh Hr.
  - apply runs_nil_inv in Hr. subst. apply frame_in_refl.
  - cbn in E. destruct (chk_in_s k false D s) as [D1|] eqn:E1; [|discriminate].
    apply runs_cons_inv in Hr. destruct Hr as [g1 [R1 R2]].
    pose proof (Hs D D1 g g1 j E1 Hh R1) as F1.
    eapply frame_in_trans; [exact F1|]. eapply IH; [exact E| |exact R2].
    rewrite (frame_in_h j g g1 F1). exact Hh.
Qed.

Lemma frame_set_local j g x v : mem x (k_L k) = true -> frame_in j g (set_sv x v g).
Proof.
  intros Hx. split; [|reflexivity].
  intros y Hy. cbn. destruct (String.eqb y x) eqn:E; [|reflexivity].
  apply String.eqb_eq in E. subst. congruence.
Qed.

Lemma in_frame_loop v d body j :
  mem v (k_L k) = true -> (forall g g', sv g (k_h k) = j -> runs ps body g g' -> frame_in j g g') ->
  forall n a0 g g', sv g (k_h k) = j -> loop_runs ps body v d n a0 g g' -> frame_in j g g'.
Proof.
  intros Hv Hb. induction n as [|n IHn]; intros a0 g g' Hh Hl; inversion Hl as [|? ? ? s1 ? R1 R2]; subst.
  - now apply frame_set_local.
  - pose proof (frame_set_local (sv g (k_h k)) g v a0 Hv) as F0.
    assert (Hh0 : sv (set_sv v a0 g) (k_h k) = sv g (k_h k)) by (apply (frame_in_h _ _ _ F0)).
    pose proof (Hb _ _ Hh0 R1) as F1.
    eapply frame_in_trans; [exact F0|]. eapply frame_in_trans; [exact F1|].
    apply (IHn (a0 + d) s1 g'); [|exact R2]. rewrite (frame_in_h _ _ _ F1). exact Hh0.
Qed.

Lemma in_frame_all : forall s, in_frame_s s.
Proof.
  induction s as [| |? ? ? ? b IHb|? b IHb|? t e IHt IHe| |] using stmt_ind'; intros D D' g g' j E Hh Hr.
  - cbn in E. destruct (mem x (k_L k)) eqn:Hx; [|discriminate].
    apply runs1_assign_inv in Hr. destruct Hr as [v [_ ->]]. now apply frame_set_local.
  - cbn in E. destruct (mem a (k_H k)) eqn:Ha; [|discriminate]. cbn in E.
    destruct (head_is (k_h k) i) eqn:Hhd; [|discriminate].
    apply runs1_store_inv in Hr. destruct Hr as [iv [v [Eiv [_ ->]]]].
    destruct (head_is_idx _ g i iv Hhd Eiv) as [r ->].
    split; [reflexivity|]. intros b idx Hc. cbn.
    destruct (String.eqb b a) eqn:Eq; [|reflexivity]. apply String.eqb_eq in Eq. subst b.
    destruct Hc as [Hc|Hc]; [congruence|].
    destruct (list_z_eqb idx (sv g (k_h k) :: r)) eqn:El; [|reflexivity].
    apply list_z_eqb_eq in El. subst idx. cbn in Hc. congruence.
  - rewrite chk_in_s_do in E.
    destruct (mem v (k_L k)) eqn:Hv; [|discriminate]. cbn in E.
    destruct (ok_e k true D lo && ok_e k true D hi && ok_oe k true D st); [|discriminate].
    destruct (chk_in k false (v :: D) b) as [Db|] eqn:Eb; [|discriminate].
    apply runs1_do in Hr. destruct Hr as [a0 [b0 [d [_ [_ [_ [_ Hl]]]]]]].
    eapply (in_frame_loop v d b j Hv); [|exact Hh|exact Hl].
    intros g0 g1 Hh0 R. exact (in_frame_list b IHb (v :: D) Db g0 g1 j Eb Hh0 R).
  - cbn in E. discriminate.
  - rewrite chk_in_s_if in E. destruct (ok_e k true D c); [|discriminate].
    destruct (chk_in k false D t) as [Dt|] eqn:Et; [|discriminate].
    destruct (chk_in k false D e) as [De|] eqn:Ee; [|discriminate].
    destruct Hr as [f Ef]. cbn in Ef. apply obind_some in Ef. destruct Ef as [bv [_ Ef]].
    destruct bv.
    + exact (in_frame_list t IHt D Dt g g' j Et Hh (ex_intro _ f Ef)).
    + exact (in_frame_list e IHe D De g g' j Ee Hh (ex_intro _ f Ef)).
  - cbn in E. discriminate.
  - apply runs1_skip_inv in Hr. subst g'. apply frame_in_refl.
Qed.

Theorem in_frame l : in_frame_l l.
Proof. apply in_frame_list. apply Forall_forall. intros s _. apply in_frame_all. Qed.

(** an iteration of another column leaves the relation of column [i] intact (the column store does not move) *)
Lemma agr_other_column D i j g g' c :
  j <> i -> agr k D i g c -> frame_in j g g' -> agr k [] i g' c.
Proof.
  intros Hji [A B C E] [F1 F2]. split.
  - intros x Hx [Hl|Hd]; [|cbn in Hd; discriminate]. rewrite (F1 x Hl). apply A; auto.
  - exact B.
  - intros a r Ha. rewrite F2; [now apply C|]. right. cbn. congruence.
  - intros a idx Ha. rewrite F2; [now apply E|]. now left.
Qed.

End InMode.
