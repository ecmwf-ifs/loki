(** C37 — the whole kernel body (outside horizontal loops) — factorisation into column runs. *)
From Coq Require Import ZArith List Bool String Lia.
From LV Require Import Base.Expr Base.MiniF Base.MiniFFacts models.M_C37 proofs.P_C37_base proofs.P_C37_in.
Import ListNotations.
Open Scope Z_scope.

Section OutMode.
Variable k : ctx.
Variable ps : procs.
Hypothesis WF : wf_ctx k = true.

(** cells the program cannot write: not a horizontal array, or first subscript outside the horizontal range *)
Definition outside (g : store) (a : string) (idx : list Z) : Prop :=
  mem a (k_H k) = false \/ match idx with [] => True | j :: _ => j < sv g (k_lo k) \/ sv g (k_hi k) < j end.

(** what one step of the global run means for every column of the range; [R] = the corresponding step of the column *)
Record oinv (R : store -> store -> Prop) (g g' : store) : Prop := {
  oi_lo : sv g' (k_lo k) = sv g (k_lo k);
  oi_hi : sv g' (k_hi k) = sv g (k_hi k);
  oi_frame : forall a idx, outside g a idx -> av g' a idx = av g a idx;
  oi_sim : forall i c, sv g (k_lo k) <= i <= sv g (k_hi k) -> agr k [] i g c -> exists c', R c c' /\ agr k [] i g' c' }.

Lemma oinv_refl (R : store -> store -> Prop) g : (forall c, R c c) -> oinv R g g.
Proof. intros HR. split; auto. intros i c _ H. exists c. split; [apply HR|exact H]. Qed.

Lemma oinv_trans (R1 R2 R3 : store -> store -> Prop) g g1 g' :
  (forall c c1 c', R1 c c1 -> R2 c1 c' -> R3 c c') -> oinv R1 g g1 -> oinv R2 g1 g' -> oinv R3 g g'.
Proof.
  intros HR [L1 H1 F1 S1] [L2 H2 F2 S2]. split.
  - congruence.
  - congruence.
  - intros a idx Ho. rewrite F2; [now apply F1|]. unfold outside in *. rewrite L1, H1. exact Ho.
  - intros i c Hi Hag. destruct (S1 i c Hi Hag) as [c1 [A1 B1]].
    rewrite <- L1, <- H1 in Hi. destruct (S2 i c1 Hi B1) as [c' [A2 B2]].
    exists c'. split; [eapply HR; eassumption|exact B2].
Qed.

Lemma oinv_weaken (R1 R2 : store -> store -> Prop) g g' :
  (forall c c', R1 c c' -> R2 c c') -> oinv R1 g g' -> oinv R2 g g'.
Proof.
  intros HR [L1 H1 F1 S1]. split; auto.
  intros i c Hi Hag. destruct (S1 i c Hi Hag) as [c' [A B]]. exists c'. split; auto.
Qed.

Lemma oinv_set x v g :
  x <> k_h k -> x <> k_lo k -> x <> k_hi k -> oinv (fun c c' => c' = set_sv x v c) g (set_sv x v g).
Proof.
  intros Hh Hl Hu. split.
  - cbn. destruct (String.eqb (k_lo k) x) eqn:E; [apply String.eqb_eq in E; congruence|reflexivity].
  - cbn. destruct (String.eqb (k_hi k) x) eqn:E; [apply String.eqb_eq in E; congruence|reflexivity].
  - reflexivity.
  - intros i c _ Hag. exists (set_sv x v c). split; [reflexivity|]. now apply agr_set_both_same.
Qed.

(** [n] iterations of a horizontal loop started at column [j0], i.e. the columns [j0 .. j0+n-1]: scalars that
    are not local and cells outside those columns are untouched; the relation of a column outside the range
    survives (the iterations of the other columns only move their own cells and locals, [in_frame]); a column
    inside the range has run its column program ([in_sim] at its own iteration, untouched before and after) *)
Lemma horizontal_loop_columns body D' :
  chk_in k false [] body = Some D' ->
  forall n j0 g g', loop_runs ps body (k_h k) 1 n j0 g g' ->
  (forall x, x <> k_h k -> mem x (k_L k) = false -> sv g' x = sv g x) /\
  (forall a idx, mem a (k_H k) = false \/ match idx with [] => True | j :: _ => j < j0 \/ j0 + Z.of_nat n <= j end ->
                 av g' a idx = av g a idx) /\
  (forall i c, agr k [] i g c -> i < j0 \/ j0 + Z.of_nat n <= i -> agr k [] i g' c) /\
  (forall i c, agr k [] i g c -> j0 <= i < j0 + Z.of_nat n ->
               exists c', runs ps (project (k_h k) body) c c' /\ agr k [] i g' c').
Proof.
  intros Eb. induction n as [|n IHn]; intros j0 g g' Hl; inversion Hl as [|? ? ? s1 ? R1 R2]; subst.
  - split; [|split; [|split]].
    + intros x Hx _. cbn. destruct (String.eqb x (k_h k)) eqn:E; [apply String.eqb_eq in E; congruence|reflexivity].
    + reflexivity.
    + intros i c Hag _. now apply agr_set_h_left.
    + intros i c _ Hi. cbn in Hi. lia.
  - assert (Hh0 : sv (set_sv (k_h k) j0 g) (k_h k) = j0) by (cbn; now rewrite String.eqb_refl).
    pose proof (in_frame k ps WF body [] D' _ _ j0 Eb Hh0 R1) as F1.
    destruct (IHn (j0 + 1) s1 g' R2) as [I1 [I2 [I3 I4]]].
    destruct F1 as [F1a F1b].
    assert (Hother : forall i c, i <> j0 -> agr k [] i g c -> agr k [] i s1 c).
    { intros i c Hi Hag. eapply (agr_other_column k [] i j0); [congruence| |split; eassumption].
      now apply agr_set_h_left. }
    split; [|split; [|split]].
    + intros x Hx Hl0. rewrite (I1 x Hx Hl0), (F1a x Hl0). cbn.
      destruct (String.eqb x (k_h k)) eqn:E; [apply String.eqb_eq in E; congruence|reflexivity].
    + intros a idx Hc. rewrite I2, F1b; [reflexivity| |].
      * destruct Hc as [Hc|Hc]; [now left|right]. destruct idx as [|j r]; cbn; [discriminate|]. intros E. inversion E. lia.
      * destruct Hc as [Hc|Hc]; [now left|right]. destruct idx as [|j r]; [exact I|]. lia.
    + intros i c Hag Hi. apply I3; [|lia]. apply Hother; [lia|exact Hag].
    + intros i c Hag Hi. destruct (Z.eq_dec i j0) as [->|Hne].
      * destruct (in_sim k ps WF j0 body [] D' (set_sv (k_h k) j0 g) c s1 Eb (agr_set_h_left k [] j0 g c j0 Hag) Hh0 R1)
          as [c1 [C1 [A1 _]]].
        exists c1. split; [exact C1|]. apply I3; [|lia]. eapply agr_nil. exact A1.
      * apply I4; [|lia]. apply Hother; assumption.
Qed.

Definition out_s (s : stmt) : Prop :=
  forall g g', chk_out_s k false s = true -> runs1 ps s g g' -> oinv (runs ps (proj_s (k_h k) s)) g g'.

Definition out_l (l : list stmt) : Prop :=
  forall g g', forallb (chk_out_s k false) l = true -> runs ps l g g' -> oinv (runs ps (project (k_h k) l)) g g'.

Lemma out_list l : Forall out_s l -> out_l l.
Proof.
  induction 1 as [|s r Hs _ IH]; intros g g' E Hr.
  - apply runs_nil_inv in Hr. subst. apply oinv_refl. intros c. apply runs_nil.
  - cbn in E. apply andb_true_iff in E. destruct E as [E1 E2].
    apply runs_cons_inv in Hr. destruct Hr as [g1 [R1 R2]].
    eapply oinv_trans; [|apply (Hs g g1 E1 R1)|apply (IH g1 g' E2 R2)].
    intros c c1 c' A B. unfold project. cbn [flat_map]. eapply runs_app; eassumption.
Qed.

(** a vertical loop around class statements: every column sees the same loop around its column program;
    [oinv] composes along the iterations ([oinv_trans]) *)
Lemma vertical_loop_oinv v d body :
  v <> k_h k -> v <> k_lo k -> v <> k_hi k ->
  (forall g g', runs ps body g g' -> oinv (runs ps (project (k_h k) body)) g g') ->
  forall n a0 g g', loop_runs ps body v d n a0 g g' -> oinv (loop_runs ps (project (k_h k) body) v d n a0) g g'.
Proof.
  intros Hh Hl Hu Hb. induction n as [|n IHn]; intros a0 g g' Hr; inversion Hr as [|? ? ? s1 ? R1 R2]; subst.
  - eapply oinv_weaken; [|apply (oinv_set v a0 g Hh Hl Hu)]. intros c c' ->. constructor.
  - apply (oinv_trans (fun c c' => c' = set_sv v a0 c)
             (fun c c' => exists c1, runs ps (project (k_h k) body) c c1 /\ loop_runs ps (project (k_h k) body) v d n (a0 + d) c1 c')
             _ g (set_sv v a0 g) g').
    + intros c c1 c' -> [c2 [A B]]. econstructor; eassumption.
    + apply (oinv_set v a0 g Hh Hl Hu).
    + eapply oinv_trans; [|apply (Hb _ _ R1)|apply (IHn _ _ _ R2)]. intros c c1 c' A B. exists c1. exact (conj A B).
Qed.

Lemma trip_of_nat a b : Z.of_nat (Z.to_nat (trip_count a b 1)) = Z.max 0 (b - a + 1).
Proof. unfold trip_count. rewrite Z.quot_1_r. apply Z2Nat.id. lia. Qed.

Lemma out_all : forall s, out_s s.
Proof.
  destruct (lo_hi_facts k WF) as [Llo [Lhi [Nlo Nhi]]].
  induction s using stmt_ind'; intros g g' E Hr.
  - cbn in E. apply andb_true_iff in E. destruct E as [E He]. apply andb_true_iff in E. destruct E as [E E3].
    apply andb_true_iff in E. destruct E as [E1 E2].
    apply neqb_neq in E1. apply neqb_neq in E2. apply neqb_neq in E3.
    apply runs1_assign_inv in Hr. destruct Hr as [v [Ev ->]].
    pose proof (oinv_set x v g E1 E2 E3) as [A B C S]. split; auto.
    intros i c Hi Hag. destruct (S i c Hi Hag) as [c' [-> Hag']]. exists (set_sv x v c). split; [|exact Hag'].
    cbn [proj_s]. apply runs_single. apply runs1_assign.
    rewrite <- (ok_e_evalZ k [] i g c false e Hag absurd_mode He). exact Ev.
  - cbn in E. discriminate.
  - cbn [chk_out_s] in E. destruct (String.eqb v (k_h k)) eqn:Evh.
    + apply String.eqb_eq in Evh. subst v.
      apply andb_true_iff in E. destruct E as [E E4]. apply andb_true_iff in E. destruct E as [E E3].
      apply andb_true_iff in E. destruct E as [E1 E2].
      apply is_var_inv in E1. apply is_var_inv in E2. subst lo hi. destruct st; [discriminate|].
      destruct (chk_in k false [] b) as [D'|] eqn:Eb; [|discriminate].
      apply runs1_do in Hr. destruct Hr as [a0 [b0 [d [Ea [Eb0 [Ed [Hd Hl]]]]]]].
      cbn in Ea, Eb0, Ed. inversion Ea. inversion Eb0. inversion Ed. subst a0 b0 d. clear Ea Eb0 Ed.
      destruct (horizontal_loop_columns b D' Eb _ _ g g' Hl) as [I1 [I2 [I3 I4]]].
      rewrite trip_of_nat in *.
      split.
      * now apply I1.
      * now apply I1.
      * intros a idx Ho. apply I2. destruct Ho as [Ho|Ho]; [now left|right]. destruct idx as [|j r]; [exact I|]. lia.
      * intros i c Hi Hag. cbn [proj_s]. rewrite String.eqb_refl. apply I4; [exact Hag|lia].
    + apply andb_true_iff in E. destruct E as [E E7]. apply andb_true_iff in E. destruct E as [E E6].
      apply andb_true_iff in E. destruct E as [E E5]. apply andb_true_iff in E. destruct E as [E E4].
      apply andb_true_iff in E. destruct E as [E E3]. apply andb_true_iff in E. destruct E as [E1 E2].
      apply neqb_neq in E2. apply neqb_neq in E3.
      assert (Hvh : v <> k_h k) by (intros ->; rewrite String.eqb_refl in Evh; discriminate).
      apply runs1_do in Hr. destruct Hr as [a0 [b0 [d [Ea [Eb0 [Ed [Hd Hl]]]]]]].
      pose proof (vertical_loop_oinv v d b Hvh E2 E3 (fun g0 g1 R => out_list b H g0 g1 E7 R) _ a0 g g' Hl) as [A B C S].
      split; auto. intros i c Hi Hag. destruct (S i c Hi Hag) as [c' [Lc Hag']]. exists c'. split; [|exact Hag'].
      cbn [proj_s]. rewrite Evh. apply runs_single. apply runs1_do. exists a0, b0, d. repeat split; auto.
      * rewrite <- (ok_e_evalZ k [] i g c false lo Hag absurd_mode E4). exact Ea.
      * rewrite <- (ok_e_evalZ k [] i g c false hi Hag absurd_mode E5). exact Eb0.
      * rewrite <- (ok_oe_eval k [] i g c false st Hag absurd_mode E6). exact Ed.
  - cbn in E. discriminate.
  - cbn [chk_out_s] in E. apply andb_true_iff in E. destruct E as [E E3]. apply andb_true_iff in E. destruct E as [E1 E2].
    destruct Hr as [f Ef]. cbn in Ef. apply obind_some in Ef. destruct Ef as [bv [Ebv Ef]].
    assert (Hbr : oinv (runs ps (project (k_h k) (if bv then t else e))) g g').
    { destruct bv; [apply (out_list t H g g' E2 (ex_intro _ f Ef))|apply (out_list e H0 g g' E3 (ex_intro _ f Ef))]. }
    destruct Hbr as [A B C S]. split; auto.
    intros i q Hi Hag. destruct (S i q Hi Hag) as [q' [Rq Hag']]. exists q'. split; [|exact Hag'].
    cbn [proj_s]. apply runs_single.
    assert (Ebq : evalB (env_st q) c = Some bv).
    { rewrite <- (ok_e_evalB k [] i g q false c Hag absurd_mode E1). exact Ebv. }
    apply (runs1_if ps _ _ _ _ _ bv Ebq). destruct bv; exact Rq.
  - cbn in E. discriminate.
  - destruct Hr as [f Ef]. cbn in Ef. inversion Ef. subst g'. cbn [proj_s]. apply oinv_refl. intros c. apply runs_nil.
Qed.

Theorem out_sim l : out_l l.
Proof. apply out_list. apply Forall_forall. intros s _. apply out_all. Qed.

End OutMode.

Lemma agr_start k i s : agr k [] i s (set_sv (k_h k) i s).
Proof.
  split.
  - intros x Hx _. cbn. destruct (String.eqb x (k_h k)) eqn:E; [apply String.eqb_eq in E; congruence|reflexivity].
  - cbn. now rewrite String.eqb_refl.
  - reflexivity.
  - reflexivity.
Qed.

(** the factorisation theorem (forward direction): a run of a class program IS, column by column, a run of the
    per-column program; everything else is untouched *)
Theorem factorises_fwd k ps p s s' :
  in_class k false p = true -> runs ps p s s' ->
  (forall i, sv s (k_lo k) <= i <= sv s (k_hi k) ->
     exists ci, runs ps (project (k_h k) p) (set_sv (k_h k) i s) ci /\
                (forall a r, mem a (k_H k) = true -> av s' a (i :: r) = av ci a (i :: r))) /\
  (forall a idx, outside k s a idx -> av s' a idx = av s a idx).
Proof.
  intros Hc Hr. unfold in_class in Hc. apply andb_true_iff in Hc. destruct Hc as [WF Hc].
  destruct (out_sim k ps WF p s s' Hc Hr) as [A B C S]. split; [|exact C].
  intros i Hi. destruct (S i _ Hi (agr_start k i s)) as [ci [Rc Hag]].
  exists ci. split; [exact Rc|]. intros a r Ha. now apply (ag_col k _ _ _ _ Hag).
Qed.
