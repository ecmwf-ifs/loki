(** C37 — concrete witnesses (by [vm_compute]): a non-trivial instance the validator accepts, and two
    pairs with identical column programs whose results differ — the class conditions of [V] cannot be dropped. *)
From Coq Require Import ZArith List Bool String Lia.
From LV Require Import Base.Expr Base.MiniF Base.MiniFFacts models.M_C37
     proofs.P_C37_base proofs.P_C37_in proofs.P_C37_out proofs.P_C37_dem proofs.P_C37.
Import ListNotations.
Open Scope Z_scope.
Open Scope string_scope.

Definition run (p : list stmt) (s : store) : store := match exec [] 60 p s with Some t => t | None => s end.

Lemma exec_run p s : is_some (exec [] 60 p s) = true -> runs [] p s (run p s).
Proof. unfold run. intros H. exists 60%nat. destruct (exec [] 60 p s); [reflexivity|discriminate]. Qed.

Definition jl := EVar "jl".
Definition plus (a b : expr) := ESum false [a; b].
Definition hloop (b : list stmt) := SDo "jl" (EVar "start") (EVar "end") None b.

(** * an accepted, non-trivial pair: two horizontal loops and a vertical loop around one of them become one horizontal
    loop with the vertical loop inside; the temporary t(nlon) becomes a scalar *)
Definition ex_p : list stmt :=
  [ hloop [ SStore "t" [jl] (plus (ECall "c" [jl]) (EInt 1));
            SAssign "s" (EProd false [ECall "t" [jl]; EInt 2]);
            SStore "c" [jl] (plus (EVar "s") (ECall "a" [jl; EInt 1])) ];
    SDo "jk" (EInt 2) (EVar "nz") None
      [ hloop [ SStore "a" [jl; EVar "jk"] (plus (ECall "a" [jl; plus (EVar "jk") (EInt (-1))]) (ECall "c" [jl])) ] ] ].

Definition ex_p' : list stmt :=
  [ hloop [ SAssign "t" (plus (ECall "c" [jl]) (EInt 1));
            SAssign "s" (EProd false [EVar "t"; EInt 2]);
            SStore "c" [jl] (plus (EVar "s") (ECall "a" [jl; EInt 1]));
            SDo "jk" (EInt 2) (EVar "nz") None
              [ SStore "a" [jl; EVar "jk"] (plus (ECall "a" [jl; plus (EVar "jk") (EInt (-1))]) (ECall "c" [jl])) ] ] ].

Definition ex_s : store :=
  init_store [("start", 1); ("end", 3); ("nz", 3)]
             [("a", [1; 1], 1); ("a", [2; 1], 2); ("a", [3; 1], 3); ("c", [1], 4); ("c", [2], 5); ("c", [3], 6)].

Lemma ex_V : V false false [] "jl" "start" "end" ["a"; "c"; "t"] ["t"] ex_p ex_p' = true.
Proof. vm_compute. reflexivity. Qed.

Lemma ex_runs : runs [] ex_p ex_s (run ex_p ex_s) /\ runs [] ex_p' ex_s (run ex_p' ex_s) /\
                av (run ex_p ex_s) "a" [2; 3] = 30 /\ av (run ex_p' ex_s) "a" [2; 3] = 30.
Proof. repeat split; try (apply exec_run; vm_compute; reflexivity); vm_compute; reflexivity. Qed.

(** * a counter that is initialised outside the re-created horizontal loop (what trim_vector_sections=True, or a CALL
    between initialisation and use, produce): identical column programs, different results; [V] rejects *)
Definition w1_p : list stmt :=
  [ SAssign "zk" (EInt 0);
    SDo "jk" (EInt 1) (EVar "nz") None
      [ SAssign "zk" (plus (EVar "zk") (EInt 1)); hloop [ SStore "a" [jl; EVar "jk"] (EVar "zk") ] ] ].

Definition w1_p' : list stmt :=
  [ SAssign "zk" (EInt 0);
    hloop [ SDo "jk" (EInt 1) (EVar "nz") None
              [ SAssign "zk" (plus (EVar "zk") (EInt 1)); SStore "a" [jl; EVar "jk"] (EVar "zk") ] ] ].

Definition w1_s : store := init_store [("start", 1); ("end", 2); ("nz", 2)] [].

Lemma wrapped_counter_refuted :
  project "jl" w1_p = project "jl" w1_p' /\
  in_class (mk_ctx "jl" "start" "end" ["a"] (locals "jl" w1_p)) false w1_p = true /\
  V false false [] "jl" "start" "end" ["a"] [] w1_p w1_p' = false /\
  runs [] w1_p w1_s (run w1_p w1_s) /\ runs [] w1_p' w1_s (run w1_p' w1_s) /\
  av (run w1_p w1_s) "a" [2; 1] = 1 /\ av (run w1_p' w1_s) "a" [2; 1] = 3.
Proof. repeat split; try (apply exec_run; vm_compute; reflexivity); vm_compute; reflexivity. Qed.

(** * demotion of a temporary that carries a value between iterations of a vertical loop that stays outside the
    horizontal loop (in the code: because the vertical loop contains a CALL): the demoted program is exactly
    [demote] of the original column program, the results differ; [V] rejects (the scalar is read before it is written) *)
Definition w2_body (rd : expr) (wr : expr -> stmt) : list stmt :=
  [ SDo "jk" (EInt 1) (EVar "nz") None
      [ hloop [ SIf (ECmp Cgt (EVar "jk") (EInt 1)) [ SStore "a" [jl; EVar "jk"] rd ] [];
                wr (plus (ECall "a" [jl; EVar "jk"]) (ECall "c" [jl])) ] ] ].

Definition w2_p : list stmt := w2_body (ECall "t" [jl]) (SStore "t" [jl]).
Definition w2_p' : list stmt := w2_body (EVar "t") (SAssign "t").

Definition w2_s : store := init_store [("start", 1); ("end", 2); ("nz", 2)] [("c", [1], 10); ("c", [2], 20)].

Lemma demote_carried_refuted :
  demote "jl" ["t"] (project "jl" w2_p) = project "jl" w2_p' /\
  in_class (mk_ctx "jl" "start" "end" ["a"; "c"; "t"] (locals "jl" w2_p)) false w2_p = true /\
  V false false [] "jl" "start" "end" ["a"; "c"; "t"] ["t"] w2_p w2_p' = false /\
  runs [] w2_p w2_s (run w2_p w2_s) /\ runs [] w2_p' w2_s (run w2_p' w2_s) /\
  av (run w2_p w2_s) "a" [1; 2] = 10 /\ av (run w2_p' w2_s) "a" [1; 2] = 20.
Proof. repeat split; try (apply exec_run; vm_compute; reflexivity); vm_compute; reflexivity. Qed.
