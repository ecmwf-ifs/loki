(** C38 — the storage theorems: high-water mark = computed size, live temporaries are disjoint and inside the
    stack, the pointer is restored after every call, blocks do not overlap.  Defines [funeq], [agree], [max0]. *)
From Coq Require Import ZArith List Bool String Lia.
From LV Require Import Base.Expr Base.ListFacts Base.ExprFacts models.M_C38 proofs.P_C38_expr.
Import ListNotations.
Open Scope string_scope.
Open Scope list_scope.
Open Scope Z_scope.

Scheme ktree_mut := Induction for ktree Sort Prop
with kcalls_mut := Induction for kcalls Sort Prop.
Combined Scheme ktree_kcalls_ind from ktree_mut, kcalls_mut.

(** the same function table (array sizes, intrinsics of the driver) *)
Definition funeq (r1 r2 : env) : Prop := forall f a, ev_fun r1 f a = ev_fun r2 f a.
(** two environments give the dummies [ps] of a kernel the same values and have the same functions: closed
    size expressions cannot tell them apart ([eval_closed]) *)
Definition agree (ps : list string) (r1 r2 : env) : Prop :=
  (forall x, In x ps -> ev_var r1 x = ev_var r2 x) /\ funeq r1 r2.

Lemma agree_refl ps r : agree ps r r.
Proof. split; [reflexivity|intros f a; reflexivity]. Qed.

(** the largest callee size; 0 for a kernel without calls *)
Fixpoint max0 (l : list Z) : Z := match l with [] => 0 | x :: r => Z.max x (max0 r) end.

Lemma max0_nonneg l : 0 <= max0 l.
Proof. induction l; cbn; lia. Qed.

Lemma maxl_max0 a v r :
  0 <= v -> Forall (fun w => 0 <= w) r -> maxl (a + v) (map (Z.add a) r) = a + max0 (v :: r).
Proof.
  intros Hv F. revert v Hv. induction F as [|y q Hy _ IH]; intros v Hv.
  - cbn. lia.
  - cbn [map maxl]. rewrite (IH y Hy). cbn [max0]. lia.
Qed.

Lemma mem_In x l : mem x l = true <-> In x l.
Proof. apply existsb_eqb_In. Qed.

Lemma mem_false x l : ~ In x l -> mem x l = false.
Proof. apply existsb_eqb_false. Qed.

Lemma eval_closed ps r1 r2 e : closedb ps e = true -> agree ps r1 r2 -> evalZ r1 e = evalZ r2 e.
Proof.
  unfold closedb. rewrite forallb_forall. intros C [Av Af]. apply evalZ_ext_vars; [exact Af|].
  intros x Hx. apply Av, mem_In, C, Hx.
Qed.

Lemma omap_closed ps r1 r2 l :
  forallb (closedb ps) l = true -> agree ps r1 r2 -> omap_list (evalZ r1) l = omap_list (evalZ r2) l.
Proof.
  intros C A. apply omap_list_ext. rewrite Forall_forall. intros e He.
  rewrite forallb_forall in C. eapply eval_closed; eauto.
Qed.

Lemma lookup_in ps vs x : List.length ps = List.length vs -> In x ps -> exists v, lookup ps vs x = Some v.
Proof.
  revert vs. induction ps as [|p pr IH]; intros vs HL Hx; [destruct Hx|].
  destruct vs as [|v vr]; [discriminate|]. cbn [lookup].
  destruct (String.eqb p x) eqn:E; [eauto|].
  destruct Hx as [Hx|Hx]; [subst; rewrite String.eqb_refl in E; discriminate|].
  apply IH; [cbn in HL; lia|exact Hx].
Qed.

Lemma agree_bind ps vs g r :
  List.length ps = List.length vs -> funeq r g -> agree ps (upd r ps vs) (bind g ps vs).
Proof.
  intros HL Hf. split.
  - intros x Hx. destruct (lookup_in ps vs x HL Hx) as [v Hv]. cbn. rewrite Hv. reflexivity.
  - intros f a. cbn. apply Hf.
Qed.

Lemma agree_funeq ps r' r g : agree ps r' r -> funeq r g -> funeq r' g.
Proof. intros [_ Af] F f a. rewrite Af. apply F. Qed.

(** entering a call from an environment [rho'] that gives the actuals the values they have in [rho]: the
    callee's environment is [rho'] (or any [r] with the same functions) updated with those values *)
Lemma call_enter g rho rho' ps acts rc :
  call_env g rho ps acts = Some rc -> omap_list (evalZ rho') acts = omap_list (evalZ rho) acts ->
  exists vs, List.length ps = List.length acts /\ omap_list (evalZ rho') acts = Some vs /\ funeq rc g /\
             forall r, funeq r g -> agree ps (upd r ps vs) rc.
Proof.
  unfold call_env. intros CE EO.
  destruct (Nat.eqb (List.length ps) (List.length acts)) eqn:HL; [|discriminate]. apply Nat.eqb_eq in HL.
  destruct (omap_list (evalZ rho) acts) as [vs|] eqn:EA; [|discriminate]. inversion CE; subst rc.
  exists vs. split; [exact HL|]. split; [exact EO|]. split.
  - intros f a. reflexivity.
  - intros r F. apply agree_bind; [|exact F]. rewrite (omap_list_length _ _ _ EA). exact HL.
Qed.

Lemma bump_spec rho szs p iv q :
  bump rho szs p = Some (iv, q) ->
  exists vs, omap_list (evalZ rho) szs = Some vs /\ q = p + fold_right Z.add 0 vs /\ Forall (fun v => 0 <= v) vs /\ chain p iv q.
Proof.
  revert p iv q. induction szs as [|e r IH]; intros p iv q H; cbn [bump] in H.
  - inversion H; subst. exists []. cbn. repeat split; [lia|constructor|lia].
  - destruct (evalZ rho e) as [v|] eqn:Ev; [|discriminate].
    destruct (v <? 0) eqn:Neg; [discriminate|]. apply Z.ltb_ge in Neg.
    destruct (bump rho r (p + v)) as [[iv' q']|] eqn:B; [|discriminate].
    inversion H; subst. destruct (IH _ _ _ B) as [vs [E [Q [F Ch]]]].
    exists (v :: vs). cbn [omap_list]. rewrite Ev, E. cbn [obind fold_right chain].
    repeat split; try lia; [constructor; assumption|exact Ch].
Qed.

Lemma chain_mono lo l hi hi' : chain lo l hi -> hi <= hi' -> chain lo l hi'.
Proof.
  revert lo. induction l as [|[a b] r IH]; intros lo H L; cbn [chain] in *; [lia|].
  destruct H as [H1 [H2 H3]]. repeat split; try assumption. apply IH; assumption.
Qed.

Lemma chain_le lo l hi : chain lo l hi -> lo <= hi.
Proof.
  revert lo. induction l as [|[a b] r IH]; intros lo H; cbn [chain] in *; [lia|].
  destruct H as [H1 [H2 H3]]. specialize (IH _ H3). lia.
Qed.

Lemma chain_app lo l1 mid l2 hi : chain lo l1 mid -> chain mid l2 hi -> chain lo (l1 ++ l2) hi.
Proof.
  revert lo. induction l1 as [|[a b] r IH]; intros lo H1 H2; cbn [chain app] in *.
  - destruct l2 as [|[c d] q]; cbn [chain] in *; [lia|]. destruct H2 as [X [Y Z]]. repeat split; try assumption. lia.
  - destruct H1 as [X [Y Z]]. repeat split; try assumption. apply IH; assumption.
Qed.

Lemma chain_bounds lo l hi :
  chain lo l hi -> Forall (fun iv => lo <= fst iv /\ fst iv <= snd iv /\ snd iv <= hi) l.
Proof.
  revert lo. induction l as [|[a b] r IH]; intros lo H; [constructor|].
  cbn [chain] in H. destruct H as [X [Y Z]]. constructor.
  - cbn. pose proof (chain_le _ _ _ Z). lia.
  - specialize (IH _ Z). eapply Forall_impl; [|exact IH]. cbn. intros iv [A [B C]]. lia.
Qed.

Lemma chain_pairs lo l hi : chain lo l hi -> ForallOrdPairs disjoint l.
Proof.
  revert lo. induction l as [|[a b] r IH]; intros lo H; [constructor|].
  cbn [chain] in H. destruct H as [X [Y Z]]. constructor; [|exact (IH _ Z)].
  eapply Forall_impl; [|exact (chain_bounds _ _ _ Z)]. intros iv [A _]. left. exact A.
Qed.

(** the dummy is never assigned: the pointer the caller passed is what it gets back *)
Lemma sim_reset g k rho p live d h sn : sim g k rho p live = Some (d, h, sn) -> d = p.
Proof.
  destruct k as [ps szs cs]. cbn [sim]. intro H.
  destruct (bump rho szs p) as [[iv pl]|]; [|discriminate].
  destruct (simcs g cs rho pl (live ++ iv)) as [[[x y] z]|]; [|discriminate].
  inversion H. reflexivity.
Qed.

Lemma simcs_reset g cs rho pl live pl' h sn : simcs g cs rho pl live = Some (pl', h, sn) -> pl' = pl.
Proof.
  revert pl pl' h sn. induction cs as [|acts k rest IH]; intros pl pl' h sn H; cbn [simcs] in H.
  - inversion H. reflexivity.
  - destruct (call_env g rho (kparams k) acts) as [rc|]; [|discriminate].
    destruct (sim g k rc pl live) as [[[d h1] s1]|] eqn:S; [|discriminate].
    apply sim_reset in S. subst d.
    destruct (simcs g rest rho pl live) as [[[q h2] s2]|] eqn:R; [|discriminate].
    inversion H; subst. eapply IH. exact R.
Qed.

Lemma sim_chain :
  (forall k g rho p live d h sn base,
      sim g k rho p live = Some (d, h, sn) -> chain base live p ->
      p <= h /\ Forall (fun s => chain base s h) sn) /\
  (forall cs g rho pl live pl' h sn base,
      simcs g cs rho pl live = Some (pl', h, sn) -> chain base live pl ->
      pl <= h /\ Forall (fun s => chain base s h) sn).
Proof.
  apply ktree_kcalls_ind.
  - intros ps szs cs IHcs g rho p live d h sn base H Ch. cbn [sim] in H.
    destruct (bump rho szs p) as [[iv pl]|] eqn:B; [|discriminate].
    destruct (bump_spec _ _ _ _ _ B) as [vs [_ [Q [F Ci]]]].
    destruct (simcs g cs rho pl (live ++ iv)) as [[[x h1] s1]|] eqn:S; [|discriminate].
    inversion H; subst. pose proof (chain_app _ _ _ _ _ Ch Ci) as Cl.
    destruct (IHcs _ _ _ _ _ _ _ _ S Cl) as [L1 F1].
    pose proof (chain_le _ _ _ Ci). split; [lia|]. constructor.
    + eapply chain_mono; [exact Cl|lia].
    + eapply Forall_impl; [|exact F1]. intros s Hs. eapply chain_mono; [exact Hs|lia].
  - intros g rho pl live pl' h sn base H Ch. cbn [simcs] in H. inversion H; subst. split; [lia|constructor].
  - intros acts k IHk rest IHrest g rho pl live pl' h sn base H Ch. cbn [simcs] in H.
    destruct (call_env g rho (kparams k) acts) as [rc|]; [|discriminate].
    destruct (sim g k rc pl live) as [[[d h1] s1]|] eqn:S; [|discriminate].
    pose proof (sim_reset _ _ _ _ _ _ _ _ S). subst d.
    destruct (simcs g rest rho pl live) as [[[q h2] s2]|] eqn:R; [|discriminate].
    inversion H; subst.
    destruct (IHk _ _ _ _ _ _ _ _ S Ch) as [L1 F1].
    destruct (IHrest _ _ _ _ _ _ _ _ R Ch) as [L2 F2].
    split; [lia|]. apply Forall_app. split.
    + eapply Forall_impl; [|exact F1]. intros s Hs. eapply chain_mono; [exact Hs|lia].
    + eapply Forall_impl; [|exact F2]. intros s Hs. eapply chain_mono; [exact Hs|lia].
Qed.

Lemma idem_vals rho ps acts vs :
  List.length ps = List.length acts ->
  omap_list (evalZ rho) acts = Some vs ->
  idem_call ps acts = true ->
  omap_list (evalZ (upd rho ps vs)) acts = Some vs.
Proof.
  intros HL HE HI. rewrite <- HE. apply omap_list_ext. rewrite Forall_forall. intros a Ha.
  apply evalZ_ext_vars; [intros f x; reflexivity|].
  intros y Hy. unfold idem_call in HI. rewrite forallb_forall in HI. specialize (HI a Ha).
  rewrite forallb_forall in HI. specialize (HI y Hy).
  pose proof (assoc_combine_lookup rho ps acts vs y HL HE) as A.
  destruct (assoc_e (combine ps acts) y) as [b|].
  - destruct b; try discriminate. apply String.eqb_eq in HI. subst x.
    destruct A as [v [Ev Lv]]. cbn in Ev. inversion Ev. cbn. rewrite Lv. subst v. reflexivity.
  - cbn. rewrite A. reflexivity.
Qed.

(** The size expression of a kernel is [max] over its calls of [local + callee size], or [local] alone.  So the
    statement for a call list speaks of the alternatives [csize] builds: they evaluate to [lv + v] for offsets
    [vs] (the callee sizes, each non-negative), the machine's high-water mark over the calls is [pl + max0 vs],
    and there is an alternative as soon as there is a call, so that [emax] has something to pick.  [rho'] is any
    environment agreeing with the kernel's on its dummies: the callee's size is evaluated after substitution,
    in the caller's environment ([subst_eval], [call_enter]). *)
Lemma sim_size (dbl : bool) :
  (forall k, closed_tree k = true -> (dbl = true -> idem_tree k = true) ->
     forall g rho p live d h sn, sim g k rho p live = Some (d, h, sn) -> funeq rho g ->
     forall rho', agree (kparams k) rho' rho -> evalZ rho' (ssize dbl k) = Some (h - p) /\ p <= h) /\
  (forall cs ps, closed_cs ps cs = true -> (dbl = true -> idem_cs cs = true) ->
     forall g rho pl live pl' h sn, simcs g cs rho pl live = Some (pl', h, sn) -> funeq rho g ->
     forall rho' loc lv, agree ps rho' rho -> evalZ rho' loc = Some lv ->
     exists vs, omap_list (evalZ rho') (csize dbl loc cs) = Some (map (Z.add lv) vs)
                /\ Forall (fun v => 0 <= v) vs /\ h = pl + max0 vs /\ (cs <> KNil -> vs <> [])).
Proof.
  apply ktree_kcalls_ind.
  - intros ps szs cs IHcs C I g rho p live d h sn H Fg rho' A.
    cbn [closed_tree] in C. apply andb_prop in C. destruct C as [Cs Cc].
    cbn [sim] in H.
    destruct (bump rho szs p) as [[iv pl]|] eqn:B; [|discriminate].
    destruct (bump_spec _ _ _ _ _ B) as [vs [E [Q [F _]]]].
    destruct (simcs g cs rho pl (live ++ iv)) as [[[x h1] s1]|] eqn:S; [|discriminate].
    inversion H; subst d h sn. clear H.
    assert (Eloc : evalZ rho' (ESum false szs) = Some (fold_right Z.add 0 vs)).
    { rewrite evalZ_sum. cbn [kparams] in A. rewrite (omap_closed ps rho' rho szs Cs A), E. reflexivity. }
    assert (Nn : 0 <= fold_right Z.add 0 vs) by (clear -F; induction F; cbn; lia).
    assert (Ic : dbl = true -> idem_cs cs = true) by (intro D; specialize (I D); exact I).
    destruct (IHcs ps Cc Ic _ _ _ _ _ _ _ S Fg rho' _ _ A Eloc) as [ws [Ew [Fw [Hh Ne]]]].
    cbn [ssize]. destruct cs as [|acts k rest].
    + cbn [simcs] in S. inversion S; subst. rewrite Eloc. split; [f_equal|]; lia.
    + assert (Nw : ws <> []) by (apply Ne; discriminate).
      destruct ws as [|w wr]; [congruence|]. cbn [map] in Ew.
      rewrite (evalZ_emax _ _ _ _ Ew).
      inversion Fw; subst. rewrite maxl_max0 by assumption.
      pose proof (max0_nonneg (w :: wr)). split; [f_equal|]; lia.
  - intros ps C I g rho pl live pl' h sn H Fg rho' loc lv A El. cbn [simcs] in H. inversion H; subst.
    exists []. cbn. repeat split; [constructor|lia|congruence].
  - intros acts k IHk rest IHrest ps C I g rho pl live pl' h sn H Fg rho' loc lv A El.
    cbn [closed_cs] in C. apply andb_prop in C. destruct C as [C Cr]. apply andb_prop in C. destruct C as [Ca Ck].
    cbn [simcs] in H.
    destruct (call_env g rho (kparams k) acts) as [rc|] eqn:CE; [|discriminate].
    assert (Fr' : funeq rho' g) by exact (agree_funeq _ _ _ _ A Fg).
    destruct (call_enter _ _ rho' _ _ _ CE (omap_closed ps rho' rho acts Ca A)) as [avs [HL [EA' [Fb Ab]]]].
    destruct (sim g k rc pl live) as [[[d h1] s1]|] eqn:S; [|discriminate].
    pose proof (sim_reset _ _ _ _ _ _ _ _ S). subst d.
    destruct (simcs g rest rho pl live) as [[[q h2] s2]|] eqn:R; [|discriminate].
    inversion H; subst pl' h sn. clear H.
    assert (I3 : dbl = true -> idem_call (kparams k) acts = true /\ idem_tree k = true /\ idem_cs rest = true).
    { intro D. specialize (I D). cbn [idem_cs] in I. apply andb_prop in I. destruct I as [I Ir].
      apply andb_prop in I. now destruct I. }
    assert (Ik : dbl = true -> idem_tree k = true) by (intro D; apply (I3 D)).
    assert (Ir : dbl = true -> idem_cs rest = true) by (intro D; apply (I3 D)).
    assert (Es : evalZ rho' (substn dbl (kparams k) acts (ssize dbl k)) = Some (h1 - pl) /\ pl <= h1).
    { unfold substn. destruct dbl; rewrite (subst_eval rho' _ _ avs _ HL EA').
      - rewrite (subst_eval (upd rho' (kparams k) avs) _ _ avs _ HL (idem_vals _ _ _ _ HL EA' (proj1 (I3 eq_refl)))).
        exact (IHk Ck Ik _ _ _ _ _ _ _ S Fb _ (Ab (upd rho' (kparams k) avs) Fr')).
      - exact (IHk Ck Ik _ _ _ _ _ _ _ S Fb _ (Ab _ Fr')). }
    destruct Es as [Es Lh].
    destruct (IHrest ps Cr Ir _ _ _ _ _ _ _ R Fg rho' loc lv A El) as [ws [Ew [Fw [Hh _]]]].
    exists ((h1 - pl) :: ws). cbn [csize omap_list map].
    rewrite evalZ_sum. cbn [omap_list]. rewrite El, Es. cbn [obind fold_right]. rewrite Ew. cbn [obind].
    repeat split.
    + do 2 f_equal. lia.
    + constructor; [lia|exact Fw].
    + cbn [max0]. lia.
    + congruence.
Qed.

Theorem highwater_eq_size dbl g k rho p live d h sn :
  closed_tree k = true -> (dbl = true -> idem_tree k = true) -> funeq rho g ->
  sim g k rho p live = Some (d, h, sn) ->
  evalZ rho (ssize dbl k) = Some (h - p) /\ p <= h.
Proof.
  intros C I F H. destruct (sim_size dbl) as [P _].
  exact (P k C I g rho p live d h sn H F rho (agree_refl _ _)).
Qed.

Theorem highwater_le_size g k rho p live d h sn v :
  closed_tree k = true -> funeq rho g ->
  sim g k rho p live = Some (d, h, sn) -> evalZ rho (ssize false k) = Some v -> h <= p + v.
Proof.
  intros C F H E. destruct (highwater_eq_size false g k rho p live d h sn C (fun X => False_ind _ (Bool.diff_false_true X)) F H) as [E' _].
  rewrite E in E'. inversion E'. lia.
Qed.

Theorem allocations_disjoint dbl g k rho base d h sn v :
  closed_tree k = true -> (dbl = true -> idem_tree k = true) -> funeq rho g ->
  sim g k rho base [] = Some (d, h, sn) -> evalZ rho (ssize dbl k) = Some v ->
  Forall (fun s => ForallOrdPairs disjoint s /\
                   Forall (fun iv => base <= fst iv /\ fst iv <= snd iv /\ snd iv <= base + v) s) sn.
Proof.
  intros C I F H E.
  destruct (highwater_eq_size dbl g k rho base [] d h sn C I F H) as [E' L].
  rewrite E in E'. inversion E'. subst v.
  destruct sim_chain as [P _].
  assert (C0 : chain base [] base) by (cbn; lia).
  destruct (P k g rho base [] d h sn base H C0) as [_ Fs].
  eapply Forall_impl; [|exact Fs]. intros s Hs. split.
  - exact (chain_pairs _ _ _ Hs).
  - replace (base + (h - base)) with h by lia. apply chain_bounds. exact Hs.
Qed.

(** the size expression of the callee, substituted with the actuals, evaluates in the caller to the value it
    has in the callee's own environment *)
Theorem hoist_size_subst_correct g rho ps acts rc e :
  call_env g rho ps acts = Some rc -> closedb ps e = true -> funeq rho g ->
  evalZ rho (subst (combine ps acts) e) = evalZ rc e.
Proof.
  intros CE C F. destruct (call_enter _ _ rho _ _ _ CE eq_refl) as [vs [HL [EA [_ Ab]]]].
  rewrite (subst_eval rho ps acts vs e HL EA). exact (eval_closed ps _ _ e C (Ab rho F)).
Qed.

(** blocks of the driver's stack do not overlap and stay inside the allocation *)
Theorem block_ranges_disjoint size nb b1 b2 :
  0 <= size -> 1 <= b1 -> b1 < b2 -> b2 <= nb ->
  block_base size b1 + size <= block_base size b2 /\ 0 <= block_base size b1 /\ block_base size b2 + size <= nb * size.
Proof. unfold block_base. intros. nia. Qed.

(** pool units: the words reserved for a temporary cover its bytes, and the byte bump (8*words) is what the
    driver multiplies out *)
Theorem pool_words_cover_bytes n b : 0 <= n -> 0 <= b -> n * b <= 8 * ((n * b + 7) / 2 ^ 3) < n * b + 8.
Proof.
  intros Hn Hb. change (2 ^ 3) with 8. assert (Hm : 0 <= n * b) by nia.
  remember (n * b) as m. clear Heqm Hn Hb n b.
  pose proof (Z.div_mod (m + 7) 8 ltac:(lia)). pose proof (Z.mod_pos_bound (m + 7) 8 ltac:(lia)). lia.
Qed.

Lemma evalZ_pool_units rho t ds :
  omap_list (evalZ rho) (t_dims t) = Some ds -> 0 <= prodz ds * t_bytes t ->
  (forall f a, ev_fun rho f a = cfun f a) ->
  evalZ rho (units MPool t) = Some ((prodz ds * t_bytes t + 7) / 2 ^ 3).
Proof.
  intros E N F. unfold units. rewrite evalZ_call. cbn [omap_list]. rewrite evalZ_sum. cbn [omap_list].
  rewrite evalZ_prodz.
  rewrite omap_list_app, E. cbn [omap_list obind]. rewrite evalZ_call. cbn [omap_list evalZ obind intrinsic].
  cbn. rewrite F. cbn [cfun]. cbn.
  assert (P : prodz (ds ++ [t_bytes t]) = prodz ds * t_bytes t).
  { clear. induction ds as [|x r IH]; cbn [prodz app]; [lia|]. rewrite IH. lia. }
  rewrite P. cbn [evalZ obind fold_right]. cbn [intrinsic]. cbn. rewrite F. unfold cfun.
  destruct (prodz ds * t_bytes t + 7 <? 0) eqn:Ng; [apply Z.ltb_lt in Ng; cbn; lia|].
  cbn. reflexivity.
Qed.
