(** C38 — expression-level lemmas: evaluation of products and max, extensionality in the free variables,
    the substitution lemma. *)
From Coq Require Import ZArith List Bool String Lia.
From LV Require Import Base.Expr Base.ExprFacts models.M_C38.
Import ListNotations.
Open Scope string_scope.
Open Scope list_scope.
Open Scope Z_scope.

(** [M_C38.prodz] is [fold_right Z.mul 1], by conversion *)
Lemma evalZ_prodz rho p cs :
  evalZ rho (EProd p cs) = obind (omap_list (evalZ rho) cs) (fun vs => Some (prodz vs)).
Proof. exact (evalZ_prod rho p cs). Qed.

Lemma evalZ_ext_vars r1 r2 e :
  (forall f a, ev_fun r1 f a = ev_fun r2 f a) ->
  (forall x, In x (vars e) -> ev_var r1 x = ev_var r2 x) ->
  evalZ r1 e = evalZ r2 e.
Proof.
  intros Hf. induction e using expr_ind'; intros Hv; try reflexivity.
  - cbn. f_equal. apply Hv. cbn. auto.
  - rewrite !evalZ_sum. f_equal. apply omap_list_ext.
    rewrite Forall_forall in *. intros c Hc. apply H; [exact Hc|].
    intros x Hx. apply Hv. cbn. apply in_flat_map. eauto.
  - rewrite !evalZ_prod. f_equal. apply omap_list_ext.
    rewrite Forall_forall in *. intros c Hc. apply H; [exact Hc|].
    intros x Hx. apply Hv. cbn. apply in_flat_map. eauto.
  - cbn [evalZ]. rewrite IHe1, IHe2; [reflexivity| |]; intros x Hx; apply Hv; cbn; apply in_or_app; auto.
  - cbn [evalZ]. rewrite IHe1, IHe2; [reflexivity| |]; intros x Hx; apply Hv; cbn; apply in_or_app; auto.
  - rewrite !evalZ_call.
    assert (E : omap_list (evalZ r1) args = omap_list (evalZ r2) args).
    { apply omap_list_ext. rewrite Forall_forall in *. intros c Hc. apply H; [exact Hc|].
      intros x Hx. apply Hv. cbn. apply in_flat_map. eauto. }
    rewrite E. destruct (omap_list (evalZ r2) args); cbn [obind]; [|reflexivity].
    destruct (intrinsic f l); [reflexivity|]. apply Hf.
Qed.

(** environment update that falls through to [rho] *)
Definition upd (rho : env) (ps : list string) (vs : list Z) : env := bind rho ps vs.

Lemma assoc_combine_lookup rho ps acts vs x :
  List.length ps = List.length acts ->
  omap_list (evalZ rho) acts = Some vs ->
  match assoc_e (combine ps acts) x with
  | Some a => exists v, evalZ rho a = Some v /\ lookup ps vs x = Some v
  | None => lookup ps vs x = None
  end.
Proof.
  revert acts vs. induction ps as [|p pr IH]; intros acts vs HL HE.
  - cbn. reflexivity.
  - destruct acts as [|a ar]; [discriminate|]. cbn [combine assoc_e].
    cbn [omap_list] in HE. destruct (evalZ rho a) eqn:Ea; cbn [obind] in HE; [|discriminate].
    destruct (omap_list (evalZ rho) ar) eqn:Er; cbn [obind] in HE; [|discriminate].
    inversion HE; subst vs. cbn [lookup].
    destruct (String.eqb p x).
    + exists z. split; [exact Ea|reflexivity].
    + apply IH; [cbn in HL; lia|exact Er].
Qed.

Lemma subst_eval rho ps acts vs e :
  List.length ps = List.length acts ->
  omap_list (evalZ rho) acts = Some vs ->
  evalZ rho (subst (combine ps acts) e) = evalZ (upd rho ps vs) e.
Proof.
  intros HL HE. induction e using expr_ind'; try reflexivity.
  - cbn [subst]. pose proof (assoc_combine_lookup rho ps acts vs x HL HE) as A.
    destruct (assoc_e (combine ps acts) x) as [a|].
    + destruct A as [v [Ev Lv]]. rewrite Ev. cbn. rewrite Lv. reflexivity.
    + cbn. rewrite A. reflexivity.
  - cbn [subst]. rewrite !evalZ_sum, omap_list_map. f_equal. apply omap_list_ext. exact H.
  - cbn [subst]. rewrite !evalZ_prod, omap_list_map. f_equal. apply omap_list_ext. exact H.
  - cbn [subst evalZ]. rewrite IHe1, IHe2. reflexivity.
  - cbn [subst evalZ]. rewrite IHe1, IHe2. reflexivity.
  - cbn [subst]. rewrite !evalZ_call, omap_list_map.
    assert (E : omap_list (fun x => evalZ rho (subst (combine ps acts) x)) args = omap_list (evalZ (upd rho ps vs)) args)
      by (apply omap_list_ext; exact H).
    rewrite E. reflexivity.
Qed.

Lemma fold_left_max_ge l a : a <= fold_left Z.max l a.
Proof. revert a. induction l as [|x r IH]; intro a; cbn; [lia|]. specialize (IH (Z.max a x)). lia. Qed.

Lemma fold_left_max_mono l a b : a <= b -> fold_left Z.max l a <= fold_left Z.max l b.
Proof. revert a b. induction l as [|x r IH]; intros a b H; cbn; [lia|]. apply IH. lia. Qed.

Fixpoint maxl (a : Z) (l : list Z) : Z := match l with [] => a | x :: r => Z.max a (maxl x r) end.

Lemma maxl_max a x r : maxl (Z.max a x) r = Z.max a (maxl x r).
Proof.
  revert a x. induction r as [|y q IH]; intros a x; cbn [maxl]; [reflexivity|]. lia.
Qed.

Lemma fold_left_max_maxl l a : fold_left Z.max l a = maxl a l.
Proof.
  revert a. induction l as [|x r IH]; intro a; cbn [fold_left maxl]; [reflexivity|].
  rewrite IH. apply maxl_max.
Qed.

Lemma evalZ_emax rho l v vs :
  omap_list (evalZ rho) l = Some (v :: vs) -> evalZ rho (emax l) = Some (maxl v vs).
Proof.
  intro H. unfold emax. destruct l as [|a [|b r]].
  - discriminate.
  - cbn [omap_list] in H. destruct (evalZ rho a); cbn [obind] in H; [|discriminate]. inversion H. reflexivity.
  - rewrite evalZ_call, H. cbn [obind]. cbn. rewrite fold_left_max_maxl. reflexivity.
Qed.
