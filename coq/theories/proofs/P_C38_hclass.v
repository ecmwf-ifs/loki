(** C38 — hoisting: on proper call trees (every kernel has pairwise distinct callees, all hoisted names of the
    unfolded tree are distinct, shapes/actuals closed over the kernel's dummies) the shapes the driver declares
    evaluate EXACTLY to what every activation needs.  Defines [hnames], [hclosed], [uniq_callees], [evalhv],
    [substdims] and the example tree [c_cs]. *)
From Coq Require Import ZArith List Bool String Lia.
From LV Require Import Base.Expr Base.ListFacts Base.ExprFacts models.M_C38 proofs.P_C38_expr proofs.P_C38.
Import ListNotations.
Open Scope string_scope.
Open Scope list_scope.
Open Scope Z_scope.

Scheme kernel_mut := Induction for kernel Sort Prop
with calls_mut := Induction for calls Sort Prop.
Combined Scheme kernel_calls_ind from kernel_mut, calls_mut.

(** all hoisted names of the unfolded call tree *)
Fixpoint hnames (k : kernel) : list string :=
  match k with Kern nm ps ts cs => map fst (own_hoist nm ts) ++ hnames_cs cs end
with hnames_cs (cs : calls) : list string :=
  match cs with CNil => [] | CCons _ k rest => hnames k ++ hnames_cs rest end.

(** shapes and actuals mention only the dummies of the kernel they stand in *)
Fixpoint hclosed (k : kernel) : bool :=
  match k with
  | Kern nm ps ts cs => forallb (fun t => forallb (closedb ps) (t_dims t)) ts && hclosed_cs ps cs
  end
with hclosed_cs (ps : list string) (cs : calls) : bool :=
  match cs with
  | CNil => true
  | CCons acts k rest => forallb (closedb ps) acts && hclosed k && hclosed_cs ps rest
  end.

Fixpoint uniq_callees (k : kernel) : Prop :=
  match k with Kern _ _ _ cs => NoDup (call_names cs) /\ uniq_cs cs end
with uniq_cs (cs : calls) : Prop :=
  match cs with CNil => True | CCons _ k rest => uniq_callees k /\ uniq_cs rest end.

(** the size of one hoisted variable; the function [hoist_decl] maps over the declared shapes *)
Definition evalhv (rho : env) (v : string * list expr) : option (string * Z) :=
  match omap_list (evalZ rho) (snd v) with Some ds => Some (fst v, prodz ds) | None => None end.

Definition substdims (s : list (string * expr)) (v : string * list expr) : string * list expr := (fst v, map (subst s) (snd v)).

Lemma evalhv_names rho (l : list (string * list expr)) n : omap_list (evalhv rho) l = Some n -> map fst n = map fst l.
Proof.
  revert n. induction l as [|v r IH]; intros n H; cbn [omap_list] in H.
  - inversion H. reflexivity.
  - unfold evalhv at 1 in H. destruct (omap_list (evalZ rho) (snd v)); cbn [obind] in H; [|discriminate].
    destruct (omap_list (evalhv rho) r) eqn:E; cbn [obind] in H; [|discriminate].
    inversion H. cbn. f_equal. apply IH. reflexivity.
Qed.

Lemma evalhv_subst rho ps acts vs (l : list (string * list expr)) :
  List.length ps = List.length acts -> omap_list (evalZ rho) acts = Some vs ->
  omap_list (evalhv rho) (map (substdims (combine ps acts)) l) = omap_list (evalhv (upd rho ps vs)) l.
Proof.
  intros HL HE. rewrite omap_list_map. apply omap_list_ext. rewrite Forall_forall. intros v _.
  unfold evalhv, substdims. cbn [fst snd]. rewrite omap_list_map.
  assert (E : omap_list (fun x => evalZ rho (subst (combine ps acts) x)) (snd v) = omap_list (evalZ (upd rho ps vs)) (snd v)).
  { apply omap_list_ext. rewrite Forall_forall. intros e _. apply subst_eval; assumption. }
  rewrite E. reflexivity.
Qed.

Lemma map_fst_substdims s (l : list (string * list expr)) : map fst (map (substdims s) l) = map fst l.
Proof. induction l as [|v r IH]; cbn; [reflexivity|]. rewrite IH. reflexivity. Qed.

(** For a call list the statement names [contrib], what [hoist_cs] appends to an accumulator none of whose names
    clash with the callees' (then its filter on names already present drops nothing): the callees' hoisted
    variables with shapes substituted by the actuals.  [hvar] is unfolded so that [fst]/[snd] and [map] see pairs. *)
Lemma hoist_class_gen :
  (forall k, hclosed k = true -> uniq_callees k -> NoDup (hnames k) ->
     map fst (hoist k) = hnames k /\
     forall g rho N, needs g k rho = Some N -> funeq rho g ->
       forall rho', agree (kparams_c k) rho' rho -> omap_list (evalhv rho') (hoist k) = Some N) /\
  (forall cs ps, hclosed_cs ps cs = true -> uniq_cs cs -> NoDup (call_names cs) -> NoDup (hnames_cs cs) ->
     exists contrib,
       (forall acc, (forall x, In x (hnames_cs cs) -> ~ In x (map fst acc)) -> hoist_cs cs acc = acc ++ contrib) /\
       map fst contrib = hnames_cs cs /\
       forall g rho N, needs_cs g cs rho = Some N -> funeq rho g ->
         forall rho', agree ps rho' rho -> omap_list (evalhv rho') contrib = Some N).
Proof.
  unfold hvar. apply kernel_calls_ind.
  - intros nm ps ts cs IHcs C U ND. unfold hvar in *.
    cbn [hclosed] in C. apply andb_prop in C. destruct C as [Ct Cc].
    cbn [uniq_callees] in U. destruct U as [Un Uc].
    cbn [hnames] in ND. destruct (NoDup_app_inv _ _ ND) as [_ [Nc Dj]].
    destruct (IHcs ps Cc Uc Un Nc) as [contrib [Hacc [Hn He]]].
    assert (Hh : hoist (Kern nm ps ts cs) = own_hoist nm ts ++ contrib).
    { cbn [hoist]. apply Hacc. intros x Hx Ho. exact (Dj x Ho Hx). }
    split.
    + rewrite Hh, map_app. cbn [hnames]. f_equal. exact Hn.
    + intros g rho N Hneeds Fg rho' A. rewrite Hh. cbn [needs] in Hneeds.
      match type of Hneeds with context [omap_list ?f (filter hoistable ts)] => set (F := f) in * end.
      destruct (omap_list F (filter hoistable ts)) as [own|] eqn:Eo; [|discriminate].
      destruct (needs_cs g cs rho) as [r|] eqn:Er; [|discriminate]. inversion Hneeds; subst N.
      rewrite omap_list_app.
      assert (Eown : omap_list (evalhv rho') (own_hoist nm ts) = Some own).
      { unfold own_hoist. rewrite omap_list_map. rewrite <- Eo. apply omap_list_ext. rewrite Forall_forall.
        intros t Ht. unfold evalhv, F. cbn [fst snd].
        apply filter_In in Ht. destruct Ht as [Ht _]. rewrite forallb_forall in Ct. specialize (Ct t Ht).
        cbn [kparams_c] in A. rewrite (omap_closed ps rho' rho (t_dims t) Ct A). reflexivity. }
      rewrite Eown. cbn [obind]. cbn [kparams_c] in A. rewrite (He g rho r Er Fg rho' A). reflexivity.
  - intros ps C U Nn Nh. unfold hvar in *. exists []. repeat split.
    + intros acc _. cbn. rewrite app_nil_r. reflexivity.
    + intros g rho N H _ rho' _. cbn in H. inversion H. reflexivity.
  - intros acts k IHk rest IHrest ps C U Nn Nh. unfold hvar in *.
    cbn [hclosed_cs] in C. apply andb_prop in C. destruct C as [C Cr]. apply andb_prop in C. destruct C as [Ca Ck].
    cbn [uniq_cs] in U. destruct U as [Uk Ur].
    cbn [call_names] in Nn. inversion Nn as [|? ? Hnot Nr]; subst.
    cbn [hnames_cs] in Nh. destruct (NoDup_app_inv _ _ Nh) as [Nk [Nrs Dj]].
    destruct (IHk Ck Uk Nk) as [Hnames Hev].
    destruct (IHrest ps Cr Ur Nr Nrs) as [cr [Hacc [Hn He]]].
    set (s := combine (kparams_c k) acts).
    exists (map (substdims s) (hoist k) ++ cr). repeat split.
    + intros acc Hd. cbn [hoist_cs]. rewrite (mem_false _ _ Hnot). fold s.
      assert (Fl : filter (fun v => negb (mem (fst v) (map fst acc))) (hoist k) = hoist k).
      { apply filter_all. intros v Hv. apply Bool.negb_true_iff. apply mem_false.
        apply Hd. cbn [hnames_cs]. apply in_or_app. left. rewrite <- Hnames. apply in_map. exact Hv. }
      rewrite Fl.
      change (map (fun v => (fst v, map (subst s) (snd v))) (hoist k)) with (map (substdims s) (hoist k)).
      rewrite Hacc.
      * rewrite app_assoc. reflexivity.
      * intros x Hx. rewrite map_app, map_fst_substdims, Hnames. intro I. apply in_app_or in I. destruct I as [I|I].
        -- apply (Hd x); [cbn [hnames_cs]; apply in_or_app; right; exact Hx|exact I].
        -- exact (Dj x I Hx).
    + rewrite map_app, map_fst_substdims, Hnames, Hn. reflexivity.
    + intros g rho N H Fg rho' A. cbn [needs_cs] in H.
      destruct (call_env g rho (kparams_c k) acts) as [rc|] eqn:CE; [|discriminate].
      destruct (call_enter _ _ rho' _ _ _ CE (omap_closed ps rho' rho acts Ca A)) as [vs [HL [EA' [Fb Ab]]]].
      destruct (needs g k rc) as [a|] eqn:Na; [|discriminate].
      destruct (needs_cs g rest rho) as [b|] eqn:Nb; [|discriminate]. inversion H; subst N.
      rewrite omap_list_app. unfold s. rewrite (evalhv_subst rho' _ _ vs _ HL EA').
      rewrite (Hev g _ a Na Fb _ (Ab rho' (agree_funeq _ _ _ _ A Fg))).
      cbn [obind]. rewrite (He g rho b Nb Fg rho' A). reflexivity.
Qed.

Lemma assoc_zs_nodup n x v : NoDup (map fst n) -> In (x, v) n -> assoc_zs n x = Some v.
Proof.
  induction n as [|[k w] r IH]; intros ND I; [destruct I|].
  cbn [map fst] in ND. inversion ND as [|? ? Hk Hr]; subst. cbn [assoc_zs].
  destruct I as [I|I].
  - inversion I; subst. rewrite String.eqb_refl. reflexivity.
  - destruct (String.eqb k x) eqn:E.
    + apply String.eqb_eq in E. subst. exfalso. apply Hk. change x with (fst (x, v)). apply in_map. exact I.
    + apply IH; assumption.
Qed.

Theorem hoist_enough_on_class g nm ps ts cs rho d n :
  hclosed_cs ps cs = true -> uniq_cs cs -> NoDup (call_names cs) -> NoDup (hnames_cs cs) -> funeq rho g ->
  hoist_decl (Kern nm ps ts cs) rho = Some d -> needs_cs g cs rho = Some n ->
  d = n /\ hoist_enough g (Kern nm ps ts cs) rho = Some true.
Proof.
  intros C U Nn Nh F Hd Hn.
  destruct hoist_class_gen as [_ Q]. destruct (Q cs ps C U Nn Nh) as [contrib [Hacc [Hnm He]]].
  assert (Hdr : hoist_driver (Kern nm ps ts cs) = contrib).
  { cbn [hoist_driver]. apply (Hacc []). intros x _ []. }
  assert (E : omap_list (evalhv rho) contrib = Some n) by (apply (He g rho n Hn F rho (agree_refl _ _))).
  assert (Edn : d = n).
  { unfold hoist_decl in Hd. rewrite Hdr in Hd. change (omap_list (evalhv rho) contrib = Some d) in Hd.
    rewrite E in Hd. inversion Hd. reflexivity. }
  split; [exact Edn|]. unfold hoist_enough. rewrite Hd, Hn. subst d. f_equal.
  apply forallb_forall. intros [x v] I.
  assert (ND : NoDup (map fst n)) by (rewrite (evalhv_names _ _ _ E), Hnm; exact Nh).
  cbn [fst snd]. rewrite (assoc_zs_nodup n x v ND I). apply Z.leb_refl.
Qed.

(** the class is inhabited by a non-trivial tree: driver -> k0 {t(nlon,m)} -> k1 {w(nlon,p)} with p = m+1 *)
Definition c_k1 : kernel := Kern "k1" ["nlon"; "p"] [{| t_name := "w"; t_cls := 0; t_bytes := 4; t_dims := [EVar "nlon"; EVar "p"] |}] CNil.
Definition c_k0 : kernel := Kern "k0" ["nlon"; "m"] [{| t_name := "t"; t_cls := 0; t_bytes := 4; t_dims := [EVar "nlon"; EVar "m"] |}]
  (CCons [EVar "nlon"; ESum false [EVar "m"; EInt 1]] c_k1 CNil).
Definition c_cs : calls := CCons [EVar "nlon"; EVar "nz"] c_k0 CNil.

Example hoist_class_nonvacuous :
  hclosed_cs ["nlon"; "nz"; "nb"] c_cs = true /\ uniq_cs c_cs /\ NoDup (call_names c_cs) /\ NoDup (hnames_cs c_cs) /\
  hoist_decl (Kern "driver" ["nlon"; "nz"; "nb"] [] c_cs) (cenv [("nlon", 3); ("nz", 2)]) = Some [("k0_t", 6); ("k1_w", 9)].
Proof.
  split; [vm_compute; reflexivity|]. split.
  - cbn. repeat split; repeat constructor; cbn; intuition discriminate.
  - split; [cbn; repeat constructor; cbn; intuition|]. split.
    + vm_compute. repeat constructor; cbn; intuition discriminate.
    + vm_compute. reflexivity.
Qed.
