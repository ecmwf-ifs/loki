(** C38 — hoisting on MiniF: a kernel whose local array [t] is written before it is read behaves the same when
    [t] becomes an extra array dummy that the caller supplies (whatever the supplied array contains).

    PARTIAL: "written before read" is the semantic predicate [init_insensitive] (the body's effect outside [t] does
    not depend on the initial contents of [t]); a syntactic criterion for it is not proved.  One call statement is
    treated; the remaining procedures are assumed to behave identically in both procedure tables. *)
From Coq Require Import ZArith List Bool String Lia.
From LV Require Import Base.Expr Base.MiniF Base.MiniFFacts.
Import ListNotations.
Open Scope string_scope.
Open Scope list_scope.
Open Scope Z_scope.

Definition agree_except_arr (t : string) (s1 s2 : store) : Prop :=
  (forall x, sv s1 x = sv s2 x) /\ (forall a i, a <> t -> av s1 a i = av s2 a i).

Definition store_eq (s1 s2 : store) : Prop := (forall x, sv s1 x = sv s2 x) /\ (forall a i, av s1 a i = av s2 a i).

Definition orel (R : store -> store -> Prop) (a b : option store) : Prop :=
  match a, b with Some x, Some y => R x y | None, None => True | _, _ => False end.

(** the effect of the body outside [t] does not depend on what [t] contains at entry *)
Definition init_insensitive (ps : procs) (t : string) (B : list stmt) : Prop :=
  forall f s0 s0', agree_except_arr t s0 s0' -> orel (agree_except_arr t) (exec ps f B s0) (exec ps f B s0').

Lemma copy_out_ext P : forall args r r' s s',
  (forall x, sv r x = sv r' x) ->
  (forall d i, In d (map fst P) -> av r d i = av r' d i) ->
  store_eq s s' ->
  store_eq (copy_out r P args s) (copy_out r' P args s').
Proof.
  induction P as [|[d b] P' IH]; intros args r r' s s' Hs Ha E.
  - cbn. destruct args; exact E.
  - destruct args as [|a args']; [destruct b; exact E|].
    assert (Ha' : forall d0 i, In d0 (map fst P') -> av r d0 i = av r' d0 i) by (intros; apply Ha; cbn; auto).
    destruct b; destruct a; cbn [copy_out]; try (apply IH; assumption).
    + apply IH; try assumption. destruct E as [E1 E2]. split; cbn; [exact E1|].
      intros a0 i. destruct (String.eqb a0 x); [apply Ha; cbn; auto|apply E2].
    + apply IH; try assumption. destruct E as [E1 E2]. split; cbn; [|exact E2].
      intros y. destruct (String.eqb y x); [apply Hs|apply E1].
Qed.

Lemma agree_set_arr t f c : agree_except_arr t c (set_arr t f c).
Proof.
  split; [reflexivity|]. intros a i Ha. cbn.
  destruct (String.eqb a t) eqn:E; [apply String.eqb_eq in E; contradiction|reflexivity].
Qed.

(** one CALL statement: original kernel with the local [t] versus the kernel with [t] as last dummy and the
    caller's array [t'] as last actual.  Same fuel on both sides. *)
Theorem hoist_call_preserves ps ps' k P B t t' args f s :
  find_proc ps k = Some {| p_params := P; p_body := B |} ->
  find_proc ps' k = Some {| p_params := P ++ [(t, true)]; p_body := B |} ->
  (forall f0 s0, exec ps' f0 B s0 = exec ps f0 B s0) ->
  init_insensitive ps t B ->
  ~ In t (map fst P) ->
  List.length P = List.length args ->
  orel (fun a b => exists a', store_eq a a' /\ agree_except_arr t' a' b)
       (exec1 ps f (SCall k args) s) (exec1 ps' f (SCall k (args ++ [EVar t'])) s).
Proof.
  intros F1 F2 Same Ins Nt HL. cbn [exec1]. rewrite F1, F2. cbn [obind p_params p_body].
  rewrite (copy_in_app s P args [(t, true)] [EVar t'] empty_store (eq_sym HL)). cbn [copy_in].
  destruct (copy_in s P args empty_store) as [c|]; cbn [obind]; [|exact I].
  rewrite Same.
  pose proof (Ins f c (set_arr t (av s t') c) (agree_set_arr t _ c)) as R.
  unfold orel in R.
  destruct (exec ps f B c) as [r|]; destruct (exec ps f B (set_arr t (av s t') c)) as [r'|]; cbn [obind]; try exact R; try exact I.
  rewrite (copy_out_app r' P args [(t, true)] [EVar t'] s (eq_sym HL)). cbn.
  exists (copy_out r' P args s). split.
  - destruct R as [R1 R2]. apply copy_out_ext.
    + exact R1.
    + intros d i Hd. apply R2. intro E. subst d. exact (Nt Hd).
    + split; reflexivity.
  - apply agree_set_arr.
Qed.

(** a non-trivial instance of the semantic hypothesis: t(1) = x(1); y(1) = t(1) + 1 *)
Definition wbr_body : list stmt :=
  [SStore "t" [EInt 1] (ECall "x" [EInt 1]);
   SStore "y" [EInt 1] (ESum false [ECall "t" [EInt 1]; EInt 1])].

Example wbr_body_init_insensitive ps : init_insensitive ps "t" wbr_body.
Proof.
  intros f s0 s0' [A1 A2].
  destruct f as [|[|[|f]]]; try exact I.
  unfold wbr_body. cbn.
  assert (X : av s0 "x" [1] = av s0' "x" [1]) by (apply A2; discriminate).
  rewrite X. split.
  - cbn. exact A1.
  - intros a i Ha. cbn.
    destruct (String.eqb a "y" && list_z_eqb i [1]); [reflexivity|].
    destruct (String.eqb a "t") eqn:E; [apply String.eqb_eq in E; contradiction|].
    cbn. apply A2. exact Ha.
Qed.

(** ... while a body that reads before it writes is not *)
Example read_first_not_insensitive ps : ~ init_insensitive ps "t" [SStore "y" [EInt 1] (ECall "t" [EInt 1])].
Proof.
  intro H.
  specialize (H 2%nat empty_store (set_av "t" [1] 5 empty_store)).
  assert (A : agree_except_arr "t" empty_store (set_av "t" [1] 5 empty_store)).
  { split; [reflexivity|]. intros a i Ha. cbn.
    destruct (String.eqb a "t") eqn:E; [apply String.eqb_eq in E; contradiction|reflexivity]. }
  specialize (H A). cbn in H. destruct H as [_ H]. specialize (H "y" [1] ltac:(discriminate)). cbn in H. discriminate.
Qed.
