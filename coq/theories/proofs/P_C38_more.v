(** C38 — refutation witnesses (computed), addressing of the FtrPtr / DirectIdx variants, substitution along a
    call path, non-vacuity examples. *)
From Coq Require Import ZArith List Bool String Lia.
From LV Require Import Base.Expr Base.ExprFacts models.M_C38 proofs.P_C38_expr proofs.P_C38.
Import ListNotations.
Open Scope string_scope.
Open Scope list_scope.
Open Scope Z_scope.

(** ** the double substitution of BaseStackTransformation._determine_stack_size under-estimates *)
(** k0(nlon,p,q) has t1(nlon) and calls k1(nlon, q, p); k1(nlon,p,q) has w(nlon,p); the driver calls k0(nlon, 1, nz) *)
Definition w_k1 : ktree := KT ["nlon"; "p"; "q"] [EProd false [EVar "nlon"; EVar "p"]] KNil.
Definition w_k0 : ktree := KT ["nlon"; "p"; "q"] [EProd false [EVar "nlon"]]
                              (KCons [EVar "nlon"; EVar "q"; EVar "p"] w_k1 KNil).
Definition w_root : ktree := KT ["nlon"; "nz"; "nb"] [] (KCons [EVar "nlon"; EInt 1; EVar "nz"] w_k0 KNil).
Definition w_rho : env := cenv [("nlon", 3); ("nz", 2); ("nb", 1)].

Lemma dbl_subst_refuted :
  exists k rho h v,
    closed_tree k = true /\
    highwater (sim (cenv []) k rho 1 []) = Some h /\
    evalZ rho (ssize true k) = Some v /\ 1 + v < h.
Proof.
  exists w_root, w_rho, 10, 6. repeat split; vm_compute; reflexivity.
Qed.

(** the same tree is handled correctly by the single substitution (pool allocator, raw stack) *)
Lemma single_subst_witness_ok :
  highwater (sim (cenv []) w_root w_rho 1 []) = Some 10 /\ evalZ w_rho (ssize false w_root) = Some 9.
Proof. split; vm_compute; reflexivity. Qed.

Lemma witness_not_idem : idem_tree w_root = false.
Proof. vm_compute. reflexivity. Qed.

Theorem ftr_indices_in_bounds dbl g k rho d h sn v :
  closed_tree k = true -> (dbl = true -> idem_tree k = true) -> funeq rho g ->
  sim g k rho 1 [] = Some (d, h, sn) -> evalZ rho (ssize dbl k) = Some v ->
  Forall (fun s => Forall (fun iv => forall i, 1 <= i <= snd iv - fst iv ->
                                               1 <= addr_ftr (fst iv) i <= v) s) sn.
Proof.
  intros C I F H E.
  pose proof (allocations_disjoint dbl g k rho 1 d h sn v C I F H E) as A.
  eapply Forall_impl; [|exact A]. intros s [_ B].
  eapply Forall_impl; [|exact B]. intros iv [L1 [L2 L3]] i Hi. unfold addr_ftr. lia.
Qed.

Theorem idx_top_index_exceeds_stack lo hi v :
  hi = 1 + v -> lo < hi -> addr_idx lo (hi - lo) = v + 1.
Proof. unfold addr_idx. lia. Qed.

(** one kernel, one temporary t(nlon, m), nlon = 3, m = 2: the stack has 6 elements, DirectIdx writes element 7 *)
Lemma idx_off_by_one_refuted :
  exists k rho iv v,
    sim (cenv []) k rho 1 [] = Some (1, 1 + v, [[iv]]) /\ evalZ rho (ssize true k) = Some v /\
    addr_idx (fst iv) (snd iv - fst iv) > v.
Proof.
  exists (KT ["nlon"; "m"] [EProd false [EVar "nlon"; EVar "m"]] KNil), (cenv [("nlon", 3); ("m", 2)]), (1, 7), 6.
  repeat split; vm_compute; reflexivity.
Qed.

(** DirectIdx, rank-1 temporaries: two different temporaries are mapped to the same stack elements *)
Lemma idx_rank1_alias_refuted :
  exists jd1 jd2 i, jd1 <> jd2 /\ addr_idx_rank1 jd1 i = addr_idx_rank1 jd2 i.
Proof. exists 1, 4, 1. split; [lia|reflexivity]. Qed.

(** ** substitution along a whole call path (what the driver-level declaration of a hoisted array relies on) *)
Fixpoint subst_path (path : list (list string * list expr)) (e : expr) : expr :=
  match path with
  | [] => e
  | (ps, acts) :: rest => subst (combine ps acts) (subst_path rest e)
  end.

Fixpoint env_path (g rho : env) (path : list (list string * list expr)) : option env :=
  match path with
  | [] => Some rho
  | (ps, acts) :: rest =>
      match call_env g rho ps acts with
      | Some rc => env_path g rc rest
      | None => None
      end
  end.

(** every call's actuals mention only the dummies of the calling kernel; the expression only those of the last callee *)
Fixpoint closed_path (cur : list string) (path : list (list string * list expr)) (e : expr) : bool :=
  match path with
  | [] => closedb cur e
  | (ps, acts) :: rest => forallb (closedb cur) acts && closed_path ps rest e
  end.

Lemma path_subst_gen g path :
  forall cur rho rho' rl e,
    closed_path cur path e = true -> funeq rho g -> agree cur rho' rho ->
    env_path g rho path = Some rl ->
    evalZ rho' (subst_path path e) = evalZ rl e.
Proof.
  induction path as [|[ps acts] rest IH]; intros cur rho rho' rl e C F A E.
  - cbn in *. inversion E; subst. eapply eval_closed; eauto.
  - cbn [closed_path] in C. apply andb_prop in C. destruct C as [Ca Cr].
    cbn [env_path] in E. destruct (call_env g rho ps acts) as [rc|] eqn:CE; [|discriminate].
    destruct (call_enter _ _ rho' _ _ _ CE (omap_closed cur rho' rho acts Ca A)) as [vs [HL [EA' [Fb Ab]]]].
    cbn [subst_path]. rewrite (subst_eval rho' ps acts vs _ HL EA').
    exact (IH ps rc _ rl e Cr Fb (Ab rho' (agree_funeq _ _ _ _ A F)) E).
Qed.

Theorem hoist_path_subst_correct g cur rho path rl e :
  closed_path cur path e = true -> funeq rho g -> env_path g rho path = Some rl ->
  evalZ rho (subst_path path e) = evalZ rl e.
Proof. intros C F E. eapply path_subst_gen; eauto. apply agree_refl. Qed.

Definition h_k1 : kernel := Kern "k1" ["nlon"; "p"] [{| t_name := "w"; t_cls := 0; t_bytes := 4; t_dims := [EVar "nlon"; EVar "p"] |}] CNil.
Definition h_k0 : kernel := Kern "k0" ["nlon"; "m"] []
  (CCons [EVar "nlon"; ESum false [EVar "m"; EInt 1]] h_k1 (CCons [EVar "nlon"; EInt 2] h_k1 CNil)).
Definition h_root : kernel := Kern "driver" ["nlon"; "nz"; "nb"] [] (CCons [EVar "nlon"; EVar "nz"] h_k0 CNil).

Lemma hoist_last_call_refuted :
  exists k rho, hoist_enough (cenv []) k rho = Some false.
Proof. exists h_root, (cenv [("nlon", 3); ("nz", 2); ("nb", 1)]). vm_compute. reflexivity. Qed.

(** with a single call the same kernel is served correctly *)
Definition h_k0' : kernel := Kern "k0" ["nlon"; "m"] [] (CCons [EVar "nlon"; ESum false [EVar "m"; EInt 1]] h_k1 CNil).
Definition h_root' : kernel := Kern "driver" ["nlon"; "nz"; "nb"] [] (CCons [EVar "nlon"; EVar "nz"] h_k0' CNil).
Lemma hoist_single_call_ok : hoist_enough (cenv []) h_root' (cenv [("nlon", 3); ("nz", 2); ("nb", 1)]) = Some true.
Proof. vm_compute. reflexivity. Qed.

(** ** the hypotheses of the storage theorems are satisfiable by a non-trivial tree *)
(** driver -> k0(nlon, m) {t(nlon), u(nlon,m)} -> k1(nlon, p) {w(nlon, p)} called with p = m+1 and p = 2 *)
Definition e_k1 : ktree := KT ["nlon"; "p"] [EProd false [EVar "nlon"; EVar "p"]] KNil.
Definition e_k0 : ktree := KT ["nlon"; "m"] [EProd false [EVar "nlon"]; EProd false [EVar "nlon"; EVar "m"]]
  (KCons [EVar "nlon"; ESum false [EVar "m"; EInt 1]] e_k1 (KCons [EVar "nlon"; EInt 2] e_k1 KNil)).
Definition e_root : ktree := KT ["nlon"; "nz"; "nb"] [] (KCons [EVar "nlon"; EVar "nz"] e_k0 KNil).

Example storage_nonvacuous :
  closed_tree e_root = true /\ idem_tree e_root = true /\
  exists d h sn, sim (cenv []) e_root (cenv [("nlon", 3); ("nz", 2); ("nb", 1)]) 0 [] = Some (d, h, sn) /\
                 h = 18 /\ List.length sn = 4%nat /\
                 evalZ (cenv [("nlon", 3); ("nz", 2); ("nb", 1)]) (ssize false e_root) = Some 18.
Proof.
  split; [vm_compute; reflexivity|]. split; [vm_compute; reflexivity|].
  eexists _, _, _. split; [vm_compute; reflexivity|]. repeat split; vm_compute; reflexivity.
Qed.
