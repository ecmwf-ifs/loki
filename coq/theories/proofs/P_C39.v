(** C39 — proofs about the model of ParametriseTransformation (M_C39).

    Every equivalence of two MiniF programs below (original tree / parametrised tree, PARAMETER declaration /
    replace-by-value, body / body without the assignments that declare_fixed_value_scalars_as_constants
    removes) is obtained from one scheme, [sim_at] of Base/Lockstep.v: a run on one side is matched statement by statement on
    the other side, related stores going to related stores.  The converse direction is the same scheme with
    the sides swapped and the converse relation, so each pair of simulations shares its case lemmas.
    Defines the vocabulary of the theorems: [env_rel], [apply_consts], [guard_stmts], [ext_eq], [Inv]. *)
From Coq Require Import ZArith List Bool String Lia.
From LV Require Import Base.Expr Base.ExprFacts Base.ListFacts Base.MiniF Base.MiniFFacts Base.Lockstep models.M_C39.
Import ListNotations.
Open Scope Z_scope.

Definition env_rel (D : dict) (r r' : env) : Prop :=
  (forall y, lookup D y = None -> ev_var r y = ev_var r' y) /\
  ev_fun r = ev_fun r' /\
  (forall x v, lookup D x = Some v -> ev_var r x = v).

Lemma subst_evalZ D r r' : env_rel D r r' -> forall e, evalZ r e = evalZ r' (subst D e).
Proof.
  intros [H1 [H2 H3]]. induction e using expr_ind'; cbn [subst]; try reflexivity.
  - destruct (lookup D x) as [v|] eqn:E; cbn [evalZ]; f_equal; [now apply H3|now apply H1].
  - cbn [evalZ]. now apply fold_obind_ext.
  - cbn [evalZ]. now apply fold_obind_ext.
  - cbn [evalZ]. now rewrite IHe1, IHe2.
  - cbn [evalZ]. now rewrite IHe1, IHe2.
  - rewrite !evalZ_call. rewrite (omap_list_ext_map (evalZ r) (evalZ r') (subst D) args H), H2. reflexivity.
Qed.

Lemma subst_evalB D r r' : env_rel D r r' -> forall e, evalB r e = evalB r' (subst D e).
Proof.
  intros HR. induction e using expr_ind'; cbn [subst]; try reflexivity.
  - destruct (lookup D x); reflexivity.
  - cbn [evalB]. now rewrite !(subst_evalZ D r r' HR).
  - cbn [evalB]. now apply fold_obind_ext.
  - cbn [evalB]. now apply fold_obind_ext.
  - cbn [evalB]. now rewrite IHe.
Qed.

Lemma subst_nil e : subst [] e = e.
Proof.
  induction e using expr_ind'; cbn [subst lookup]; try reflexivity;
    try (now rewrite (map_id_Forall _ _ H)); try (now rewrite IHe1, IHe2); now rewrite IHe.
Qed.

Lemma mem_false_iff D x : mem D x = false <-> lookup D x = None.
Proof. unfold mem. destruct (lookup D x); split; congruence. Qed.

Lemma mem_false D x : negb (mem D x) = true -> lookup D x = None.
Proof. intros H. now apply mem_false_iff, negb_true_iff. Qed.

Lemma mem_true D x : mem D x = true -> exists v, lookup D x = Some v.
Proof. unfold mem. destruct (lookup D x) as [v|]; [eauto|discriminate]. Qed.

Lemma mem_lookup_some D x v : lookup D x = Some v -> mem D x = true.
Proof. unfold mem. now intros ->. Qed.

(** the variables that [te] replaces by their values: all keys with replace_by_value, none otherwise *)
Definition dsub (m : pmode) (D : dict) : dict := match m with MReplace => D | MDecl => [] end.

Lemma R_env m D s s' : R m D s s' -> env_rel (dsub m D) (env_st s) (env_st s').
Proof.
  intros [[H1 [H2 H3]] H4]. destruct m; cbn [dsub].
  - repeat split; cbn.
    + intros y _. destruct (lookup D y) as [v|] eqn:E.
      * rewrite (H3 _ _ E). symmetry. now apply H4.
      * now apply H1.
    + now rewrite H2.
    + intros x v E. discriminate.
  - repeat split; cbn; [exact H1|now rewrite H2|exact H3].
Qed.

Lemma te_dsub m D e : te m D e = subst (dsub m D) e.
Proof. destruct m; cbn; [now rewrite subst_nil|reflexivity]. Qed.

Lemma te_evalZ m D e s s' : R m D s s' -> evalZ (env_st s) e = evalZ (env_st s') (te m D e).
Proof. intros H. rewrite te_dsub. apply subst_evalZ. now apply R_env. Qed.

Lemma te_evalB m D e s s' : R m D s s' -> evalB (env_st s) e = evalB (env_st s') (te m D e).
Proof. intros H. rewrite te_dsub. apply subst_evalB. now apply R_env. Qed.

Lemma te_eval_idx m D idx s s' : R m D s s' -> eval_idx s idx = eval_idx s' (map (te m D) idx).
Proof.
  intros H. unfold eval_idx. apply omap_list_ext_map. apply Forall_forall. intros e _. now apply te_evalZ.
Qed.

Lemma te_step m D stp s s' : R m D s s' ->
  match stp with None => Some 1 | Some e => evalZ (env_st s) e end =
  match option_map (te m D) stp with None => Some 1 | Some e => evalZ (env_st s') e end.
Proof. intros HR. destruct stp; cbn; [now apply te_evalZ|reflexivity]. Qed.

(** the same equation read from the other side, for the converse simulations *)
Lemma flip_eq {B} (P : store -> store -> Prop) (g g' : store -> B) :
  (forall s s', P s s' -> g s = g' s') -> forall s' s, P s s' -> g' s' = g s.
Proof. intros H s' s HP. symmetry. now apply H. Qed.

Lemma te_var_none m D x : lookup D x = None -> te m D (EVar x) = EVar x.
Proof. intros E. destruct m; cbn; [reflexivity|now rewrite E]. Qed.

Lemma R_set_sv m D s s' x v : lookup D x = None -> R m D s s' -> R m D (set_sv x v s) (set_sv x v s').
Proof.
  intros E [[H1 [H2 H3]] H4]. repeat split; cbn.
  - intros y Ey. destruct (String.eqb y x); [reflexivity|now apply H1].
  - exact H2.
  - intros k w Ek. destruct (String.eqb_spec k x) as [->|_]; [congruence|now apply H3].
  - intros Hm k w Ek. destruct (String.eqb_spec k x) as [->|_]; [congruence|now apply H4].
Qed.

Lemma R_absorb m D s s' x v : lookup D x = Some v -> R m D s s' -> R m D (set_sv x v s) s'.
Proof.
  intros E [[H1 [H2 H3]] H4]. repeat split; cbn.
  - intros y Ey. destruct (String.eqb_spec y x) as [->|_]; [congruence|now apply H1].
  - exact H2.
  - intros k w Ek. destruct (String.eqb_spec k x) as [->|_]; [congruence|now apply H3].
  - exact H4.
Qed.

Lemma R_set_av m D s s' a i v : R m D s s' -> R m D (set_av a i v s) (set_av a i v s').
Proof.
  intros [[H1 [H2 H3]] H4]. repeat split; cbn; [exact H1|now rewrite H2|exact H3|exact H4].
Qed.

Lemma R_set_arr m D s s' a g : R m D s s' -> R m D (set_arr a g s) (set_arr a g s').
Proof.
  intros [[H1 [H2 H3]] H4]. repeat split; cbn; [exact H1|now rewrite H2|exact H3|exact H4].
Qed.

Lemma R_obs m D s s' : R m D s s' -> (forall y, lookup D y = None -> sv s y = sv s' y) /\ av s = av s'.
Proof. intros [[H1 [H2 _]] _]. now split. Qed.

(** the next three are facts of Base/MiniFFacts.v ([runs1_store], [runs1_call], [exec_app_some]) under the names
    by which this property's documents cite them *)
Lemma runs1_store ps a idx e s i v :
  eval_idx s idx = Some i -> evalZ (env_st s) e = Some v -> runs1 ps (SStore a idx e) s (set_av a i v s).
Proof. apply MiniFFacts.runs1_store. Qed.

Lemma runs1_call ps g args p s c0 c1 :
  find_proc ps g = Some p -> copy_in s (p_params p) args empty_store = Some c0 ->
  runs ps (p_body p) c0 c1 -> runs1 ps (SCall g args) s (copy_out c1 (p_params p) args s).
Proof. apply MiniFFacts.runs1_call. Qed.

Lemma exec_app_inv ps f : forall a b s s',
  exec ps f (a ++ b) s = Some s' -> exists s1, exec ps f a s = Some s1 /\ exec ps f b s1 = Some s'.
Proof. apply exec_app_some. Qed.

Lemma find_proc_map (f : aunit -> proc) A g :
  find_proc (map (fun a => (u_name (a_unit a), f a)) A) g = option_map f (find_aunit A g).
Proof.
  induction A as [|a A IH]; [reflexivity|]. cbn.
  destruct (String.eqb (u_name (a_unit a)) g); [reflexivity|exact IH].
Qed.

Lemma find_aunit_in A g a : find_aunit A g = Some a -> In a A.
Proof.
  induction A as [|b A IH]; [discriminate|]. cbn.
  destruct (String.eqb (u_name (a_unit b)) g); [intros H; inversion H; now left|intros H; right; now apply IH].
Qed.

Lemma find_aunit_succ A g a : find_aunit A g = Some a -> succ_of A g = true.
Proof.
  unfold succ_of, in_names. induction A as [|b A IH]; [discriminate|]. cbn.
  rewrite (String.eqb_sym g). destruct (String.eqb (u_name (a_unit b)) g); [reflexivity|exact IH].
Qed.

(** Argument passing.  At a position where [call_ok] holds, either the actual is a parametrised variable of the caller bound to
    a dummy parametrised with the same value, and the position disappears from the call and from the callee's
    signature, or neither is parametrised and the position is kept with the actual mapped by [te]. *)
Definition kparams (Dg : dict) (params : list (string * bool)) := filter (fun p => negb (mem Dg (fst p))) params.
Definition kargs (m : pmode) (Dc : dict) (args : list expr) := map (te m Dc) (filter_args Dc args).

Lemma call_ok_cons Dc Dg d isarr ps a r :
  call_ok Dc Dg ((d, isarr) :: ps) (a :: r) = true ->
  call_ok Dc Dg ps r = true /\
  ((exists x v, a = EVar x /\ lookup Dc x = Some v /\ isarr = false /\ lookup Dg d = Some v) \/
   (plain_key Dc a = false /\ lookup Dg d = None)).
Proof.
  cbn [call_ok]. intros H. apply andb_true_iff in H. destruct H as [Ha Hok]. split; [exact Hok|].
  destruct a as [| |x| | | | | | | | | |]; try (right; split; [reflexivity|now apply mem_false]).
  destruct (lookup Dc x) as [v|] eqn:Ex.
  - left. exists x, v. apply andb_true_iff in Ha. destruct Ha as [Harr Hd]. destruct isarr; [discriminate|].
    unfold oz_eqb in Hd. destruct (lookup Dg d) as [w|]; [|discriminate]. apply Z.eqb_eq in Hd. now subst.
  - right. split; [now apply mem_false_iff|now apply mem_false].
Qed.

Lemma kparams_drop Dg p ps : mem Dg (fst p) = true -> kparams Dg (p :: ps) = kparams Dg ps.
Proof. intros H. unfold kparams. cbn [filter]. now rewrite H. Qed.

Lemma kparams_keep Dg p ps : mem Dg (fst p) = false -> kparams Dg (p :: ps) = p :: kparams Dg ps.
Proof. intros H. unfold kparams. cbn [filter]. now rewrite H. Qed.

Lemma kargs_drop m Dc a r : plain_key Dc a = true -> kargs m Dc (a :: r) = kargs m Dc r.
Proof. intros H. unfold kargs, filter_args. cbn [filter]. now rewrite H. Qed.

Lemma kargs_keep m Dc a r : plain_key Dc a = false -> kargs m Dc (a :: r) = te m Dc a :: kargs m Dc r.
Proof. intros H. unfold kargs, filter_args. cbn [filter]. now rewrite H. Qed.

(** what copy-in and copy-out do at one position *)
Definition bind1 (s : store) (d : string) (isarr : bool) (a : expr) (c : store) : option store :=
  if isarr then match a with EVar x => Some (set_arr d (av s x) c) | _ => None end
  else option_map (fun v => set_sv d v c) (evalZ (env_st s) a).

Definition out1 (c1 : store) (d : string) (isarr : bool) (a : expr) (s : store) : store :=
  match a with EVar x => if isarr then set_arr x (av c1 d) s else set_sv x (sv c1 d) s | _ => s end.

Lemma copy_in_cons s d isarr ps a r c :
  copy_in s ((d, isarr) :: ps) (a :: r) c = obind (bind1 s d isarr a c) (copy_in s ps r).
Proof.
  destruct isarr; [destruct a; reflexivity|].
  transitivity (match evalZ (env_st s) a with Some v => copy_in s ps r (set_sv d v c) | None => None end);
    [destruct a; reflexivity|]. unfold bind1. now destruct (evalZ (env_st s) a).
Qed.

Lemma copy_out_cons c1 d isarr ps a r s :
  copy_out c1 ((d, isarr) :: ps) (a :: r) s = copy_out c1 ps r (out1 c1 d isarr a s).
Proof. destruct isarr, a; reflexivity. Qed.

(** callee stores during copy-in: keys of [Dg] among the dummies still to come ([rem]) are not bound yet *)
Definition Ipre (Dg : dict) (rem : list string) (c c' : store) : Prop :=
  (forall y, lookup Dg y = None -> sv c y = sv c' y) /\ av c = av c' /\
  (forall d v, lookup Dg d = Some v -> sv c d = v \/ In d rem).

Lemma Ipre_key Dg d v rem c c' :
  lookup Dg d = Some v -> Ipre Dg (d :: rem) c c' -> Ipre Dg rem (set_sv d v c) c'.
Proof.
  intros Ed [I1 [I2 I3]]. repeat split; cbn.
  - intros y Ey. destruct (String.eqb_spec y d) as [->|_]; [congruence|now apply I1].
  - exact I2.
  - intros k w Ek. destruct (String.eqb_spec k d) as [->|Hne]; [left; congruence|].
    destruct (I3 _ _ Ek) as [H|[H|H]]; [now left|congruence|now right].
Qed.

Lemma Ipre_sv Dg d v rem c c' :
  lookup Dg d = None -> Ipre Dg (d :: rem) c c' -> Ipre Dg rem (set_sv d v c) (set_sv d v c').
Proof.
  intros Ed [I1 [I2 I3]]. repeat split; cbn.
  - intros y Ey. destruct (String.eqb y d); [reflexivity|now apply I1].
  - exact I2.
  - intros k w Ek. destruct (String.eqb_spec k d) as [->|Hne]; [congruence|].
    destruct (I3 _ _ Ek) as [H|[H|H]]; [now left|congruence|now right].
Qed.

Lemma Ipre_arr Dg d g rem c c' :
  lookup Dg d = None -> Ipre Dg (d :: rem) c c' -> Ipre Dg rem (set_arr d g c) (set_arr d g c').
Proof.
  intros Ed [I1 [I2 I3]]. repeat split; cbn.
  - exact I1.
  - now rewrite I2.
  - intros k w Ek. destruct (I3 _ _ Ek) as [H|[H|H]]; [now left|congruence|now right].
Qed.

Lemma bind1_sim m Dc Dg s s' d isarr a rem c c' :
  R m Dc s s' -> plain_key Dc a = false -> lookup Dg d = None -> Ipre Dg (d :: rem) c c' ->
  orel (Ipre Dg rem) (bind1 s d isarr a c) (bind1 s' d isarr (te m Dc a) c').
Proof.
  intros HR Hp Ed HI. destruct isarr; cbn [bind1].
  - destruct a as [| |x| | | | | | | | | |]; try (destruct m; exact I).
    apply mem_false_iff in Hp. rewrite (te_var_none m Dc x Hp).
    destruct HR as [[_ [R2 _]] _]. rewrite R2. now apply Ipre_arr.
  - rewrite <- (te_evalZ m Dc a s s' HR).
    destruct (evalZ (env_st s) a) as [v|]; [now apply Ipre_sv|exact I].
Qed.

Lemma copy_in_sim m Dc Dg s s' : R m Dc s s' ->
  forall params args c c', call_ok Dc Dg params args = true -> Ipre Dg (param_names params) c c' ->
    orel (Ipre Dg []) (copy_in s params args c) (copy_in s' (kparams Dg params) (kargs m Dc args) c').
Proof.
  intros HR. induction params as [|[d isarr] ps IH]; intros [|a r] c c' Hok HI; try discriminate; [exact HI|].
  apply call_ok_cons in Hok. destruct Hok as [Hok [[x [v [-> [Ex [-> Ed]]]]]|[Hp Ed]]]; rewrite copy_in_cons.
  - rewrite kparams_drop, kargs_drop by (cbn; eauto using mem_lookup_some).
    cbn [bind1 evalZ env_st ev_var option_map obind].
    destruct HR as [[_ [_ R3]] _]. rewrite (R3 _ _ Ex). apply IH; [exact Hok|now apply Ipre_key].
  - rewrite kparams_keep, kargs_keep, copy_in_cons by (try apply mem_false_iff; assumption).
    pose proof (bind1_sim m Dc Dg s s' d isarr a _ c c' HR Hp Ed HI) as Hb.
    destruct (bind1 s d isarr a c), (bind1 s' d isarr (te m Dc a) c'); try contradiction; [|exact I].
    now apply IH.
Qed.

Lemma out1_sim m Dc Dg c1 c1' s s' d isarr a :
  Rpre Dg c1 c1' -> R m Dc s s' -> plain_key Dc a = false -> lookup Dg d = None ->
  R m Dc (out1 c1 d isarr a s) (out1 c1' d isarr (te m Dc a) s').
Proof.
  intros [C1 [C2 _]] HR Hp Ed. destruct a as [| |x| | | | | | | | | |]; try (destruct m; exact HR).
  apply mem_false_iff in Hp. rewrite (te_var_none m Dc x Hp). cbn [out1].
  destruct isarr; [rewrite C2; now apply R_set_arr|rewrite (C1 _ Ed); now apply R_set_sv].
Qed.

Lemma copy_out_sim m Dc Dg c1 c1' : Rpre Dg c1 c1' ->
  forall params args s s', call_ok Dc Dg params args = true -> R m Dc s s' ->
    R m Dc (copy_out c1 params args s) (copy_out c1' (kparams Dg params) (kargs m Dc args) s').
Proof.
  intros HC. induction params as [|[d isarr] ps IH]; intros [|a r] s s' Hok HR; try discriminate; [exact HR|].
  apply call_ok_cons in Hok. destruct Hok as [Hok [[x [v [-> [Ex [-> Ed]]]]]|[Hp Ed]]]; rewrite copy_out_cons.
  - rewrite kparams_drop, kargs_drop by (cbn; eauto using mem_lookup_some).
    apply IH; [exact Hok|]. cbn [out1]. destruct HC as [_ [_ C3]]. rewrite (C3 _ _ Ed). now apply R_absorb.
  - rewrite kparams_keep, kargs_keep, copy_out_cons by (try apply mem_false_iff; assumption).
    apply IH; [exact Hok|]. now apply (out1_sim m Dc Dg).
Qed.

Fixpoint apply_consts (cs : list (string * Z)) (s : store) : store :=
  match cs with [] => s | (x, v) :: r => apply_consts r (set_sv x v s) end.

Lemma runs_consts ps cs : forall s, runs ps (const_stmts cs) s (apply_consts cs s).
Proof.
  induction cs as [|[x v] cs IH]; intros s; cbn; [apply runs_nil|].
  eapply runs_cons; [|apply IH]. now apply runs1_assign.
Qed.

Lemma runs_consts_inv ps cs s s1 : runs ps (const_stmts cs) s s1 -> s1 = apply_consts cs s.
Proof. intros H. eapply runs_det; [exact H|apply runs_consts]. Qed.

Lemma consts_R Dg c decls : forall c',
  Rpre Dg c c' -> (forall x v, lookup Dg x = Some v -> In x decls \/ sv c' x = v) ->
  R MDecl Dg c (apply_consts (consts_of Dg decls) c').
Proof.
  induction decls as [|x l IH]; intros c' HR Hcov.
  - cbn. split; [exact HR|]. intros _ k v Ek. destruct (Hcov _ _ Ek) as [[]|H]. exact H.
  - unfold consts_of. cbn [flat_map]. fold (consts_of Dg l).
    destruct (lookup Dg x) as [v|] eqn:Ex.
    + cbn [app apply_consts]. apply IH.
      * destruct HR as [H1 [H2 H3]]. repeat split; cbn; [|exact H2|exact H3].
        intros y Ey. destruct (String.eqb_spec y x) as [->|_]; [congruence|now apply H1].
      * intros k w Ek. cbn. destruct (String.eqb_spec k x) as [->|Hne]; [right; congruence|].
        destruct (Hcov _ _ Ek) as [[H|H]|H]; [congruence|now left|now right].
    + cbn [app]. apply IH; [exact HR|].
      intros k w Ek. destruct (Hcov _ _ Ek) as [[H|H]|H]; [congruence|now left|now right].
Qed.

Lemma scalar_params_names u x : In x (scalar_params u) -> In x (param_names (u_params u)).
Proof.
  unfold scalar_params, param_names. intros H. apply in_map_iff in H. destruct H as [p [E Hp]].
  apply filter_In in Hp. apply in_map_iff. exists p. tauto.
Qed.

Section Sim.
  Variable m : pmode.
  Variable abort : list stmt.
  Variable A : list aunit.
  Hypothesis Hwf : wf_assigned A = true.

  Let psO := procs_orig A.
  Let psT := procs_trans m abort A.
  Let T := tstmts (succ_of A) m.
  Let consts Dg (u : unit) := match m with MDecl => consts_of Dg (u_decls u) | MReplace => [] end.

  Lemma wf_of_found g ag : find_aunit A g = Some ag -> wf_aunit A ag = true.
  Proof.
    intros H. apply find_aunit_in in H. unfold wf_assigned in Hwf.
    rewrite forallb_forall in Hwf. now apply Hwf.
  Qed.

  Lemma wf_keys_decls ag : wf_aunit A ag = true ->
    (forall k, mem (a_dict ag) k = true -> In k (u_decls (a_unit ag)) /\ In k (param_names (u_params (a_unit ag)))).
  Proof.
    intros H k Hk. unfold wf_aunit in H. apply andb_true_iff in H. destruct H as [H _].
    rewrite forallb_forall in H. apply mem_true in Hk. destruct Hk as [v Ev].
    assert (Hin : exists w, In (k, w) (a_dict ag)).
    { clear H. induction (a_dict ag) as [|[k' w] l IH]; [discriminate|]. cbn in Ev.
      destruct (String.eqb_spec k' k) as [->|_]; [exists w; now left|].
      destruct (IH Ev) as [w' Hw]. exists w'. now right. }
    destruct Hin as [w Hw]. specialize (H _ Hw). cbn in H. apply andb_true_iff in H. destruct H as [H1 H2].
    split; [now apply existsb_eqb_In|]. apply scalar_params_names. now apply existsb_eqb_In.
  Qed.

  Lemma wf_body ag : wf_aunit A ag = true -> forallb (wf_stmt A (a_dict ag)) (u_body (a_unit ag)) = true.
  Proof. intros H. unfold wf_aunit in H. apply andb_true_iff in H. tauto. Qed.

  Lemma Ipre_empty ag : wf_aunit A ag = true ->
    Ipre (a_dict ag) (param_names (u_params (a_unit ag))) empty_store empty_store.
  Proof.
    intros Hwa. repeat split. intros d w Ed. right. apply (wf_keys_decls _ Hwa). now apply (mem_lookup_some _ _ w).
  Qed.

  (** once all dummies are bound, the constants of the callee establish [R] *)
  Lemma callee_start ag c0 c0' : wf_aunit A ag = true ->
    Ipre (a_dict ag) [] c0 c0' -> R m (a_dict ag) c0 (apply_consts (consts (a_dict ag) (a_unit ag)) c0').
  Proof.
    intros Hwa [I1 [I2 I3]].
    assert (HR : Rpre (a_dict ag) c0 c0').
    { repeat split; [exact I1|exact I2|]. intros x v E. destruct (I3 _ _ E) as [H|[]]. exact H. }
    unfold consts. destruct m; cbn [apply_consts].
    - apply consts_R; [exact HR|]. intros x v E. left. apply (wf_keys_decls _ Hwa). now apply (mem_lookup_some _ _ v).
    - split; [exact HR|discriminate].
  Qed.

  Lemma trans_params_kernel ag : a_entry ag = false ->
    p_params (proc_trans (transform_aunit A m abort ag)) = kparams (a_dict ag) (u_params (a_unit ag)).
  Proof. intros H. cbn. now rewrite H. Qed.

  Lemma trans_body_kernel ag : a_entry ag = false ->
    p_body (proc_trans (transform_aunit A m abort ag)) =
    const_stmts (consts (a_dict ag) (a_unit ag)) ++ T (a_dict ag) (u_body (a_unit ag)).
  Proof. intros H. cbn. unfold tunit_stmts. cbn. now rewrite H. Qed.

  Lemma sim_fwd f : forall D ss, forallb (wf_stmt A D) ss = true ->
    sim_at psO psT (R m D) (R m D) f ss (T D ss).
  Proof.
    induction f as [|f IH]; intros D ss Hw; [apply sim_at_0|].
    destruct ss as [|st rest]; [apply sim_nil|].
    cbn [forallb] in Hw. apply andb_true_iff in Hw. destruct Hw as [Hw1 Hw2].
    apply (sim_cons psO psT _ (R m D) _ f st [tstmt (succ_of A) m D st]); [|now apply IH].
    destruct st as [x e|a idx e|v lo hi stp body|c body|c tb eb|g args|l]; cbn [tstmt wf_stmt] in *.
    - apply sim1_assign; [apply te_evalZ|]. intros s s' v. apply R_set_sv. now apply mem_false.
    - apply sim1_store; [apply te_eval_idx|apply te_evalZ|intros s s' i v; apply R_set_av].
    - apply andb_true_iff in Hw1. destruct Hw1 as [Hv Hb]. apply mem_false in Hv.
      apply sim1_do; [apply te_evalZ|apply te_evalZ|apply te_step| |now apply IH].
      intros s s' i. now apply R_set_sv.
    - apply sim1_while; [apply te_evalB|now apply IH|].
      apply (IH D [SWhile c body]). cbn. now rewrite Hw1.
    - apply andb_true_iff in Hw1. destruct Hw1 as [Ht He].
      apply sim1_if; [apply te_evalB|now apply IH|now apply IH].
    - destruct (find_aunit A g) as [ag|] eqn:Eg; [|discriminate].
      apply andb_true_iff in Hw1. destruct Hw1 as [Hent Hok]. apply negb_true_iff in Hent.
      pose proof (wf_of_found _ _ Eg) as Hwa. rewrite (find_aunit_succ _ _ _ Eg).
      (* premises of [sim1_call]: the two table entries, copy-in, the bodies, copy-out.  The callee's constants
         are statements that only the transformed side has: [sim_stutter] here, [sim_prefix] in the converse *)
      apply (sim1_call psO psT _ _ (Ipre (a_dict ag) []) (R m (a_dict ag)) f g g args (kargs m D args)
               (proc_orig (a_unit ag)) (proc_trans (transform_aunit A m abort ag))).
      + unfold psO, procs_orig. now rewrite find_proc_map, Eg.
      + unfold psT, procs_trans. now rewrite find_proc_map, Eg.
      + intros s s' HR. rewrite (trans_params_kernel ag Hent).
        apply copy_in_sim; [exact HR|exact Hok|now apply Ipre_empty].
      + rewrite (trans_body_kernel ag Hent).
        apply sim_stutter with (M := R m (a_dict ag)); [|apply IH; now apply wf_body].
        intros c c' HI. exists (apply_consts (consts (a_dict ag) (a_unit ag)) c').
        split; [apply runs_consts|now apply callee_start].
      + intros s s' c c' HR [HC _]. rewrite (trans_params_kernel ag Hent). now apply copy_out_sim.
    - apply sim1_skip.
  Qed.

  (** the converse: the same cases with the sides swapped; here the callee's constants are a prefix of the
      body that is executed *)
  Lemma sim_bwd f : forall D ss, forallb (wf_stmt A D) ss = true ->
    sim_at psT psO (conv (R m D)) (conv (R m D)) f (T D ss) ss.
  Proof.
    induction f as [|f IH]; intros D ss Hw; [apply sim_at_0|].
    destruct ss as [|st rest]; [apply sim_nil|].
    cbn [forallb] in Hw. apply andb_true_iff in Hw. destruct Hw as [Hw1 Hw2].
    apply (sim_cons psT psO _ (conv (R m D)) _ f (tstmt (succ_of A) m D st) [st]); [|now apply IH].
    unfold conv.
    destruct st as [x e|a idx e|v lo hi stp body|c body|c tb eb|g args|l]; cbn [tstmt wf_stmt] in *.
    - apply sim1_assign; [apply flip_eq, te_evalZ|].
      intros s' s v. apply R_set_sv. now apply mem_false.
    - apply sim1_store; [apply flip_eq, te_eval_idx|apply flip_eq, te_evalZ|].
      intros s' s i v. apply R_set_av.
    - apply andb_true_iff in Hw1. destruct Hw1 as [Hv Hb]. apply mem_false in Hv.
      apply sim1_do; [apply flip_eq, te_evalZ|apply flip_eq, te_evalZ
                     |apply flip_eq, te_step| |now apply IH].
      intros s' s i. now apply R_set_sv.
    - apply sim1_while; [apply flip_eq, te_evalB|now apply IH|].
      apply (IH D [SWhile c body]). cbn. now rewrite Hw1.
    - apply andb_true_iff in Hw1. destruct Hw1 as [Ht He].
      apply sim1_if; [apply flip_eq, te_evalB|now apply IH|now apply IH].
    - destruct (find_aunit A g) as [ag|] eqn:Eg; [|discriminate].
      apply andb_true_iff in Hw1. destruct Hw1 as [Hent Hok]. apply negb_true_iff in Hent.
      pose proof (wf_of_found _ _ Eg) as Hwa. rewrite (find_aunit_succ _ _ _ Eg).
      apply (sim1_call psT psO _ _ (conv (Ipre (a_dict ag) [])) (conv (R m (a_dict ag))) f g g (kargs m D args) args
               (proc_trans (transform_aunit A m abort ag)) (proc_orig (a_unit ag))).
      + unfold psT, procs_trans. now rewrite find_proc_map, Eg.
      + unfold psO, procs_orig. now rewrite find_proc_map, Eg.
      + intros s' s HR. rewrite (trans_params_kernel ag Hent). apply orel_conv.
        apply copy_in_sim; [exact HR|exact Hok|now apply Ipre_empty].
      + rewrite (trans_body_kernel ag Hent).
        apply sim_prefix with (M := conv (R m (a_dict ag))); [|apply IH; now apply wf_body].
        intros c' c c1' HI E. rewrite (runs_consts_inv _ _ _ _ (ex_intro _ f E)). now apply callee_start.
      + intros s' s c' c HR [HC _]. rewrite (trans_params_kernel ag Hent). now apply copy_out_sim.
    - apply sim1_skip.
  Qed.
End Sim.

Theorem subst_stmts_sound m abort A : wf_assigned A = true ->
  forall D ss s s', forallb (wf_stmt A D) ss = true -> R m D s s' ->
    (forall s1, runs (procs_orig A) ss s s1 ->
       exists s1', runs (procs_trans m abort A) (tstmts (succ_of A) m D ss) s' s1' /\ R m D s1 s1') /\
    (forall s1', runs (procs_trans m abort A) (tstmts (succ_of A) m D ss) s' s1' ->
       exists s1, runs (procs_orig A) ss s s1 /\ R m D s1 s1').
Proof.
  intros Hwf D ss s s' Hw HR. split.
  - intros s1 [f E]. exact (sim_fwd m abort A Hwf f D ss Hw s s' s1 HR E).
  - intros s1' [f E]. exact (sim_bwd m abort A Hwf f D ss Hw s' s s1' HR E).
Qed.

(** [pname x] is a string append: kept folded, so that [cbn] does not turn the guards into character lists *)
Local Arguments pname : simpl never.
Definition guard_stmts (abort : list stmt) (gs : list (string * Z)) : list stmt :=
  map (fun kv => guard_stmt abort (pname (fst kv)) (snd kv)) gs.

Lemma guard_cond_eval s p v : evalB (env_st s) (guard_cond p v) = Some (negb (sv s p =? v)).
Proof. reflexivity. Qed.

Lemma guard_false ps abort p v s : sv s p = v -> runs1 ps (guard_stmt abort p v) s s.
Proof.
  intros E. unfold guard_stmt. apply (runs1_if ps (guard_cond p v) abort [] s s false); [|apply runs_nil].
  rewrite guard_cond_eval, E, Z.eqb_refl. reflexivity.
Qed.

Lemma guard_true ps abort p v s s1 :
  sv s p <> v -> (runs1 ps (guard_stmt abort p v) s s1 <-> runs ps abort s s1).
Proof.
  intros E. unfold guard_stmt. apply (runs1_if ps (guard_cond p v) abort [] s s1 true).
  rewrite guard_cond_eval. apply Z.eqb_neq in E. now rewrite E.
Qed.

Lemma guards_noop ps abort gs s : guards_pass gs s -> runs ps (guard_stmts abort gs) s s.
Proof.
  induction gs as [|[k v] gs IH]; intros H; cbn; [apply runs_nil|].
  eapply runs_cons; [|apply IH; intros k' v' Hin; apply H; now right].
  apply guard_false. apply H. now left.
Qed.

Lemma first_fail_none gs s : first_fail gs s = None <-> guards_pass gs s.
Proof.
  induction gs as [|[k v] gs IH]; cbn.
  - split; [intros _ k v []|reflexivity].
  - destruct (sv s (pname k) =? v) eqn:E.
    + rewrite IH. apply Z.eqb_eq in E. split.
      * intros H k' v' [Hin|Hin]; [inversion Hin; now subst|now apply H].
      * intros H k' v' Hin. apply H. now right.
    + split; [discriminate|]. intros H. apply Z.eqb_neq in E. exfalso. apply E. apply H. now left.
Qed.

Lemma guard_triggers ps abort gs s k v :
  first_fail gs s = Some (k, v) ->
  sv s (pname k) <> v /\
  exists pre post, guard_stmts abort gs = pre ++ guard_stmt abort (pname k) v :: post /\
    runs ps pre s s /\
    evalB (env_st s) (guard_cond (pname k) v) = Some true /\
    (forall s1, runs1 ps (guard_stmt abort (pname k) v) s s1 <-> runs ps abort s s1).
Proof.
  induction gs as [|[k' v'] gs IH]; cbn; [discriminate|].
  destruct (sv s (pname k') =? v') eqn:E.
  - intros H. destruct (IH H) as [Hne [pre [post [E1 [Hr [Hc Hb]]]]]]. split; [exact Hne|].
    exists (guard_stmt abort (pname k') v' :: pre), post. split; [|split; [|split]].
    + cbn. unfold guard_stmts in E1. now rewrite E1.
    + eapply runs_cons; [|exact Hr]. apply guard_false. now apply Z.eqb_eq.
    + exact Hc.
    + exact Hb.
  - intros H. inversion H; subst. apply Z.eqb_neq in E. split; [exact E|].
    exists [], (guard_stmts abort gs). split; [reflexivity|split; [apply runs_nil|split]].
    + change (Some (negb (sv s (pname k) =? v)) = Some true). apply Z.eqb_neq in E. now rewrite E.
    + intros s1. now apply guard_true.
Qed.

Section Entry.
  Variable m : pmode.
  Variable abort : list stmt.
  Variable A : list aunit.
  Hypothesis Hwf : wf_assigned A = true.
  Variable a : aunit.
  Hypothesis Hin : In a A.
  Hypothesis Hent : a_entry a = true.

  Let D := a_dict a.
  Let gs := guards_of D (u_params (a_unit a)).
  Let cs := match m with MDecl => consts_of D (u_decls (a_unit a)) | MReplace => [] end.

  Lemma wf_entry : wf_aunit A a = true.
  Proof. unfold wf_assigned in Hwf. rewrite forallb_forall in Hwf. now apply Hwf. Qed.

  Lemma entry_stmts_eq :
    tunit_stmts (transform_aunit A m abort a) =
    guard_stmts abort gs ++ const_stmts cs ++ tstmts (succ_of A) m D (u_body (a_unit a)).
  Proof. unfold tunit_stmts, transform_aunit, transform_unit. cbn. now rewrite Hent. Qed.

  Lemma entry_start s s' : Rpre D s s' -> R m D s (apply_consts cs s').
  Proof.
    intros [H1 [H2 H3]]. apply (callee_start m abort A a s s' wf_entry).
    repeat split; [exact H1|exact H2|]. intros d v E. left. now apply H3.
  Qed.

  Theorem entry_fwd s s' s1 :
    Rpre D s s' -> guards_pass gs s' ->
    runs (procs_orig A) (u_body (a_unit a)) s s1 ->
    exists s1', runs (procs_trans m abort A) (tunit_stmts (transform_aunit A m abort a)) s' s1' /\ R m D s1 s1'.
  Proof.
    intros HR Hg [f E]. rewrite entry_stmts_eq.
    destruct (sim_fwd m abort A Hwf f D _ (wf_body A _ wf_entry) s _ s1 (entry_start s s' HR) E) as [s1' [Hr HR1]].
    exists s1'. split; [|exact HR1].
    eapply runs_app; [now apply guards_noop|]. eapply runs_app; [apply runs_consts|exact Hr].
  Qed.

  Theorem entry_bwd s s' s1' :
    Rpre D s s' -> guards_pass gs s' ->
    runs (procs_trans m abort A) (tunit_stmts (transform_aunit A m abort a)) s' s1' ->
    exists s1, runs (procs_orig A) (u_body (a_unit a)) s s1 /\ R m D s1 s1'.
  Proof.
    intros HR Hg Hr. rewrite entry_stmts_eq in Hr.
    apply runs_app_inv in Hr. destruct Hr as [t [Hg' Hr]].
    rewrite (runs_det _ _ _ _ _ Hg' (guards_noop _ abort gs s' Hg)) in Hr. clear Hg' t.
    apply runs_app_inv in Hr. destruct Hr as [s'' [Hc [f E]]]. apply runs_consts_inv in Hc. subst s''.
    exact (sim_bwd m abort A Hwf f D _ (wf_body A _ wf_entry) _ s s1' (entry_start s s' HR) E).
  Qed.
End Entry.

(** the original-side start store belonging to a transformed-side store [s']: the keys set to their values, so
    that [Rpre] holds *)
Definition override (D : dict) (s : store) : store :=
  {| sv := fun y => match lookup D y with Some v => v | None => sv s y end; av := av s |}.

Lemma override_Rpre D s : Rpre D (override D s) s.
Proof.
  repeat split; cbn.
  - intros y E. now rewrite E.
  - intros x v E. now rewrite E.
Qed.

(** both variants, started from the same store, are equivalent: back to the original with [entry_bwd], forward
    again with [entry_fwd] *)
Theorem replace_eq_decl abort A a :
  wf_assigned A = true -> In a A -> a_entry a = true ->
  forall s', guards_pass (guards_of (a_dict a) (u_params (a_unit a))) s' ->
  forall m1 m2 t1,
    runs (procs_trans m1 abort A) (tunit_stmts (transform_aunit A m1 abort a)) s' t1 ->
    exists t2, runs (procs_trans m2 abort A) (tunit_stmts (transform_aunit A m2 abort a)) s' t2 /\
               (forall y, lookup (a_dict a) y = None -> sv t1 y = sv t2 y) /\ av t1 = av t2.
Proof.
  intros Hwf Hin Hent s' Hg m1 m2 t1 H1.
  destruct (entry_bwd m1 abort A Hwf a Hin Hent _ s' t1 (override_Rpre _ s') Hg H1) as [s1 [Ho HR1]].
  destruct (entry_fwd m2 abort A Hwf a Hin Hent _ s' s1 (override_Rpre _ s') Hg Ho) as [t2 [H2 HR2]].
  exists t2. split; [exact H2|].
  destruct (R_obs _ _ _ _ HR1) as [A1 B1]. destruct (R_obs _ _ _ _ HR2) as [A2 B2]. split.
  - intros y E. now rewrite <- (A1 y E), (A2 y E).
  - now rewrite <- B1.
Qed.

Local Open Scope string_scope.

Lemma assign_go_entry us entries D0 : forall todo st a,
  In a (assign_go us entries D0 st todo) -> a_entry a = true -> a_dict a = D0.
Proof.
  induction todo as [|u r IH]; intros st a Hin He; [destruct Hin|].
  cbn in Hin. destruct Hin as [<-|Hin].
  - cbn in *. now rewrite He.
  - eapply IH; eassumption.
Qed.

Lemma assign_entry_dict us entries D0 a :
  In a (assign_dicts us entries D0) -> a_entry a = true -> a_dict a = D0.
Proof. apply assign_go_entry. Qed.

Lemma procs_trans_param_tree m abort us entries D0 :
  procs_trans m abort (assign_dicts us entries D0) =
  map (fun t => (t_name t, proc_trans t)) (param_tree m abort us entries D0).
Proof. unfold procs_trans, param_tree, param_assigned. rewrite map_map. reflexivity. Qed.

Theorem param_preserves m abort us entries D0 :
  uniform_calls us entries D0 = true ->
  forall a, In a (assign_dicts us entries D0) -> a_entry a = true ->
  forall s s', Rpre D0 s s' -> guards_pass (guards_of D0 (u_params (a_unit a))) s' ->
    let A := assign_dicts us entries D0 in
    let t := transform_aunit A m abort a in
    (forall s1, runs (procs_orig A) (u_body (a_unit a)) s s1 ->
       exists s1', runs (procs_trans m abort A) (tunit_stmts t) s' s1' /\ R m D0 s1 s1') /\
    (forall s1', runs (procs_trans m abort A) (tunit_stmts t) s' s1' ->
       exists s1, runs (procs_orig A) (u_body (a_unit a)) s s1 /\ R m D0 s1 s1').
Proof.
  intros Hu a Hin He s s' HR Hg A t.
  rewrite <- (assign_entry_dict _ _ _ _ Hin He) in HR, Hg |- *. split.
  - intros s1. now apply (entry_fwd m abort A Hu a Hin He).
  - intros s1'. now apply (entry_bwd m abort A Hu a Hin He).
Qed.

(** finding F18: without [uniform_calls] the statement fails (the two parametrised variables at swapped positions) *)
Definition w_k : unit :=
  {| u_name := "k"; u_params := [("x", false); ("y", false); ("a", true)]; u_decls := ["x"; "y"];
     u_body := [SStore "a" [EVar "x"] (ESum false [ECall "a" [EVar "x"]; EProd false [EInt 10; EVar "y"]])] |}.
Definition w_drv : unit :=
  {| u_name := "drv"; u_params := [("n", false); ("f", false); ("a", true)]; u_decls := ["n"; "f"];
     u_body := [SCall "k" [EVar "n"; EVar "f"; EVar "a"]; SCall "k" [EVar "f"; EVar "n"; EVar "a"]] |}.
Definition w_us := [w_drv; w_k].
Definition w_D0 : dict := [("n", 3); ("f", 1)].
Definition w_store : store :=
  init_store [("n", 3); ("f", 1); ("parametrised_n", 3); ("parametrised_f", 1)]
             [("a", [1], 1); ("a", [2], 2); ("a", [3], 3); ("a", [4], 4)].

Lemma w_Rpre : Rpre w_D0 w_store w_store.
Proof.
  repeat split. intros x v E. unfold w_D0 in E. cbn [lookup] in E.
  destruct (String.eqb_spec "n" x) as [<-|_]; [inversion E; reflexivity|].
  destruct (String.eqb_spec "f" x) as [<-|_]; [inversion E; reflexivity|discriminate].
Qed.

(** a terminating run with a given observation, obtained by evaluating only the observation *)
Lemma run_obs {B} ps f ss s (obs : store -> B) z :
  option_map obs (exec ps f ss s) = Some z -> exists s1, runs ps ss s s1 /\ obs s1 = z.
Proof.
  destruct (exec ps f ss s) as [s1|] eqn:E; [|discriminate].
  intros H. exists s1. split; [now exists f|now inversion H].
Qed.

Theorem param_preserves_refuted :
  exists us entries D0 a s,
    uniform_calls us entries D0 = false /\
    In a (assign_dicts us entries D0) /\ a_entry a = true /\
    Rpre D0 s s /\ guards_pass (guards_of D0 (u_params (a_unit a))) s /\
    exists s1 s1',
      runs (procs_orig (assign_dicts us entries D0)) (u_body (a_unit a)) s s1 /\
      runs (procs_trans MDecl [] (assign_dicts us entries D0))
           (tunit_stmts (transform_aunit (assign_dicts us entries D0) MDecl [] a)) s s1' /\
      av s1 "a" [1] <> av s1' "a" [1].
Proof.
  pose (a := {| a_unit := w_drv; a_entry := true; a_dict := w_D0 |}).
  pose (A := assign_dicts w_us ["drv"] w_D0).
  exists w_us, ["drv"], w_D0, a, w_store.
  split; [vm_compute; reflexivity|]. split; [left; reflexivity|]. split; [reflexivity|].
  split; [exact w_Rpre|]. split.
  - intros k v Hin. cbn in Hin. destruct Hin as [H|[H|[]]]; inversion H; reflexivity.
  - destruct (run_obs (procs_orig A) 10 (u_body w_drv) w_store (fun s => av s "a" [1]) 31) as [s1 [H1 O1]];
      [vm_compute; reflexivity|].
    destruct (run_obs (procs_trans MDecl [] A) 10 (tunit_stmts (transform_aunit A MDecl [] a)) w_store
                      (fun s => av s "a" [1]) 61) as [s1' [H2 O2]]; [vm_compute; reflexivity|].
    exists s1, s1'. split; [exact H1|]. split; [exact H2|]. rewrite O1, O2. discriminate.
Qed.

(** a non-trivial member of the class: driver -> k1 -> k3, the dummy is renamed on the way down *)
Definition e_k3 : unit :=
  {| u_name := "k3"; u_params := [("a", true); ("q", false)]; u_decls := ["q"];
     u_body := [SStore "a" [EInt 1] (EVar "q")] |}.
Definition e_k1 : unit :=
  {| u_name := "k1"; u_params := [("m", false); ("a", true); ("f", false); ("r", false)]; u_decls := ["m"; "f"; "r"; "i"];
     u_body := [SIf (ECmp Cgt (EVar "f") (EInt 0))
                    [SDo "i" (EInt 1) (EVar "m") None
                         [SStore "a" [EVar "i"] (ESum false [EProd false [ECall "a" [EVar "i"]; EInt 2]; EVar "m"])]] [];
                SAssign "r" (ESum false [EVar "m"; EVar "f"]);
                SCall "k3" [EVar "a"; EVar "m"]] |}.
Definition e_drv : unit :=
  {| u_name := "drv"; u_params := [("n", false); ("f", false); ("a", true); ("r", false)]; u_decls := ["n"; "f"; "r"; "i"];
     u_body := [SDo "i" (EInt 1) (EVar "n") None [SStore "a" [EVar "i"] (ESum false [ECall "a" [EVar "i"]; EVar "f"])];
                SCall "k1" [EVar "n"; EVar "a"; EVar "f"; EVar "r"];
                SCall "k1" [EVar "n"; EVar "a"; EVar "f"; EVar "r"];
                SAssign "r" (ESum false [EVar "r"; EVar "n"])] |}.

Example uniform_calls_example :
  uniform_calls [e_drv; e_k1; e_k3] ["drv"] [("n", 3)] = true /\
  map t_params (param_tree MDecl [] [e_drv; e_k1; e_k3] ["drv"] [("n", 3)]) =
    [[("parametrised_n", false); ("f", false); ("a", true); ("r", false)];
     [("a", true); ("f", false); ("r", false)];
     [("a", true)]] /\
  map t_consts (param_tree MDecl [] [e_drv; e_k1; e_k3] ["drv"] [("n", 3)]) = [[("n", 3)]; [("m", 3)]; [("q", 3)]].
Proof. vm_compute. repeat split. Qed.

Local Close Scope string_scope.
(** declare_fixed_value_scalars_as_constants: removing [x = c] when [x] holds [c] from the start *)
Definition ext_eq (s s' : store) : Prop := (forall y, sv s y = sv s' y) /\ av s = av s'.
Definition Inv (D : dict) (s : store) : Prop := forall x v, lookup D x = Some v -> sv s x = v.

Lemma R_ext s s' : R MDecl [] s s' -> ext_eq s s'.
Proof. intros [[H1 [H2 _]] _]. split; [intros y; now apply H1|exact H2]. Qed.

Lemma lit_val_sound rho c v : lit_val c = Some v -> evalZ rho c = Some v.
Proof. destruct c; cbn; congruence. Qed.

Lemma const_value_sound rho e v : const_value e = Some v -> evalZ rho e = Some v.
Proof.
  assert (Hfold : forall (op : Z -> Z -> Z) z cs w,
    fold_right (fun c acc => obind (lit_val c) (fun v => obind acc (fun a => Some (op v a)))) z cs = Some w ->
    fold_right (fun c acc => obind (evalZ rho c) (fun v => obind acc (fun a => Some (op v a)))) z cs = Some w).
  { intros op z. induction cs as [|c cs IH]; intros w; cbn; [congruence|].
    intros H. apply obind_some in H. destruct H as [a [Ea H]]. apply obind_some in H. destruct H as [b [Eb H]].
    rewrite (lit_val_sound rho _ _ Ea). cbn. rewrite (IH _ Eb). exact H. }
  destruct e; cbn [const_value]; try discriminate; [cbn; congruence|apply Hfold|apply Hfold].
Qed.

(** the relation of this simulation: equal stores, the original holding the constants; it is [R MDecl []]
    with an invariant on the left store, so expressions evaluate alike *)
Definition dfv_rel (D : dict) (s s' : store) : Prop := ext_eq s s' /\ Inv D s.

Lemma dfv_rel_R D s s' : dfv_rel D s s' -> R MDecl [] s s'.
Proof. intros [[H1 H2] _]. repeat split; try assumption; try (intros; discriminate). intros y _. apply H1. Qed.

Lemma dfv_evalZ D e s s' : dfv_rel D s s' -> evalZ (env_st s) e = evalZ (env_st s') e.
Proof. intros H. exact (te_evalZ MDecl [] e s s' (dfv_rel_R D s s' H)). Qed.

Lemma dfv_evalB D e s s' : dfv_rel D s s' -> evalB (env_st s) e = evalB (env_st s') e.
Proof. intros H. exact (te_evalB MDecl [] e s s' (dfv_rel_R D s s' H)). Qed.

Lemma dfv_eval_idx D idx s s' : dfv_rel D s s' -> eval_idx s idx = eval_idx s' idx.
Proof. intros H. rewrite (te_eval_idx MDecl [] idx s s' (dfv_rel_R D s s' H)). cbn [te]. now rewrite map_id. Qed.

Lemma dfv_step D (stp : option expr) s s' : dfv_rel D s s' ->
  match stp with None => Some 1 | Some e => evalZ (env_st s) e end =
  match stp with None => Some 1 | Some e => evalZ (env_st s') e end.
Proof. intros H. destruct stp; [now apply (dfv_evalZ D)|reflexivity]. Qed.

Lemma dfv_set_sv D s s' x v : lookup D x = None -> dfv_rel D s s' -> dfv_rel D (set_sv x v s) (set_sv x v s').
Proof.
  intros E [[H1 H2] HI]. repeat split; cbn; [|exact H2|].
  - intros y. destruct (String.eqb y x); [reflexivity|apply H1].
  - intros k w Ek. cbn. destruct (String.eqb_spec k x) as [->|_]; [congruence|now apply HI].
Qed.

Lemma dfv_set_av D s s' a i v : dfv_rel D s s' -> dfv_rel D (set_av a i v s) (set_av a i v s').
Proof. intros [[H1 H2] HI]. repeat split; cbn; [exact H1|now rewrite H2|exact HI]. Qed.

(** assigning a constant its own value on the original side only changes nothing *)
Lemma dfv_absorb D s s' x v : lookup D x = Some v -> dfv_rel D s s' -> dfv_rel D (set_sv x v s) s'.
Proof.
  intros E [[H1 H2] HI]. repeat split; cbn; [|exact H2|].
  - intros y. destruct (String.eqb_spec y x) as [->|_]; [rewrite <- H1; symmetry; now apply HI|apply H1].
  - intros k w Ek. cbn. destruct (String.eqb_spec k x) as [->|_]; [congruence|now apply HI].
Qed.

Lemma oz_eqb_some a v : oz_eqb a (Some v) = true -> a = Some v.
Proof. destruct a as [w|]; cbn; [|discriminate]. intros H. apply Z.eqb_eq in H. now subst. Qed.

Section Dfv.
  Variable ps : procs.
  Variable D : dict.
  Let rm := dfv_rm (mem D).
  Let Q := dfv_rel D.

  Lemma dfv_fwd f : forall ss, forallb (dfv_wf D) ss = true -> sim_at ps ps Q Q f ss (rm ss).
  Proof.
    induction f as [|f IH]; intros ss Hw; [apply sim_at_0|].
    destruct ss as [|st rest]; [apply sim_nil|].
    cbn [forallb] in Hw. apply andb_true_iff in Hw. destruct Hw as [Hw1 Hw2].
    apply (sim_cons ps ps Q Q Q f st (dfv_rm_stmt (mem D) st) rest (rm rest)); [|now apply IH].
    destruct st as [x e|a idx e|v lo hi stp body|c body|c tb eb|g args|l]; cbn [dfv_rm_stmt dfv_wf] in *.
    - unfold mem. destruct (lookup D x) as [v|] eqn:Ex.
      + (* the removed assignment: x already holds the constant *)
        apply oz_eqb_some in Hw1. intros s s' s1 HQ E. cbn in E.
        rewrite (const_value_sound _ _ _ Hw1) in E. inversion E; subst.
        exists s'. split; [apply runs_nil|now apply dfv_absorb].
      + apply sim1_assign; [apply dfv_evalZ|]. intros s s' w. now apply dfv_set_sv.
    - apply sim1_store; [apply dfv_eval_idx|apply dfv_evalZ|].
      intros s s' i w. apply dfv_set_av.
    - apply andb_true_iff in Hw1. destruct Hw1 as [Hv Hb]. apply mem_false in Hv.
      apply sim1_do; [apply dfv_evalZ|apply dfv_evalZ|apply dfv_step| |now apply IH].
      intros s s' i. now apply dfv_set_sv.
    - apply sim1_while; [apply dfv_evalB|now apply IH|].
      apply (IH [SWhile c body]). cbn. now rewrite Hw1.
    - apply andb_true_iff in Hw1. destruct Hw1 as [Ht He].
      apply sim1_if; [apply dfv_evalB|now apply IH|now apply IH].
    - discriminate.
    - apply sim1_skip.
  Qed.

  (** the converse: at a removed assignment the shortened program stands still while the original executes
      [x = c]; the fuel of the given run does not decrease there, hence the inner induction on the list *)
  Lemma dfv_bwd f : forall ss, forallb (dfv_wf D) ss = true -> sim_at ps ps (conv Q) (conv Q) f (rm ss) ss.
  Proof.
    induction f as [|f IH]; intros ss Hw; [apply sim_at_0|].
    induction ss as [|st rest IHss]; [apply sim_nil|].
    cbn [forallb] in Hw. apply andb_true_iff in Hw. destruct Hw as [Hw1 Hw2].
    assert (Hkeep : forall st', dfv_rm_stmt (mem D) st = [st'] -> sim1_at ps ps (conv Q) (conv Q) f st' [st] ->
              sim_at ps ps (conv Q) (conv Q) (S f) (rm (st :: rest)) (st :: rest)).
    { intros st' E H. unfold rm, dfv_rm. cbn [flat_map]. rewrite E.
      apply (sim_cons ps ps _ (conv Q) _ f st' [st] (rm rest) rest); [exact H|now apply IH]. }
    unfold conv.
    destruct st as [x e|a idx e|v lo hi stp body|c body|c tb eb|g args|l]; cbn [dfv_wf] in Hw1.
    - destruct (lookup D x) as [v|] eqn:Ex.
      + apply oz_eqb_some in Hw1. unfold rm, dfv_rm. cbn [flat_map dfv_rm_stmt]. unfold mem. rewrite Ex.
        apply (sim_stutter ps ps _ (conv Q) _ (S f) (rm rest) [SAssign x e] rest); [|now apply IHss].
        intros s' s HQ. exists (set_sv x v s).
        split; [apply runs_single, runs1_assign; now apply const_value_sound|now apply dfv_absorb].
      + apply (Hkeep (SAssign x e)); [cbn; unfold mem; now rewrite Ex|].
        apply sim1_assign; [apply flip_eq, (dfv_evalZ D)|]. intros s' s w. now apply dfv_set_sv.
    - apply (Hkeep (SStore a idx e)); [reflexivity|].
      apply sim1_store; [apply flip_eq, (dfv_eval_idx D)|apply flip_eq, (dfv_evalZ D)|].
      intros s' s i w. apply dfv_set_av.
    - apply andb_true_iff in Hw1. destruct Hw1 as [Hv Hb]. apply mem_false in Hv.
      apply (Hkeep (SDo v lo hi stp (rm body))); [reflexivity|].
      apply sim1_do; [apply flip_eq, (dfv_evalZ D)|apply flip_eq, (dfv_evalZ D)
                     |apply flip_eq, (dfv_step D)| |now apply IH].
      intros s' s i. now apply dfv_set_sv.
    - apply (Hkeep (SWhile c (rm body))); [reflexivity|].
      apply sim1_while; [apply flip_eq, (dfv_evalB D)|now apply IH|].
      apply (IH [SWhile c body]). cbn. now rewrite Hw1.
    - apply andb_true_iff in Hw1. destruct Hw1 as [Ht He].
      apply (Hkeep (SIf c (rm tb) (rm eb))); [reflexivity|].
      apply sim1_if; [apply flip_eq, (dfv_evalB D)|now apply IH|now apply IH].
    - discriminate.
    - apply (Hkeep (SSkip l)); [reflexivity|]. apply sim1_skip.
  Qed.

  Theorem dfv_sound_partial ss s s' :
    forallb (dfv_wf D) ss = true -> ext_eq s s' -> Inv D s ->
    (forall s1, runs ps ss s s1 -> exists s1', runs ps (dfv_rm (mem D) ss) s' s1' /\ ext_eq s1 s1') /\
    (forall s1', runs ps (dfv_rm (mem D) ss) s' s1' -> exists s1, runs ps ss s s1 /\ ext_eq s1 s1').
  Proof.
    intros Hw HE HI. split.
    - intros s1 [f E]. destruct (dfv_fwd f ss Hw s s' s1 (conj HE HI) E) as [s1' [H1 [H2 _]]]. eauto.
    - intros s1' [f E]. destruct (dfv_bwd f ss Hw s' s s1' (conj HE HI) E) as [s1 [H1 [H2 _]]]. eauto.
  Qed.
End Dfv.

(** the variables the code selects, and the link to the theorem above *)
Lemma dfv_chosen_const params decls body x e :
  In (x, e) (dfv_chosen params decls body) -> const_rhs e = true.
Proof.
  unfold dfv_chosen. intros H. apply in_flat_map in H. destruct H as [x0 [_ H]].
  destruct (in_names params x0 || in_names (flat_map arg_vars_stmt body) x0); [destruct H|].
  destruct (filter (fun a => String.eqb (fst a) x0) (flat_map assigns_stmt body)) as [|[y e0] [|? ?]]; try destruct H.
  destruct (const_rhs e0) eqn:Ec; [|destruct H]. destruct H as [H|[]]. inversion H; subst. exact Ec.
Qed.

Lemma dfv_dict_keys cs x :
  (forall k e, In (k, e) cs -> const_rhs e = true) -> mem (dfv_dict cs) x = in_names (map fst cs) x.
Proof.
  induction cs as [|[k e] r IH]; intros H; [reflexivity|].
  unfold dfv_dict. cbn [flat_map fst snd]. fold (dfv_dict r).
  pose proof (H k e (or_introl eq_refl)) as Hc. unfold const_rhs in Hc.
  destruct (const_value e) as [v|]; [|discriminate].
  unfold mem, in_names. cbn [app lookup map existsb fst]. rewrite (String.eqb_sym x k).
  destruct (String.eqb k x); [reflexivity|]. cbn [orb].
  apply IH. intros k' e' Hin. apply (H k' e'). now right.
Qed.

Lemma dfv_rm_ext c1 c2 : (forall x, c1 x = c2 x) -> forall ss, dfv_rm c1 ss = dfv_rm c2 ss.
Proof.
  intros H ss. apply flat_map_ext_Forall. apply Forall_forall. intros st _.
  induction st using stmt_ind'; cbn [dfv_rm_stmt]; try reflexivity.
  - now rewrite H.
  - now rewrite (flat_map_ext_Forall _ _ _ H0).
  - now rewrite (flat_map_ext_Forall _ _ _ H0).
  - now rewrite (flat_map_ext_Forall _ _ _ H0), (flat_map_ext_Forall _ _ _ H1).
Qed.

Theorem dfv_transform_sound_partial ps params decls body s s' :
  let cs := fst (dfv_transform params decls body) in
  let body' := snd (dfv_transform params decls body) in
  forallb (dfv_wf (dfv_dict cs)) body = true -> ext_eq s s' -> Inv (dfv_dict cs) s ->
  (forall s1, runs ps body s s1 -> exists s1', runs ps body' s' s1' /\ ext_eq s1 s1') /\
  (forall s1', runs ps body' s' s1' -> exists s1, runs ps body s s1 /\ ext_eq s1 s1').
Proof.
  intros cs body' Hw HE HI.
  assert (Eb : body' = dfv_rm (mem (dfv_dict cs)) body).
  { unfold body', dfv_transform. cbn [snd]. apply dfv_rm_ext. intros x. symmetry.
    apply dfv_dict_keys. intros k e. apply dfv_chosen_const. }
  rewrite Eb. now apply dfv_sound_partial.
Qed.

(** a loop variable initialised once with a literal is turned into a constant that the DO statement then writes *)
Example dfv_invalid_witness :
  let body := [SAssign "i" (EInt 0); SDo "i" (EInt 1) (EVar "n") None [SStore "a" [EVar "i"] (EVar "i")]]%string in
  let r := dfv_transform ["n"; "a"]%string ["n"; "i"]%string body in
  fst r = [("i"%string, EInt 0)] /\ dfv_valid (fst r) (snd r) = false.
Proof. vm_compute. split; reflexivity. Qed.

Lemma dfv_invalid_exists :
  exists params decls body,
    let r := dfv_transform params decls body in
    fst r <> [] /\ dfv_valid (fst r) (snd r) = false.
Proof.
  destruct dfv_invalid_witness as [H1 H2]. do 3 eexists. cbv zeta. split; [rewrite H1; discriminate|exact H2].
Qed.
