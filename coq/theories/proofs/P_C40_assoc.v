(** C40 — do_resolve_associates is idempotent.  Partial resolution (any start_depth) goes by
    the normal-form route; full resolution is its instance start_depth = 0 (C29's [resolve_sd_zero]). *)
From Coq Require Import ZArith List Bool String Lia.
From LV Require Import Base.Expr Base.MiniF Base.ExprFacts Base.ListFacts models.M_C29 proofs.P_C29_more models.M_C40 proofs.P_C40_base.
Import ListNotations.
Open Scope Z_scope.
Open Scope list_scope.

Lemma assoc_free_shallow sd : forall st d, assoc_free_stmt st = true -> shallow_stmt sd d st = true.
Proof.
  induction st using astmt_ind'; intros d Hc; cbn [shallow_stmt]; cbn [assoc_free_stmt] in Hc; try reflexivity.
  - apply forallb_Forall. apply forallb_Forall in Hc.
    eapply Forall_mp; [|exact Hc]. eapply Forall_impl; [|exact H]. intros a Ha. apply Ha.
  - apply andb_true_iff in Hc. destruct Hc as [H1 H2].
    apply andb_true_iff. split; apply forallb_Forall.
    + apply forallb_Forall in H1. eapply Forall_mp; [|exact H1]. eapply Forall_impl; [|exact H]. intros a Ha. apply Ha.
    + apply forallb_Forall in H2. eapply Forall_mp; [|exact H2]. eapply Forall_impl; [|exact H0]. intros a Ha. apply Ha.
  - discriminate.
Qed.

(** on shallow programs the partial resolution is the identity *)
Lemma resolve_sd_fix_list sd d b :
  Forall (fun st => forall d, shallow_stmt sd d st = true -> resolve_sd_stmt sd d [] st = [st]) b ->
  forallb (shallow_stmt sd d) b = true -> flat_map (resolve_sd_stmt sd d []) b = b.
Proof.
  intros H Hc. apply flat_map_single. apply forallb_Forall in Hc.
  eapply Forall_mp; [|exact Hc]. eapply Forall_impl; [|exact H]. intros a Ha. apply Ha.
Qed.

Lemma resolve_sd_fix_stmt sd : forall st d, shallow_stmt sd d st = true -> resolve_sd_stmt sd d [] st = [st].
Proof.
  induction st using astmt_ind'; intros d Hc; cbn [resolve_sd_stmt]; cbn [shallow_stmt] in Hc.
  - unfold resolve_assign. cbn [lookup core_of]. now rewrite subst_nil.
  - unfold resolve_store. cbn [lookup core_of]. rewrite subst_nil.
    rewrite (map_id_Forall (subst [])); [reflexivity|]. apply Forall_forall. intros x _. apply subst_nil.
  - rewrite (resolve_sd_fix_list sd d b H Hc).
    unfold subst_name. cbn [lookup]. rewrite !subst_nil.
    destruct st as [e|]; cbn [option_map]; [now rewrite subst_nil|reflexivity].
  - apply andb_true_iff in Hc. destruct Hc as [H1 H2].
    now rewrite (resolve_sd_fix_list sd d t H H1), (resolve_sd_fix_list sd d e H0 H2), subst_nil.
  - reflexivity.
  - apply andb_true_iff in Hc. destruct Hc as [H1 H2].
    rewrite H1. now rewrite (resolve_sd_fix_list sd (S d) b H H2).
Qed.

(** the output: shallow where blocks are kept, ASSOCIATE-free below the kept levels *)
Definition out_ok (sd d : nat) (st : astmt) : bool :=
  if (d <=? sd)%nat then shallow_stmt sd d st else assoc_free_stmt st.

Lemma out_ok_shallow sd d st : out_ok sd d st = true -> shallow_stmt sd d st = true.
Proof. unfold out_ok. destruct (d <=? sd)%nat; [auto|apply assoc_free_shallow]. Qed.

Lemma core_of_ok sd d st : out_ok sd d (core_of st) = true.
Proof. unfold out_ok. destruct st; cbn [core_of shallow_stmt assoc_free_stmt]; destruct (d <=? sd)%nat; reflexivity. Qed.

Lemma out_ok_do sd d v lo hi st b : out_ok sd d (ADo v lo hi st b) = forallb (out_ok sd d) b.
Proof. unfold out_ok. destruct (d <=? sd)%nat; reflexivity. Qed.

Lemma out_ok_if sd d c t e : out_ok sd d (AIf c t e) = forallb (out_ok sd d) t && forallb (out_ok sd d) e.
Proof. unfold out_ok. destruct (d <=? sd)%nat; reflexivity. Qed.

Lemma resolve_sd_out sd : forall st d sg, Forall (fun x => out_ok sd d x = true) (resolve_sd_stmt sd d sg st).
Proof.
  assert (Hbody : forall b, Forall (fun st => forall d sg, Forall (fun x => out_ok sd d x = true) (resolve_sd_stmt sd d sg st)) b ->
            forall d sg, Forall (fun x => out_ok sd d x = true) (flat_map (resolve_sd_stmt sd d sg) b)).
  { intros b H d sg. apply Forall_flat_map. eapply Forall_impl; [|exact H]. intros a Ha. apply Ha. }
  induction st using astmt_ind'; intros d sg; cbn [resolve_sd_stmt].
  - constructor; [apply core_of_ok|constructor].
  - constructor; [apply core_of_ok|constructor].
  - constructor; [|constructor]. rewrite out_ok_do. apply forallb_Forall. now apply Hbody.
  - constructor; [|constructor]. rewrite out_ok_if.
    apply andb_true_iff. split; apply forallb_Forall; now apply Hbody.
  - constructor; [|constructor]. unfold out_ok. destruct (d <=? sd)%nat; reflexivity.
  - destruct (d <=? sd)%nat eqn:E.
    + constructor; [|constructor]. unfold out_ok. rewrite E. cbn [shallow_stmt]. rewrite E. cbn [andb].
      apply forallb_Forall. eapply Forall_impl; [|apply (Hbody b H)]. intros x Hx. now apply out_ok_shallow.
    + (* below the kept levels nothing deeper is kept either *)
      eapply Forall_impl; [|apply (Hbody b H)]. intros x Hx. unfold out_ok in *. rewrite E.
      apply Nat.leb_gt in E. assert (E2 : (S d <=? sd)%nat = false) by (apply Nat.leb_gt; lia).
      now rewrite E2 in Hx.
Qed.

Lemma resolve_sd_nf sd ss : shallow sd (resolve_sd sd ss) = true.
Proof.
  unfold shallow, resolve_sd. apply forallb_Forall. apply Forall_flat_map.
  apply Forall_forall. intros st _. eapply Forall_impl; [|apply (resolve_sd_out sd st 1%nat [])].
  intros x Hx. now apply out_ok_shallow.
Qed.

Lemma resolve_sd_fix sd ss : shallow sd ss = true -> resolve_sd sd ss = ss.
Proof.
  intros H. unfold resolve_sd. apply resolve_sd_fix_list; [|exact H].
  apply Forall_forall. intros st _. apply resolve_sd_fix_stmt.
Qed.

Theorem resolve_sd_idem sd ss : resolve_sd sd (resolve_sd sd ss) = resolve_sd sd ss.
Proof. exact (idem_by_nf (resolve_sd sd) (fun q => shallow sd q = true) (resolve_sd_nf sd) (resolve_sd_fix sd) ss). Qed.

(** full resolution: start_depth = 0, where "shallow" means "no ASSOCIATE block" *)
Lemma shallow_zero : forall st d, shallow_stmt 0 (S d) st = assoc_free_stmt st.
Proof.
  induction st using astmt_ind'; intros d; cbn [shallow_stmt assoc_free_stmt]; try reflexivity.
  - apply forallb_ext_Forall. eapply Forall_impl; [|exact H]. intros a Ha. apply Ha.
  - f_equal; apply forallb_ext_Forall; (eapply Forall_impl; [|eassumption]); intros a Ha; apply Ha.
Qed.

Lemma shallow_zero_l ss : shallow 0 ss = assoc_free ss.
Proof. apply forallb_ext_Forall, Forall_forall. intros st _. apply shallow_zero. Qed.

Lemma T_assoc_nf ss : assoc_free (T_assoc ss) = true.
Proof. unfold T_assoc. rewrite <- resolve_sd_zero, <- shallow_zero_l. apply resolve_sd_nf. Qed.

Lemma T_assoc_fix ss : assoc_free ss = true -> T_assoc ss = ss.
Proof. unfold T_assoc. rewrite <- resolve_sd_zero, <- shallow_zero_l. apply resolve_sd_fix. Qed.

Theorem T_assoc_idem ss : T_assoc (T_assoc ss) = T_assoc ss.
Proof. exact (idem_by_nf T_assoc (fun q => assoc_free q = true) T_assoc_nf T_assoc_fix ss). Qed.

Lemma T_assoc_idem_c29 ss : T_assoc (T_assoc ss) = T_assoc ss.
Proof. exact (T_assoc_idem ss). Qed.

(** merging is NOT idempotent: three nested blocks need two applications (model of C29, witness) *)
Open Scope string_scope.
Definition w_merge3 : list astmt :=
  [AAssoc [("h", SName "b")]
     [AAssoc [("p", SSec "brr" [DFree 0])]
        [AAssoc [("g", SSec "p" [DFree 0]); ("x", SSec "brr" [DFix (EVar "k")])]
           [AStore "arr" [EVar "n"] (ESum false [ECall "g" [EInt 1]; EVar "x"])]]]].

Lemma merge_not_idempotent :
  exists ss m1 m2, merge_list ss = Some m1 /\ merge_list m1 = Some m2 /\ m2 <> m1.
Proof.
  exists w_merge3, (merge w_merge3), (merge (merge w_merge3)).
  split; [vm_compute; reflexivity|]. split; [vm_compute; reflexivity|].
  intros C. vm_compute in C. discriminate C.
Qed.
