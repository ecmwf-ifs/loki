(** C40 — generic facts (the normal-form route to idempotence, lists, case folding of names). *)
From Coq Require Import ZArith List Bool String Ascii Lia.
From LV Require Import Base.Strings Base.Expr Base.MiniF Base.ExprFacts Base.ListFacts models.M_C40.
Import ListNotations.
Open Scope Z_scope.

(** the normal-form route: [T] lands in a set on which it is the identity *)
Lemma idem_by_nf {A} (T : A -> A) (nf : A -> Prop) :
  (forall p, nf (T p)) -> (forall q, nf q -> T q = q) -> forall p, T (T p) = T p.
Proof. intros H1 H2 p. apply H2, H1. Qed.

(** the same for partial transformations *)
Lemma idem_by_nf_opt {A} (T : A -> option A) (nf : A -> Prop) :
  (forall p q, T p = Some q -> nf q) -> (forall q, nf q -> T q = Some q) ->
  forall p q, T p = Some q -> T q = Some q.
Proof. intros H1 H2 p q E. apply H2. eapply H1; eassumption. Qed.

Lemma Forall_impl2 {A} (P Q R : A -> Prop) l :
  Forall (fun x => P x -> Q x -> R x) l -> Forall P l -> Forall Q l -> Forall R l.
Proof. induction 1 as [|x l H _ IH]; intros HP HQ; [constructor|]. inversion HP; inversion HQ; subst. constructor; auto. Qed.

Lemma flat_map_idem {A} (f : A -> list A) :
  (forall d, flat_map f (f d) = f d) -> forall l, flat_map f (flat_map f l) = flat_map f l.
Proof. intros H l. induction l as [|x l IH]; cbn; [reflexivity|]. now rewrite flat_map_app, H, IH. Qed.

Lemma flat_map_single {A} (f : A -> list A) l : Forall (fun x => f x = [x]) l -> flat_map f l = l.
Proof. induction 1 as [|x l H _ IH]; cbn; [reflexivity|]. now rewrite H, IH. Qed.

Lemma Forall_filter {A} (P : A -> Prop) (f : A -> bool) l : Forall P l -> Forall P (filter f l).
Proof. induction 1 as [|x l H _ IH]; cbn; [constructor|]. destruct (f x); [now constructor|exact IH]. Qed.

Lemma filter_idem {A} (f : A -> bool) l : filter f (filter f l) = filter f l.
Proof. induction l as [|x l IH]; cbn; [reflexivity|]. destruct (f x) eqn:E; cbn; [now rewrite E, IH|exact IH]. Qed.

Lemma existsb_filter_false {A} (g f : A -> bool) l : existsb g l = false -> existsb g (filter f l) = false.
Proof.
  induction l as [|x l IH]; cbn; [reflexivity|]. intros H. apply orb_false_iff in H. destruct H as [H1 H2].
  destruct (f x); cbn; [now rewrite H1, IH|now apply IH].
Qed.

Lemma filter_filter_neg {A} (f : A -> bool) l : filter f (filter (fun x => negb (f x)) l) = [].
Proof.
  induction l as [|x l IH]; cbn; [reflexivity|]. destruct (f x) eqn:E; cbn; [exact IH|]. now rewrite E.
Qed.

Lemma existsb_filter_neg {A} (f : A -> bool) l : existsb f (filter (fun s => negb (f s)) l) = false.
Proof.
  induction l as [|x l IH]; [reflexivity|]. cbn [filter].
  destruct (f x) eqn:Ex; cbn [negb]; [exact IH|]. cbn [existsb]. now rewrite Ex, IH.
Qed.

Lemma existsb_false_F {A} (f : A -> bool) l : Forall (fun x => f x = false) l -> existsb f l = false.
Proof. induction 1 as [|x l H _ IH]; cbn; [reflexivity|]. now rewrite H, IH. Qed.

Lemma has_upper_lower x : has_upper (lower x) = false.
Proof. unfold has_upper. now rewrite lower_idem, String.eqb_refl. Qed.

Lemma has_upper_false x : has_upper x = false -> lower x = x.
Proof. unfold has_upper. intros H. apply negb_false_iff in H. now apply String.eqb_eq in H. Qed.

Lemma is_intr_ci_lower f : is_intr_ci (lower f) = is_intr_ci f.
Proof. unfold is_intr_ci. now rewrite lower_idem. Qed.
