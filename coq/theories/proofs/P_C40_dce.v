(** C40 — do_remove_dead_code on MiniF (model of C32) is the SELECT-free case of [kdce]:
    [kemb] reads a MiniF program as a source-level program, [kdce] commutes with it, normal forms and stable
    conditions correspond, so the theorems about [dce] are those about [kdce].  With use_simplify the stability of the conditions is
    proved from the model of [simplify]. *)
From Coq Require Import ZArith List Bool String Lia.
From LV Require Import Base.Expr Base.MiniF Base.ExprFacts Base.ListFacts models.M_C32 models.M_C40 proofs.P_C40_base proofs.P_C40_sel.
Import ListNotations.
Open Scope Z_scope.
Open Scope list_scope.

(** the local recursion of [dce1] over a body is [dce] *)
Lemma dce_go u : forall l,
  (fix go (l : list stmt) : option (list stmt) :=
     match l with
     | [] => Some []
     | s :: r => match dce1 u s, go r with Some a, Some b => Some (a ++ b) | _, _ => None end
     end) l = dce u l.
Proof. induction l as [|x r IH]; [reflexivity|]. cbn [dce]. now rewrite <- IH. Qed.

Lemma dce1_if u c t e :
  dce1 u (SIf c t e) =
  match (if u then simp_cond false [] c else Some c), dce u t, dce u e with
  | Some c', Some t', Some e' =>
      match c' with
      | ELog true => Some t'
      | ELog false => Some e'
      | _ => if is_elseif e && is_nil e' then None else Some [SIf c' t' e']
      end
  | _, _, _ => None
  end.
Proof. cbn [dce1]. now rewrite !dce_go. Qed.

Lemma dce1_do u v lo hi stp b :
  dce1 u (SDo v lo hi stp b) = match dce u b with Some b' => Some [SDo v lo hi stp b'] | None => None end.
Proof. cbn [dce1]. now rewrite dce_go. Qed.

Lemma dce1_while u c b :
  dce1 u (SWhile c b) = match dce u b with Some b' => Some [SWhile c b'] | None => None end.
Proof. cbn [dce1]. now rewrite dce_go. Qed.

Fixpoint kemb (s : stmt) : kstmt :=
  match s with
  | SIf c t e => KIf c (map kemb t) (map kemb e)
  | SDo v lo hi st b => KDo v lo hi st (map kemb b)
  | SWhile c b => KWhile c (map kemb b)
  | _ => KS s
  end.

Fixpoint kflat (k : kstmt) : stmt :=
  match k with
  | KS s => s
  | KIf c t e => SIf c (map kflat t) (map kflat e)
  | KDo v lo hi st b => SDo v lo hi st (map kflat b)
  | KWhile c b => SWhile c (map kflat b)
  | KSel _ _ _ _ => SSkip ""
  end.

Lemma kflat_kemb : forall s, kflat (kemb s) = s.
Proof.
  induction s using stmt_ind'; cbn [kemb kflat]; try reflexivity; rewrite ?map_map.
  - now rewrite (map_id_Forall _ _ H).
  - now rewrite (map_id_Forall _ _ H).
  - now rewrite (map_id_Forall _ _ H), (map_id_Forall _ _ H0).
Qed.

Lemma kemb_inj p q : map kemb p = map kemb q -> p = q.
Proof.
  intros E. apply (f_equal (map kflat)) in E. rewrite !map_map in E.
  rewrite !(map_id_Forall (fun s => kflat (kemb s))) in E by (apply Forall_forall; intros s _; apply kflat_kemb).
  exact E.
Qed.

Lemma kemb_elseif e : k_is_elseif (map kemb e) = is_elseif e.
Proof. destruct e as [|[] [|]]; reflexivity. Qed.

Lemma kemb_nil e : k_is_nil (map kemb e) = is_nil e.
Proof. destruct e as [|[] [|]]; reflexivity. Qed.

Lemma kdce_kemb_list u l :
  Forall (fun s => kdce1 u (kemb s) = option_map (map kemb) (dce1 u s)) l ->
  kdce u (map kemb l) = option_map (map kemb) (dce u l).
Proof.
  induction 1 as [|s r H _ IH]; [reflexivity|]. cbn [map kdce dce]. rewrite H, IH.
  destruct (dce1 u s), (dce u r); cbn [option_map]; try reflexivity. now rewrite map_app.
Qed.

Lemma kdce1_kemb u : forall s, kdce1 u (kemb s) = option_map (map kemb) (dce1 u s).
Proof.
  induction s using stmt_ind'; cbn [kemb]; try reflexivity.
  - rewrite kdce1_do, dce1_do, (kdce_kemb_list u b H). now destruct (dce u b).
  - rewrite kdce1_while, dce1_while, (kdce_kemb_list u b H). now destruct (dce u b).
  - rewrite kdce1_if, dce1_if, (kdce_kemb_list u t H), (kdce_kemb_list u e H0), kemb_elseif.
    destruct (if u then simp_cond false [] c else Some c) as [c'|]; [|reflexivity].
    destruct (dce u t) as [t'|], (dce u e) as [e'|]; cbn [option_map]; try reflexivity.
    rewrite kemb_nil. destruct (lit_cases c') as [->|[->|L]]; [reflexivity|reflexivity|].
    rewrite !(not_lit_match c' _ _ _ L). now destruct (is_elseif e && is_nil e').
Qed.

Lemma kdce_kemb u p : kdce u (map kemb p) = option_map (map kemb) (dce u p).
Proof. apply kdce_kemb_list, Forall_forall. intros s _. apply kdce1_kemb. Qed.

Lemma knf_kemb u : forall s, knf u (kemb s) = dce_nf u s.
Proof.
  induction s using stmt_ind'; cbn [kemb knf dce_nf]; try reflexivity; rewrite ?forallb_map.
  - now apply forallb_ext_Forall.
  - now apply forallb_ext_Forall.
  - f_equal; [f_equal|]; now apply forallb_ext_Forall.
Qed.

Lemma kconds_kemb : forall s, kconds_stable_stmt (kemb s) = conds_stable_stmt s.
Proof.
  induction s using stmt_ind'; cbn [kemb kconds_stable_stmt conds_stable_stmt]; try reflexivity; rewrite ?forallb_map.
  - now apply forallb_ext_Forall.
  - now apply forallb_ext_Forall.
  - f_equal; [f_equal|]; now apply forallb_ext_Forall.
Qed.

Lemma knf_kemb_l u q : knf_l u (map kemb q) = dce_nf_l u q.
Proof. unfold knf_l. rewrite forallb_map. apply forallb_ext_Forall, Forall_forall. intros s _. apply knf_kemb. Qed.

Lemma kconds_kemb_l q : kconds_stable (map kemb q) = conds_stable q.
Proof. unfold kconds_stable. rewrite forallb_map. apply forallb_ext_Forall, Forall_forall. intros s _. apply kconds_kemb. Qed.

Theorem dce_nf_fix u q : dce_nf_l u q = true -> dce u q = Some q.
Proof.
  intros H. rewrite <- knf_kemb_l in H. apply kdce_nf_fix in H. rewrite kdce_kemb in H.
  destruct (dce u q) as [q'|]; [|discriminate]. injection H as H. now rewrite (kemb_inj _ _ H).
Qed.

Theorem dce_out_nf u p q : dce u p = Some q -> (u = true -> conds_stable q = true) -> dce_nf_l u q = true.
Proof.
  intros E Hs. rewrite <- knf_kemb_l. apply (kdce_out_nf u (map kemb p)); [now rewrite kdce_kemb, E|].
  now rewrite kconds_kemb_l.
Qed.

Theorem dce_idem_nosimplify p q : dce false p = Some q -> dce false q = Some q.
Proof. intros E. apply dce_nf_fix. apply (dce_out_nf false p q E). discriminate. Qed.

Theorem dce_idem_simplify_validated p q : dce true p = Some q -> conds_stable q = true -> dce true q = Some q.
Proof. intros E Hs. apply dce_nf_fix. apply (dce_out_nf true p q E). intros _. exact Hs. Qed.

(** with use_simplify: the arithmetic part of C32's model of [simplify] is idempotent wherever it is defined on
      its own output, which discharges the side condition above *)
Definition atom (x : expr) : bool :=
  match x with
  | EVar _ => true
  | ECall f _ => negb (is_intr f)
  | _ => false
  end.

Definition sval_ok (s : sval) : Prop :=
  match s with SA x | SN x => atom x = true | _ => True end.

Notation sm := (simp false []).

Lemma simp_atom x : atom x = true -> sm x = Some (SA x).
Proof.
  destruct x; cbn [atom]; try discriminate; intros H.
  - reflexivity.
  - cbn [simp]. apply negb_true_iff in H. now rewrite H.
Qed.

Lemma simp_lit v : sm (lit v) = Some (SV v).
Proof.
  unfold lit. destruct (v <? 0) eqn:E; [|reflexivity].
  cbn [simp prod2]. f_equal. f_equal. lia.
Qed.

Lemma simp_negx x : atom x = true -> sm (negx x) = Some (SN x).
Proof. intros H. unfold negx. cbn [simp]. rewrite (simp_atom x H). reflexivity. Qed.

(** [s] is a fixed point wherever the simplification is defined on it.  On its own results [-(c*y)] and
    [-(x/c)] it is not defined (no product of three factors in the class), so for them the property holds
    because the hypothesis fails: the [discriminate] cases below. *)
Definition fixes (s : sval) : Prop := forall s', sm (expr_of s) = Some s' -> s' = s.

Lemma fixes_SV v : fixes (SV v).
Proof. intros s'. cbn [expr_of]. rewrite simp_lit. now intros [= <-]. Qed.
Lemma fixes_SA x : atom x = true -> fixes (SA x).
Proof. intros H s'. cbn [expr_of]. rewrite (simp_atom x H). now intros [= <-]. Qed.
Lemma fixes_SN x : atom x = true -> fixes (SN x).
Proof. intros H s'. cbn [expr_of]. rewrite (simp_negx x H). now intros [= <-]. Qed.

Ltac fixes_leaf := first [ apply fixes_SV | apply fixes_SA; assumption | apply fixes_SN; assumption ].

Lemma sum2_ok x y s : sval_ok x -> sval_ok y -> sum2 x y = Some s -> sval_ok s /\ fixes s.
Proof.
  intros Wx Wy H. destruct x as [a|a|a|a], y as [b|b|b|b]; cbn [sum2 sval_ok] in *; try discriminate.
  - (* SV, SV *) inversion H; subst. split; [exact I|fixes_leaf].
  - (* SV, SA *) destruct (a =? 0) eqn:E; inversion H; subst; (split; [cbn [sval_ok]; auto|]); [fixes_leaf|].
    intros s'. cbn [expr_of simp]. rewrite simp_lit, (simp_atom b Wy). cbn [sum2]. rewrite E. now intros [= <-].
  - (* SV, SN *) destruct (a =? 0) eqn:E; inversion H; subst; (split; [cbn [sval_ok]; auto|]); [fixes_leaf|].
    intros s'. cbn [expr_of simp]. rewrite simp_lit, (simp_negx b Wy). cbn [sum2]. rewrite E. now intros [= <-].
  - (* SA, SV *) destruct (b =? 0) eqn:E; inversion H; subst; (split; [cbn [sval_ok]; auto|]); [fixes_leaf|].
    intros s'. cbn [expr_of simp]. rewrite simp_lit, (simp_atom a Wx). cbn [sum2]. rewrite E. now intros [= <-].
  - (* SA, SA *) destruct (expr_eqb a b) eqn:E; inversion H; subst; (split; [exact I|]).
    + intros s'. cbn [expr_of simp]. rewrite (simp_atom a Wx). cbn [prod2 coef Z.eqb Z.ltb Z.compare]. now intros [= <-].
    + intros s'. cbn [expr_of simp]. rewrite (simp_atom a Wx), (simp_atom b Wy). cbn [sum2]. rewrite E. now intros [= <-].
  - (* SA, SN *) destruct (expr_eqb a b) eqn:E.
    + destruct (total_e a); inversion H; subst. split; [exact I|fixes_leaf].
    + inversion H; subst. split; [exact I|].
      intros s'. cbn [expr_of simp]. rewrite (simp_atom a Wx), (simp_negx b Wy). cbn [sum2]. rewrite E. now intros [= <-].
  - (* SN, SV *) destruct (b =? 0) eqn:E; inversion H; subst; (split; [cbn [sval_ok]; auto|]); [fixes_leaf|].
    intros s'. cbn [expr_of simp]. rewrite simp_lit, (simp_negx a Wx). cbn [sum2]. rewrite E. now intros [= <-].
  - (* SN, SA *) destruct (expr_eqb a b) eqn:E.
    + destruct (total_e a); inversion H; subst. split; [exact I|fixes_leaf].
    + inversion H; subst. split; [exact I|].
      intros s'. cbn [expr_of simp]. rewrite (simp_atom b Wy), (simp_negx a Wx). cbn [sum2]. rewrite E. now intros [= <-].
Qed.

Lemma coef_ok c y s : atom y = true -> coef c y = Some s -> sval_ok s /\ fixes s.
Proof.
  intros Hy H. pose proof H as H'. unfold coef in H.
  destruct (c =? 0) eqn:E0.
  { destruct (total_e y); inversion H; subst. split; [exact I|fixes_leaf]. }
  destruct (c =? 1) eqn:E1.
  { inversion H; subst. split; [exact Hy|fixes_leaf]. }
  destruct (c =? -1) eqn:E2.
  { inversion H; subst. split; [exact Hy|fixes_leaf]. }
  destruct (0 <? c) eqn:E3; inversion H; subst; (split; [exact I|]).
  - intros s'. cbn [expr_of simp]. rewrite (simp_atom y Hy). cbn [prod2]. rewrite H'. now intros [= <-].
  - intros s'. cbn [expr_of simp]. rewrite (simp_atom y Hy). cbn [prod2].
    assert (Q : coef (- c) y = Some (SC (EProd false [EInt (- c); y]))).
    { unfold coef. apply Z.eqb_neq in E0. apply Z.eqb_neq in E1. apply Z.eqb_neq in E2. apply Z.ltb_ge in E3.
      assert (A0 : (- c =? 0) = false) by (apply Z.eqb_neq; lia).
      assert (A1 : (- c =? 1) = false) by (apply Z.eqb_neq; lia).
      assert (A2 : (- c =? -1) = false) by (apply Z.eqb_neq; lia).
      assert (A3 : (0 <? - c) = true) by (apply Z.ltb_lt; lia).
      now rewrite A0, A1, A2, A3. }
    rewrite Q. cbn [prod2]. discriminate.
Qed.

Lemma prod2_ok x y s : sval_ok x -> sval_ok y -> prod2 x y = Some s -> sval_ok s /\ fixes s.
Proof.
  intros Wx Wy H. destruct x as [a|a|a|a], y as [b|b|b|b]; cbn [prod2 sval_ok] in *; try discriminate.
  - (* SV, SV *) inversion H; subst. split; [exact I|fixes_leaf].
  - (* SV, SA *) now apply (coef_ok a b).
  - (* SA, SV *) now apply (coef_ok b a).
  - (* SA, SA *) inversion H; subst. split; [exact I|].
    intros s'. cbn [expr_of simp]. rewrite (simp_atom a Wx), (simp_atom b Wy). cbn [prod2]. now intros [= <-].
Qed.

Lemma quot2_ok x y s : sval_ok x -> sval_ok y -> quot2 false x y = Some s -> sval_ok s /\ fixes s.
Proof.
  intros Wx Wy H. pose proof H as H'.
  destruct x as [a|a|a|a], y as [b|b|b|b]; cbn [quot2 sval_ok] in *; try discriminate.
  - (* SV, SV *) destruct (b =? 0) eqn:E0; [discriminate|]. cbn [andb] in H.
    destruct ((0 <=? a) && (0 <? b)) eqn:E1; [|discriminate].
    destruct (Z.rem a b =? 0) eqn:E2.
    + inversion H; subst. split; [exact I|fixes_leaf].
    + destruct (Z.gcd a b =? 1) eqn:E3; [|discriminate]. inversion H; subst. split; [exact I|].
      intros s'. cbn [expr_of simp quot2]. rewrite E0, E1, E2, E3. now intros [= <-].
  - (* SV, SA *) destruct (a =? 0) eqn:E0; [discriminate|]. destruct (0 <? a) eqn:E1; inversion H; subst; (split; [exact I|]).
    + intros s'. cbn [expr_of simp]. rewrite (simp_atom b Wy). cbn [quot2]. rewrite E0, E1. now intros [= <-].
    + intros s'. cbn [expr_of]. unfold negx. cbn [simp]. rewrite (simp_atom b Wy). cbn [quot2 prod2].
      apply Z.eqb_neq in E0. apply Z.ltb_ge in E1.
      assert (A0 : (- a =? 0) = false) by (apply Z.eqb_neq; lia).
      assert (A1 : (0 <? - a) = true) by (apply Z.ltb_lt; lia).
      rewrite A0, A1. cbn [prod2]. discriminate.
  - (* SA, SV *) destruct (b =? 1) eqn:E0. { inversion H; subst. split; [exact Wx|fixes_leaf]. }
    destruct (b =? -1) eqn:E1. { inversion H; subst. split; [exact Wx|fixes_leaf]. }
    destruct (0 <=? b) eqn:E2; inversion H; subst; (split; [exact I|]).
    + intros s'. cbn [expr_of simp]. rewrite (simp_atom a Wx). cbn [quot2]. rewrite E0, E1, E2. now intros [= <-].
    + intros s'. cbn [expr_of]. unfold negx. cbn [simp]. rewrite (simp_atom a Wx). cbn [quot2 prod2].
      apply Z.eqb_neq in E0. apply Z.eqb_neq in E1. apply Z.leb_gt in E2.
      assert (A0 : (- b =? 1) = false) by (apply Z.eqb_neq; lia).
      assert (A1 : (- b =? -1) = false) by (apply Z.eqb_neq; lia).
      assert (A2 : (0 <=? - b) = true) by (apply Z.leb_le; lia).
      rewrite A0, A1, A2. cbn [prod2]. discriminate.
  - (* SA, SA *) inversion H; subst. split; [exact I|].
    intros s'. cbn [expr_of simp]. rewrite (simp_atom a Wx), (simp_atom b Wy). cbn [quot2]. now intros [= <-].
Qed.

Theorem simp_ok : forall e s, sm e = Some s -> sval_ok s /\ fixes s.
Proof.
  induction e using expr_ind'; intros s Hs; cbn [simp] in Hs; try discriminate.
  - inversion Hs; subst. split; [exact I|fixes_leaf].
  - inversion Hs; subst. split; [exact I|fixes_leaf].
  - cbn [M_C32.lookup] in Hs. inversion Hs; subst. split; [reflexivity|]. now apply fixes_SA.
  - destruct cs as [|a [|b [|c r]]]; try discriminate.
    inversion H as [|? ? Ha Hr]; subst. inversion Hr as [|? ? Hb _]; subst.
    destruct (sm a) as [x|] eqn:Ea; [|discriminate]. destruct (sm b) as [y|] eqn:Eb; [|discriminate].
    destruct (Ha x eq_refl) as [Wx _]. destruct (Hb y eq_refl) as [Wy _]. now apply (sum2_ok x y).
  - destruct cs as [|a [|b [|c r]]]; try discriminate.
    inversion H as [|? ? Ha Hr]; subst. inversion Hr as [|? ? Hb _]; subst.
    destruct (sm a) as [x|] eqn:Ea; [|discriminate]. destruct (sm b) as [y|] eqn:Eb; [|discriminate].
    destruct (Ha x eq_refl) as [Wx _]. destruct (Hb y eq_refl) as [Wy _]. now apply (prod2_ok x y).
  - destruct (sm e1) as [x|] eqn:Ea; [|discriminate]. destruct (sm e2) as [y|] eqn:Eb; [|discriminate].
    destruct (IHe1 x eq_refl) as [Wx _]. destruct (IHe2 y eq_refl) as [Wy _]. now apply (quot2_ok x y).
  - destruct (is_intr f) eqn:Ei; [discriminate|]. inversion Hs; subst. split.
    + cbn [sval_ok atom]. now rewrite Ei.
    + apply fixes_SA. cbn [atom]. now rewrite Ei.
Qed.

Notation sc := (simp_cond false []).

Fixpoint sc_list (l : list expr) : option (list expr) :=
  match l with
  | [] => Some []
  | x :: r => match sc x, sc_list r with Some x', Some r' => Some (x' :: r') | _, _ => None end
  end.

Lemma sc_go l :
  (fix go (l : list expr) : option (list expr) :=
     match l with
     | [] => Some []
     | x :: r => match sc x, go r with Some x', Some r' => Some (x' :: r') | _, _ => None end
     end) l = sc_list l.
Proof. induction l as [|x r IH]; [reflexivity|]. cbn [sc_list]. now rewrite <- IH. Qed.

Lemma sc_and cs : sc (EAnd cs) =
  match sc_list cs with
  | Some cs' =>
      if existsb is_false cs' then (if forallb total_c cs' then Some (ELog false) else None)
      else match filter (fun x => negb (is_true x)) cs' with [] => Some (ELog true) | rest => Some (EAnd rest) end
  | None => None
  end.
Proof. cbn [simp_cond]. now rewrite sc_go. Qed.

Lemma sc_or cs : sc (EOr cs) =
  match sc_list cs with
  | Some cs' =>
      if existsb is_true cs' then (if forallb total_c cs' then Some (ELog true) else None)
      else match filter (fun x => negb (is_false x)) cs' with [] => Some (ELog false) | rest => Some (EOr rest) end
  | None => None
  end.
Proof. cbn [simp_cond]. now rewrite sc_go. Qed.

Definition cfix (c' : expr) : Prop := forall c'', sc c' = Some c'' -> c'' = c'.

(** the outputs of a list of conditions, re-simplified, stay the same *)
Lemma sc_list_fix cs : Forall (fun c => forall c', sc c = Some c' -> cfix c') cs ->
  forall cs', sc_list cs = Some cs' -> Forall cfix cs'.
Proof.
  induction 1 as [|c r H _ IH]; intros cs' E; cbn [sc_list] in E.
  - inversion E; subst. constructor.
  - destruct (sc c) as [x|] eqn:Ex; [|discriminate]. destruct (sc_list r) as [r'|] eqn:Er; [|discriminate].
    inversion E; subst. constructor; [now apply H|now apply IH].
Qed.

Lemma sc_list_same l : Forall cfix l -> forall l', sc_list l = Some l' -> l' = l.
Proof.
  induction 1 as [|x r H _ IH]; intros l' E; cbn [sc_list] in E; [now inversion E|].
  destruct (sc x) as [x'|] eqn:Ex; [|discriminate]. destruct (sc_list r) as [r'|] eqn:Er; [|discriminate].
  inversion E; subst. f_equal; [now apply H|now apply IH].
Qed.

Theorem simp_cond_ok : forall c c', sc c = Some c' -> cfix c'.
Proof.
  induction c using expr_ind'; intros c' Hc; try (cbn [simp_cond] in Hc; discriminate).
  - cbn [simp_cond] in Hc. inversion Hc; subst. intros c'' E. cbn [simp_cond] in E. now inversion E.
  - cbn [simp_cond] in Hc.
    destruct (sm c1) as [x|] eqn:Ex; [|discriminate]. destruct (sm c2) as [y|] eqn:Ey; [|destruct x; discriminate].
    destruct (simp_ok c1 x Ex) as [_ Fx]. destruct (simp_ok c2 y Ey) as [_ Fy].
    assert (G : c' = ECmp op (expr_of x) (expr_of y) \/ exists b, c' = ELog b).
    { destruct x, y; inversion Hc; subst; eauto. }
    destruct G as [G|[b G]]; subst c'.
    + intros c'' E. cbn [simp_cond] in E.
      destruct (sm (expr_of x)) as [x'|] eqn:Ex'; [|discriminate].
      destruct (sm (expr_of y)) as [y'|] eqn:Ey'; [|destruct x'; discriminate].
      rewrite (Fx x' Ex') in *. rewrite (Fy y' Ey') in *.
      destruct x, y; inversion Hc; subst; inversion E; subst; reflexivity.
    + intros c'' E. cbn [simp_cond] in E. now inversion E.
  - rewrite sc_and in Hc. destruct (sc_list cs) as [cs'|] eqn:El; [|discriminate].
    pose proof (sc_list_fix cs H cs' El) as Fc.
    destruct (existsb is_false cs') eqn:Ef.
    + destruct (forallb total_c cs'); inversion Hc; subst. intros c'' E. cbn [simp_cond] in E. now inversion E.
    + destruct (filter (fun x => negb (is_true x)) cs') as [|r0 rest] eqn:Er.
      * inversion Hc; subst. intros c'' E. cbn [simp_cond] in E. now inversion E.
      * inversion Hc; subst. intros c'' E. rewrite sc_and in E.
        destruct (sc_list (r0 :: rest)) as [l'|] eqn:El'; [|discriminate].
        assert (Fr : Forall cfix (r0 :: rest)) by (rewrite <- Er; now apply Forall_filter).
        rewrite (sc_list_same _ Fr l' El') in E.
        assert (X : existsb is_false (r0 :: rest) = false) by (rewrite <- Er; now apply existsb_filter_false).
        rewrite X in E. rewrite <- Er in E. rewrite filter_idem in E. rewrite Er in E. now inversion E.
  - rewrite sc_or in Hc. destruct (sc_list cs) as [cs'|] eqn:El; [|discriminate].
    pose proof (sc_list_fix cs H cs' El) as Fc.
    destruct (existsb is_true cs') eqn:Ef.
    + destruct (forallb total_c cs'); inversion Hc; subst. intros c'' E. cbn [simp_cond] in E. now inversion E.
    + destruct (filter (fun x => negb (is_false x)) cs') as [|r0 rest] eqn:Er.
      * inversion Hc; subst. intros c'' E. cbn [simp_cond] in E. now inversion E.
      * inversion Hc; subst. intros c'' E. rewrite sc_or in E.
        destruct (sc_list (r0 :: rest)) as [l'|] eqn:El'; [|discriminate].
        assert (Fr : Forall cfix (r0 :: rest)) by (rewrite <- Er; now apply Forall_filter).
        rewrite (sc_list_same _ Fr l' El') in E.
        assert (X : existsb is_true (r0 :: rest) = false) by (rewrite <- Er; now apply existsb_filter_false).
        rewrite X in E. rewrite <- Er in E. rewrite filter_idem in E. rewrite Er in E. now inversion E.
  - cbn [simp_cond] in Hc. destruct (sc c) as [x|] eqn:Ex; [|discriminate].
    pose proof (IHc x eq_refl) as Fx.
    assert (G : (exists b, x = ELog b /\ c' = ELog (negb b)) \/ (is_lit x = false /\ c' = ENot x)).
    { destruct x; inversion Hc; subst; eauto. }
    destruct G as [[b [G1 G2]]|[G1 G2]]; subst.
    + intros c'' E. cbn [simp_cond] in E. now inversion E.
    + intros c'' E. cbn [simp_cond] in E. destruct (sc x) as [x'|] eqn:Ex'; [|discriminate].
      rewrite (Fx x' Ex') in E. destruct x; inversion E; subst; try reflexivity. discriminate.
Qed.

(** the IF conditions of a program, in document order *)
Fixpoint conds (s : stmt) : list expr :=
  match s with
  | SIf c t e => c :: flat_map conds t ++ flat_map conds e
  | SDo _ _ _ _ b => flat_map conds b
  | SWhile _ b => flat_map conds b
  | _ => []
  end.
Definition conds_l (p : list stmt) : list expr := flat_map conds p.

Lemma conds_stable_spec : forall s, conds_stable_stmt s = forallb cond_stable (conds s).
Proof.
  induction s using stmt_ind'; cbn [conds_stable_stmt conds]; try reflexivity.
  - rewrite forallb_flat_map. now apply forallb_ext_Forall.
  - rewrite forallb_flat_map. now apply forallb_ext_Forall.
  - cbn [forallb]. rewrite forallb_app, !forallb_flat_map, <- andb_assoc.
    f_equal. f_equal; now apply forallb_ext_Forall.
Qed.

Definition img (c' : expr) : Prop := exists c, sc c = Some c'.
Definition defd (c : expr) : Prop := exists c2, sc c = Some c2.

(** with use_simplify, where [dce] is defined every condition of the input is simplifiable and every condition
    of the output is an output of the simplification *)
Lemma dce_conds_list l :
  Forall (fun s => forall q, dce1 true s = Some q -> Forall defd (conds s) /\ Forall img (conds_l q)) l ->
  forall q, dce true l = Some q -> Forall defd (conds_l l) /\ Forall img (conds_l q).
Proof.
  induction 1 as [|s r H _ IH]; intros q E; cbn [dce] in E.
  - inversion E; subst. split; constructor.
  - destruct (dce1 true s) as [a|] eqn:E1; [|discriminate]. destruct (dce true r) as [b|] eqn:E2; [|discriminate].
    inversion E; subst. destruct (H a eq_refl) as [D1 I1]. destruct (IH b eq_refl) as [D2 I2].
    unfold conds_l. rewrite flat_map_app. cbn [flat_map]. split; apply Forall_app; now split.
Qed.

Lemma dce1_conds : forall s q, dce1 true s = Some q -> Forall defd (conds s) /\ Forall img (conds_l q).
Proof.
  induction s using stmt_ind'; intros q E; try (cbn [dce1] in E; inversion E; subst; split; constructor).
  - rewrite dce1_do in E. destruct (dce true b) as [b'|] eqn:Eb; [|discriminate]. inversion E; subst.
    unfold conds_l. cbn [conds flat_map]. rewrite app_nil_r. now apply dce_conds_list.
  - rewrite dce1_while in E. destruct (dce true b) as [b'|] eqn:Eb; [|discriminate]. inversion E; subst.
    unfold conds_l. cbn [conds flat_map]. rewrite app_nil_r. now apply dce_conds_list.
  - rewrite dce1_if in E.
    destruct (sc c) as [c'|] eqn:Ec; [|discriminate].
    destruct (dce true t) as [t'|] eqn:Et; [|discriminate].
    destruct (dce true e) as [e'|] eqn:Ee; [|discriminate].
    destruct (dce_conds_list t H t' Et) as [Dt It]. destruct (dce_conds_list e H0 e' Ee) as [De Ie].
    split; [cbn [conds]; constructor; [now exists c'|apply Forall_app; now split]|].
    destruct (lit_cases c') as [L|[L|L]].
    + subst c'. inversion E; subst. exact It.
    + subst c'. inversion E; subst. exact Ie.
    + rewrite (not_lit_match c' _ _ _ L) in E. destruct (is_elseif e && is_nil e'); [discriminate|].
      inversion E; subst. unfold conds_l. cbn [conds flat_map]. rewrite app_nil_r.
      constructor; [now exists c|apply Forall_app; now split].
Qed.

(** outputs of the simplification on which it is defined again are its fixed points *)
Theorem conds_stable_of_defined p q q' : dce true p = Some q -> dce true q = Some q' -> conds_stable q = true.
Proof.
  intros E1 E2.
  assert (Hall : forall l, Forall (fun s => forall q, dce1 true s = Some q -> Forall defd (conds s) /\ Forall img (conds_l q)) l)
    by (intros l; apply Forall_forall; intros s _; apply dce1_conds).
  destruct (dce_conds_list p (Hall p) q E1) as [_ I]. destruct (dce_conds_list q (Hall q) q' E2) as [D _].
  unfold conds_stable.
  rewrite (forallb_ext_Forall conds_stable_stmt (fun s => forallb cond_stable (conds s)) q)
    by (apply Forall_forall; intros s _; apply conds_stable_spec).
  rewrite <- (forallb_flat_map cond_stable conds q). apply forallb_Forall.
  eapply Forall_impl2; [|exact I|exact D]. apply Forall_forall. intros c _ [c0 A0] [c2 B0].
  unfold cond_stable. rewrite B0, (simp_cond_ok c0 c A0 c2 B0). apply expr_eqb_refl.
Qed.

(** do_remove_dead_code(use_simplify=True): whenever the model is defined on its own output, the second
    application returns that output unchanged *)
Theorem dce_idem_simplify p q q' : dce true p = Some q -> dce true q = Some q' -> q' = q.
Proof.
  intros E1 E2. pose proof (conds_stable_of_defined p q q' E1 E2) as S.
  pose proof (dce_idem_simplify_validated p q E1 S) as F. rewrite F in E2. now inversion E2.
Qed.

(** a non-trivial instance: nested literal conditions are all removed in ONE application *)
Open Scope string_scope.
Example dce_nested_one_pass :
  let p := [SIf (ECmp Clt (EInt 1) (EInt 2))
              [SIf (ECmp Cgt (EVar "n") (EInt 0)) [SIf (ELog true) [SAssign "x" (EInt 1)] [SAssign "x" (EInt 2)]] []]
              [SAssign "y" (EInt 3)]] in
  dce true p = Some [SIf (ECmp Cgt (EVar "n") (EInt 0)) [SAssign "x" (EInt 1)] []]
  /\ conds_stable [SIf (ECmp Cgt (EVar "n") (EInt 0)) [SAssign "x" (EInt 1)] []] = true.
Proof. split; vm_compute; reflexivity. Qed.
