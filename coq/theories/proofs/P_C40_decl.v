(** C40 — single_variable_declaration, sanitise_imports and
    do_resolve_sequence_association are idempotent (own models). *)
From Coq Require Import ZArith List Bool String Lia.
From LV Require Import Base.Strings Base.Expr Base.MiniF Base.ExprFacts Base.ListFacts models.M_C30 models.M_C40 proofs.P_C40_base.
Import ListNotations.
Open Scope Z_scope.
Open Scope list_scope.

Lemma svd1_single vars ty it : svd1 vars (ty, [it]) = [(ty, [it])].
Proof. reflexivity. Qed.

Lemma svd_singles vars ty (l : list sitem) :
  flat_map (svd1 vars) (map (fun it => (ty, [it])) l) = map (fun it => (ty, [it])) l.
Proof. induction l as [|x l IH]; cbn [map flat_map]; [reflexivity|]. now rewrite IH. Qed.

Lemma svd1_keep vs ty its :
  svd1 (Some vs) (ty, filter (fun it => negb (memb (fst it) vs)) its)
  = [(ty, filter (fun it => negb (memb (fst it) vs)) its)].
Proof.
  unfold svd1. destruct (filter (fun it => negb (memb (fst it) vs)) its) as [|a [|b r]] eqn:E; try reflexivity.
  rewrite <- E. rewrite (filter_filter_neg (fun it => memb (fst it) vs) its). reflexivity.
Qed.

Lemma svd1_idem vars d : flat_map (svd1 vars) (svd1 vars d) = svd1 vars d.
Proof.
  destruct d as [ty its]. destruct its as [|a [|b r]]; try (cbn; reflexivity).
  unfold svd1 at 2 3. destruct vars as [vs|].
  - destruct (filter (fun it => memb (fst it) vs) (a :: b :: r)) as [|u us] eqn:Eu.
    + cbn [flat_map]. rewrite app_nil_r. unfold svd1. now rewrite Eu.
    + destruct (filter (fun it => negb (memb (fst it) vs)) (a :: b :: r)) as [|k ks] eqn:Ek.
      * cbn [app]. apply svd_singles.
      * rewrite flat_map_app. rewrite svd_singles. f_equal.
        cbn [flat_map]. rewrite app_nil_r. rewrite <- Ek. apply svd1_keep.
  - cbn [app]. apply svd_singles.
Qed.

Theorem svd_idem vars ds : svd vars (svd vars ds) = svd vars ds.
Proof. unfold svd. apply flat_map_idem. apply svd1_idem. Qed.

Definition uniform (k : string) (l : list sitem) : Prop := Forall (fun it => snd it = k) l.
Definition ginv (gs : list (string * list sitem)) : Prop :=
  Forall (fun g => snd g <> [] /\ uniform (fst g) (snd g)) gs.

Lemma ins_group_inv it gs : ginv gs -> ginv (ins_group (snd it) it gs).
Proof.
  unfold ginv. induction 1 as [|[k l] r [H1 H2] Hr IH]; cbn [ins_group].
  - constructor; [|constructor]. cbn [fst snd]. split; [discriminate|]. constructor; [reflexivity|constructor].
  - destruct (String.eqb k (snd it)) eqn:E.
    + constructor; [|exact Hr]. cbn [fst snd] in *. split; [destruct l; discriminate|].
      apply Forall_app. split; [exact H2|]. constructor; [|constructor]. apply String.eqb_eq in E. now subst.
    + constructor; [|exact IH]. cbn [fst snd] in *. now split.
Qed.

Lemma groups_inv_from its : forall gs, ginv gs -> ginv (fold_left (fun gs it => ins_group (snd it) it gs) its gs).
Proof. induction its as [|it its IH]; intros gs H; cbn [fold_left]; [exact H|]. apply IH. now apply ins_group_inv. Qed.

Lemma groups_inv its : ginv (groups its).
Proof. unfold groups. apply groups_inv_from. constructor. Qed.

Lemma groups_uniform_from k l : uniform k l -> forall acc,
  fold_left (fun gs it => ins_group (snd it) it gs) l [(k, acc)] = [(k, acc ++ l)].
Proof.
  induction 1 as [|it l H _ IH]; intros acc; cbn [fold_left]; [now rewrite app_nil_r|].
  cbn [ins_group]. rewrite H, String.eqb_refl. rewrite IH. now rewrite <- app_assoc.
Qed.

Lemma groups_uniform k it l : uniform k (it :: l) -> groups (it :: l) = [(k, it :: l)].
Proof.
  intros H. inversion H; subst. unfold groups. cbn [fold_left ins_group].
  now rewrite (groups_uniform_from (snd it) l H3 [it]).
Qed.

Lemma svd_shape1_uniform ty k l : l <> [] -> uniform k l -> svd_shape1 (ty, l) = [(ty, l)].
Proof.
  intros Hn Hu. destruct l as [|a [|b r]]; [contradiction|reflexivity|].
  unfold svd_shape1. now rewrite (groups_uniform k a (b :: r) Hu).
Qed.

Lemma svd_shape1_idem d : flat_map svd_shape1 (svd_shape1 d) = svd_shape1 d.
Proof.
  destruct d as [ty its]. destruct its as [|a [|b r]]; try (cbn; reflexivity).
  unfold svd_shape1 at 2 3. generalize (groups_inv (a :: b :: r)). generalize (groups (a :: b :: r)).
  intros gs H. unfold ginv in H. induction H as [|[k l] gs' [H1 H2] _ IH]; [reflexivity|].
  cbn [fst snd] in H1, H2. cbn [map flat_map snd]. rewrite IH. now rewrite (svd_shape1_uniform ty k l H1 H2).
Qed.

Theorem svd_shape_idem ds : svd_shape (svd_shape ds) = svd_shape ds.
Proof. unfold svd_shape. apply flat_map_idem. apply svd_shape1_idem. Qed.

Theorem svd_mode_idem mode ds : svd_mode mode (svd_mode mode ds) = svd_mode mode ds.
Proof. destruct mode as [[vs|]|]; cbn [svd_mode]; [apply svd_idem|apply svd_shape_idem|apply svd_idem]. Qed.

Lemma prune1_clean used im : Forall (fun im' => has_redundant used im' = false) (prune1 used im).
Proof.
  unfold prune1. destruct (filter (fun s => negb (redundant used s)) (snd im)) as [|s ss] eqn:E; [constructor|].
  constructor; [|constructor]. unfold has_redundant. cbn [snd]. rewrite <- E. apply existsb_filter_neg.
Qed.

(** normal form: no imported symbol is redundant *)
Definition imports_nf (used : list string) (ims : list imp) : bool := negb (existsb (has_redundant used) ims).

Lemma prune_nf used ims : imports_nf used (prune used ims) = true.
Proof.
  unfold imports_nf, prune. destruct (existsb (has_redundant used) ims) eqn:E; [|now rewrite E].
  apply negb_true_iff. apply existsb_false_F. apply Forall_flat_map, Forall_forall. intros im _. apply prune1_clean.
Qed.

Lemma prune_fix used ims : imports_nf used ims = true -> prune used ims = ims.
Proof. unfold imports_nf, prune. intros H. apply negb_true_iff in H. now rewrite H. Qed.

Theorem prune_idem used ims : prune used (prune used ims) = prune used ims.
Proof. exact (idem_by_nf (prune used) (fun q => imports_nf used q = true) (prune_nf used) (prune_fix used) ims). Qed.

Lemma seq_arg_idem ds rank a : seq_arg ds rank (seq_arg ds rank a) = seq_arg ds rank a.
Proof.
  destruct (scalar_syntax rank a) eqn:E.
  2:{ assert (R : seq_arg ds rank a = a) by (unfold seq_arg; now rewrite E). now rewrite !R. }
  destruct rank as [n|]; [|discriminate]. destruct a as [e|x dims]; [discriminate|].
  destruct dims as [|d dr]; [discriminate|].
  destruct n as [|m].
  - (* rank 0: nothing is added, the argument is returned as it was *)
    assert (R : seq_arg ds (Some 0%nat) (CRef x (d :: dr)) = CRef x (d :: dr)).
    { unfold seq_arg. rewrite E. destruct (lookup_decl ds x) as [[|s sh]|]; reflexivity. }
    now rewrite !R.
  - (* rank >= 1: the first new subscript is a range, so the result no longer has scalar syntax *)
    cbn [scalar_syntax forallb] in E. apply andb_true_iff in E. destruct E as [Ed Er].
    destruct d as [e|lo hi]; [|discriminate].
    assert (R : exists lo hi qs, seq_arg ds (Some (S m)) (CRef x (QS e :: dr)) = CRef x (QR lo hi :: qs)).
    { unfold seq_arg. cbn [scalar_syntax forallb is_qs andb]. rewrite Er.
      destruct (lookup_decl ds x) as [[|s sh]|]; cbn [firstn zip_dims repeat app]; eexists; eexists; eexists; reflexivity. }
    destruct R as [lo [hi [qs R]]]. rewrite R. reflexivity.
Qed.

Theorem seq_args_idem ds : forall ranks args, seq_args ds ranks (seq_args ds ranks args) = seq_args ds ranks args.
Proof.
  induction ranks as [|r rr IH]; intros args; [reflexivity|].
  destruct args as [|a ar]; [reflexivity|]. cbn [seq_args]. now rewrite seq_arg_idem, IH.
Qed.

(** normal form: no argument is passed in scalar syntax to an array dummy of positive rank *)
Fixpoint seq_nf (ranks : list (option nat)) (args : list carg) : bool :=
  match ranks, args with
  | r :: rr, a :: ar => negb (scalar_syntax r a && negb (match r with Some O => true | _ => false end)) && seq_nf rr ar
  | _, _ => true
  end.

Lemma seq_nf_fix ds : forall ranks args, seq_nf ranks args = true -> seq_args ds ranks args = args.
Proof.
  induction ranks as [|r rr IH]; intros args H; [reflexivity|].
  destruct args as [|a ar]; [reflexivity|]. cbn [seq_nf] in H. apply andb_true_iff in H. destruct H as [H1 H2].
  cbn [seq_args]. rewrite (IH ar H2). f_equal.
  unfold seq_arg. destruct (scalar_syntax r a) eqn:E; [|reflexivity].
  cbn [andb] in H1. apply negb_true_iff, negb_false_iff in H1.
  destruct r as [[|m]|]; try discriminate. destruct a as [e|x dims]; [reflexivity|].
  destruct (lookup_decl ds x) as [[|s sh]|]; reflexivity.
Qed.

Open Scope string_scope.
(** [call callee(a(i, j), b(3), n)] with dummies d1(5), d2(3,4) and a scalar: elements become sections, once *)
Example seq_example :
  let ds := [("a", [DSize (EVar "m"); DSize (EVar "n")]); ("b", [DSize (EInt 10)])] in
  let args := [CRef "a" [QS (EVar "i"); QS (EVar "j")]; CRef "b" [QS (EInt 3)]; CExpr (EVar "n")] in
  let ranks := [Some 1%nat; Some 2%nat; None] in
  seq_args ds ranks args =
    [CRef "a" [QR (Some (EVar "i")) (Some (EVar "m")); QS (EVar "j")]; CRef "b" [QR (Some (EInt 3)) (Some (EInt 10))]; CExpr (EVar "n")]
  /\ seq_nf ranks (seq_args ds ranks args) = true.
Proof. split; vm_compute; reflexivity. Qed.
