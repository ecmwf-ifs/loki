(** C40 — convert_to_lower_case.  Idempotent on the class where the ten iterations of
    [recursive_expression_map_update] reach every name; refuted beyond it (nesting deeper than the budget,
    initial values of wholesale-replaced declared symbols).

    The two phases [lcv] (variables, arrays) and [lcc] (intrinsics) have the same shape, with [vdepth]/[lowv]
    and [idepth]/[lowi] as their depth and normal form; every lemma exists once per phase, and the children of
    an n-ary node are handled by the list lemmas of section [Children] and [forallb_depth0].  Then statements and
    programs, the specification [lower_all], the witnesses beyond the class, and declarations with their witness.
    Defines [lc_e], [lcs], [low_decl] and the witness terms [chain], [ichain], [w_deep], [w_deep_intr], [w_init]. *)
From Coq Require Import ZArith List Bool String Ascii Lia.
From LV Require Import Base.Strings Base.Expr Base.MiniF Base.ExprFacts Base.ListFacts models.M_C40 proofs.P_C40_base.
Import ListNotations.
Open Scope Z_scope.
Open Scope list_scope.

(** children of a node: [f n] is a phase with budget [n], the hypothesis is the induction hypothesis *)
Section Children.
  Context {A : Type} (f : nat -> A -> A).

  Lemma map_fix (p : A -> bool) l :
    Forall (fun a => forall n, p a = true -> f n a = a) l -> forallb p l = true -> forall n, map (f n) l = l.
  Proof.
    intros H Hp n. apply map_id_Forall. apply forallb_Forall in Hp.
    eapply Forall_mp; [|exact Hp]. eapply Forall_impl; [|exact H]. intros a Ha. apply Ha.
  Qed.

  Lemma forallb_reach (d : A -> nat) (q : A -> bool) l :
    Forall (fun a => forall n, (d a <= S n)%nat -> q (f n a) = true) l ->
    forall n, (maxl (map d l) <= S n)%nat -> forallb q (map (f n) l) = true.
  Proof.
    intros H n Hd. apply forallb_Forall, Forall_map. apply fold_right_max_le, Forall_map in Hd.
    eapply Forall_mp; [|exact Hd]. eapply Forall_impl; [|exact H]. intros a Ha. apply Ha.
  Qed.

  Lemma map_commute {B} (g : A -> B) l :
    Forall (fun a => forall n, g (f n a) = g a) l -> forall n, map g (map (f n) l) = map g l.
  Proof. intros H n. rewrite map_map. apply map_ext_Forall. eapply Forall_impl; [|exact H]. intros a Ha. apply Ha. Qed.

  Lemma forallb_commute (q : A -> bool) l :
    Forall (fun a => forall n, q (f n a) = q a) l -> forall n, forallb q (map (f n) l) = forallb q l.
  Proof. intros H n. rewrite forallb_map. apply forallb_ext_Forall. eapply Forall_impl; [|exact H]. intros a Ha. apply Ha. Qed.
End Children.

Lemma forallb_depth0 {A} (d : A -> nat) (q : A -> bool) l :
  Forall (fun a => d a = 0%nat -> q a = true) l -> (maxl (map d l) <= 0)%nat -> forallb q l = true.
Proof.
  intros H Hd. apply forallb_Forall. apply fold_right_max_le, Forall_map in Hd.
  eapply Forall_mp; [|exact Hd]. eapply Forall_impl; [|exact H]. intros a Ha Hb. apply Ha. lia.
Qed.

Lemma lcv_fix : forall e n, lowv e = true -> lcv n e = e.
Proof.
  induction e as [v|v|x|b|p cs IH|p cs IH|p a b IHa IHb|p a b IHa IHb|op a b IHa IHb|cs IH|cs IH|a IH|f args IH] using expr_ind'; intros n Hl; cbn [lcv]; cbn [lowv] in Hl; try reflexivity.
  - (* EVar *) apply negb_true_iff in Hl. now rewrite (has_upper_false _ Hl).
  - (* ESum *) now rewrite (map_fix lcv lowv cs IH Hl).
  - (* EProd *) now rewrite (map_fix lcv lowv cs IH Hl).
  - (* EQuot *) apply andb_true_iff in Hl. destruct Hl. now rewrite IHa, IHb.
  - (* EPow *) apply andb_true_iff in Hl. destruct Hl. now rewrite IHa, IHb.
  - (* ECmp *) apply andb_true_iff in Hl. destruct Hl. now rewrite IHa, IHb.
  - (* EAnd *) now rewrite (map_fix lcv lowv cs IH Hl).
  - (* EOr *) now rewrite (map_fix lcv lowv cs IH Hl).
  - (* ENot *) now rewrite IH.
  - (* ECall *) apply andb_true_iff in Hl. destruct Hl as [H1 H2]. pose proof (map_fix lcv lowv args IH H2) as M.
    destruct (is_intr_ci f) eqn:Ei; [now rewrite M|].
    cbn [orb] in H1. apply negb_true_iff in H1. rewrite H1. now rewrite M.
Qed.

Lemma lcc_fix : forall e n, lowi e = true -> lcc n e = e.
Proof.
  induction e as [v|v|x|b|p cs IH|p cs IH|p a b IHa IHb|p a b IHa IHb|op a b IHa IHb|cs IH|cs IH|a IH|f args IH] using expr_ind'; intros n Hl; cbn [lcc]; cbn [lowi] in Hl; try reflexivity.
  - (* ESum *) now rewrite (map_fix lcc lowi cs IH Hl).
  - (* EProd *) now rewrite (map_fix lcc lowi cs IH Hl).
  - (* EQuot *) apply andb_true_iff in Hl. destruct Hl. now rewrite IHa, IHb.
  - (* EPow *) apply andb_true_iff in Hl. destruct Hl. now rewrite IHa, IHb.
  - (* ECmp *) apply andb_true_iff in Hl. destruct Hl. now rewrite IHa, IHb.
  - (* EAnd *) now rewrite (map_fix lcc lowi cs IH Hl).
  - (* EOr *) now rewrite (map_fix lcc lowi cs IH Hl).
  - (* ENot *) now rewrite IH.
  - (* ECall *) apply andb_true_iff in Hl. destruct Hl as [H1 H2]. pose proof (map_fix lcc lowi args IH H2) as M.
    destruct (is_intr_ci f) eqn:Ei; [|now rewrite M].
    cbn [negb orb] in H1. apply negb_true_iff in H1. rewrite H1. now rewrite M.
Qed.

Lemma vdepth0_lowv : forall e, vdepth e = 0%nat -> lowv e = true.
Proof.
  induction e as [v|v|x|b|p cs IH|p cs IH|p a b IHa IHb|p a b IHa IHb|op a b IHa IHb|cs IH|cs IH|a IH|f args IH] using expr_ind'; intros Hd; cbn [lowv]; cbn [vdepth] in Hd; try reflexivity.
  - (* EVar *) discriminate.
  - (* ESum *) apply (forallb_depth0 vdepth lowv cs IH). lia.
  - (* EProd *) apply (forallb_depth0 vdepth lowv cs IH). lia.
  - (* EQuot *) rewrite IHa, IHb by lia. reflexivity.
  - (* EPow *) rewrite IHa, IHb by lia. reflexivity.
  - (* ECmp *) rewrite IHa, IHb by lia. reflexivity.
  - (* EAnd *) apply (forallb_depth0 vdepth lowv cs IH). lia.
  - (* EOr *) apply (forallb_depth0 vdepth lowv cs IH). lia.
  - (* ENot *) now apply IH.
  - (* ECall *) destruct (is_intr_ci f) eqn:Ei; [|discriminate]. cbn [orb andb].
    apply (forallb_depth0 vdepth lowv args IH). lia.
Qed.

Lemma lcv_reaches : forall e n, (vdepth e <= S n)%nat -> lowv (lcv n e) = true.
Proof.
  induction e as [v|v|x|b|p cs IH|p cs IH|p a b IHa IHb|p a b IHa IHb|op a b IHa IHb|cs IH|cs IH|a IH|f args IH] using expr_ind'; intros n Hd; cbn [lcv lowv]; cbn [vdepth] in Hd; try reflexivity.
  - (* EVar *) now rewrite has_upper_lower.
  - (* ESum *) now apply (forallb_reach lcv vdepth lowv).
  - (* EProd *) now apply (forallb_reach lcv vdepth lowv).
  - (* EQuot *) rewrite IHa, IHb by lia. reflexivity.
  - (* EPow *) rewrite IHa, IHb by lia. reflexivity.
  - (* ECmp *) rewrite IHa, IHb by lia. reflexivity.
  - (* EAnd *) now apply (forallb_reach lcv vdepth lowv).
  - (* EOr *) now apply (forallb_reach lcv vdepth lowv).
  - (* ENot *) now apply IH.
  - (* ECall *) destruct (is_intr_ci f) eqn:Ei.
    + cbn [lowv]. rewrite Ei. cbn [orb andb]. now apply (forallb_reach lcv vdepth lowv).
    + (* a name that is replaced wholesale uses up one unit of the budget for its subscripts *)
      assert (Hd' : (maxl (map vdepth args) <= n)%nat) by lia.
      destruct (has_upper f) eqn:Eu.
      * destruct n as [|m]; cbn [lowv]; rewrite is_intr_ci_lower, Ei, has_upper_lower; cbn [orb negb andb].
        -- apply (forallb_depth0 vdepth lowv args); [|exact Hd'].
           apply Forall_forall. intros a _. apply vdepth0_lowv.
        -- now apply (forallb_reach lcv vdepth lowv).
      * cbn [lowv]. rewrite Ei, Eu. cbn [orb negb andb]. apply (forallb_reach lcv vdepth lowv args IH). lia.
Qed.

Lemma idepth0_lowi : forall e, idepth e = 0%nat -> lowi e = true.
Proof.
  induction e as [v|v|x|b|p cs IH|p cs IH|p a b IHa IHb|p a b IHa IHb|op a b IHa IHb|cs IH|cs IH|a IH|f args IH] using expr_ind'; intros Hd; cbn [lowi]; cbn [idepth] in Hd; try reflexivity.
  - (* ESum *) apply (forallb_depth0 idepth lowi cs IH). lia.
  - (* EProd *) apply (forallb_depth0 idepth lowi cs IH). lia.
  - (* EQuot *) rewrite IHa, IHb by lia. reflexivity.
  - (* EPow *) rewrite IHa, IHb by lia. reflexivity.
  - (* ECmp *) rewrite IHa, IHb by lia. reflexivity.
  - (* EAnd *) apply (forallb_depth0 idepth lowi cs IH). lia.
  - (* EOr *) apply (forallb_depth0 idepth lowi cs IH). lia.
  - (* ENot *) now apply IH.
  - (* ECall *) destruct (is_intr_ci f) eqn:Ei; [discriminate|]. cbn [negb orb andb].
    apply (forallb_depth0 idepth lowi args IH). lia.
Qed.

Lemma lcc_reaches : forall e n, (idepth e <= S n)%nat -> lowi (lcc n e) = true.
Proof.
  induction e as [v|v|x|b|p cs IH|p cs IH|p a b IHa IHb|p a b IHa IHb|op a b IHa IHb|cs IH|cs IH|a IH|f args IH] using expr_ind'; intros n Hd; cbn [lcc lowi]; cbn [idepth] in Hd; try reflexivity.
  - (* ESum *) now apply (forallb_reach lcc idepth lowi).
  - (* EProd *) now apply (forallb_reach lcc idepth lowi).
  - (* EQuot *) rewrite IHa, IHb by lia. reflexivity.
  - (* EPow *) rewrite IHa, IHb by lia. reflexivity.
  - (* ECmp *) rewrite IHa, IHb by lia. reflexivity.
  - (* EAnd *) now apply (forallb_reach lcc idepth lowi).
  - (* EOr *) now apply (forallb_reach lcc idepth lowi).
  - (* ENot *) now apply IH.
  - (* ECall *) destruct (is_intr_ci f) eqn:Ei.
    + assert (Hd' : (maxl (map idepth args) <= n)%nat) by lia.
      destruct (has_upper f) eqn:Eu.
      * destruct n as [|m]; cbn [lowi]; rewrite is_intr_ci_lower, Ei, has_upper_lower; cbn [orb negb andb].
        -- apply (forallb_depth0 idepth lowi args); [|exact Hd'].
           apply Forall_forall. intros a _. apply idepth0_lowi.
        -- now apply (forallb_reach lcc idepth lowi).
      * cbn [lowi]. rewrite Ei, Eu. cbn [orb negb andb]. apply (forallb_reach lcc idepth lowi args IH). lia.
    + cbn [lowi]. rewrite Ei. cbn [negb orb andb]. now apply (forallb_reach lcc idepth lowi).
Qed.

Lemma lcv_idepth : forall e n, idepth (lcv n e) = idepth e.
Proof.
  induction e as [v|v|x|b|p cs IH|p cs IH|p a b IHa IHb|p a b IHa IHb|op a b IHa IHb|cs IH|cs IH|a IH|f args IH] using expr_ind'; intros n; cbn [lcv idepth]; try reflexivity.
  - (* ESum *) now rewrite (map_commute lcv idepth cs IH).
  - (* EProd *) now rewrite (map_commute lcv idepth cs IH).
  - (* EQuot *) now rewrite IHa, IHb.
  - (* EPow *) now rewrite IHa, IHb.
  - (* ECmp *) now rewrite IHa, IHb.
  - (* EAnd *) now rewrite (map_commute lcv idepth cs IH).
  - (* EOr *) now rewrite (map_commute lcv idepth cs IH).
  - (* ENot *) apply IH.
  - (* ECall *) pose proof (map_commute lcv idepth args IH) as M.
    destruct (is_intr_ci f) eqn:Ei.
    + cbn [idepth]. now rewrite Ei, M.
    + destruct (has_upper f); [destruct n|]; cbn [idepth]; rewrite ?is_intr_ci_lower, Ei, ?M; reflexivity.
Qed.

Lemma lcc_lowv : forall e n, lowv (lcc n e) = lowv e.
Proof.
  induction e as [v|v|x|b|p cs IH|p cs IH|p a b IHa IHb|p a b IHa IHb|op a b IHa IHb|cs IH|cs IH|a IH|f args IH] using expr_ind'; intros n; cbn [lcc lowv]; try reflexivity.
  - (* ESum *) apply (forallb_commute lcc lowv cs IH).
  - (* EProd *) apply (forallb_commute lcc lowv cs IH).
  - (* EQuot *) now rewrite IHa, IHb.
  - (* EPow *) now rewrite IHa, IHb.
  - (* ECmp *) now rewrite IHa, IHb.
  - (* EAnd *) apply (forallb_commute lcc lowv cs IH).
  - (* EOr *) apply (forallb_commute lcc lowv cs IH).
  - (* ENot *) apply IH.
  - (* ECall *) pose proof (forallb_commute lcc lowv args IH) as M.
    destruct (is_intr_ci f) eqn:Ei.
    + destruct (has_upper f); [destruct n|]; cbn [lowv]; rewrite ?is_intr_ci_lower, Ei, ?M; reflexivity.
    + cbn [lowv]. now rewrite Ei, M.
Qed.

Definition lc_e (n : nat) (e : expr) : expr := lcc n (lcv n e).

Lemma lc_e_low e n : shallow_e n e = true -> low_e (lc_e n e) = true.
Proof.
  unfold shallow_e, low_e, lc_e. intros H. apply andb_true_iff in H. destruct H as [H1 H2].
  apply Nat.leb_le in H1. apply Nat.leb_le in H2. apply andb_true_iff. split.
  - rewrite lcc_lowv. now apply lcv_reaches.
  - apply lcc_reaches. now rewrite lcv_idepth.
Qed.

Lemma lc_e_fix e n : low_e e = true -> lc_e n e = e.
Proof.
  unfold low_e, lc_e. intros H. apply andb_true_iff in H. destruct H as [H1 H2].
  now rewrite (lcv_fix e n H1), (lcc_fix e n H2).
Qed.

Definition lcs (n : nat) (s : stmt) : stmt := lcc_stmt n (lcv_stmt n s).

Lemma lc_n_map n p : lc_n n p = map (lcs n) p.
Proof. unfold lc_n, lcs. now rewrite map_map. Qed.

Lemma low_e_parts e : low_e e = true -> lowv e = true /\ lowi e = true.
Proof. unfold low_e. intros H. now apply andb_true_iff in H. Qed.

Lemma lc_list_fix n (l : list expr) : forallb low_e l = true -> map (lcc n) (map (lcv n) l) = l.
Proof.
  intros H. apply forallb_Forall in H. rewrite map_map. apply map_id_Forall.
  eapply Forall_impl; [|exact H]. intros a Ha. apply (lc_e_fix a n Ha).
Qed.

Lemma lcs_fix_list n b :
  Forall (fun s => low_stmt s = true -> lcs n s = s) b -> forallb low_stmt b = true ->
  map (lcc_stmt n) (map (lcv_stmt n) b) = b.
Proof.
  intros H Hc. apply forallb_Forall in Hc. rewrite map_map. apply map_id_Forall.
  eapply Forall_mp; [|exact Hc]. eapply Forall_impl; [|exact H]. intros a Ha Hb. now apply Ha.
Qed.

Lemma lcs_fix n : forall s, low_stmt s = true -> lcs n s = s.
Proof.
  induction s using stmt_ind'; intros Hc; unfold lcs; cbn [lcv_stmt lcc_stmt].
  - cbn [low_stmt] in Hc. apply andb_true_iff in Hc. destruct Hc as [H1 H2].
    apply negb_true_iff in H1. rewrite (has_upper_false _ H1). fold (lc_e n e). now rewrite lc_e_fix.
  - cbn [low_stmt] in Hc. apply andb_true_iff in Hc. destruct Hc as [Hc H3].
    apply andb_true_iff in Hc. destruct Hc as [H1 H2]. apply negb_true_iff in H1.
    rewrite (has_upper_false _ H1). unfold lcv_lhs. rewrite H1. rewrite (lc_list_fix n i H2).
    fold (lc_e n e). now rewrite lc_e_fix.
  - cbn [low_stmt] in Hc. apply andb_true_iff in Hc. destruct Hc as [Hc H5].
    apply andb_true_iff in Hc. destruct Hc as [Hc H4]. apply andb_true_iff in Hc. destruct Hc as [Hc H3].
    apply andb_true_iff in Hc. destruct Hc as [H1 H2]. apply negb_true_iff in H1.
    rewrite (has_upper_false _ H1). fold (lc_e n lo) (lc_e n hi). rewrite !lc_e_fix by assumption.
    rewrite (lcs_fix_list n b H H5). destruct st as [e|]; cbn [option_map]; [|reflexivity].
    cbn [low_o] in H4. fold (lc_e n e). now rewrite lc_e_fix.
  - cbn [low_stmt] in Hc. apply andb_true_iff in Hc. destruct Hc as [H1 H2].
    fold (lc_e n c). rewrite lc_e_fix by assumption. now rewrite (lcs_fix_list n b H H2).
  - cbn [low_stmt] in Hc. apply andb_true_iff in Hc. destruct Hc as [Hc H3].
    apply andb_true_iff in Hc. destruct Hc as [H1 H2].
    fold (lc_e n c). rewrite lc_e_fix by assumption.
    now rewrite (lcs_fix_list n t H H2), (lcs_fix_list n e H0 H3).
  - cbn [low_stmt] in Hc. apply andb_true_iff in Hc. destruct Hc as [H1 H2]. apply negb_true_iff in H1.
    rewrite (has_upper_false _ H1). now rewrite (lc_list_fix n a H2).
  - reflexivity.
Qed.

Lemma shallow_e_parts n e : shallow_e n e = true -> (vdepth e <= S n)%nat /\ (idepth e <= S n)%nat.
Proof.
  unfold shallow_e. intros H. apply andb_true_iff in H. destruct H as [H1 H2].
  apply Nat.leb_le in H1. apply Nat.leb_le in H2. now split.
Qed.

Lemma low_list n (l : list expr) : forallb (shallow_e n) l = true -> forallb low_e (map (lcc n) (map (lcv n) l)) = true.
Proof.
  intros H. apply forallb_Forall in H. apply forallb_Forall. rewrite map_map. apply Forall_map.
  eapply Forall_impl; [|exact H]. intros a Ha. apply (lc_e_low a n Ha).
Qed.

Lemma lhs_low n a idx : is_intr_ci a = false -> shallow_e n (ECall a idx) = true ->
  forallb low_e (map (lcc n) (lcv_lhs n a idx)) = true.
Proof.
  intros Ei H. apply shallow_e_parts in H. destruct H as [Hv Hi]. cbn [vdepth idepth] in Hv, Hi. rewrite Ei in Hv, Hi.
  assert (Hv' : (maxl (map vdepth idx) <= n)%nat) by lia.
  apply fold_right_max_le, Forall_map in Hv'. apply fold_right_max_le, Forall_map in Hi.
  apply forallb_Forall. apply Forall_map. unfold lcv_lhs.
  destruct (has_upper a).
  - destruct n as [|m].
    + eapply Forall_impl2 with (P := fun x => (vdepth x <= 0)%nat) (Q := fun x => (idepth x <= 1)%nat); [|exact Hv'|exact Hi].
      apply Forall_forall. intros x _ Hx Hy. unfold low_e. apply andb_true_iff. split.
      * rewrite lcc_lowv. apply vdepth0_lowv. lia.
      * apply lcc_reaches. lia.
    + apply Forall_map.
      eapply Forall_impl2 with (P := fun x => (vdepth x <= S m)%nat) (Q := fun x => (idepth x <= S (S m))%nat); [|exact Hv'|exact Hi].
      apply Forall_forall. intros x _ Hx Hy. unfold low_e. apply andb_true_iff. split.
      * rewrite lcc_lowv. now apply lcv_reaches.
      * apply lcc_reaches. now rewrite lcv_idepth.
  - apply Forall_map.
    eapply Forall_impl2 with (P := fun x => (vdepth x <= n)%nat) (Q := fun x => (idepth x <= S n)%nat); [|exact Hv'|exact Hi].
    apply Forall_forall. intros x _ Hx Hy. unfold low_e. apply andb_true_iff. split.
    + rewrite lcc_lowv. apply lcv_reaches. lia.
    + apply lcc_reaches. now rewrite lcv_idepth.
Qed.

Lemma lcs_low_list n b :
  Forall (fun s => shallow_lc_stmt n s = true -> low_stmt (lcs n s) = true) b ->
  forallb (shallow_lc_stmt n) b = true -> forallb low_stmt (map (lcc_stmt n) (map (lcv_stmt n) b)) = true.
Proof.
  intros H Hc. apply forallb_Forall in Hc. apply forallb_Forall. rewrite map_map. apply Forall_map.
  eapply Forall_mp; [|exact Hc]. eapply Forall_impl; [|exact H]. intros a Ha Hb. now apply Ha.
Qed.

Lemma lcs_low n : forall s, shallow_lc_stmt n s = true -> low_stmt (lcs n s) = true.
Proof.
  induction s using stmt_ind'; intros Hc; unfold lcs; cbn [lcv_stmt lcc_stmt low_stmt].
  - cbn [shallow_lc_stmt] in Hc. rewrite has_upper_lower. cbn [negb andb]. apply (lc_e_low e n Hc).
  - cbn [shallow_lc_stmt] in Hc. apply andb_true_iff in Hc. destruct Hc as [Hc H3].
    apply andb_true_iff in Hc. destruct Hc as [H1 H2]. apply negb_true_iff in H2.
    rewrite has_upper_lower. cbn [negb andb]. rewrite (lhs_low n a i H2 H1). cbn [andb]. apply (lc_e_low e n H3).
  - cbn [shallow_lc_stmt] in Hc. apply andb_true_iff in Hc. destruct Hc as [Hc H4].
    apply andb_true_iff in Hc. destruct Hc as [Hc H3]. apply andb_true_iff in Hc. destruct Hc as [H1 H2].
    rewrite has_upper_lower. cbn [negb andb].
    fold (lc_e n lo) (lc_e n hi). rewrite (lc_e_low lo n H1), (lc_e_low hi n H2). cbn [andb].
    rewrite (lcs_low_list n b H H4). rewrite andb_true_r.
    destruct st as [e|]; cbn [option_map low_o]; [apply (lc_e_low e n H3)|reflexivity].
  - cbn [shallow_lc_stmt] in Hc. apply andb_true_iff in Hc. destruct Hc as [H1 H2].
    fold (lc_e n c). rewrite (lc_e_low c n H1). cbn [andb]. apply (lcs_low_list n b H H2).
  - cbn [shallow_lc_stmt] in Hc. apply andb_true_iff in Hc. destruct Hc as [Hc H3].
    apply andb_true_iff in Hc. destruct Hc as [H1 H2].
    fold (lc_e n c). rewrite (lc_e_low c n H1). cbn [andb].
    now rewrite (lcs_low_list n t H H2), (lcs_low_list n e H0 H3).
  - cbn [shallow_lc_stmt] in Hc. rewrite has_upper_lower. cbn [negb andb]. apply (low_list n a Hc).
  - reflexivity.
Qed.

Theorem lc_class_low p : lc_class p = true -> low_prog (lc p) = true.
Proof.
  unfold lc_class, low_prog, lc. intros H. rewrite lc_n_map. apply forallb_Forall. apply Forall_map.
  apply forallb_Forall in H. eapply Forall_impl; [|exact H]. intros s Hs. apply (lcs_low LC_ITER s Hs).
Qed.

Theorem low_prog_fix p : low_prog p = true -> lc p = p.
Proof.
  unfold low_prog, lc. intros H. rewrite lc_n_map. apply map_id_Forall. apply forallb_Forall in H.
  eapply Forall_impl; [|exact H]. intros s Hs. apply (lcs_fix LC_ITER s Hs).
Qed.

Theorem lc_idem_on_class p : lc_class p = true -> lc (lc p) = lc p.
Proof. intros H. apply low_prog_fix, lc_class_low, H. Qed.

Lemma lower_e_idem : forall e, lower_e (lower_e e) = lower_e e.
Proof.
  induction e using expr_ind'; cbn [lower_e]; try reflexivity.
  - now rewrite lower_idem.
  - f_equal. rewrite map_map. now apply map_ext_Forall.
  - f_equal. rewrite map_map. now apply map_ext_Forall.
  - now rewrite IHe1, IHe2.
  - now rewrite IHe1, IHe2.
  - now rewrite IHe1, IHe2.
  - f_equal. rewrite map_map. now apply map_ext_Forall.
  - f_equal. rewrite map_map. now apply map_ext_Forall.
  - now rewrite IHe.
  - rewrite lower_idem. f_equal. rewrite map_map. now apply map_ext_Forall.
Qed.

Lemma lower_stmt_idem : forall s, lower_stmt (lower_stmt s) = lower_stmt s.
Proof.
  induction s using stmt_ind'; cbn [lower_stmt]; rewrite ?lower_idem, ?lower_e_idem; try reflexivity.
  - f_equal. rewrite map_map. apply map_ext_Forall. apply Forall_forall. intros x _. apply lower_e_idem.
  - f_equal.
    + destruct st as [e|]; cbn [option_map]; [now rewrite lower_e_idem|reflexivity].
    + rewrite map_map. now apply map_ext_Forall.
  - f_equal. rewrite map_map. now apply map_ext_Forall.
  - f_equal; rewrite map_map; now apply map_ext_Forall.
  - f_equal. rewrite map_map. apply map_ext_Forall. apply Forall_forall. intros x _. apply lower_e_idem.
Qed.

Theorem lower_all_idem p : lower_all (lower_all p) = lower_all p.
Proof. unfold lower_all. rewrite map_map. apply map_ext_Forall. apply Forall_forall. intros s _. apply lower_stmt_idem. Qed.

(** beyond the class the function needs a second application *)
Open Scope string_scope.
Fixpoint chain (k : nat) (e : expr) : expr := match k with O => e | S m => ECall "IDX" [chain m e] end.
Definition w_deep : list stmt := [SStore "ARR" [chain 10 (EVar "I")] (EInt 1)].

Theorem lc_refuted : exists p, lc (lc p) <> lc p /\ lc_class p = false.
Proof. exists w_deep. split; [intros C; vm_compute in C; discriminate C|vm_compute; reflexivity]. Qed.

Fixpoint ichain (k : nat) (e : expr) : expr := match k with O => e | S m => ECall "MAX" [ichain m e; EInt 1] end.
Definition w_deep_intr : list stmt := [SAssign "y" (ichain 12 (EVar "x"))].

Lemma lc_refuted_intr : lc (lc w_deep_intr) <> lc w_deep_intr /\ lc_class w_deep_intr = false.
Proof. split; [intros C; vm_compute in C; discriminate C|vm_compute; reflexivity]. Qed.

(** the deepest nests inside the class are handled in one application *)
Example lc_class_deepest :
  lc_class [SStore "ARR" [chain 9 (EVar "I")] (ichain 11 (EVar "X"))] = true
  /\ lc [SStore "ARR" [chain 9 (EVar "I")] (ichain 11 (EVar "X"))]
     = lower_all [SStore "ARR" [chain 9 (EVar "I")] (ichain 11 (EVar "X"))].
Proof. split; vm_compute; reflexivity. Qed.

Lemma lcv_list_fix n (l : list expr) : forallb lowv l = true -> map (lcv n) l = l.
Proof.
  intros H. apply forallb_Forall in H. apply map_id_Forall. eapply Forall_impl; [|exact H]. intros a Ha. now apply lcv_fix.
Qed.

Lemma lowv_lower_e : forall e, lowv (lower_e e) = true.
Proof.
  induction e using expr_ind'; cbn [lower_e lowv]; try reflexivity.
  - now rewrite has_upper_lower.
  - apply forallb_Forall, Forall_map. exact H.
  - apply forallb_Forall, Forall_map. exact H.
  - now rewrite IHe1, IHe2.
  - now rewrite IHe1, IHe2.
  - now rewrite IHe1, IHe2.
  - apply forallb_Forall, Forall_map. exact H.
  - apply forallb_Forall, Forall_map. exact H.
  - exact IHe.
  - rewrite has_upper_lower. cbn [negb]. rewrite orb_true_r. cbn [andb]. apply forallb_Forall, Forall_map. exact H.
Qed.

Definition low_decl (d : ldecl) : bool :=
  let '(x, dims, init) := d in
  negb (has_upper x) && forallb lowv dims && match init with Some e => lowv e | None => true end.

Lemma lc_decl_fix n d : low_decl d = true -> lc_decl n d = d.
Proof.
  destruct d as [[x dims] init]. cbn [low_decl]. intros H.
  apply andb_true_iff in H. destruct H as [H H3]. apply andb_true_iff in H. destruct H as [H1 H2].
  apply negb_true_iff in H1. unfold lc_decl. rewrite H1. rewrite (lcv_list_fix n dims H2).
  destruct init as [e|]; cbn [option_map]; [now rewrite (lcv_fix e n H3)|reflexivity].
Qed.

Lemma lc_decl_low d : init_class_decl d = true -> low_decl (lc_decl LC_ITER d) = true.
Proof.
  destruct d as [[x dims] init]. cbn [init_class_decl]. intros H.
  apply andb_true_iff in H. destruct H as [H1 H2]. apply forallb_Forall in H1.
  unfold lc_decl, LC_ITER in *. destruct (has_upper x) eqn:Eu.
  - cbn [low_decl]. rewrite has_upper_lower. cbn [negb andb]. apply andb_true_iff. split.
    + apply forallb_Forall, Forall_map. eapply Forall_impl; [|exact H1]. intros a Ha. cbn beta in Ha.
      apply Nat.leb_le in Ha. apply lcv_reaches. lia.
    + destruct init as [e|]; [|reflexivity]. apply expr_eqb_eq in H2. rewrite <- H2. apply lowv_lower_e.
  - cbn [low_decl]. rewrite Eu. cbn [negb andb]. apply andb_true_iff. split.
    + apply forallb_Forall, Forall_map. eapply Forall_impl; [|exact H1]. intros a Ha. cbn beta in Ha.
      apply Nat.leb_le in Ha. apply lcv_reaches. lia.
    + destruct init as [e|]; cbn [option_map]; [|reflexivity]. apply Nat.leb_le in H2. now apply lcv_reaches.
Qed.

Theorem lc_decls_idem_on_class ds : init_class ds = true -> lc_decls (lc_decls ds) = lc_decls ds.
Proof.
  unfold init_class, lc_decls. intros H. rewrite map_map. apply map_ext_Forall. apply forallb_Forall in H.
  eapply Forall_impl; [|exact H]. intros d Hd. apply lc_decl_fix, lc_decl_low, Hd.
Qed.

Definition w_init : list ldecl := [("W0", [], Some (EVar "K0"))].

Theorem lc_decls_refuted : exists ds, lc_decls (lc_decls ds) <> lc_decls ds /\ init_class ds = false.
Proof. exists w_init. split; [intros C; vm_compute in C; discriminate C|vm_compute; reflexivity]. Qed.
