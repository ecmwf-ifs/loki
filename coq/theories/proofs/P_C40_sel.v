(** C40 — do_remove_dead_code on programs with SELECT CASE (own model [kdce]) is idempotent. *)
From Coq Require Import ZArith List Bool String Lia.
From LV Require Import Base.Expr Base.MiniF Base.ExprFacts Base.ListFacts models.M_C32 models.M_C40 proofs.P_C40_base.
Import ListNotations.
Open Scope Z_scope.
Open Scope list_scope.

(** [kdce] over a list of bodies *)
Fixpoint kdces (u : bool) (ll : list (list kstmt)) : option (list (list kstmt)) :=
  match ll with
  | [] => Some []
  | l :: r => match kdce u l, kdces u r with Some a, Some b => Some (a :: b) | _, _ => None end
  end.

Section kstmt_ind'.
  Variable P : kstmt -> Prop.
  Hypothesis HS : forall s, P (KS s).
  Hypothesis HD : forall v lo hi st b, Forall P b -> P (KDo v lo hi st b).
  Hypothesis HW : forall c b, Forall P b -> P (KWhile c b).
  Hypothesis HI : forall c t e, Forall P t -> Forall P e -> P (KIf c t e).
  Hypothesis HL : forall sel vals bodies d, Forall (Forall P) bodies -> Forall P d -> P (KSel sel vals bodies d).
  Fixpoint kstmt_ind' (s : kstmt) : P s :=
    let fix go (l : list kstmt) : Forall P l :=
      match l with [] => Forall_nil P | x :: r => Forall_cons x (kstmt_ind' x) (go r) end in
    let fix gos (ll : list (list kstmt)) : Forall (Forall P) ll :=
      match ll with [] => Forall_nil (Forall P) | l :: r => Forall_cons l (go l) (gos r) end in
    match s with
    | KS s => HS s
    | KDo v lo hi st b => HD v lo hi st b (go b)
    | KWhile c b => HW c b (go b)
    | KIf c t e => HI c t e (go t) (go e)
    | KSel sel vals bodies d => HL sel vals bodies d (gos bodies) (go d)
    end.
End kstmt_ind'.

(** the local recursions of [kdce1] over a body and over the list of case bodies are [kdce] and [kdces] *)
Lemma kgo u : forall l,
  (fix go (l : list kstmt) : option (list kstmt) :=
     match l with
     | [] => Some []
     | s :: r => match kdce1 u s, go r with Some a, Some b => Some (a ++ b) | _, _ => None end
     end) l = kdce u l.
Proof. induction l as [|x r IH]; [reflexivity|]. cbn [kdce]. now rewrite <- IH. Qed.

Lemma kgos u : forall ll,
  (fix gos (ll : list (list kstmt)) : option (list (list kstmt)) :=
     match ll with
     | [] => Some []
     | l :: r =>
         match (fix go (l : list kstmt) : option (list kstmt) :=
                  match l with
                  | [] => Some []
                  | s :: r => match kdce1 u s, go r with Some a, Some b => Some (a ++ b) | _, _ => None end
                  end) l, gos r with
         | Some a, Some b => Some (a :: b)
         | _, _ => None
         end
     end) ll = kdces u ll.
Proof. induction ll as [|x r IH]; [reflexivity|]. cbn [kdces]. now rewrite <- IH, <- kgo. Qed.

Lemma kdce1_if u c t e :
  kdce1 u (KIf c t e) =
  match (if u then simp_cond false [] c else Some c), kdce u t, kdce u e with
  | Some c', Some t', Some e' =>
      match c' with
      | ELog true => Some t'
      | ELog false => Some e'
      | _ => if k_is_elseif e && k_is_nil e' then None else Some [KIf c' t' e']
      end
  | _, _, _ => None
  end.
Proof. cbn [kdce1]. now rewrite !kgo. Qed.

Lemma kdce1_do u v lo hi stp b :
  kdce1 u (KDo v lo hi stp b) = match kdce u b with Some b' => Some [KDo v lo hi stp b'] | None => None end.
Proof. cbn [kdce1]. now rewrite kgo. Qed.

Lemma kdce1_while u c b :
  kdce1 u (KWhile c b) = match kdce u b with Some b' => Some [KWhile c b'] | None => None end.
Proof. cbn [kdce1]. now rewrite kgo. Qed.

Lemma kdce1_sel u sel vals bodies dflt :
  kdce1 u (KSel sel vals bodies dflt) =
  match kdces u bodies, kdce u dflt with
  | Some bs, Some d =>
      if sel_class sel vals bs then
        match first_match sel vals with
        | Some i => nth_error bs i
        | None => Some [KSel sel vals bs d]
        end
      else None
  | _, _ => None
  end.
Proof. cbn [kdce1]. now rewrite kgos, kgo. Qed.

Lemma not_lit_match {A} (c : expr) (a b d : A) :
  is_lit c = false -> match c with ELog true => a | ELog false => b | _ => d end = d.
Proof. destruct c; try reflexivity. discriminate. Qed.

Lemma lit_cases (c : expr) : (c = ELog true) \/ (c = ELog false) \/ is_lit c = false.
Proof. destruct c; auto. destruct b; auto. Qed.

Lemma cond_nf_simp u c : cond_nf u c = true ->
  (if u then simp_cond false [] c else Some c) = Some c /\ is_lit c = false.
Proof.
  unfold cond_nf. intros H. apply andb_true_iff in H. destruct H as [H1 H2].
  apply negb_true_iff in H1. split; [|exact H1].
  destruct u; [|reflexivity]. cbn [negb orb] in H2. unfold cond_stable in H2.
  destruct (simp_cond false [] c) as [c'|]; [|discriminate]. apply expr_eqb_eq in H2. now subst.
Qed.

Lemma kdce_fix_list u q :
  Forall (fun s => knf u s = true -> kdce1 u s = Some [s]) q -> forallb (knf u) q = true -> kdce u q = Some q.
Proof.
  induction 1 as [|s r H _ IH]; intros Hc; [reflexivity|].
  cbn [forallb] in Hc. apply andb_true_iff in Hc. destruct Hc as [H1 H2].
  cbn [kdce]. now rewrite (H H1), (IH H2).
Qed.

Lemma kdces_fix_list u ll :
  Forall (Forall (fun s => knf u s = true -> kdce1 u s = Some [s])) ll ->
  forallb (forallb (knf u)) ll = true -> kdces u ll = Some ll.
Proof.
  induction 1 as [|l r H _ IH]; intros Hc; [reflexivity|].
  cbn [forallb] in Hc. apply andb_true_iff in Hc. destruct Hc as [H1 H2].
  cbn [kdces]. now rewrite (kdce_fix_list u l H H1), (IH H2).
Qed.

Lemma kdce1_fix u : forall s, knf u s = true -> kdce1 u s = Some [s].
Proof.
  induction s using kstmt_ind'; intros Hc.
  - reflexivity.
  - cbn [knf] in Hc. now rewrite kdce1_do, (kdce_fix_list u b H Hc).
  - cbn [knf] in Hc. now rewrite kdce1_while, (kdce_fix_list u b H Hc).
  - cbn [knf] in Hc. apply andb_true_iff in Hc. destruct Hc as [Hc H2].
    apply andb_true_iff in Hc. destruct Hc as [H0' H1].
    destruct (cond_nf_simp u c H0') as [Ec Hl].
    rewrite kdce1_if, Ec, (kdce_fix_list u t H H1), (kdce_fix_list u e H0 H2).
    rewrite (not_lit_match c _ _ _ Hl). now destruct e as [|[] [|]].
  - cbn [knf] in Hc. apply andb_true_iff in Hc. destruct Hc as [Hc H4].
    apply andb_true_iff in Hc. destruct Hc as [Hc H3]. apply andb_true_iff in Hc. destruct Hc as [H1 H2].
    rewrite kdce1_sel, (kdces_fix_list u bodies H H3), (kdce_fix_list u d H0 H4), H1.
    unfold no_match in H2. destruct (first_match sel vals); [discriminate|reflexivity].
Qed.

Theorem kdce_nf_fix u q : knf_l u q = true -> kdce u q = Some q.
Proof. intros H. apply kdce_fix_list; [|exact H]. apply Forall_forall. intros s _. apply kdce1_fix. Qed.

(** with use_simplify the output is in normal form only if its conditions are stable, which [kdce] cannot
    promise (the modelled simplification is partial): hence the hypothesis inside the notion *)
Definition kout_nf (u : bool) (q : list kstmt) : Prop := (u = true -> kconds_stable q = true) -> knf_l u q = true.

Lemma kdce_out_list u l :
  Forall (fun s => forall q, kdce1 u s = Some q -> kout_nf u q) l ->
  forall q, kdce u l = Some q -> kout_nf u q.
Proof.
  induction 1 as [|s r H _ IH]; intros q E.
  - cbn [kdce] in E. inversion E; subst. intros _. reflexivity.
  - cbn [kdce] in E. destruct (kdce1 u s) as [a|] eqn:E1; [|discriminate].
    destruct (kdce u r) as [b|] eqn:E2; [|discriminate]. inversion E; subst.
    intros Hs. unfold knf_l. rewrite forallb_app. apply andb_true_iff. split.
    + apply (H a eq_refl). intros Hu. specialize (Hs Hu). unfold kconds_stable in *.
      rewrite forallb_app in Hs. now apply andb_true_iff in Hs.
    + apply (IH b eq_refl). intros Hu. specialize (Hs Hu). unfold kconds_stable in *.
      rewrite forallb_app in Hs. now apply andb_true_iff in Hs.
Qed.

(** all visited bodies: normal form (given stability), as one statement about the list of bodies *)
Lemma kdces_out u ll :
  Forall (Forall (fun s => forall q, kdce1 u s = Some q -> kout_nf u q)) ll ->
  forall bs, kdces u ll = Some bs ->
  (u = true -> forallb (forallb kconds_stable_stmt) bs = true) -> forallb (forallb (knf u)) bs = true.
Proof.
  induction 1 as [|l r H _ IH]; intros bs E Hs; cbn [kdces] in E.
  - inversion E; subst. reflexivity.
  - destruct (kdce u l) as [a|] eqn:E1; [|discriminate]. destruct (kdces u r) as [b|] eqn:E2; [|discriminate].
    inversion E; subst. cbn [forallb]. apply andb_true_iff. split.
    + apply (kdce_out_list u l H a E1). intros Hu. specialize (Hs Hu). cbn [forallb] in Hs. now apply andb_true_iff in Hs.
    + apply (IH b eq_refl). intros Hu. specialize (Hs Hu). cbn [forallb] in Hs. now apply andb_true_iff in Hs.
Qed.

Lemma kdces_nth_out u ll :
  Forall (Forall (fun s => forall q, kdce1 u s = Some q -> kout_nf u q)) ll ->
  forall bs i q, kdces u ll = Some bs -> nth_error bs i = Some q -> kout_nf u q.
Proof.
  induction 1 as [|l r Hl _ IH]; intros bs i q Eb E; cbn [kdces] in Eb.
  - inversion Eb; subst. destruct i; discriminate.
  - destruct (kdce u l) as [a|] eqn:E1; [|discriminate]. destruct (kdces u r) as [b|] eqn:E2; [|discriminate].
    inversion Eb; subst. destruct i as [|i]; cbn [nth_error] in E.
    + inversion E; subst. now apply (kdce_out_list u l Hl q E1).
    + now apply (IH b i q eq_refl E).
Qed.

(** [ListFacts.forallb_nth], for the matching case body of a SELECT *)
Lemma forallb_nth {A} (f : A -> bool) l i x : forallb f l = true -> nth_error l i = Some x -> f x = true.
Proof. apply ListFacts.forallb_nth. Qed.

Lemma kdce1_out u : forall s q, kdce1 u s = Some q -> kout_nf u q.
Proof.
  induction s using kstmt_ind'; intros q E.
  - cbn [kdce1] in E. inversion E; subst. intros _. reflexivity.
  - rewrite kdce1_do in E. destruct (kdce u b) as [b'|] eqn:Eb; [|discriminate]. inversion E; subst.
    intros Hs. unfold knf_l. cbn [forallb knf]. rewrite andb_true_r.
    apply (kdce_out_list u b H b' Eb). intros Hu. specialize (Hs Hu).
    unfold kconds_stable in Hs. cbn [forallb kconds_stable_stmt] in Hs. now rewrite andb_true_r in Hs.
  - rewrite kdce1_while in E. destruct (kdce u b) as [b'|] eqn:Eb; [|discriminate]. inversion E; subst.
    intros Hs. unfold knf_l. cbn [forallb knf]. rewrite andb_true_r.
    apply (kdce_out_list u b H b' Eb). intros Hu. specialize (Hs Hu).
    unfold kconds_stable in Hs. cbn [forallb kconds_stable_stmt] in Hs. now rewrite andb_true_r in Hs.
  - rewrite kdce1_if in E.
    destruct (if u then simp_cond false [] c else Some c) as [c'|] eqn:Ec; [|discriminate].
    destruct (kdce u t) as [t'|] eqn:Et; [|discriminate].
    destruct (kdce u e) as [e'|] eqn:Ee; [|discriminate].
    destruct (lit_cases c') as [L|[L|L]].
    + subst c'. inversion E; subst. apply (kdce_out_list u t H q Et).
    + subst c'. inversion E; subst. apply (kdce_out_list u e H0 q Ee).
    + rewrite (not_lit_match c' _ _ _ L) in E.
      destruct (k_is_elseif e && k_is_nil e'); [discriminate|]. inversion E; subst.
      intros Hs. unfold knf_l. cbn [forallb knf]. rewrite andb_true_r.
      assert (Hs' : u = true -> cond_stable c' = true /\ kconds_stable t' = true /\ kconds_stable e' = true).
      { intros Hu. specialize (Hs Hu). unfold kconds_stable in Hs. cbn [forallb kconds_stable_stmt] in Hs.
        rewrite andb_true_r in Hs. apply andb_true_iff in Hs. destruct Hs as [Hs H3].
        apply andb_true_iff in Hs. destruct Hs as [H1 H2]. auto. }
      apply andb_true_iff. split; [apply andb_true_iff; split|].
      * unfold cond_nf. rewrite L. cbn [negb andb]. destruct u; [|reflexivity]. cbn [negb orb]. now apply Hs'.
      * apply (kdce_out_list u t H t' Et). intros Hu. now apply Hs'.
      * apply (kdce_out_list u e H0 e' Ee). intros Hu. now apply Hs'.
  - rewrite kdce1_sel in E.
    destruct (kdces u bodies) as [bs|] eqn:Eb; [|discriminate].
    destruct (kdce u d) as [d'|] eqn:Ed; [|discriminate].
    destruct (sel_class sel vals bs) eqn:Ecl; [|discriminate].
    destruct (first_match sel vals) as [i|] eqn:Ef.
    + (* a case matches: the (visited) body is spliced in *)
      exact (kdces_nth_out u bodies H bs i q Eb E).
    + inversion E; subst. intros Hs. unfold knf_l. cbn [forallb knf]. rewrite andb_true_r.
      rewrite Ecl. unfold no_match. rewrite Ef. cbn [andb].
      assert (Hs' : u = true -> forallb (forallb kconds_stable_stmt) bs = true /\ kconds_stable d' = true).
      { intros Hu. specialize (Hs Hu). unfold kconds_stable in Hs. cbn [forallb kconds_stable_stmt] in Hs.
        rewrite andb_true_r in Hs. now apply andb_true_iff in Hs. }
      apply andb_true_iff. split.
      * apply (kdces_out u bodies H bs Eb). intros Hu. now apply Hs'.
      * apply (kdce_out_list u d H0 d' Ed). intros Hu. now apply Hs'.
Qed.

Theorem kdce_out_nf u p q : kdce u p = Some q -> (u = true -> kconds_stable q = true) -> knf_l u q = true.
Proof.
  intros E. apply (kdce_out_list u p); [|exact E]. apply Forall_forall. intros s _. apply kdce1_out.
Qed.

Theorem kdce_idem_nosimplify p q : kdce false p = Some q -> kdce false q = Some q.
Proof. intros E. apply kdce_nf_fix. apply (kdce_out_nf false p q E). discriminate. Qed.

Theorem kdce_idem_simplify_validated p q : kdce true p = Some q -> kconds_stable q = true -> kdce true q = Some q.
Proof. intros E Hs. apply kdce_nf_fix. apply (kdce_out_nf true p q E). intros _. exact Hs. Qed.

(** a constant selector matching the second case; the surviving body contains a dead IF and a constant SELECT:
    everything is removed by ONE application *)
Open Scope string_scope.
Example kdce_select_one_pass :
  let inner := KSel (EInt 7) [[EInt 7]] [[KS (SAssign "b" (EInt 4))]] [] in
  let body2 := [KIf (ECmp Ceq (EInt 1) (EInt 2)) [KS (SAssign "b" (EInt 2))] [inner]; KS (SAssign "a" (EInt 1))] in
  let p := [KSel (EInt 2) [[EInt 1]; [EInt 5; EInt 2]] [[KS (SAssign "a" (EInt 0))]; body2] [KS (SAssign "a" (EInt 3))]] in
  kdce true p = Some [KS (SAssign "b" (EInt 4)); KS (SAssign "a" (EInt 1))]
  /\ knf_l true [KS (SAssign "b" (EInt 4)); KS (SAssign "a" (EInt 1))] = true.
Proof. split; vm_compute; reflexivity. Qed.
