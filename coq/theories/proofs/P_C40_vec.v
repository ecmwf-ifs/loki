(** C40 — resolve_vector_notation, add/remove_explicit_array_dimensions and
    normalize_range_indexing are idempotent. *)
From Coq Require Import ZArith List Bool String Lia.
From LV Require Import Base.Expr Base.MiniF Base.ExprFacts Base.ListFacts models.M_C30 models.M_C40 proofs.P_C30_idx proofs.P_C40_base.
Import ListNotations.
Open Scope Z_scope.
Open Scope list_scope.

(** the local recursion of [resolve_stmt] over a body is [resolve_body] *)
Lemma resolve_stmt_do lm ds v lo hi st body :
  resolve_stmt lm ds (VDo v lo hi st body) = option_map (fun b => [SDo v lo hi st b]) (resolve_body lm ds body).
Proof.
  cbn [resolve_stmt]. f_equal.
  induction body as [|x r IH]; [reflexivity|]. cbn [resolve_body]. now rewrite <- IH.
Qed.

Lemma resolve_stmt_if lm ds c tb eb :
  resolve_stmt lm ds (VIf c tb eb) =
  obind (resolve_body lm ds tb) (fun t => obind (resolve_body lm ds eb) (fun e => Some [SIf c t e])).
Proof.
  cbn [resolve_stmt].
  assert (G : forall l, (fix go (l : list vstmt) : option (list stmt) :=
                           match l with
                           | [] => Some []
                           | x :: r => obind (resolve_stmt lm ds x) (fun a => obind (go r) (fun b => Some (a ++ b)))
                           end) l = resolve_body lm ds l).
  { induction l as [|x r IH]; [reflexivity|]. cbn [resolve_body]. now rewrite <- IH. }
  now rewrite !G.
Qed.

(** normal form: on section-free programs the transformer returns the program itself *)
Lemma resolve_body_fix_list lm ds b :
  Forall (fun s => sec_free_stmt s = true -> resolve_stmt lm ds s = Some [vflat_stmt s]) b ->
  forallb sec_free_stmt b = true -> resolve_body lm ds b = Some (vflat b).
Proof.
  induction 1 as [|s r H _ IH]; intros Hc; [reflexivity|].
  cbn [forallb] in Hc. apply andb_true_iff in Hc. destruct Hc as [H1 H2].
  cbn [resolve_body]. rewrite (H H1). cbn [obind]. rewrite (IH H2). reflexivity.
Qed.

Lemma resolve_stmt_fix lm ds : forall s, sec_free_stmt s = true -> resolve_stmt lm ds s = Some [vflat_stmt s].
Proof.
  induction s using vstmt_ind'; intros Hc.
  - reflexivity.
  - discriminate.
  - cbn [sec_free_stmt] in Hc. rewrite resolve_stmt_do, (resolve_body_fix_list lm ds b H Hc). reflexivity.
  - cbn [sec_free_stmt] in Hc. apply andb_true_iff in Hc. destruct Hc as [H1 H2].
    rewrite resolve_stmt_if, (resolve_body_fix_list lm ds t H H1). cbn [obind].
    rewrite (resolve_body_fix_list lm ds e H0 H2). reflexivity.
  - discriminate.
Qed.

Lemma resolve_body_fix lm ds b : sec_free b = true -> resolve_body lm ds b = Some (vflat b).
Proof.
  intros H. apply resolve_body_fix_list; [|exact H]. apply Forall_forall. intros s _. apply resolve_stmt_fix.
Qed.

(** reading a MiniF program back as a section program gives a section-free program denoting itself *)
Lemma vembed_ok : forall s, sec_free_stmt (vembed_stmt s) = true /\ vflat_stmt (vembed_stmt s) = s.
Proof.
  induction s using stmt_ind'; cbn [vembed_stmt sec_free_stmt vflat_stmt]; try (split; reflexivity).
  - split.
    + apply forallb_Forall. apply Forall_map. eapply Forall_impl; [|exact H]. intros a [Ha _]. exact Ha.
    + f_equal. rewrite map_map. apply map_id_Forall. eapply Forall_impl; [|exact H]. intros a [_ Ha]. exact Ha.
  - split.
    + apply andb_true_iff. split; apply forallb_Forall; apply Forall_map.
      * eapply Forall_impl; [|exact H]. intros a [Ha _]. exact Ha.
      * eapply Forall_impl; [|exact H0]. intros a [Ha _]. exact Ha.
    + f_equal; rewrite map_map; apply map_id_Forall.
      * eapply Forall_impl; [|exact H]. intros a [_ Ha]. exact Ha.
      * eapply Forall_impl; [|exact H0]. intros a [_ Ha]. exact Ha.
Qed.

Lemma sec_free_vembed q : sec_free (vembed q) = true.
Proof. unfold sec_free, vembed. apply forallb_Forall. apply Forall_map. apply Forall_forall. intros s _. apply vembed_ok. Qed.

Lemma vflat_vembed q : vflat (vembed q) = q.
Proof. unfold vflat, vembed. rewrite map_map. apply map_id_Forall. apply Forall_forall. intros s _. apply vembed_ok. Qed.

(** after resolution no section statement remains: the second application is the identity *)
Theorem resolve_prog_idem ds b q : resolve_prog ds b = Some q -> resolve_prog ds (vembed q) = Some q.
Proof. intros _. unfold resolve_prog. rewrite resolve_body_fix by apply sec_free_vembed. now rewrite vflat_vembed. Qed.

Theorem T_vec_idem ds b b1 : T_vec ds b = Some b1 -> T_vec ds b1 = Some b1 /\ sec_free b1 = true.
Proof.
  unfold T_vec. destruct (resolve_prog ds b) as [q|] eqn:E; [|discriminate].
  cbn [option_map]. intros X. inversion X; subst. split; [|apply sec_free_vembed].
  now rewrite (resolve_prog_idem ds b q E).
Qed.

Lemma add_idx_idem ds a idx : add_idx ds a (add_idx ds a idx) = add_idx ds a idx.
Proof.
  unfold add_idx. destruct idx as [|d r]; [|reflexivity].
  destruct (lookup_decl ds a) as [[|s sh]|]; reflexivity.
Qed.

Lemma remove_idx_idem idx : remove_idx (remove_idx idx) = remove_idx idx.
Proof. unfold remove_idx. destruct (forallb is_colon idx) eqn:E; [reflexivity|]. now rewrite E. Qed.

Section map_refs_idem.
  Variable F : string -> list vindex -> list vindex.
  Hypothesis HF : forall a idx, F a (F a idx) = F a idx.

  Lemma map_refs_vexpr_idem : forall e, map_refs_vexpr F (map_refs_vexpr F e) = map_refs_vexpr F e.
  Proof.
    induction e using vexpr_ind'; cbn [map_refs_vexpr]; try reflexivity.
    - now rewrite HF.
    - f_equal. rewrite map_map. now apply map_ext_Forall.
    - f_equal. rewrite map_map. now apply map_ext_Forall.
    - now rewrite IHe1, IHe2.
    - f_equal. rewrite map_map. now apply map_ext_Forall.
  Qed.

  Lemma map_refs_stmt_idem : forall s, map_refs_stmt F (map_refs_stmt F s) = map_refs_stmt F s.
  Proof.
    induction s using vstmt_ind'; cbn [map_refs_stmt]; try reflexivity.
    - now rewrite HF, map_refs_vexpr_idem.
    - f_equal. rewrite map_map. now apply map_ext_Forall.
    - f_equal; rewrite map_map; now apply map_ext_Forall.
    - cbn [vc_op vc_l vc_r]. rewrite !map_refs_vexpr_idem. f_equal; rewrite map_map; now apply map_ext_Forall.
  Qed.
End map_refs_idem.

Theorem add_explicit_idem ds b : add_explicit ds (add_explicit ds b) = add_explicit ds b.
Proof.
  unfold add_explicit. rewrite map_map. apply map_ext_Forall. apply Forall_forall. intros s _.
  apply map_refs_stmt_idem. apply add_idx_idem.
Qed.

Theorem remove_explicit_idem b : remove_explicit (remove_explicit b) = remove_explicit b.
Proof.
  unfold remove_explicit. rewrite map_map. apply map_ext_Forall. apply Forall_forall. intros s _.
  apply (map_refs_stmt_idem (fun _ => remove_idx)). intros _ idx. apply remove_idx_idem.
Qed.

Lemma normrange_shape_idem d : normrange_shape (normrange_shape d) = normrange_shape d.
Proof.
  destruct d as [e|lo hi]; cbn [normrange_shape]; [reflexivity|].
  destruct (is_one lo) eqn:E; cbn [normrange_shape]; [reflexivity|now rewrite E].
Qed.

Theorem normrange_decls_idem ds : normrange_decls (normrange_decls ds) = normrange_decls ds.
Proof.
  unfold normrange_decls. rewrite map_map. apply map_ext_Forall. apply Forall_forall. intros [a sh] _.
  cbn [fst snd]. f_equal. rewrite map_map. apply map_ext_Forall. apply Forall_forall. intros d _. apply normrange_shape_idem.
Qed.
