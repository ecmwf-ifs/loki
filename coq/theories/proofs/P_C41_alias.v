(** C41 — inlining one callee with [allowed_aliases] leaves a well-scoped unit.

    The substitution is C28's [inline_body] run with the caller's declared names MINUS the aliases
    ([cvars_al]), so a callee local whose name is an alias is never renamed.  Such a local is SHARED with the
    caller's declaration when the caller declares that name (nothing is hoisted; [inline_class_al] says the
    caller declares it with the kind the callee gives it) and is HOISTED under its own name otherwise.

    The call-site argument is [P_C41_inline.inline_step_well_scoped] with the renaming set [cvars_al] and the
    declarations [hoisted_decls_al].  The only new case is a local that stays itself and is not hoisted: it
    resolves in the caller's own declarations. *)
From Coq Require Import ZArith List Bool String Ascii Lia.
From LV Require Import Base.Expr Base.MiniF Base.ListFacts models.M_C41 proofs.P_C41_base proofs.P_C41_inline.
From LV Require models.M_C28.
Import ListNotations.
Open Scope list_scope.

Lemma mem_unfold_cons x y l : mem x (y :: l) = String.eqb x y || mem x l.
Proof. reflexivity. Qed.

Lemma mem_cvars_al al cvars v : mem v (cvars_al al cvars) = mem v cvars && negb (mem v al).
Proof.
  unfold cvars_al. induction cvars as [|c r IH]; [reflexivity|].
  cbn [filter]. rewrite mem_unfold_cons. destruct (String.eqb v c) eqn:E.
  - apply String.eqb_eq in E. subst c. cbn [orb]. destruct (mem v al) eqn:Ea; cbn [negb].
    + rewrite IH. cbn [negb andb]. apply andb_false_r.
    + rewrite mem_unfold_cons, String.eqb_refl. reflexivity.
  - cbn [orb]. destruct (negb (mem c al)); [|exact IH].
    rewrite mem_unfold_cons, E. exact IH.
Qed.

(** a shared alias is not renamed *)
Lemma hname_shared al cvars ce v : shared_alias al cvars v = true -> hname (cvars_al al cvars) ce v = v.
Proof.
  unfold shared_alias, hname. intros Es. apply andb_true_iff in Es.
  rewrite mem_C28_eq, mem_cvars_al, (proj1 Es), andb_false_r. reflexivity.
Qed.

Theorem T_inline_al_preserves_well_scoped al lbc lr ce (u u' : unit (list stmt)) :
  well_scoped uses_stmts u ->
  well_scoped uses_stmts (callee_unit lr (u_env u) ce) ->
  inline_class_al al lr ce u = true ->
  T_inline_al al lbc lr ce u = Some u' ->
  well_scoped uses_stmts u'.
Proof.
  intros W Wc Hcls HT. unfold inline_class_al in Hcls. cbn zeta in Hcls.
  apply andb_true_iff in Hcls. destruct Hcls as [Hcls Hsha].
  apply andb_true_iff in Hcls. destruct Hcls as [Hcls Hshs].
  rewrite forallb_forall in Hshs, Hsha.
  unfold T_inline_al in HT. cbn zeta in HT.
  destruct (M_C28.inline_body (cvars_al al (map fst (u_decls u))) lbc ce (u_body u)) as [b'|] eqn:Eb; [|discriminate].
  injection HT as <-.
  apply (inline_step_well_scoped lbc lr ce (cvars_al al (map fst (u_decls u))) _ u b' W Wc Hcls); [| |exact Eb].
  (* a local is shared with the caller's declaration (of the callee's kind, by the class) or hoisted *)
  - intros v Hv. specialize (Hshs v Hv). destruct (shared_alias al (map fst (u_decls u)) v) eqn:Es.
    + right. rewrite (hname_shared _ _ _ _ Es).
      destruct (klookup (u_decls u) v) as [[|n]|]; try discriminate. reflexivity.
    + left. apply in_or_app. left. apply in_map_iff. exists v. split; [reflexivity|].
      apply filter_In. split; [exact Hv | rewrite Es; reflexivity].
  - intros a Ha. specialize (Hsha a Ha). destruct (shared_alias al (map fst (u_decls u)) a) eqn:Es.
    + right. rewrite (hname_shared _ _ _ _ Es).
      destruct (klookup (u_decls u) a) as [k|]; [|discriminate]. apply kind_eqb_eq in Hsha. subst k. reflexivity.
    + left. apply in_or_app. right. apply in_map_iff. exists a. split; [reflexivity|].
      apply filter_In. split; [exact Ha | rewrite Es; reflexivity].
Qed.

Lemma cvars_al_nil cvars : cvars_al [] cvars = cvars.
Proof. unfold cvars_al. apply filter_all. intros x _. reflexivity. Qed.

Lemma hoisted_decls_al_nil cvars lr ce : hoisted_decls_al [] cvars lr ce = hoisted_decls cvars lr ce.
Proof.
  unfold hoisted_decls_al, hoisted_decls. cbn zeta. rewrite cvars_al_nil.
  rewrite !filter_all by (intros x _; reflexivity). reflexivity.
Qed.

Lemma T_inline_al_nil lbc lr ce u : T_inline_al [] lbc lr ce u = T_inline lbc lr ce u.
Proof.
  unfold T_inline_al, T_inline. cbn zeta. rewrite cvars_al_nil, hoisted_decls_al_nil. reflexivity.
Qed.

Lemma inline_class_al_nil lr ce u : inline_class_al [] lr ce u = inline_class lr ce u.
Proof.
  unfold inline_class_al, inline_class. cbn zeta. rewrite hoisted_decls_al_nil.
  assert (E1 : forall (f : string -> bool) l, forallb (fun v => negb (shared_alias [] (map fst (u_decls u)) v) || f v) l = true).
  { intros f l. apply forallb_forall. intros x _. reflexivity. }
  rewrite !E1, !andb_true_r. reflexivity.
Qed.

Fixpoint all_steps_ok_al (al : list string) (lbc : list (string * list Z)) (lrs : list lranks)
         (ces : list M_C28.callee) (u : unit (list stmt)) : Prop :=
  match ces with
  | [] => True
  | ce :: r =>
      let lr := match lrs with lr :: _ => lr | [] => [] end in
      let q := match lrs with _ :: q => q | [] => [] end in
      well_scoped uses_stmts (callee_unit lr (u_env u) ce)
      /\ inline_class_al al lr ce u = true
      /\ forall u', T_inline_al al lbc lr ce u = Some u' -> all_steps_ok_al al lbc q r u'
  end.

Lemma T_inline_all_al_cons al lbc lrs ce r u :
  T_inline_all_al al lbc lrs (ce :: r) u
  = match T_inline_al al lbc (hd [] lrs) ce u with
    | Some u' => T_inline_all_al al lbc (tl lrs) r u' | None => None end.
Proof. destruct lrs; reflexivity. Qed.

Theorem T_inline_all_al_preserves_well_scoped_partial al lbc : forall ces lrs (u u' : unit (list stmt)),
  well_scoped uses_stmts u ->
  all_steps_ok_al al lbc lrs ces u ->
  T_inline_all_al al lbc lrs ces u = Some u' ->
  well_scoped uses_stmts u'.
Proof.
  induction ces as [|ce r IH]; intros lrs u u' Hw Hs HT.
  - injection HT as <-. exact Hw.
  - rewrite T_inline_all_al_cons in HT. destruct Hs as (Hc & Hcls & Hnext).
    destruct (T_inline_al al lbc (hd [] lrs) ce u) as [u1|] eqn:E1; [|discriminate].
    exact (IH _ u1 u' (T_inline_al_preserves_well_scoped al lbc _ ce u u1 Hw Hc Hcls E1) (Hnext u1 E1) HT).
Qed.

Open Scope string_scope.

(** callee [f(s)]: scalar dummy [s] (written), locals [jl], [jk] (DO variables, both allowed aliases) and [t]
    (not an alias; clashes with the caller's [t]), host scalar [n] *)
Definition al_ce : M_C28.callee :=
  {| M_C28.ce_name := "f"; M_C28.ce_params := [("s", false)];
     M_C28.ce_locals := ["jl"; "jk"; "t"]; M_C28.ce_larrs := []; M_C28.ce_lbs := [];
     M_C28.ce_body :=
       [SDo "jl" (EInt 1) (EInt 2) None [SAssign "t" (EVar "jl")];
        SDo "jk" (EInt 1) (EVar "n") None [SAssign "s" (ESum false [EVar "t"; EVar "jk"])]] |}.

(** the caller declares [jl] (shared with the callee) and [t], but not [jk] *)
Definition al_u : unit (list stmt) :=
  mkUnit ["x"] [("x", KScalar); ("jl", KScalar); ("t", KScalar)] [] [("n", KScalar)] []
    [SDo "jl" (EInt 1) (EInt 3) None [SAssign "t" (EVar "jl"); SCall "f" [EVar "x"]];
     SCall "g" [EVar "t"]].

Definition al_al : list string := ["jl"; "jk"].

Example T_inline_al_inhabited :
  inline_class_al al_al [] al_ce al_u = true
  /\ well_scopedb uses_stmts al_u = true
  /\ well_scopedb uses_stmts (callee_unit [] (u_env al_u) al_ce) = true
  /\ exists u', T_inline_al al_al [] [] al_ce al_u = Some u'
       /\ u_decls u' = (u_decls al_u ++ [("jk", KScalar); ("f_t", KScalar)])%list
       /\ u_body u' =
            [SDo "jl" (EInt 1) (EInt 3) None
               [SAssign "t" (EVar "jl");
                SDo "jl" (EInt 1) (EInt 2) None [SAssign "f_t" (EVar "jl")];
                SDo "jk" (EInt 1) (EVar "n") None [SAssign "x" (ESum false [EVar "f_t"; EVar "jk"])]];
             SCall "g" [EVar "t"]]
       /\ well_scopedb uses_stmts u' = true.
Proof.
  split; [vm_compute; reflexivity|]. split; [vm_compute; reflexivity|]. split; [vm_compute; reflexivity|].
  eexists. split; [vm_compute; reflexivity|].
  split; [reflexivity|]. split; [reflexivity | vm_compute; reflexivity].
Qed.

(** the seeded defect as an alternative declaration change: if NO alias is hoisted (also not the ones the
    caller does not declare), the result is not well-scoped — [jk] is used as a DO variable but declared nowhere *)
Theorem T_inline_al_unhoisted_refuted :
  exists al lbc lr ce (u : unit (list stmt)) b',
    well_scoped uses_stmts u
    /\ inline_class_al al lr ce u = true
    /\ M_C28.inline_body (cvars_al al (map fst (u_decls u))) lbc ce (u_body u) = Some b'
    /\ ~ well_scoped uses_stmts
         (mkUnit (u_args u)
                 (u_decls u ++ filter (fun d => negb (mem (fst d) al))
                                      (hoisted_decls_al al (map fst (u_decls u)) lr ce))%list
                 (u_shapes u) (u_ext u) (u_inner u) b').
Proof.
  exists al_al, [], [], al_ce, al_u. eexists.
  split; [apply well_scopedb_spec; vm_compute; reflexivity|].
  split; [vm_compute; reflexivity|].
  split; [vm_compute; reflexivity|].
  intros H. apply well_scopedb_spec in H. vm_compute in H. discriminate.
Qed.

(** the same with the callee's own well-scopedness: every hypothesis of the theorem holds *)
Theorem T_inline_al_unhoisted_refuted_full :
  exists al lbc lr ce (u : unit (list stmt)) b',
    well_scoped uses_stmts u
    /\ well_scoped uses_stmts (callee_unit lr (u_env u) ce)
    /\ inline_class_al al lr ce u = true
    /\ M_C28.inline_body (cvars_al al (map fst (u_decls u))) lbc ce (u_body u) = Some b'
    /\ ~ well_scoped uses_stmts
         (mkUnit (u_args u)
                 (u_decls u ++ filter (fun d => negb (mem (fst d) al))
                                      (hoisted_decls_al al (map fst (u_decls u)) lr ce))%list
                 (u_shapes u) (u_ext u) (u_inner u) b').
Proof.
  exists al_al, [], [], al_ce, al_u. eexists.
  split; [apply well_scopedb_spec; vm_compute; reflexivity|].
  split; [apply well_scopedb_spec; vm_compute; reflexivity|].
  split; [vm_compute; reflexivity|].
  split; [vm_compute; reflexivity|].
  intros H. apply well_scopedb_spec in H. vm_compute in H. discriminate.
Qed.

(** the same instance, the missing name made explicit *)
Example T_inline_al_unhoisted_missing :
  forall b', M_C28.inline_body (cvars_al al_al (map fst (u_decls al_u))) [] al_ce (u_body al_u) = Some b' ->
    In ("jk", UScal) (uses_stmts b')
    /\ klookup ((u_decls al_u ++ filter (fun d => negb (mem (fst d) al_al))
                                        (hoisted_decls_al al_al (map fst (u_decls al_u)) [] al_ce)) ++ u_ext al_u)%list
               "jk" = None.
Proof.
  intros b' H. vm_compute in H. inversion H; subst b'. split; [|vm_compute; reflexivity].
  vm_compute. repeat ((left; reflexivity) || right).
Qed.

(** a shared ARRAY alias: the callee's local array [w] (rank 2) is an alias that the caller declares with the
    same rank; nothing is hoisted for it and [w(..)] in the inlined code is the caller's [w] *)
Definition ar_ce : M_C28.callee :=
  {| M_C28.ce_name := "f"; M_C28.ce_params := []; M_C28.ce_locals := ["jl"]; M_C28.ce_larrs := ["w"; "z"];
     M_C28.ce_lbs := [];
     M_C28.ce_body := [SDo "jl" (EInt 1) (EInt 2) None
                         [SStore "w" [EVar "jl"; EInt 1] (EInt 0); SStore "z" [EVar "jl"] (ECall "w" [EInt 1; EVar "jl"])]] |}.
Definition ar_u : unit (list stmt) :=
  mkUnit [] [("w", KArray 2); ("z", KArray 1)] [] [] [] [SCall "f" []].

Example T_inline_al_shared_array :
  inline_class_al ["jl"; "w"] [("w", 2%nat)] ar_ce ar_u = true
  /\ well_scopedb uses_stmts ar_u = true
  /\ well_scopedb uses_stmts (callee_unit [("w", 2%nat)] (u_env ar_u) ar_ce) = true
  /\ exists u', T_inline_al ["jl"; "w"] [] [("w", 2%nat)] ar_ce ar_u = Some u'
       /\ u_decls u' = [("w", KArray 2); ("z", KArray 1); ("jl", KScalar); ("f_z", KArray 1)]
       /\ well_scopedb uses_stmts u' = true.
Proof.
  split; [vm_compute; reflexivity|]. split; [vm_compute; reflexivity|]. split; [vm_compute; reflexivity|].
  eexists. split; [vm_compute; reflexivity|]. split; [reflexivity | vm_compute; reflexivity].
Qed.

(** ... and the class excludes a shared alias that the caller declares with another kind *)
Example T_inline_al_class_kind :
  inline_class_al ["jl"; "w"] [("w", 2%nat)] ar_ce (set_decls ar_u [("w", KArray 1); ("z", KArray 1)]) = false.
Proof. vm_compute; reflexivity. Qed.

Print Assumptions T_inline_al_preserves_well_scoped.
Print Assumptions T_inline_all_al_preserves_well_scoped_partial.
Print Assumptions T_inline_al_unhoisted_refuted.
