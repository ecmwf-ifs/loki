(** C41 — do_resolve_associates (start_depth 0) at unit level: on the class where C29's substitution is
    defined everywhere ([M_C29.valid]: ranks fit, no subscripted / assigned expression selector, DO variables
    are plain aliases) the unit produced by [T_assoc] is well-scoped: every name left in the flat body is a
    name of the enclosing unit, used with the kind it is declared with.

    Outside of the class: a whole-section assignment [q = 0] under [associate(q => arr(2:4))] is well-scoped
    in the source, the model of the mapper keeps [q] (the ranks do not fit) and the flat body refers to a name
    that no longer exists ([T_assoc_unresolved_refuted]). *)
From Coq Require Import ZArith List Bool String Ascii Lia.
From LV Require Import Base.Expr Base.MiniF Base.ListFacts models.M_C41 proofs.P_C41_base.
From LV Require models.M_C29.
Import ListNotations.

Module A := M_C29.

Lemma free_dims_cons d r :
  free_dims (d :: r) = (match d with A.DFree _ => S (free_dims r) | A.DFix _ => free_dims r end).
Proof. unfold free_dims. cbn. destruct d; reflexivity. Qed.

Lemma free_dims_subst sg ds : free_dims (map (A.subst_dim sg) ds) = free_dims ds.
Proof.
  induction ds as [|d r IH]; [reflexivity|].
  cbn [map]. rewrite !free_dims_cons, IH. destruct d; reflexivity.
Qed.

Lemma fille_spec env ds : forall args idx,
  A.fille ds args = Some idx ->
  List.length idx = List.length ds
  /\ (uses_ok env (flat_map uses_dim ds) = true -> uses_ok env (uses_es args) = true ->
      uses_ok env (uses_es idx) = true).
Proof.
  induction ds as [|d r IH]; intros args idx H.
  - destruct args; [|discriminate]. injection H as <-. split; reflexivity.
  - destruct d as [e|off]; cbn [A.fille] in H.
    + apply option_map_some in H. destruct H as [i' [Hf ->]].
      destruct (IH _ _ Hf) as [L U]. split; [cbn; rewrite L; reflexivity|].
      cbn [flat_map uses_dim uses_es]. rewrite !uses_ok_app. intros Hd Ha.
      apply andb_true_iff in Hd. rewrite (proj1 Hd). exact (U (proj2 Hd) Ha).
    + destruct args as [|a ar]; [discriminate|].
      apply option_map_some in H. destruct H as [i' [Hf ->]].
      destruct (IH _ _ Hf) as [L U]. split; [cbn; rewrite L; reflexivity|].
      cbn [flat_map uses_dim uses_es app]. rewrite !uses_ok_app. intros Hd Ha.
      apply andb_true_iff in Ha. rewrite (proj1 Ha). exact (U Hd (proj2 Ha)).
Qed.

Lemma filld_spec env ds0 : forall ds r,
  A.filld ds0 ds = Some r ->
  List.length r = List.length ds0
  /\ free_dims r = free_dims ds
  /\ (uses_ok env (flat_map uses_dim ds0) = true -> uses_ok env (flat_map uses_dim ds) = true ->
      uses_ok env (flat_map uses_dim r) = true).
Proof.
  induction ds0 as [|d q IH]; intros ds r H.
  - destruct ds; [|discriminate]. injection H as <-. repeat split; reflexivity.
  - destruct d as [e|off]; cbn [A.filld] in H.
    + apply option_map_some in H. destruct H as [r' [Hf ->]].
      destruct (IH _ _ Hf) as (L & F & U). rewrite free_dims_cons.
      split; [cbn; rewrite L; reflexivity | split; [exact F|]].
      cbn [flat_map uses_dim]. rewrite !uses_ok_app. intros Hd Ha.
      apply andb_true_iff in Hd. rewrite (proj1 Hd). exact (U (proj2 Hd) Ha).
    + destruct ds as [|a ar]; [discriminate|].
      apply option_map_some in H. destruct H as [r' [Hf ->]].
      destruct (IH _ _ Hf) as (L & F & U). rewrite !free_dims_cons.
      split; [cbn; rewrite L; reflexivity | split; [rewrite F; reflexivity|]].
      cbn [flat_map uses_dim app]. rewrite !uses_ok_app. intros Hd Ha.
      apply andb_true_iff in Ha. rewrite (proj1 Ha). exact (U Hd (proj2 Ha)).
Qed.

Lemma is_some_inv {X} (o : option X) : A.is_some o = true -> exists x, o = Some x.
Proof. destruct o as [x|]; [exists x; reflexivity | discriminate]. Qed.

Lemma uses_ok_call env f idx :
  use_ok env (f, UArr (List.length idx)) = true -> uses_ok env (flat_map uses_e idx) = true ->
  uses_ok env (uses_e (ECall f idx)) = true.
Proof.
  intros Hf Hi. cbn [uses_e]. rewrite uses_ok_app, Hi, andb_true_r.
  destruct (is_intr f); [reflexivity|]. rewrite uses_ok_cons, Hf. reflexivity.
Qed.

(** a section selector whose own uses resolve, applied to subscripts that resolve *)
Lemma fille_sec_ok env a ds args idx :
  uses_ok env (uses_sel (A.SSec a ds)) = true -> A.fille ds args = Some idx ->
  uses_ok env (uses_es args) = true ->
  use_ok env (a, UArr (List.length idx)) = true /\ uses_ok env (uses_es idx) = true.
Proof.
  cbn [uses_sel]. rewrite uses_ok_cons, andb_true_iff. intros [Ia Id] Hf Ua.
  destruct (fille_spec env _ _ _ Hf) as [L Uf]. rewrite L. split; [exact Ia | exact (Uf Id Ua)].
Qed.

(** [sg]: already-resolved selectors (innermost first); [envs]: the environment [ws_astmt] threads;
    [env0]: the environment of the unit.  An associate name has, inside the blocks, the kind of its
    resolved selector in the unit, and the resolved selector only uses names of the unit; any other name
    means inside the blocks what it means in the unit. *)
Definition scope_inv (env0 : denv) (sg : A.smap) (envs : denv) : Prop :=
  forall x,
    match A.lookup sg x with
    | Some sl => uses_ok env0 (uses_sel sl) = true /\ sel_kind env0 sl = klookup envs x
    | None => klookup envs x = klookup env0 x
    end.

Lemma scope_inv_nil env0 : scope_inv env0 [] env0.
Proof. intros x. reflexivity. Qed.

Section Subst.
  Variables (env0 : denv) (sg : A.smap) (envs : denv).
  Hypothesis Hinv : scope_inv env0 sg envs.

  Definition expr_goal (e : expr) : Prop :=
    uses_ok envs (uses_e e) = true -> A.okE sg e = true -> uses_ok env0 (uses_e (A.subst sg e)) = true.

  Lemma sel_subst_list_ok cs :
    Forall expr_goal cs ->
    uses_ok envs (flat_map uses_e cs) = true -> forallb (A.okE sg) cs = true ->
    uses_ok env0 (flat_map uses_e (map (A.subst sg) cs)) = true.
  Proof.
    induction 1 as [|e r He Hr IH]; [reflexivity|].
    cbn [flat_map map forallb]. rewrite !uses_ok_app, !andb_true_iff.
    intros [U1 U2] [O1 O2]. split; [apply He; assumption | apply IH; assumption].
  Qed.

  Lemma sel_subst_ok e : expr_goal e.
  Proof.
    induction e as [v|v|x|b|p cs IH|p cs IH|p e1 e2 IHe1 IHe2|p e1 e2 IHe1 IHe2|o e1 e2 IHe1 IHe2|cs IH|cs IH|e IHe|f args IH]
      using expr_ind'; unfold expr_goal in *; cbn [uses_e A.okE A.subst].
    (* literals, n-ary operators, binary operators *)
    1,2,4: reflexivity.
    2,3,7,8: apply sel_subst_list_ok; assumption.
    2-4: rewrite !uses_ok_app, !andb_true_iff; intros [U1 U2] [O1 O2]; split; [apply IHe1 | apply IHe2]; assumption.
    - intros U O. specialize (Hinv x).
      destruct (A.lookup sg x) as [[y|a ds|e']|]; try exact (proj1 Hinv).
      + apply is_some_inv in O. destruct O as [idx Hf]. rewrite Hf.
        destruct (fille_sec_ok env0 _ _ _ _ (proj1 Hinv) Hf eq_refl). apply uses_ok_call; assumption.
      + cbn [uses_e]. rewrite uses_ok_cons in *. apply andb_true_iff in U.
        rewrite (use_ok_transfer envs env0 x x UAny); [reflexivity | symmetry; exact Hinv | apply U].
    - exact IHe.
    - change (A.is_intr f) with (is_intr f). rewrite uses_ok_app, !andb_true_iff.
      intros [U1 U2] [O1 O2].
      assert (Ua : uses_ok env0 (flat_map uses_e (map (A.subst sg) args)) = true)
        by (apply sel_subst_list_ok; assumption).
      destruct (is_intr f) eqn:Ef; [cbn [uses_e]; rewrite Ef; exact Ua|].
      rewrite uses_ok_cons in U1. apply andb_true_iff in U1. destruct U1 as [U1 _].
      specialize (Hinv f).
      destruct (A.lookup sg f) as [[y|a ds|e']|]; [| |discriminate|].
      + apply uses_ok_call; [|exact Ua]. rewrite map_length.
        apply (use_ok_transfer envs env0 f y); [exact (proj2 Hinv) | exact U1].
      + apply is_some_inv in O2. destruct O2 as [idx Hf]. rewrite Hf.
        destruct (fille_sec_ok env0 _ _ _ _ (proj1 Hinv) Hf Ua). apply uses_ok_call; assumption.
      + apply uses_ok_call; [|exact Ua]. rewrite map_length.
        apply (use_ok_transfer envs env0 f f); [symmetry; exact Hinv | exact U1].
  Qed.

  Lemma sel_subst_es_ok l :
    uses_ok envs (uses_es l) = true -> forallb (A.okE sg) l = true ->
    uses_ok env0 (uses_es (map (A.subst sg) l)) = true.
  Proof.
    unfold uses_es. apply sel_subst_list_ok. apply Forall_forall. intros e _. apply sel_subst_ok.
  Qed.

  Lemma sel_subst_oe_ok o :
    uses_ok envs (uses_oe o) = true -> match o with Some e => A.okE sg e | None => true end = true ->
    uses_ok env0 (uses_oe (option_map (A.subst sg) o)) = true.
  Proof. destruct o as [e|]; cbn [uses_oe option_map]; [apply sel_subst_ok | reflexivity]. Qed.

  Lemma subst_dims_ok ds :
    uses_ok envs (flat_map uses_dim ds) = true -> forallb (A.okD sg) ds = true ->
    uses_ok env0 (flat_map uses_dim (map (A.subst_dim sg) ds)) = true.
  Proof.
    induction ds as [|d r IH]; [reflexivity|].
    cbn [flat_map map forallb]. rewrite !uses_ok_app, !andb_true_iff.
    intros [U1 U2] [O1 O2]. split; [|apply IH; assumption].
    destruct d as [e|off]; cbn [A.subst_dim uses_dim]; [apply sel_subst_ok; assumption | reflexivity].
  Qed.

  (** selectors of an inner block *)
  Lemma subst_sel_ok sl :
    uses_ok envs (uses_sel sl) = true -> A.okS sg sl = true ->
    uses_ok env0 (uses_sel (A.subst_sel sg sl)) = true
    /\ sel_kind env0 (A.subst_sel sg sl) = sel_kind envs sl
    /\ sel_kind envs sl <> None.
  Proof.
    destruct sl as [y|a ds|e]; cbn [uses_sel A.okS A.subst_sel sel_kind].
    - intros U _. rewrite uses_ok_cons, andb_true_r in U. specialize (Hinv y).
      destruct (A.lookup sg y) as [v|].
      + destruct Hinv as [I1 I2]. repeat split; [exact I1 | exact I2|].
        apply use_ok_any. exact U.
      + cbn [uses_sel sel_kind]. rewrite uses_ok_cons, andb_true_r. repeat split.
        * apply (use_ok_transfer envs env0 y y); [symmetry; exact Hinv | exact U].
        * symmetry. exact Hinv.
        * apply use_ok_any. exact U.
    - rewrite uses_ok_cons, !andb_true_iff. intros [Ua Ud] [Od Ol].
      assert (Ud' := subst_dims_ok _ Ud Od).
      specialize (Hinv a).
      destruct (A.lookup sg a) as [[b|b ds0|e']|].
      + destruct Hinv as [_ I2]. cbn [sel_kind] in I2.
        cbn [uses_sel sel_kind]. rewrite free_dims_subst, uses_ok_cons, map_length, Ud', andb_true_r.
        repeat split; [|discriminate].
        apply (use_ok_transfer envs env0 a b); [exact I2 | exact Ua].
      + apply is_some_inv in Ol. destruct Ol as [r Hf]. rewrite Hf.
        destruct Hinv as [I1 _]. cbn [uses_sel] in I1. rewrite uses_ok_cons in I1.
        apply andb_true_iff in I1. destruct I1 as [Ib Id0].
        destruct (filld_spec env0 _ _ _ Hf) as (L & F & Uf).
        cbn [uses_sel sel_kind]. rewrite F, free_dims_subst, uses_ok_cons, L, Ib.
        repeat split; [|discriminate]. apply Uf; assumption.
      + discriminate.
      + cbn [uses_sel sel_kind]. rewrite free_dims_subst, uses_ok_cons, map_length, Ud', andb_true_r.
        repeat split; [|discriminate].
        apply (use_ok_transfer envs env0 a a); [symmetry; exact Hinv | exact Ua].
    - intros U O. repeat split; [apply sel_subst_ok; assumption | discriminate].
  Qed.

  (** the block case: both maps are extended in step *)
  Lemma scope_inv_ext l :
    forallb (fun p => uses_ok envs (uses_sel (snd p))) l = true ->
    forallb (fun p => A.okS sg (snd p)) l = true ->
    scope_inv env0 (A.subst_assocs sg l ++ sg) (assoc_env envs l ++ envs).
  Proof.
    induction l as [|[x sl] r IH]; [intros _ _; exact Hinv|].
    cbn [forallb snd]. rewrite !andb_true_iff. intros [U1 U2] [O1 O2].
    specialize (IH U2 O2).
    destruct (subst_sel_ok sl U1 O1) as [S1 [S2 S3]].
    intros y. specialize (IH y).
    unfold A.subst_assocs, assoc_env in *. cbn [map flat_map fst snd app A.lookup].
    destruct (sel_kind envs sl) as [k|] eqn:Ek; [|congruence].
    cbn [app klookup].
    destruct (String.eqb x y); [split; assumption | exact IH].
  Qed.

  Lemma resolve_assign_ok x rhs :
    use_ok envs (x, UAny) = true -> A.okW sg x = true -> uses_ok env0 (uses_e rhs) = true ->
    uses_ok env0 (uses_stmt (A.resolve_assign sg x rhs)) = true.
  Proof.
    unfold A.okW, A.resolve_assign. intros U O R. specialize (Hinv x).
    destruct (A.lookup sg x) as [[y|a ds|e']|]; [| |discriminate|].
    - destruct Hinv as [I1 _]. cbn [uses_sel] in I1. rewrite uses_ok_cons, andb_true_r in I1.
      cbn [uses_stmt]. rewrite uses_ok_cons, I1. exact R.
    - apply is_some_inv in O. destruct O as [idx Hf]. rewrite Hf.
      destruct (fille_sec_ok env0 _ _ _ _ (proj1 Hinv) Hf eq_refl) as [Ha Hi].
      cbn [uses_stmt]. rewrite uses_ok_cons, uses_ok_app, Ha, Hi, R. reflexivity.
    - cbn [uses_stmt]. rewrite uses_ok_cons, R, andb_true_r.
      apply (use_ok_transfer envs env0 x x); [symmetry; exact Hinv | exact U].
  Qed.

  Lemma resolve_store_ok a idx rhs n :
    use_ok envs (a, UArr n) = true -> List.length idx = n -> A.okWa sg a idx = true ->
    uses_ok env0 (uses_es idx) = true -> uses_ok env0 (uses_e rhs) = true ->
    uses_ok env0 (uses_stmt (A.resolve_store sg a idx rhs)) = true.
  Proof.
    unfold A.okWa, A.resolve_store. intros U Hn O Ui R. specialize (Hinv a).
    destruct (A.lookup sg a) as [[b|b ds|e']|]; [| |discriminate|].
    - cbn [uses_stmt]. rewrite uses_ok_cons, uses_ok_app, Ui, R, Hn, andb_true_r.
      apply (use_ok_transfer envs env0 a b); [exact (proj2 Hinv) | exact U].
    - apply is_some_inv in O. destruct O as [i Hf]. rewrite Hf.
      destruct (fille_sec_ok env0 _ _ _ _ (proj1 Hinv) Hf Ui) as [Ha Hi].
      cbn [uses_stmt]. rewrite uses_ok_cons, uses_ok_app, Ha, Hi, R. reflexivity.
    - cbn [uses_stmt]. rewrite uses_ok_cons, uses_ok_app, Ui, R, Hn, andb_true_r.
      apply (use_ok_transfer envs env0 a a); [symmetry; exact Hinv | exact U].
  Qed.

  Lemma subst_name_ok v :
    use_ok envs (v, UScal) = true -> A.okV sg v = true -> use_ok env0 (A.subst_name sg v, UScal) = true.
  Proof.
    unfold A.okV, A.subst_name. intros U O. specialize (Hinv v).
    destruct (A.lookup sg v) as [[y|a ds|e']|]; try discriminate.
    - destruct Hinv as [_ I2]. cbn [sel_kind] in I2.
      apply (use_ok_transfer envs env0 v y); [exact I2 | exact U].
    - apply (use_ok_transfer envs env0 v v); [symmetry; exact Hinv | exact U].
  Qed.
End Subst.

Definition astmt_goal (env0 : denv) (st : A.astmt) : Prop :=
  forall sg envs, scope_inv env0 sg envs -> ws_astmt envs st = true -> A.valid_stmt sg st = true ->
                  uses_ok env0 (uses_stmts (A.resolve_stmt sg st)) = true.

Lemma resolve_list_ok env0 l :
  Forall (astmt_goal env0) l ->
  forall sg envs, scope_inv env0 sg envs ->
    forallb (ws_astmt envs) l = true -> forallb (A.valid_stmt sg) l = true ->
    uses_ok env0 (flat_map uses_stmt (flat_map (A.resolve_stmt sg) l)) = true.
Proof.
  induction 1 as [|st r Hs Hr IH]; intros sg envs Hinv W V; [reflexivity|].
  cbn [flat_map forallb] in *. apply andb_true_iff in W, V. destruct W as [W1 W2], V as [V1 V2].
  rewrite flat_map_app, uses_ok_app. apply andb_true_iff. split.
  - apply (Hs sg envs); assumption.
  - apply (IH sg envs); assumption.
Qed.

Lemma resolve_stmt_ok env0 st : astmt_goal env0 st.
Proof.
  induction st as [x e|a i e|v lo hi st b IHb|c t e IHt IHe|l|a b IHb] using A.astmt_ind'; unfold astmt_goal; intros sg envs Hinv W V;
    cbn [ws_astmt A.valid_stmt A.resolve_stmt] in *; unfold uses_stmts; cbn [flat_map]; rewrite ?app_nil_r.
  - apply andb_true_iff in W, V. destruct W as [W1 W2], V as [V1 V2].
    apply (resolve_assign_ok env0 sg envs Hinv); [exact W1 | exact V2|].
    apply (sel_subst_ok env0 sg envs Hinv); assumption.
  - rewrite !andb_true_iff in W, V. destruct W as [[W1 W2] W3], V as [[V1 V2] V3].
    apply (resolve_store_ok env0 sg envs Hinv a _ _ (List.length i)).
    + exact W1.
    + apply map_length.
    + exact V3.
    + apply (sel_subst_es_ok env0 sg envs Hinv); assumption.
    + apply (sel_subst_ok env0 sg envs Hinv); assumption.
  - rewrite !andb_true_iff in W, V.
    destruct W as [[[[W1 W2] W3] W4] W5], V as [[[[V1 V2] V3] V4] V5].
    cbn [uses_stmt]. rewrite uses_ok_cons, !uses_ok_app, !andb_true_iff. repeat split.
    + apply (subst_name_ok env0 sg envs Hinv); assumption.
    + apply (sel_subst_ok env0 sg envs Hinv); assumption.
    + apply (sel_subst_ok env0 sg envs Hinv); assumption.
    + apply (sel_subst_oe_ok env0 sg envs Hinv); assumption.
    + apply (resolve_list_ok env0 b IHb sg envs Hinv); assumption.
  - rewrite !andb_true_iff in W, V. destruct W as [[W1 W2] W3], V as [[V1 V2] V3].
    cbn [uses_stmt]. rewrite !uses_ok_app, !andb_true_iff. repeat split.
    + apply (sel_subst_ok env0 sg envs Hinv); assumption.
    + apply (resolve_list_ok env0 t IHt sg envs Hinv); assumption.
    + apply (resolve_list_ok env0 e IHe sg envs Hinv); assumption.
  - reflexivity.
  - rewrite !andb_true_iff in W, V. destruct W as [W1 W2], V as [V1 V2].
    apply (resolve_list_ok env0 b IHb (A.subst_assocs sg a ++ sg) (assoc_env envs a ++ envs)).
    + apply scope_inv_ext; assumption.
    + exact W2.
    + exact V2.
Qed.

Theorem T_assoc_preserves_well_scoped (u : unit (list A.astmt)) :
  well_scoped_a u ->
  A.valid (u_body u) = true ->
  well_scoped uses_stmts (T_assoc u).
Proof.
  intros [W0 W] V. unfold T_assoc, T_body. apply (set_body_well_scoped (fun _ => []) uses_stmts u _ W0).
  apply uses_ok_Forall. unfold A.resolve, A.resolve_list, uses_stmts.
  apply (resolve_list_ok (u_env u) (u_body u)) with (envs := u_env u);
    [apply Forall_forall; intros st _; apply resolve_stmt_ok | apply scope_inv_nil | exact W | exact V].
Qed.

Local Open Scope string_scope.

(** nested blocks, the inner one shadows both names of the outer one (its selectors are resolved in the
    outer scope); a section selector is used with a subscript on both sides, composed with a section of
    itself, and an element selector is assigned *)
Definition ex_unit : unit (list A.astmt) :=
  mkUnit ["arr"]
         [("arr", KArray 2); ("n", KScalar); ("i", KScalar); ("x", KScalar)]
         [] [("kmax", KScalar)] []
         [A.AAssoc [("q", A.SSec "arr" [A.DFree 0; A.DFix (EVar "n")]); ("s", A.SName "x")]
            [A.ADo "i" (EInt 1) (EVar "kmax") None
               [A.AStore "q" [EVar "i"] (ESum false [EVar "s"; ECall "q" [ECall "max" [EVar "i"; EInt 1]]]);
                A.AAssoc [("s", A.SSec "q" [A.DFix (EVar "i")]); ("q", A.SName "s"); ("r", A.SSec "q" [A.DFree 0])]
                  [A.AAssign "s" (ESum false [EVar "q"; ECall "r" [EVar "i"]]);
                   A.AAssoc [("i", A.SName "q")]
                     [A.ADo "i" (EInt 1) (EInt 2) None [A.AStore "r" [EInt 1] (EVar "i")]]]]]].

Example T_assoc_class_inhabited :
  well_scoped_ab ex_unit = true
  /\ A.valid (u_body ex_unit) = true
  /\ well_scopedb uses_stmts (T_assoc ex_unit) = true
  /\ u_body (T_assoc ex_unit) =
     [SDo "i" (EInt 1) (EVar "kmax") None
        [SStore "arr" [EVar "i"; EVar "n"]
                (ESum false [EVar "x"; ECall "arr" [ECall "max" [EVar "i"; EInt 1]; EVar "n"]]);
         SStore "arr" [EVar "i"; EVar "n"] (ESum false [EVar "x"; ECall "arr" [EVar "i"; EVar "n"]]);
         SDo "x" (EInt 1) (EInt 2) None [SStore "arr" [EInt 1; EVar "n"] (EVar "x")]]].
Proof. vm_compute. repeat split; reflexivity. Qed.

(** [associate(q => arr(2:4)); q = 0; end associate]: the whole-section assignment is well-scoped, the
    substitution is not defined on it (no subscript to bind the range to), the model keeps [q] *)
Definition bad_unit : unit (list A.astmt) :=
  mkUnit [] [("arr", KArray 1)] [] [] []
         [A.AAssoc [("q", A.SSec "arr" [A.DFree 1])] [A.AAssign "q" (EInt 0)]].

Example bad_unit_outside_class : A.valid (u_body bad_unit) = false.
Proof. vm_compute. reflexivity. Qed.

Theorem T_assoc_unresolved_refuted :
  exists u, well_scoped_a u /\ ~ well_scoped uses_stmts (T_assoc u).
Proof.
  exists bad_unit. split; [split|].
  - apply well_scopedb_spec. vm_compute. reflexivity.
  - vm_compute. reflexivity.
  - intros H. apply well_scopedb_spec in H. vm_compute in H. discriminate.
Qed.

Print Assumptions T_assoc_preserves_well_scoped.
Print Assumptions T_assoc_unresolved_refuted.
