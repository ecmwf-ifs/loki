(** C41 — basic facts: boolean reflection of [well_scoped], lookups in extended environments, and the two
    shapes every unit-level argument has: names that are still used keep their declaration
    ([resolves_keep], [transfer]), or the declarations only grow ([env_le], [well_scoped_redeclare]).
    The last third ([add_scalars_*], section [AddScalars]) is about the declaration setter of
    resolve_vector_notation and is used by [P_C41_vec] only. *)
From Coq Require Import ZArith List Bool String Ascii Lia.
From LV Require Import Base.Expr Base.MiniF Base.ListFacts models.M_C41.
From LV Require models.M_C30.
Import ListNotations.

Lemma mem_In x l : mem x l = true <-> In x l.
Proof. exact (existsb_eqb_In x l). Qed.

Lemma mem_false x l : mem x l = false <-> ~ In x l.
Proof. exact (existsb_eqb_false x l). Qed.

Lemma forallb_not_mem (l h : list string) :
  forallb (fun x => negb (mem x l)) h = true -> forall x, In x h -> ~ In x l.
Proof. rewrite forallb_forall. intros H x Hx. apply mem_false, negb_true_iff, H, Hx. Qed.

Lemma NoDup_app_iff {A} (l1 l2 : list A) :
  NoDup (l1 ++ l2) <-> NoDup l1 /\ NoDup l2 /\ (forall x, In x l1 -> ~ In x l2).
Proof.
  induction l1 as [|a r IH]; cbn.
  - split; [intros H; repeat split; [constructor | exact H | intros x []] | intros [_ [H _]]; exact H].
  - rewrite !NoDup_cons_iff, IH, in_app_iff. split.
    + intros [Na [Nr [N2 D]]]. repeat split; try tauto. intros x [<-|Hx]; [tauto | apply D; exact Hx].
    + intros [[Na Nr] [N2 D]]. repeat split; try tauto.
      * intros [Hr|H2]; [tauto | exact (D a (or_introl eq_refl) H2)].
      * intros x Hx. apply D. right. exact Hx.
Qed.

Lemma klookup_app a b x :
  klookup (a ++ b) x = match klookup a x with Some k => Some k | None => klookup b x end.
Proof.
  induction a as [|[y k] r IH]; cbn; [reflexivity|].
  destruct (String.eqb y x); [reflexivity | exact IH].
Qed.

Lemma klookup_none env x : klookup env x = None <-> ~ In x (map fst env).
Proof.
  induction env as [|[y k] r IH]; cbn.
  - split; [intros _ [] | reflexivity].
  - destruct (String.eqb y x) eqn:E.
    + apply String.eqb_eq in E. subst. split; [discriminate | intros H; exfalso; apply H; left; reflexivity].
    + apply String.eqb_neq in E. rewrite IH. split.
      * intros H [A|A]; [congruence | contradiction].
      * intros H A. apply H. right. exact A.
Qed.

Lemma klookup_some_in env x k : klookup env x = Some k -> In (x, k) env.
Proof.
  induction env as [|[y k'] r IH]; cbn; [discriminate|].
  destruct (String.eqb y x) eqn:E.
  - apply String.eqb_eq in E. subst. intros H. inversion H. left. reflexivity.
  - intros H. right. apply IH. exact H.
Qed.

Lemma klookup_in_names env x k : klookup env x = Some k -> In x (map fst env).
Proof. intros H. apply klookup_some_in in H. apply (in_map fst) in H. exact H. Qed.

Lemma klookup_nodup_in env x k : NoDup (map fst env) -> In (x, k) env -> klookup env x = Some k.
Proof.
  induction env as [|[y k'] r IH]; cbn; [intros _ []|].
  intros Hn [A|A].
  - inversion A; subst. rewrite String.eqb_refl. reflexivity.
  - inversion Hn; subst. destruct (String.eqb y x) eqn:E.
    + apply String.eqb_eq in E. subst. exfalso. apply H1. apply (in_map fst) in A. exact A.
    + apply IH; assumption.
Qed.

Lemma klookup_filter_keep (P : string * kind -> bool) env x k :
  klookup env x = Some k -> (forall k', P (x, k') = true) -> klookup (filter P env) x = Some k.
Proof.
  induction env as [|[y k'] r IH]; cbn; [discriminate|].
  intros H HP. destruct (String.eqb y x) eqn:E.
  - apply String.eqb_eq in E. subst. rewrite HP. cbn. rewrite String.eqb_refl. exact H.
  - destruct (P (y, k')); cbn; [rewrite E|]; apply IH; assumption.
Qed.

Lemma use_ok_resolves env u : use_ok env u = true <-> resolves env u.
Proof.
  unfold use_ok, resolves. destruct (klookup env (fst u)) as [k|].
  - split; [intros H; exists k; split; [reflexivity | exact H] | intros [k' [A B]]; inversion A; subst; exact B].
  - split; [discriminate | intros [k' [A _]]; discriminate].
Qed.

Lemma uses_ok_Forall env us : uses_ok env us = true <-> Forall (resolves env) us.
Proof.
  unfold uses_ok. rewrite forallb_forall, Forall_forall. split; intros H x Hx.
  - apply use_ok_resolves. apply H. exact Hx.
  - apply use_ok_resolves. apply H. exact Hx.
Qed.

Lemma uses_ok_app env a b : uses_ok env (a ++ b) = uses_ok env a && uses_ok env b.
Proof. unfold uses_ok. apply forallb_app. Qed.

Lemma uses_ok_cons env u r : uses_ok env (u :: r) = use_ok env u && uses_ok env r.
Proof. reflexivity. Qed.

Lemma use_ok_any env x : use_ok env (x, UAny) = true <-> klookup env x <> None.
Proof.
  unfold use_ok. cbn. destruct (klookup env x); cbn; split; congruence.
Qed.

Lemma use_ok_transfer env env' x y g :
  klookup env' y = klookup env x -> use_ok env (x, g) = true -> use_ok env' (y, g) = true.
Proof. unfold use_ok. cbn. intros ->. exact (fun H => H). Qed.

Lemma well_scopedb_spec {B} (uses : B -> list use) (u : unit B) :
  well_scopedb uses u = true <-> well_scoped uses u.
Proof.
  unfold well_scopedb, well_scoped.
  rewrite !andb_true_iff, ListFacts.nodupb_NoDup, !uses_ok_Forall, !forallb_forall.
  split.
  - intros [[[[[A Hb] Hc] D] E] F]. repeat split; try assumption.
    + intros a Ha. apply mem_In. apply Hb. exact Ha.
    + apply Forall_forall. exact F.
  - intros [A [Hb [Hc [D [E F]]]]]. repeat split; try assumption.
    + intros a Ha. apply mem_In. apply Hb. exact Ha.
    + apply Forall_forall. exact F.
Qed.

Lemma resolves_app_l a b u : resolves a u -> resolves (a ++ b) u.
Proof.
  intros [k [A B]]. exists k. split; [|exact B]. rewrite klookup_app, A. reflexivity.
Qed.

Lemma resolves_keep env env' u :
  resolves env u -> (forall k, klookup env (fst u) = Some k -> klookup env' (fst u) = Some k) -> resolves env' u.
Proof. intros [k [A B]] H. exists k. split; [apply H; exact A | exact B]. Qed.

Lemma shape_ok_keep env env' p :
  shape_ok env p = true -> (forall k, klookup env (fst p) = Some k -> klookup env' (fst p) = Some k) ->
  shape_ok env' p = true.
Proof.
  unfold shape_ok. destruct (snd p); [reflexivity|].
  destruct (klookup env (fst p)) as [k|]; [|discriminate].
  intros H K. rewrite (K k eq_refl). exact H.
Qed.

(** every use of the new body is an old use whose name keeps its declaration, or resolves in the new
    environment by itself (an introduced name) *)
Lemma transfer env env' us us' :
  Forall (resolves env) us ->
  (forall u, In u us' -> (In u us /\ forall k, klookup env (fst u) = Some k -> klookup env' (fst u) = Some k)
                         \/ resolves env' u) ->
  Forall (resolves env') us'.
Proof.
  rewrite !Forall_forall. intros H T u Hu. destruct (T u Hu) as [[A K]|R]; [|exact R].
  exact (resolves_keep env env' u (H u A) K).
Qed.

(** [env'] agrees with [env] on [names] *)
Definition env_keeps (env env' : denv) (names : list string) : Prop :=
  forall x k, In x names -> klookup env x = Some k -> klookup env' x = Some k.

Lemma Forall_resolves_keep env env' us :
  Forall (resolves env) us -> env_keeps env env' (use_names us) -> Forall (resolves env') us.
Proof.
  intros H K. apply (transfer env env' us us H). intros u Hu. left. split; [exact Hu|].
  intros k. apply K. apply in_map. exact Hu.
Qed.

Definition env_le (env env' : denv) : Prop := forall x k, klookup env x = Some k -> klookup env' x = Some k.

Lemma resolves_le env env' : env_le env env' -> forall u, resolves env u -> resolves env' u.
Proof. intros L u H. apply (resolves_keep env env' u H). intros k. apply L. Qed.

(** a unit stays well-scoped when its declarations are replaced by a duplicate-free list that still
    declares every old name with its old kind, and its body by one that resolves in the new environment *)
Lemma well_scoped_redeclare {B C} (uses : B -> list use) (uses' : C -> list use) (u : unit B) ds' (b' : C) :
  well_scoped uses u ->
  NoDup (map fst ds') -> incl (map fst (u_decls u)) (map fst ds') ->
  env_le (u_env u) (ds' ++ u_ext u) ->
  Forall (resolves (ds' ++ u_ext u)) (uses' b') ->
  well_scoped uses' (mkUnit (u_args u) ds' (u_shapes u) (u_ext u) (u_inner u) b').
Proof.
  intros (_ & Ha & _ & Hs & Hi & Hk) Hn Hd L Hb. pose proof (resolves_le _ _ L) as R.
  unfold well_scoped, u_env. cbn [u_args u_decls u_shapes u_ext u_inner u_body]. repeat split.
  - exact Hn.
  - exact (incl_tran Ha Hd).
  - exact Hb.
  - exact (Forall_impl _ R Hs).
  - exact (Forall_impl _ R Hi).
  - apply (Forall_impl _ (fun p Hp => shape_ok_keep _ _ p Hp (fun k => L (fst p) k)) Hk).
Qed.

Lemma set_body_well_scoped {B C} (uses : B -> list use) (uses' : C -> list use) (u : unit B) (b' : C) :
  well_scoped uses u -> Forall (resolves (u_env u)) (uses' b') -> well_scoped uses' (set_body u b').
Proof.
  intros W Hb. apply (well_scoped_redeclare uses uses' u (u_decls u) b' W); [apply W | apply incl_refl | | exact Hb].
  intros x k H. exact H.
Qed.

Lemma T_body_preserves {B C} (uses : B -> list use) (uses' : C -> list use) (f : B -> C) (u : unit B) :
  incl (uses' (f (u_body u))) (uses (u_body u)) ->
  well_scoped uses u -> well_scoped uses' (T_body f u).
Proof. intros Hi W. apply (set_body_well_scoped uses uses' u _ W). exact (incl_Forall Hi (proj1 (proj2 (proj2 W)))). Qed.

Lemma T_body_opt_preserves {B C} (uses : B -> list use) (uses' : C -> list use) (f : B -> option C) (u : unit B) u' :
  (forall b', f (u_body u) = Some b' -> incl (uses' b') (uses (u_body u))) ->
  well_scoped uses u -> T_body_opt f u = Some u' -> well_scoped uses' u'.
Proof.
  intros Hi W. unfold T_body_opt. destruct (f (u_body u)) as [b'|]; [|discriminate].
  intros [= <-]. apply (T_body_preserves uses uses' (fun _ => b') u (Hi b' eq_refl) W).
Qed.

Lemma add_scalars_names ds names x :
  In x (map fst (add_scalars ds names)) <-> In x (map fst ds) \/ In x names.
Proof.
  revert ds. induction names as [|y r IH]; intros ds; cbn.
  - tauto.
  - destruct (mem y (map fst ds)) eqn:E.
    + rewrite IH. apply mem_In in E. split; [tauto|]. intros [A|[A|A]]; subst; tauto.
    + rewrite IH, map_app, in_app_iff. cbn. tauto.
Qed.

Lemma add_scalars_nodup ds names : NoDup (map fst ds) -> NoDup (map fst (add_scalars ds names)).
Proof.
  revert ds. induction names as [|y r IH]; intros ds H; cbn; [exact H|].
  destruct (mem y (map fst ds)) eqn:E; apply IH; [exact H|].
  apply mem_false in E. rewrite map_app. apply NoDup_app_iff. repeat split.
  - exact H.
  - constructor; [intros [] | constructor].
  - intros x Hx [<-|[]]. exact (E Hx).
Qed.

Lemma klookup_snoc_old ds y k0 x k : klookup ds x = Some k -> klookup (ds ++ [(y, k0)]) x = Some k.
Proof. intros H. rewrite klookup_app, H. reflexivity. Qed.

Lemma add_scalars_lookup_old ds names x k :
  klookup ds x = Some k -> klookup (add_scalars ds names) x = Some k.
Proof.
  revert ds. induction names as [|y r IH]; intros ds H; cbn; [exact H|].
  destruct (mem y (map fst ds)); apply IH; [exact H | apply klookup_snoc_old; exact H].
Qed.

(** lookups in the environment after [add_scalars]: declared names keep their kind, new names are scalars,
    everything else still resolves outside *)
Lemma add_scalars_env ds names ext x :
  klookup (add_scalars ds names ++ ext) x =
  match klookup ds x with
  | Some k => Some k
  | None => if mem x names then Some KScalar else klookup ext x
  end.
Proof.
  revert ds. induction names as [|y r IH]; intros ds; [apply klookup_app|].
  change (mem x (y :: r)) with (String.eqb x y || mem x r). cbn [add_scalars].
  destruct (mem y (map fst ds)) eqn:E; rewrite IH.
  - (* [y] is declared: an undeclared [x] is another name *)
    destruct (klookup ds x) eqn:D; [reflexivity|]. destruct (String.eqb x y) eqn:Exy; [|reflexivity].
    apply String.eqb_eq in Exy. subst. apply mem_In in E. apply klookup_none in D. contradiction.
  - rewrite klookup_app. destruct (klookup ds x); [reflexivity|]. cbn [klookup].
    rewrite (String.eqb_sym x y). destruct (String.eqb y x); reflexivity.
Qed.

Lemma declared_scalar_mem ds x :
  (forall k, In (x, k) ds -> k = KScalar) -> declared_scalar ds x = mem x (map fst ds).
Proof.
  unfold declared_scalar, mem. induction ds as [|[y k] r IH]; cbn; intros H; [reflexivity|].
  rewrite IH; [|intros k' Hk; apply H; right; exact Hk].
  rewrite (String.eqb_sym x y).
  destruct (String.eqb y x) eqn:E; cbn; [|reflexivity].
  apply String.eqb_eq in E. subst. rewrite (H k (or_introl eq_refl)). reflexivity.
Qed.

Lemma add_scalars_raw_eq ds names :
  (forall x k, In x names -> In (x, k) ds -> k = KScalar) -> add_scalars_raw ds names = add_scalars ds names.
Proof.
  revert ds. induction names as [|y r IH]; intros ds H; cbn; [reflexivity|].
  rewrite declared_scalar_mem; [|intros k Hk; apply (H y k); [left; reflexivity | exact Hk]].
  destruct (mem y (map fst ds)).
  - apply IH. intros x k Hx Hk. apply (H x k); [right; exact Hx | exact Hk].
  - apply IH. intros x k Hx Hk. apply in_app_iff in Hk. destruct Hk as [Hk|[Hk|[]]].
    + apply (H x k); [right; exact Hx | exact Hk].
    + inversion Hk. reflexivity.
Qed.

Section AddScalars.
  Variables (ds ext : denv) (ivs : list string).
  Hypothesis Hn : NoDup (map fst ds).
  Hypothesis Hc : forallb (fun x => match klookup (ds ++ ext) x with Some (KArray _) => false | _ => true end) ivs = true.

  Lemma add_scalars_raw_class : add_scalars_raw ds ivs = add_scalars ds ivs.
  Proof.
    apply add_scalars_raw_eq. intros x k Hx Hin. rewrite forallb_forall in Hc. specialize (Hc x Hx).
    rewrite klookup_app, (klookup_nodup_in _ _ _ Hn Hin) in Hc. destruct k; [reflexivity | discriminate].
  Qed.

  Lemma add_scalars_le : env_le (ds ++ ext) (add_scalars ds ivs ++ ext).
  Proof.
    intros x k H. rewrite add_scalars_env. pose proof H as H'. rewrite klookup_app in H.
    destruct (klookup ds x); [exact H|]. destruct (mem x ivs) eqn:M; [|exact H].
    apply mem_In in M. rewrite forallb_forall in Hc. specialize (Hc x M). rewrite H' in Hc.
    destruct k; [reflexivity | discriminate].
  Qed.

  Lemma add_scalars_scalar x : In x ivs -> klookup (add_scalars ds ivs ++ ext) x = Some KScalar.
  Proof.
    intros M. rewrite add_scalars_env. rewrite forallb_forall in Hc. specialize (Hc x M).
    rewrite klookup_app in Hc. apply mem_In in M.
    destruct (klookup ds x) as [[|n]|]; [reflexivity | discriminate | rewrite M; reflexivity].
  Qed.
End AddScalars.
