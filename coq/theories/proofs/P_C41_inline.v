(** C41 — inlining one callee (C28's [inline_body] plus the hoisted declarations) leaves a well-scoped unit.

    Pattern: every use of the inlined body is a use of an actual argument of the call (it resolved in the
    caller and keeps its declaration), a use of a callee local under the name the substitution gives it
    (hoisted with the kind the callee declared, or — an allowed alias, [P_C41_alias] — shared with a caller
    declaration of that kind), a use of the whole array bound to an array dummy (rank from [args_ok]), or a
    use of a host name of the callee (resolves in the caller by the well-scopedness of the callee as a unit).
    The call-site argument is made once, for an abstract renaming set [cv] and an abstract list of hoisted
    declarations; [T_inline] and [T_inline_al] are its two instances. *)
From Coq Require Import ZArith List Bool String Ascii Lia.
From LV Require Import Base.Expr Base.MiniF models.M_C41 proofs.P_C41_base.
From LV Require models.M_C28 proofs.P_C28 proofs.P_C28_ctx.
Import ListNotations.

Lemma mem_C28_eq x l : M_C28.mem x l = mem x l.
Proof. reflexivity. Qed.

Lemma intrinsic_C28_eq f : M_C28.intrinsic_name f = is_intr f.
Proof. reflexivity. Qed.

Lemma assoc_rename {A} (F : string -> A) cvars l x :
  M_C28.assoc (flat_map (fun v => if M_C28.mem v cvars then [(v, F v)] else []) l) x
  = if mem x l && mem x cvars then Some (F x) else None.
Proof.
  induction l as [|v r IH]; [reflexivity|].
  cbn [flat_map]. rewrite P_C28.assoc_app, IH. rewrite mem_C28_eq.
  change (mem x (v :: r)) with (String.eqb x v || mem x r).
  rewrite (String.eqb_sym x v).
  destruct (mem v cvars) eqn:Ev; cbn [M_C28.assoc].
  - destruct (String.eqb v x) eqn:E.
    + apply String.eqb_eq in E. subst. rewrite Ev. reflexivity.
    + reflexivity.
  - destruct (String.eqb v x) eqn:E; [|reflexivity].
    apply String.eqb_eq in E. subst. rewrite Ev, !andb_false_r. reflexivity.
Qed.

Lemma compat_arr k n : compat k (UArr n) = true -> k = KArray n.
Proof. destruct k as [|r]; cbn; [discriminate|]. intros H. apply Nat.eqb_eq in H. subst. reflexivity. Qed.

Lemma compat_scal k : compat k UScal = true -> k = KScalar.
Proof. destruct k; cbn; [reflexivity | discriminate]. Qed.

Lemma kind_eqb_eq a b : kind_eqb a b = true -> a = b.
Proof.
  destruct a as [|n], b as [|r]; cbn; try discriminate; [reflexivity|].
  intros H. apply Nat.eqb_eq in H. subst. reflexivity.
Qed.

Lemma lhs_of_LVar e y : M_C28.lhs_of e = M_C28.LVar y -> e = EVar y.
Proof.
  destruct e; cbn; try discriminate.
  - intros H. inversion H. reflexivity.
  - destruct (M_C28.intrinsic_name f); discriminate.
Qed.

Lemma fill_off (R : use -> Prop) t :
  M_C28.all_off t = true -> forall idx, List.length t = List.length idx ->
  List.length (M_C28.fill t idx) = List.length idx
  /\ (Forall R (uses_es idx) -> Forall R (uses_es (M_C28.fill t idx))).
Proof.
  induction t as [|[o|e] r IH]; cbn [M_C28.all_off forallb M_C28.fill]; intros Ho idx Hl.
  - split; [reflexivity | auto].
  - destruct idx as [|i q]; [discriminate|]. cbn in Hl. injection Hl as Hl.
    cbn in Ho. destruct (IH Ho q Hl) as [A1 A2]. split.
    + cbn. rewrite A1. reflexivity.
    + unfold uses_es. cbn. rewrite app_nil_r. intros HF.
      apply Forall_app in HF. destruct HF as [F1 F2].
      apply Forall_app. split; [exact F1 | apply A2; exact F2].
  - cbn in Ho. discriminate.
Qed.

Lemma tmpl_aux_whole Lv Ld all n : forall k,
  M_C28.all_off (M_C28.loki_tmpl_aux Lv Ld all k (repeat (M_C28.SdRange None) n)) = true
  /\ List.length (M_C28.loki_tmpl_aux Lv Ld all k (repeat (M_C28.SdRange None) n)) = n.
Proof.
  induction n as [|n IH]; intros k; cbn.
  - split; reflexivity.
  - destruct (IH (S k)) as [A1 A2]. split; [exact A1 | rewrite A2; reflexivity].
Qed.

(** an offsets template for an array of rank [n]: the identity, or one offset per subscript *)
Definition tmpl_ok (t : list M_C28.dspec) (n : nat) : Prop :=
  t = [] \/ (M_C28.all_off t = true /\ List.length t = n).

Lemma fill_ok (R : use -> Prop) t idx : tmpl_ok t (List.length idx) ->
  List.length (M_C28.fill t idx) = List.length idx
  /\ (Forall R (uses_es idx) -> Forall R (uses_es (M_C28.fill t idx))).
Proof. intros [->|[Ho Hl]]; [split; [reflexivity | auto] | exact (fill_off R t Ho idx Hl)]. Qed.

Lemma tmpl_whole Lv Ld n : tmpl_ok (M_C28.tmpl_clean (M_C28.loki_tmpl Lv Ld (M_C28.whole_dims n))) n.
Proof.
  unfold tmpl_ok, M_C28.tmpl_clean.
  destruct (M_C28.zero_offs _); [left; reflexivity | right].
  unfold M_C28.loki_tmpl, M_C28.whole_dims. apply tmpl_aux_whole.
Qed.

Section Subst.
  Variable m : M_C28.smap.
  Variables C R : use -> Prop.
  Hypothesis H_any : forall x, C (x, UAny) -> Forall R (uses_e (M_C28.lk_s m x)).
  Hypothesis H_scal : forall x y, C (x, UScal) -> M_C28.lk_s m x = EVar y -> R (y, UScal).
  Hypothesis H_arr : forall x n, C (x, UArr n) ->
    R (fst (M_C28.lk_a m x), UArr n) /\ tmpl_ok (snd (M_C28.lk_a m x)) n.

  Lemma subst_list_ok cs :
    Forall (fun e => Forall C (uses_e e) -> Forall R (uses_e (M_C28.subst_e m e))) cs ->
    Forall C (flat_map uses_e cs) -> Forall R (flat_map uses_e (map (M_C28.subst_e m) cs)).
  Proof.
    induction 1 as [|c cs Hc _ IH]; cbn [flat_map map]; intros H; [constructor|].
    apply Forall_app in H. apply Forall_app. split; [apply Hc, H | apply IH, H].
  Qed.

  Lemma subst_e_ok e : Forall C (uses_e e) -> Forall R (uses_e (M_C28.subst_e m e)).
  Proof.
    induction e as [v|v|x|b|p cs IH|p cs IH|p a b IHa IHb|p a b IHa IHb|o a b IHa IHb|cs IH|cs IH|a IHa|f args IH]
      using expr_ind'; cbn [uses_e M_C28.subst_e]; intros Hc.
    (* literals, n-ary operators, binary operators *)
    1,2,4: constructor.
    2,3,7,8: apply subst_list_ok; assumption.
    2-4: apply Forall_app in Hc; apply Forall_app; split; [apply IHa | apply IHb]; apply Hc.
    - apply H_any. inversion Hc; assumption.
    - apply IHa. exact Hc.
    - rewrite intrinsic_C28_eq. destruct (is_intr f) eqn:Ef.
      + cbn [uses_e]. rewrite Ef. apply subst_list_ok; assumption.
      + apply Forall_cons_iff in Hc. destruct Hc as [Hf Hr].
        destruct (H_arr f _ Hf) as [Ra Ht]. rewrite <- (map_length (M_C28.subst_e m)) in Ra, Ht.
        destruct (fill_ok R _ _ Ht) as [Hl Hu]. cbn [uses_e]. rewrite Hl. apply Forall_app. split.
        * destruct (is_intr (fst (M_C28.lk_a m f))); [constructor | constructor; [exact Ra | constructor]].
        * apply Hu. apply subst_list_ok; assumption.
  Qed.

  Lemma subst_es_ok l : Forall C (uses_es l) -> Forall R (uses_es (map (M_C28.subst_e m) l)).
  Proof. apply subst_list_ok. apply Forall_forall. intros e _. apply subst_e_ok. Qed.

  Lemma subst_oe_ok o : Forall C (uses_oe o) -> Forall R (uses_oe (option_map (M_C28.subst_e m) o)).
  Proof. destruct o; cbn; [apply subst_e_ok | constructor]. Qed.

  Lemma lhs_any x : C (x, UAny) ->
    match M_C28.lhs_of (M_C28.lk_s m x) with
    | M_C28.LVar y => R (y, UAny)
    | M_C28.LElem a idx => R (a, UArr (List.length idx)) /\ Forall R (uses_es idx)
    | M_C28.LBad => True
    end.
  Proof.
    intros H. apply H_any in H. destruct (M_C28.lk_s m x); cbn [M_C28.lhs_of]; try exact I.
    - inversion H; assumption.
    - rewrite intrinsic_C28_eq. destruct (is_intr f) eqn:E; [exact I|].
      cbn [uses_e] in H. rewrite E in H. apply Forall_cons_iff in H. exact H.
  Qed.

  Definition stmt_goal (s : stmt) : Prop :=
    forall s', Forall C (uses_stmt s) -> M_C28.subst_stmt m s = Some s' -> Forall R (uses_stmt s').

  Lemma subst_stmts_ok_nested l : Forall stmt_goal l ->
    forall l', Forall C (uses_stmts l) -> M_C28.subst_stmts m l = Some l' -> Forall R (uses_stmts l').
  Proof.
    induction 1 as [|x l Hx _ IH]; cbn [M_C28.subst_stmts]; intros l' Hc E.
    - injection E as <-. constructor.
    - destruct (M_C28.subst_stmt m x) as [x'|] eqn:E1; [|discriminate].
      destruct (M_C28.subst_stmts m l) as [r'|]; [|discriminate]. injection E as <-.
      unfold uses_stmts in *. cbn [flat_map] in *. apply Forall_app in Hc. apply Forall_app.
      split; [exact (Hx x' (proj1 Hc) E1) | exact (IH r' (proj2 Hc) eq_refl)].
  Qed.

  Lemma subst_stmt_ok s : stmt_goal s.
  Proof.
    induction s as [x e|a idx e|v lo hi st b IH|c b IH|c t e IHt IHe|f args|l] using stmt_ind';
      intros s' Hc E; cbn [uses_stmt] in Hc; rewrite ?Forall_cons_iff, ?Forall_app in Hc.
    - destruct Hc as [Hx He]. apply subst_e_ok in He. apply lhs_any in Hx. cbn [M_C28.subst_stmt] in E.
      destruct (M_C28.lhs_of (M_C28.lk_s m x)) as [y|a idx|]; [| |discriminate]; injection E as <-; cbn [uses_stmt].
      + constructor; assumption.
      + constructor; [apply Hx | apply Forall_app; split; [apply Hx | exact He]].
    - destruct Hc as (Ha & Hi & He). cbn [M_C28.subst_stmt] in E. injection E as <-. cbn [uses_stmt].
      destruct (H_arr a _ Ha) as [Ra Ht]. rewrite <- (map_length (M_C28.subst_e m)) in Ra, Ht.
      destruct (fill_ok R _ _ Ht) as [Hl Hu]. rewrite Hl. constructor; [exact Ra|].
      apply Forall_app. split; [apply Hu, subst_es_ok, Hi | apply subst_e_ok, He].
    - destruct Hc as (Hv & Hlo & Hhi & Hst & Hb). cbn [M_C28.subst_stmt] in E. fold (M_C28.subst_stmts m) in E.
      destruct (M_C28.lhs_of (M_C28.lk_s m v)) as [y| |] eqn:El; try discriminate.
      destruct (M_C28.subst_stmts m b) as [b'|] eqn:Eb; [|discriminate]. injection E as <-.
      cbn [uses_stmt]. rewrite ?Forall_cons_iff, ?Forall_app. repeat split.
      + exact (H_scal v y Hv (lhs_of_LVar _ _ El)).
      + apply subst_e_ok, Hlo.
      + apply subst_e_ok, Hhi.
      + apply subst_oe_ok, Hst.
      + exact (subst_stmts_ok_nested b IH b' Hb Eb).
    - destruct Hc as [Hcc Hb]. cbn [M_C28.subst_stmt] in E. fold (M_C28.subst_stmts m) in E.
      destruct (M_C28.subst_stmts m b) as [b'|] eqn:Eb; [|discriminate]. injection E as <-.
      cbn [uses_stmt]. apply Forall_app. split; [apply subst_e_ok, Hcc | exact (subst_stmts_ok_nested b IH b' Hb Eb)].
    - destruct Hc as (Hcc & Ht & He). cbn [M_C28.subst_stmt] in E. fold (M_C28.subst_stmts m) in E.
      destruct (M_C28.subst_stmts m t) as [t'|] eqn:Et; [|discriminate].
      destruct (M_C28.subst_stmts m e) as [e'|] eqn:Ee; [|discriminate]. injection E as <-.
      cbn [uses_stmt]. rewrite !Forall_app. repeat split.
      + apply subst_e_ok, Hcc.
      + exact (subst_stmts_ok_nested t IHt t' Ht Et).
      + exact (subst_stmts_ok_nested e IHe e' He Ee).
    - cbn [M_C28.subst_stmt] in E. injection E as <-. apply subst_es_ok, Hc.
    - cbn [M_C28.subst_stmt] in E. injection E as <-. constructor.
  Qed.

  Lemma subst_stmts_ok l l' :
    Forall C (uses_stmts l) -> M_C28.subst_stmts m l = Some l' -> Forall R (uses_stmts l').
  Proof. apply subst_stmts_ok_nested. apply Forall_forall. intros s _. apply subst_stmt_ok. Qed.
End Subst.

Lemma args_ok_cons envx ce d b r a q :
  args_ok envx ce ((d, b) :: r) (a :: q) = true ->
  args_ok envx ce r q = true
  /\ (b = true -> exists z, a = EVar z
        /\ klookup envx z = Some (KArray (List.length (M_C28.lbs_of (M_C28.ce_lbs ce) d))))
  /\ (b = false -> forall y, a = EVar y -> klookup envx y = Some KScalar).
Proof.
  destruct b.
  - destruct a; cbn [args_ok]; try discriminate.
    intros H. apply andb_true_iff in H. destruct H as [H1 H2].
    split; [exact H2|]. split; [|discriminate].
    intros _. exists x. split; [reflexivity|].
    destruct (klookup envx x) as [k|]; [|discriminate]. apply kind_eqb_eq in H1. subst. reflexivity.
  - destruct a; cbn [args_ok]; intros H;
      try (split; [exact H | split; [discriminate | intros _ y Hy; discriminate]]).
    apply andb_true_iff in H. destruct H as [H1 H2].
    split; [exact H2|]. split; [discriminate|].
    intros _ y Hy. inversion Hy; subst.
    destruct (klookup envx y) as [[|n]|]; try discriminate. reflexivity.
Qed.

Lemma argmap_s_spec envx ce ps : forall args x,
  args_ok envx ce ps args = true ->
  match M_C28.assoc (M_C28.argmap_s ps args) x with
  | Some e => In e args /\ forall y, e = EVar y -> klookup envx y = Some KScalar
  | None => ~ In (x, false) ps
  end.
Proof.
  induction ps as [|[d b] r IH]; intros args x Hok; [intros []|].
  destruct args as [|a q]; [destruct b; cbn in Hok; discriminate|].
  apply args_ok_cons in Hok. destruct Hok as (Hr & _ & Hs). specialize (IH q x Hr).
  destruct b; cbn [M_C28.argmap_s M_C28.assoc].
  - destruct (M_C28.assoc (M_C28.argmap_s r q) x).
    + split; [right|]; apply IH.
    + intros [A|A]; [discriminate A | exact (IH A)].
  - destruct (String.eqb d x) eqn:E; [split; [left; reflexivity | exact (Hs eq_refl)]|].
    destruct (M_C28.assoc (M_C28.argmap_s r q) x).
    + split; [right|]; apply IH.
    + intros [A|A]; [injection A as ->; rewrite String.eqb_refl in E; discriminate | exact (IH A)].
Qed.

Lemma argmap_a_spec envx lbc ce ps : forall args amap x,
  args_ok envx ce ps args = true ->
  M_C28.argmap_a lbc ce ps (map M_C28.AExp args) = Some amap ->
  match M_C28.assoc amap x with
  | Some (a, t) =>
      In (x, true) ps
      /\ klookup envx a = Some (KArray (List.length (M_C28.lbs_of (M_C28.ce_lbs ce) x)))
      /\ tmpl_ok t (List.length (M_C28.lbs_of (M_C28.ce_lbs ce) x))
  | None => ~ In (x, true) ps
  end.
Proof.
  induction ps as [|[d b] r IH]; intros args amap x Hok.
  - destruct args; cbn; [|discriminate]. intros [= <-]. intros [].
  - destruct args as [|e q]; [destruct b; cbn in Hok; discriminate|].
    apply args_ok_cons in Hok. destruct Hok as (Hr & Ha & _).
    destruct b; cbn [map M_C28.argmap_a].
    + destruct (Ha eq_refl) as [z [-> Hz]].
      destruct (M_C28.argmap_a lbc ce r (map M_C28.AExp q)) as [rest|] eqn:Er; [|discriminate].
      intros [= <-]. cbn [M_C28.assoc]. specialize (IH q rest x Hr Er).
      destruct (String.eqb d x) eqn:E.
      * apply String.eqb_eq in E. subst. split; [left; reflexivity|]. split; [exact Hz | apply tmpl_whole].
      * destruct (M_C28.assoc rest x) as [[a t]|].
        -- split; [right|]; apply IH.
        -- intros [A|A]; [injection A as ->; rewrite String.eqb_refl in E; discriminate | exact (IH A)].
    + intros H. specialize (IH q amap x Hr H). destruct (M_C28.assoc amap x) as [[a t]|].
      * split; [right|]; apply IH.
      * intros [A|A]; [discriminate A | exact (IH A)].
Qed.

Lemma callee_decls_in lr ce x k : In (x, k) (callee_decls lr ce) ->
  (In (x, false) (M_C28.ce_params ce) /\ k = KScalar)
  \/ (In (x, true) (M_C28.ce_params ce) /\ k = KArray (List.length (M_C28.lbs_of (M_C28.ce_lbs ce) x)))
  \/ (In x (M_C28.ce_locals ce) /\ k = KScalar)
  \/ (In x (M_C28.ce_larrs ce) /\ k = KArray (rank_of lr x)).
Proof.
  unfold callee_decls. rewrite !in_app_iff, !in_map_iff.
  intros [[[d b] [E Hi]]|[[v [E Hi]]|[a [E Hi]]]]; cbn [fst snd] in E; inversion E; subst.
  - destruct b; [right; left | left]; split; auto.
  - right; right; left. split; auto.
  - right; right; right. split; auto.
Qed.

Lemma callee_decls_param lr ce x b : In (x, b) (M_C28.ce_params ce) ->
  In (x, if b then KArray (List.length (M_C28.lbs_of (M_C28.ce_lbs ce) x)) else KScalar) (callee_decls lr ce).
Proof.
  intros H. unfold callee_decls. apply in_or_app. left.
  apply in_map_iff. exists (x, b). split; [reflexivity | exact H].
Qed.

Lemma callee_decls_larr lr ce a : In a (M_C28.ce_larrs ce) -> In (a, KArray (rank_of lr a)) (callee_decls lr ce).
Proof.
  intros H. unfold callee_decls. apply in_or_app. right. apply in_or_app. right.
  apply in_map_iff. exists a. split; [reflexivity | exact H].
Qed.

(** the names the callee may only use with subscripts *)
Definition carrs (ce : M_C28.callee) : list string :=
  map fst (filter (fun p : string * bool => snd p) (M_C28.ce_params ce)) ++ M_C28.ce_larrs ce.

(** what is known of a use of the callee body *)
Definition cuse (cenv : denv) (ce : M_C28.callee) (g : use) : Prop :=
  resolves cenv g /\ match snd g with UArr _ => True | _ => ~ In (fst g) (carrs ce) end.

(** the name under which the inlined code refers to a callee local: renamed when it is in [cv] *)
Definition hname (cv : list string) (ce : M_C28.callee) (v : string) : string :=
  if M_C28.mem v cv then M_C28.ren (M_C28.ce_name ce) v else v.

(** [cv]: the names the substitution renames; [env], [env']: the caller's environment before and after *)
Section Site.
  Variables (lbc : list (string * list Z)) (lr : lranks) (ce : M_C28.callee).
  Variables (cv : list string) (env env' : denv).
  Let D := callee_decls lr ce.

  Hypothesis Hle : env_le env env'.
  Hypothesis HndD : NoDup (map fst D).
  Hypothesis hoisted_scal : forall v, In v (M_C28.ce_locals ce) -> klookup env' (hname cv ce v) = Some KScalar.
  Hypothesis hoisted_arr :
    forall a, In a (M_C28.ce_larrs ce) -> klookup env' (hname cv ce a) = Some (KArray (rank_of lr a)).

  Let keep := resolves_le env env' Hle.

  Section Call.
    Variables (args : list expr) (amap : list (string * (string * list M_C28.dspec))).
    Hypothesis Hok : args_ok env ce (M_C28.ce_params ce) args = true.
    Hypothesis Hamap : M_C28.argmap_a lbc ce (M_C28.ce_params ce) (map M_C28.AExp args) = Some amap.
    Hypothesis Hargs : Forall (resolves env) (uses_es args).
    Let m := M_C28.call_smap cv ce amap args.
    Let C := cuse (D ++ env) ce.
    Let R := resolves env'.

    (** the image of a name that is not a scalar dummy *)
    Let sn (x : string) := if mem x (M_C28.ce_locals ce) && mem x cv then M_C28.ren (M_C28.ce_name ce) x else x.

    Lemma lk_s_cases x :
      (In (M_C28.lk_s m x) args /\ forall y, M_C28.lk_s m x = EVar y -> klookup env y = Some KScalar)
      \/ (M_C28.lk_s m x = EVar (sn x) /\ ~ In (x, false) (M_C28.ce_params ce)).
    Proof.
      unfold M_C28.lk_s, m, M_C28.call_smap. cbn [M_C28.sm_s]. rewrite P_C28.assoc_app.
      pose proof (argmap_s_spec _ _ _ _ x Hok) as S.
      destruct (M_C28.assoc (M_C28.argmap_s (M_C28.ce_params ce) args) x) as [e|]; [left; exact S|].
      right. split; [|exact S].
      unfold M_C28.rename_s. rewrite (assoc_rename (fun v => EVar (M_C28.ren (M_C28.ce_name ce) v))).
      unfold sn. destruct (mem x (M_C28.ce_locals ce) && mem x cv); reflexivity.
    Qed.

    Lemma scal_default x g : (g = UAny \/ g = UScal) -> C (x, g) ->
      ~ In (x, false) (M_C28.ce_params ce) -> R (sn x, g).
    Proof.
      intros Hg [[k [Hk Hc]] Hna] Hns. cbn [fst snd] in *.
      assert (Hna' : ~ In x (carrs ce)) by (destruct Hg; subst g; exact Hna).
      unfold sn. destruct (mem x (M_C28.ce_locals ce)) eqn:El.
      - apply mem_In in El. exists KScalar. split; [exact (hoisted_scal x El) | destruct Hg; subst g; reflexivity].
      - apply mem_false in El. apply keep. exists k. split; [|exact Hc]. cbn [fst].
        rewrite klookup_app in Hk. destruct (klookup D x) as [k'|] eqn:ED; [|exact Hk]. exfalso.
        apply klookup_some_in, callee_decls_in in ED.
        destruct ED as [[A _]|[[A _]|[[A _]|[A _]]]].
        + exact (Hns A).
        + apply Hna', in_or_app. left. apply (in_map fst _ (x, true)), filter_In. split; [exact A | reflexivity].
        + exact (El A).
        + apply Hna', in_or_app. right. exact A.
    Qed.

    Lemma site_any x : C (x, UAny) -> Forall R (uses_e (M_C28.lk_s m x)).
    Proof.
      intros Hc. destruct (lk_s_cases x) as [[Hi _]|[E Hns]].
      - apply (Forall_impl _ keep). apply Forall_flat_map in Hargs. rewrite Forall_forall in Hargs. exact (Hargs _ Hi).
      - rewrite E. cbn [uses_e]. constructor; [|constructor]. apply scal_default; auto.
    Qed.

    Lemma site_scal x y : C (x, UScal) -> M_C28.lk_s m x = EVar y -> R (y, UScal).
    Proof.
      intros Hc Ey. destruct (lk_s_cases x) as [[_ Hs]|[E Hns]].
      - apply keep. exists KScalar. split; [exact (Hs y Ey) | reflexivity].
      - rewrite Ey in E. injection E as ->. apply scal_default; auto.
    Qed.

    Lemma site_arr x n : C (x, UArr n) ->
      R (fst (M_C28.lk_a m x), UArr n) /\ tmpl_ok (snd (M_C28.lk_a m x)) n.
    Proof.
      intros [[k [Hk Hc]] _]. cbn [fst snd] in *. apply compat_arr in Hc. subst k.
      rewrite klookup_app in Hk.
      assert (Arr : forall k, klookup env' (fst (M_C28.lk_a m x)) = Some (KArray k) -> k = n ->
                              R (fst (M_C28.lk_a m x), UArr n)).
      { intros k Hl <-. exists (KArray k). split; [exact Hl | cbn; apply Nat.eqb_refl]. }
      unfold M_C28.lk_a, m, M_C28.call_smap in *. cbn [M_C28.sm_a] in *. rewrite P_C28.assoc_app in *.
      pose proof (argmap_a_spec _ _ _ _ _ _ x Hok Hamap) as S.
      destruct (M_C28.assoc amap x) as [[a t]|].
      - (* an array dummy: the whole array bound to it *)
        destruct S as (Hp & Ha & Ht).
        rewrite (klookup_nodup_in _ _ _ HndD (callee_decls_param lr ce x true Hp)) in Hk. injection Hk as Hn.
        cbn [fst snd] in *. split; [exact (Arr _ (Hle _ _ Ha) Hn) | rewrite <- Hn; exact Ht].
      - rename S into Hnp. unfold M_C28.rename_a in *.
        rewrite (assoc_rename (fun v => (M_C28.ren (M_C28.ce_name ce) v, @nil M_C28.dspec))) in *.
        assert (Id : tmpl_ok (@nil M_C28.dspec) n) by (left; reflexivity).
        destruct (mem x (M_C28.ce_larrs ce)) eqn:El.
        + (* a local array *)
          apply mem_In in El.
          rewrite (klookup_nodup_in _ _ _ HndD (callee_decls_larr lr ce x El)) in Hk. injection Hk as Hn.
          pose proof (hoisted_arr x El) as Hh. unfold hname in Hh. rewrite mem_C28_eq in Hh. cbn [andb] in *.
          destruct (mem x cv); (split; [exact (Arr _ Hh Hn) | exact Id]).
        + (* a host array *)
          cbn [andb] in *. apply mem_false in El. split; [|exact Id]. apply keep. exists (KArray n).
          split; [|cbn; apply Nat.eqb_refl]. cbn [fst].
          destruct (klookup D x) as [k'|] eqn:ED; [|exact Hk]. exfalso. injection Hk as ->.
          apply klookup_some_in, callee_decls_in in ED.
          destruct ED as [[_ A]|[[A _]|[[_ A]|[A _]]]]; try discriminate; [exact (Hnp A) | exact (El A)].
    Qed.

    Lemma site_ok q :
      Forall C (uses_stmts (M_C28.ce_body ce)) ->
      M_C28.subst_stmts m (M_C28.ce_body ce) = Some q -> Forall R (uses_stmts q).
    Proof. apply (subst_stmts_ok m C R site_any site_scal site_arr). Qed.
  End Call.

  Hypothesis Hbody : Forall (cuse (D ++ env) ce) (uses_stmts (M_C28.ce_body ce)).

  Lemma inline_call_ok args q :
    args_ok env ce (M_C28.ce_params ce) args = true -> Forall (resolves env) (uses_es args) ->
    M_C28.inline_call cv lbc ce args = Some q -> Forall (resolves env') (uses_stmts q).
  Proof.
    intros Hok Hargs. unfold M_C28.inline_call, M_C28.inline_call_src.
    destruct (M_C28.argmap_a lbc ce (M_C28.ce_params ce) (map M_C28.AExp args)) as [amap|] eqn:Ea; [|discriminate].
    unfold M_C28.inline_call_m. rewrite P_C28_ctx.scalar_args_AExp.
    destruct (Nat.eqb _ _); [|discriminate].
    apply (site_ok args amap Hok Ea Hargs q Hbody).
  Qed.

  Definition istmt_goal (s : stmt) : Prop :=
    forall q, Forall (resolves env) (uses_stmt s) -> sites_ok env ce s = true ->
              M_C28.inline_stmt cv lbc ce s = Some q -> Forall (resolves env') (uses_stmts q).

  Lemma inline_body_ok_nested l : Forall istmt_goal l ->
    forall q, Forall (resolves env) (uses_stmts l) -> forallb (sites_ok env ce) l = true ->
              M_C28.inline_body cv lbc ce l = Some q -> Forall (resolves env') (uses_stmts q).
  Proof.
    induction 1 as [|x l Hx _ IH]; cbn [M_C28.inline_body forallb]; intros q Hr Hs E.
    - injection E as <-. constructor.
    - destruct (M_C28.inline_stmt cv lbc ce x) as [a|] eqn:E1; [|discriminate].
      destruct (M_C28.inline_body cv lbc ce l) as [b|]; [|discriminate]. injection E as <-.
      apply andb_true_iff in Hs. unfold uses_stmts in *. cbn [flat_map] in Hr. apply Forall_app in Hr.
      rewrite flat_map_app. apply Forall_app.
      split; [exact (Hx a (proj1 Hr) (proj1 Hs) E1) | exact (IH b (proj2 Hr) (proj2 Hs) eq_refl)].
  Qed.

  Lemma inline_stmt_ok s : istmt_goal s.
  Proof.
    assert (K : forall us, Forall (resolves env) us -> Forall (resolves env') us) by (apply Forall_impl, keep).
    assert (One : forall s' : stmt, Forall (resolves env') (uses_stmt s') -> Forall (resolves env') (uses_stmts [s'])).
    { intros s' H. unfold uses_stmts. cbn [flat_map]. rewrite app_nil_r. exact H. }
    induction s as [x e|a idx e|v lo hi st b IH|c b IH|c t e IHt IHe|f args|l] using stmt_ind';
      intros q Hr Hs E.
    - injection E as <-. apply One, K, Hr.
    - injection E as <-. apply One, K, Hr.
    - rewrite P_C28_ctx.inline_stmt_do_eq in E.
      destruct (M_C28.inline_body cv lbc ce b) as [b'|] eqn:Eb; [|discriminate]. injection E as <-.
      apply One. cbn [uses_stmt sites_ok] in *. rewrite ?Forall_cons_iff, ?Forall_app in Hr |- *.
      destruct Hr as (Hv & Hlo & Hhi & Hst & Hb).
      repeat split; [apply keep, Hv | apply K, Hlo | apply K, Hhi | apply K, Hst|].
      exact (inline_body_ok_nested b IH b' Hb Hs Eb).
    - rewrite P_C28_ctx.inline_stmt_while_eq in E.
      destruct (M_C28.inline_body cv lbc ce b) as [b'|] eqn:Eb; [|discriminate]. injection E as <-.
      apply One. cbn [uses_stmt sites_ok] in *. rewrite Forall_app in Hr |- *.
      split; [apply K, Hr | exact (inline_body_ok_nested b IH b' (proj2 Hr) Hs Eb)].
    - rewrite P_C28_ctx.inline_stmt_if_eq in E.
      destruct (M_C28.inline_body cv lbc ce t) as [t'|] eqn:Et; [|discriminate].
      destruct (M_C28.inline_body cv lbc ce e) as [e'|] eqn:Ee; [|discriminate]. injection E as <-.
      apply One. cbn [uses_stmt sites_ok] in *. apply andb_true_iff in Hs. rewrite !Forall_app in Hr |- *.
      destruct Hr as (Hc & Ht & He). repeat split; [apply K, Hc | |].
      + exact (inline_body_ok_nested t IHt t' Ht (proj1 Hs) Et).
      + exact (inline_body_ok_nested e IHe e' He (proj2 Hs) Ee).
    - cbn [M_C28.inline_stmt sites_ok uses_stmt] in *.
      destruct (String.eqb f (M_C28.ce_name ce)); [exact (inline_call_ok args q Hs Hr E)|].
      injection E as <-. apply One, K, Hr.
    - injection E as <-. constructor.
  Qed.

  Lemma inline_body_ok l q :
    Forall (resolves env) (uses_stmts l) -> forallb (sites_ok env ce) l = true ->
    M_C28.inline_body cv lbc ce l = Some q -> Forall (resolves env') (uses_stmts q).
  Proof. apply inline_body_ok_nested. apply Forall_forall. intros s _. apply inline_stmt_ok. Qed.
End Site.

Lemma callee_uses_ok lr ce host :
  arrays_subscripted ce = true ->
  Forall (resolves (callee_decls lr ce ++ host)) (uses_stmts (M_C28.ce_body ce)) ->
  Forall (cuse (callee_decls lr ce ++ host) ce) (uses_stmts (M_C28.ce_body ce)).
Proof.
  unfold arrays_subscripted. fold (carrs ce). rewrite forallb_forall, !Forall_forall. intros Hs Hr g Hg.
  split; [exact (Hr g Hg)|]. specialize (Hs g Hg).
  destruct (snd g); [| |exact I]; apply negb_true_iff, mem_false in Hs; exact Hs.
Qed.

(** One inlining step with hoisted declarations [hds]: [inline_class] (= the first five conjuncts of
    [inline_class_al]), and every callee local is, under the name the substitution gives it, either hoisted
    or a caller declaration of the callee's kind. *)
Lemma inline_step_well_scoped lbc lr ce cv hds (u : unit (list stmt)) b' :
  well_scoped uses_stmts u ->
  well_scoped uses_stmts (callee_unit lr (u_env u) ce) ->
  arrays_subscripted ce && nodupb (map fst (u_decls u) ++ map fst hds)
  && forallb (fun x => negb (mem x (map fst (u_ext u)))) (map fst hds)
  && nodupb (map fst (callee_decls lr ce))
  && forallb (sites_ok (u_env u) ce) (u_body u) = true ->
  (forall v, In v (M_C28.ce_locals ce) ->
     In (hname cv ce v, KScalar) hds \/ klookup (u_decls u) (hname cv ce v) = Some KScalar) ->
  (forall a, In a (M_C28.ce_larrs ce) ->
     In (hname cv ce a, KArray (rank_of lr a)) hds \/ klookup (u_decls u) (hname cv ce a) = Some (KArray (rank_of lr a))) ->
  M_C28.inline_body cv lbc ce (u_body u) = Some b' ->
  well_scoped uses_stmts (mkUnit (u_args u) (u_decls u ++ hds) (u_shapes u) (u_ext u) (u_inner u) b').
Proof.
  intros W (_ & _ & Wc & _) Hcls Hscal Harr Eb.
  rewrite !andb_true_iff in Hcls. destruct Hcls as ((((Hsub & Hnd) & Hext) & HndD) & Hsites).
  apply ListFacts.nodupb_NoDup in Hnd, HndD. pose proof (forallb_not_mem _ _ Hext) as Hext'. clear Hext.
  destruct (proj1 (NoDup_app_iff _ _) Hnd) as (_ & N2 & N3).
  set (env' := (u_decls u ++ hds) ++ u_ext u).
  (* old names keep their declaration: a hoisted name is new *)
  assert (Hle : env_le (u_env u) env').
  { intros x k. unfold env', u_env. rewrite !klookup_app.
    destruct (klookup (u_decls u) x); [auto|]. intros E.
    destruct (klookup hds x) eqn:EH; [|exact E].
    destruct (Hext' x (klookup_in_names _ _ _ EH) (klookup_in_names _ _ _ E)). }
  assert (Hnew : forall x k, In (x, k) hds \/ klookup (u_decls u) x = Some k -> klookup env' x = Some k).
  { intros x k [Hi|Hk]; unfold env'; rewrite !klookup_app; [|rewrite Hk; reflexivity].
    assert (E1 : klookup (u_decls u) x = None).
    { apply klookup_none. intros Q. exact (N3 x Q (in_map fst _ _ Hi)). }
    rewrite E1, (klookup_nodup_in _ _ _ N2 Hi). reflexivity. }
  apply (well_scoped_redeclare uses_stmts uses_stmts u (u_decls u ++ hds) b' W).
  - rewrite map_app. exact Hnd.
  - rewrite map_app. apply incl_appl, incl_refl.
  - exact Hle.
  - apply (inline_body_ok lbc lr ce cv (u_env u) env' Hle HndD) with (l := u_body u).
    + intros v Hv. apply Hnew, Hscal, Hv.
    + intros a Ha. apply Hnew, Harr, Ha.
    + apply callee_uses_ok; assumption.
    + apply W.
    + exact Hsites.
    + exact Eb.
Qed.

Theorem T_inline_preserves_well_scoped lbc lr ce (u u' : unit (list stmt)) :
  well_scoped uses_stmts u ->
  well_scoped uses_stmts (callee_unit lr (u_env u) ce) ->
  inline_class lr ce u = true ->
  T_inline lbc lr ce u = Some u' ->
  well_scoped uses_stmts u'.
Proof.
  intros W Wc Hcls HT. unfold T_inline in HT. cbn zeta in HT.
  destruct (M_C28.inline_body (map fst (u_decls u)) lbc ce (u_body u)) as [b'|] eqn:Eb; [|discriminate].
  injection HT as <-.
  apply (inline_step_well_scoped lbc lr ce (map fst (u_decls u)) _ u b' W Wc Hcls); [| |exact Eb].
  - intros v Hv. left. apply in_or_app. left. exact (in_map _ _ v Hv).
  - intros a Ha. left. apply in_or_app. right. exact (in_map _ _ a Ha).
Qed.

Fixpoint all_steps_ok (lbc : list (string * list Z)) (lrs : list lranks) (ces : list M_C28.callee)
         (u : unit (list stmt)) : Prop :=
  match ces with
  | [] => True
  | ce :: r =>
      let lr := match lrs with lr :: _ => lr | [] => [] end in
      let q := match lrs with _ :: q => q | [] => [] end in
      well_scoped uses_stmts (callee_unit lr (u_env u) ce)
      /\ inline_class lr ce u = true
      /\ forall u', T_inline lbc lr ce u = Some u' -> all_steps_ok lbc q r u'
  end.

Lemma T_inline_all_cons lbc lrs ce r u :
  T_inline_all lbc lrs (ce :: r) u
  = match T_inline lbc (hd [] lrs) ce u with Some u' => T_inline_all lbc (tl lrs) r u' | None => None end.
Proof. destruct lrs; reflexivity. Qed.

Theorem T_inline_all_preserves_well_scoped_partial lbc : forall ces lrs (u u' : unit (list stmt)),
  well_scoped uses_stmts u ->
  all_steps_ok lbc lrs ces u ->
  T_inline_all lbc lrs ces u = Some u' ->
  well_scoped uses_stmts u'.
Proof.
  induction ces as [|ce r IH]; intros lrs u u' Hw Hs HT.
  - injection HT as <-. exact Hw.
  - rewrite T_inline_all_cons in HT. destruct Hs as (Hc & Hcls & Hnext).
    destruct (T_inline lbc (hd [] lrs) ce u) as [u1|] eqn:E1; [|discriminate].
    exact (IH _ u1 u' (T_inline_preserves_well_scoped lbc _ ce u u1 Hw Hc Hcls E1) (Hnext u1 E1) HT).
Qed.

Local Open Scope string_scope.

(** callee [f(s, a)]: scalar dummy [s] (written), array dummy [a], locals [i] (DO variable; clashes with the
    caller's [i]) and [k], local array [w] of rank 2, host scalar [n] *)
Definition ex_ce : M_C28.callee :=
  {| M_C28.ce_name := "f"; M_C28.ce_params := [("s", false); ("a", true)];
     M_C28.ce_locals := ["i"; "k"]; M_C28.ce_larrs := ["w"]; M_C28.ce_lbs := [("a", [1%Z])];
     M_C28.ce_body :=
       [SDo "i" (EInt 1) (EVar "n") None
          [SStore "a" [EVar "i"] (EVar "s"); SStore "w" [EVar "i"; EInt 1] (ECall "a" [EVar "i"])];
        SAssign "k" (EInt 2);
        SAssign "s" (ESum false [EVar "k"; ECall "w" [EInt 1; EInt 1]])] |}.

Definition ex_u : unit (list stmt) :=
  mkUnit ["x"] [("x", KScalar); ("b", KArray 1); ("i", KScalar)] [] [("n", KScalar)] []
    [SAssign "i" (EInt 0);
     SDo "i" (EInt 1) (EInt 2) None [SCall "f" [EVar "x"; EVar "b"]];
     SCall "g" [EVar "x"]].

Definition ex_lr : lranks := [("w", 2%nat)].
Definition ex_lbc : list (string * list Z) := [("b", [0%Z])].

Example T_inline_class_inhabited :
  inline_class ex_lr ex_ce ex_u = true
  /\ well_scopedb uses_stmts ex_u = true
  /\ well_scopedb uses_stmts (callee_unit ex_lr (u_env ex_u) ex_ce) = true
  /\ exists u', T_inline ex_lbc ex_lr ex_ce ex_u = Some u'
       /\ u_decls u' = [("x", KScalar); ("b", KArray 1); ("i", KScalar);
                        ("f_i", KScalar); ("k", KScalar); ("w", KArray 2)]
       /\ u_body u' =
            [SAssign "i" (EInt 0);
             SDo "i" (EInt 1) (EInt 2) None
               [SDo "f_i" (EInt 1) (EVar "n") None
                  [SStore "b" [ESum false [EVar "f_i"; EInt (-1)]] (EVar "x");
                   SStore "w" [EVar "f_i"; EInt 1] (ECall "b" [ESum false [EVar "f_i"; EInt (-1)]])];
                SAssign "k" (EInt 2);
                SAssign "x" (ESum false [EVar "k"; ECall "w" [EInt 1; EInt 1]])];
             SCall "g" [EVar "x"]]
       /\ well_scopedb uses_stmts u' = true.
Proof.
  split; [vm_compute; reflexivity|]. split; [vm_compute; reflexivity|]. split; [vm_compute; reflexivity|].
  eexists. split; [vm_compute; reflexivity|].
  split; [reflexivity|]. split; [reflexivity | vm_compute; reflexivity].
Qed.

(** without "the hoisted names are not host/imported names of the caller" ([inline_class]): the caller sees an
    imported ARRAY [t], the callee has a local scalar [t]; the hoisted scalar shadows the array and the
    caller's own [t(1) = 0] no longer resolves *)
Definition rf_ce : M_C28.callee :=
  {| M_C28.ce_name := "f"; M_C28.ce_params := []; M_C28.ce_locals := ["t"]; M_C28.ce_larrs := [];
     M_C28.ce_lbs := []; M_C28.ce_body := [SAssign "t" (EInt 1)] |}.

Definition rf_u : unit (list stmt) :=
  mkUnit [] [] [] [("t", KArray 1)] [] [SStore "t" [EInt 1] (EInt 0); SCall "f" []].

Theorem T_inline_capture_refuted :
  exists lbc lr ce (u u' : unit (list stmt)),
    well_scoped uses_stmts u
    /\ well_scoped uses_stmts (callee_unit lr (u_env u) ce)
    /\ T_inline lbc lr ce u = Some u'
    /\ inline_class lr ce u = false
    /\ ~ well_scoped uses_stmts u'.
Proof.
  exists [], [], rf_ce, rf_u. eexists.
  split; [apply well_scopedb_spec; vm_compute; reflexivity|].
  split; [apply well_scopedb_spec; vm_compute; reflexivity|].
  split; [vm_compute; reflexivity|].
  split; [vm_compute; reflexivity|].
  intros H. apply well_scopedb_spec in H. vm_compute in H. discriminate.
Qed.

Print Assumptions T_inline_preserves_well_scoped.
Print Assumptions T_inline_all_preserves_well_scoped_partial.
