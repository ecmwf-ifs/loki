(** C41 — ParametriseTransformation on one routine leaves a well-scoped unit.

    Kernel: the dummies that are keys of the dictionary leave the argument list; they stay declared (as
    constants) or, with replace-by-value, every occurrence is replaced by the literal and the declaration
    goes ("removed dummies are no longer referenced": [uses_subst]).  Entry point: the key dummies are
    renamed [parametrised_<x>], declared, and guarded.

    [param_class] does not exclude two scalar dummies of the same name ([well_scoped] only asks that every dummy
    is declared): both are renamed at the entry point and the renamed name is then declared twice
    ([T_param_dup_dummy_refuted]).  Hence the second decidable hypothesis [param_extra]: at the entry point the
    renamed dummies are pairwise distinct; it follows from "the dummy arguments are pairwise distinct"
    ([param_extra_of_distinct_dummies], [T_param_preserves_well_scoped_distinct]).

    [keys_scalar], [base_scalars], [added_scalars] below name sub-terms of the model's [param_class] /
    [param_scalars] (tied back by [fold] and [param_scalars_split]). *)
From Coq Require Import ZArith List Bool String Ascii Lia.
From LV Require Import Base.Expr Base.MiniF Base.ListFacts models.M_C41 proofs.P_C41_base.
From LV Require models.M_C39.
Import ListNotations.

Lemma NoDup_map_injective {A B} (f : A -> B) l : (forall x y, f x = f y -> x = y) -> NoDup l -> NoDup (map f l).
Proof.
  intros Hf H. induction H as [|a r Ha Hr IH]; cbn; constructor; [|exact IH].
  intros Hin. apply in_map_iff in Hin. destruct Hin as [y [E Hy]]. apply Hf in E. subst. contradiction.
Qed.

Lemma map_fst_scalars (l : list string) : map fst (map (fun x : string => (x, KScalar)) l) = l.
Proof. rewrite map_map. cbn. apply map_id. Qed.

Lemma declared_resolves_any env x : In x (map fst env) -> resolves env (x, UAny).
Proof.
  intros H. destruct (klookup env x) as [k|] eqn:E; [exists k; split; [exact E | reflexivity]|].
  apply klookup_none in E. contradiction.
Qed.

Lemma scalars_lookup (l : list string) x :
  klookup (map (fun y : string => (y, KScalar)) l) x = if mem x l then Some KScalar else None.
Proof.
  induction l as [|y r IH]; cbn; [reflexivity|].
  rewrite (String.eqb_sym x y). destruct (String.eqb y x); cbn; [reflexivity | exact IH].
Qed.

Lemma mem_app x a b : mem x (a ++ b) = mem x a || mem x b.
Proof. unfold mem. apply existsb_app. Qed.

Lemma mem_C39_eq D x : M_C39.mem D x = mem x (map fst D).
Proof.
  unfold M_C39.mem. induction D as [|[k v] r IH]; cbn; [reflexivity|].
  rewrite (String.eqb_sym x k). destruct (String.eqb k x); cbn; [reflexivity | exact IH].
Qed.

Lemma mem_C39_In D x : M_C39.mem D x = true <-> In x (map fst D).
Proof. rewrite mem_C39_eq. apply mem_In. Qed.

Lemma pname_inj x y : M_C39.pname x = M_C39.pname y -> x = y.
Proof. unfold M_C39.pname. cbn. intros H. inversion H. reflexivity. Qed.

(** every use in [us'] is a use in [us] and satisfies [Q] *)
Definition sub_uses (Q : use -> Prop) (us' us : list use) : Prop := forall g, In g us' -> In g us /\ Q g.

Lemma sub_uses_nil Q us : sub_uses Q [] us.
Proof. intros g []. Qed.

Lemma sub_uses_cons (Q : use -> Prop) x a' a : Q x -> sub_uses Q a' a -> sub_uses Q (x :: a') (x :: a).
Proof. intros Hx H g [<-|Hg]; [split; [left; reflexivity | exact Hx]|]. destruct (H g Hg). split; [right|]; assumption. Qed.

Lemma sub_uses_app Q a' a b' b : sub_uses Q a' a -> sub_uses Q b' b -> sub_uses Q (a' ++ b') (a ++ b).
Proof.
  intros Ha Hb g Hg. rewrite in_app_iff in *. destruct Hg as [Hg|Hg]; [destruct (Ha g Hg) | destruct (Hb g Hg)]; tauto.
Qed.

Lemma sub_uses_weaken (Q Q' : use -> Prop) a' a : (forall g, Q g -> Q' g) -> sub_uses Q a' a -> sub_uses Q' a' a.
Proof. intros HQ H g Hg. destruct (H g Hg). split; [|apply HQ]; assumption. Qed.

Lemma sub_uses_incl_r Q a' a b : sub_uses Q a' a -> incl a b -> sub_uses Q a' b.
Proof. intros H Hi g Hg. destruct (H g Hg). split; [apply Hi|]; assumption. Qed.

Lemma sub_uses_fm_map {A} (f : A -> A) (us : A -> list use) Q l :
  Forall (fun a => sub_uses Q (us (f a)) (us a)) l -> sub_uses Q (flat_map us (map f l)) (flat_map us l).
Proof.
  rewrite Forall_forall. intros H g Hin. apply in_flat_map in Hin. destruct Hin as [b [Hb Hg]].
  apply in_map_iff in Hb. destruct Hb as [a [<- Ha]].
  destruct (H a Ha g Hg) as [X Y]. split; [|exact Y]. apply in_flat_map. exists a. split; assumption.
Qed.

(** a use that survives replace-by-value: its name is not a key, or it is a subscripted name, or it is one of
    the names [hard] that statements keep (left-hand sides, DO variables) *)
Definition okuse (m : M_C39.pmode) (D : M_C39.dict) (hard : list string) (g : use) : Prop :=
  m = M_C39.MReplace ->
  M_C39.mem D (fst g) = false \/ (exists n, snd g = UArr n) \/ In (fst g) hard.

Lemma okuse_incl m D h h' g : incl h h' -> okuse m D h g -> okuse m D h' g.
Proof.
  intros Hi H M. destruct (H M) as [A|[A|A]]; [left; exact A | right; left; exact A | right; right; apply Hi; exact A].
Qed.

Lemma okuse_hard m D h x g : In x h -> okuse m D h (x, g).
Proof. intros H _. right. right. exact H. Qed.

Lemma okuse_arr m D h x n : okuse m D h (x, UArr n).
Proof. intros _. right. left. exists n. reflexivity. Qed.

(** removed names are no longer referenced *)
Lemma uses_subst D e : sub_uses (okuse M_C39.MReplace D []) (uses_e (M_C39.subst D e)) (uses_e e).
Proof.
  induction e as [v|v|x|b|p cs IH|p cs IH|p n d IHn IHd|p n d IHn IHd|op n d IHn IHd|cs IH|cs IH|n IHn|f cs IH]
    using expr_ind'; cbn [M_C39.subst uses_e].
  (* literals, n-ary operators, binary operators *)
  1,2,4: apply sub_uses_nil.
  2,3,7,8: apply sub_uses_fm_map, IH.
  2-4: apply sub_uses_app; assumption.
  - destruct (M_C39.lookup D x) eqn:E; [apply sub_uses_nil|]. apply sub_uses_cons; [|apply sub_uses_nil].
    intros _. left. unfold M_C39.mem. cbn [fst]. rewrite E. reflexivity.
  - exact IHn.
  - rewrite map_length. apply sub_uses_app; [|apply sub_uses_fm_map, IH].
    destruct (is_intr f); [apply sub_uses_nil | apply sub_uses_cons; [apply okuse_arr | apply sub_uses_nil]].
Qed.

Lemma uses_te m D h e : sub_uses (okuse m D h) (uses_e (M_C39.te m D e)) (uses_e e).
Proof.
  destruct m; cbn [M_C39.te].
  - intros g Hg. split; [exact Hg | discriminate].
  - apply (sub_uses_weaken (okuse M_C39.MReplace D [])); [intros g; apply okuse_incl, incl_nil_l | apply uses_subst].
Qed.

Lemma uses_te_list m D h l : sub_uses (okuse m D h) (uses_es (map (M_C39.te m D) l)) (uses_es l).
Proof. apply sub_uses_fm_map, Forall_forall. intros a _. apply uses_te. Qed.

Lemma uses_te_opt m D h o : sub_uses (okuse m D h) (uses_oe (option_map (M_C39.te m D) o)) (uses_oe o).
Proof. destruct o; [apply uses_te | apply sub_uses_nil]. Qed.

Lemma uses_body_step succ m D (b : list stmt) :
  Forall (fun s => sub_uses (okuse m D (hard_names s)) (uses_stmt (M_C39.tstmt succ m D s)) (uses_stmt s)) b ->
  sub_uses (okuse m D (flat_map hard_names b)) (flat_map uses_stmt (map (M_C39.tstmt succ m D) b)) (flat_map uses_stmt b).
Proof.
  intros IH. apply sub_uses_fm_map. rewrite Forall_forall in *. intros a Ha.
  assert (Hsub : incl (hard_names a) (flat_map hard_names b))
    by (intros x Hx; apply in_flat_map; exists a; split; assumption).
  apply (sub_uses_weaken (okuse m D (hard_names a))); [intros g; apply okuse_incl, Hsub | exact (IH a Ha)].
Qed.

Lemma uses_tstmt succ m D s :
  sub_uses (okuse m D (hard_names s)) (uses_stmt (M_C39.tstmt succ m D s)) (uses_stmt s).
Proof.
  induction s as [x e|a idx e|v lo hi st b IH|c b IH|c t e IHt IHe|f args|l] using stmt_ind';
    cbn [M_C39.tstmt uses_stmt hard_names].
  - apply sub_uses_cons; [apply okuse_hard; left; reflexivity | apply uses_te].
  - rewrite map_length. apply sub_uses_cons; [apply okuse_arr|]. apply sub_uses_app; [apply uses_te_list | apply uses_te].
  - apply sub_uses_cons; [apply okuse_hard; left; reflexivity|].
    repeat apply sub_uses_app; [apply uses_te | apply uses_te | apply uses_te_opt|].
    apply (sub_uses_weaken (okuse m D (flat_map hard_names b))); [intros g; apply okuse_incl, incl_tl, incl_refl|].
    apply uses_body_step, IH.
  - apply sub_uses_app; [apply uses_te | apply uses_body_step, IH].
  - repeat apply sub_uses_app; [apply uses_te | |].
    + apply (sub_uses_weaken (okuse m D (flat_map hard_names t))); [intros g; apply okuse_incl, incl_appl, incl_refl|].
      apply uses_body_step, IHt.
    + apply (sub_uses_weaken (okuse m D (flat_map hard_names e))); [intros g; apply okuse_incl, incl_appr, incl_refl|].
      apply uses_body_step, IHe.
  - destruct (succ f); [|apply uses_te_list].
    apply (sub_uses_incl_r _ _ _ _ (uses_te_list m D [] _)). unfold M_C39.filter_args, uses_es.
    intros g Hg. apply in_flat_map in Hg. destruct Hg as [a [Ha Hg]]. apply filter_In in Ha.
    apply in_flat_map. exists a. split; [apply Ha | exact Hg].
  - apply sub_uses_nil.
Qed.

Lemma uses_tstmts succ m D b :
  sub_uses (okuse m D (flat_map hard_names b)) (uses_stmts (M_C39.tstmts succ m D b)) (uses_stmts b).
Proof. apply uses_body_step, Forall_forall. intros s _. apply uses_tstmt. Qed.

Lemma uses_guard abort p v : uses_stmt (M_C39.guard_stmt abort p v) = (p, UAny) :: uses_stmts abort.
Proof.
  unfold M_C39.guard_stmt, M_C39.guard_cond, uses_stmts. cbn [uses_stmt uses_e flat_map app].
  rewrite app_nil_r. reflexivity.
Qed.

Definition keys_scalar (D : M_C39.dict) (ps : list (string * bool)) : bool :=
  forallb (fun p : string * bool => negb (snd p && mem (fst p) (map fst D))) ps.

Lemma keys_scalar_spec D ps p :
  keys_scalar D ps = true -> In p ps -> M_C39.mem D (fst p) = true -> snd p = false.
Proof.
  unfold keys_scalar. rewrite forallb_forall. intros H Hp Hm. specialize (H p Hp).
  rewrite <- mem_C39_eq, Hm, andb_true_r in H. apply negb_true_iff in H. exact H.
Qed.

Lemma c39_decls_same succ m abort entry D u :
  keys_scalar D (M_C39.u_params u) = true ->
  c39_param_decls (M_C39.t_params (M_C39.transform_unit succ m abort entry D u))
  = c39_param_decls (M_C39.u_params u).
Proof.
  cbn [M_C39.transform_unit M_C39.t_params]. unfold c39_param_decls. intros H.
  assert (K : Forall (fun p => snd p = true -> M_C39.mem D (fst p) = false) (M_C39.u_params u)).
  { apply Forall_forall. intros p Hp Hs. destruct (M_C39.mem D (fst p)) eqn:E; [|reflexivity].
    rewrite (keys_scalar_spec _ _ _ H Hp E) in Hs. discriminate. }
  clear H. destruct entry.
  - rewrite flat_map_map. apply flat_map_ext_Forall. revert K. apply Forall_impl.
    intros [x b] Kx. cbn [fst snd] in *.
    destruct b; [rewrite (Kx eq_refl); reflexivity | destruct (M_C39.mem D x); reflexivity].
  - induction K as [|[x b] r Kx _ IH]; [reflexivity|]. cbn [filter fst snd] in *.
    destruct b; [rewrite (Kx eq_refl); cbn [negb flat_map fst snd]; rewrite IH; reflexivity|].
    destruct (M_C39.mem D x); cbn [negb flat_map fst snd app]; exact IH.
Qed.

Definition base_scalars (m : M_C39.pmode) (D : M_C39.dict) (u : M_C39.unit) : list string :=
  match m with
  | M_C39.MDecl => M_C39.u_decls u
  | M_C39.MReplace => filter (fun x => negb (M_C39.mem D x)) (M_C39.u_decls u)
  end.

Definition added_scalars (entry : bool) (D : M_C39.dict) (u : M_C39.unit) : list string :=
  if entry
  then flat_map (fun p : string * bool => if M_C39.mem D (fst p) && negb (snd p) then [M_C39.pname (fst p)] else [])
                (M_C39.u_params u)
  else [].

Lemma param_scalars_split m entry D u :
  param_scalars m entry D u = base_scalars m D u ++ added_scalars entry D u.
Proof. reflexivity. Qed.

Lemma base_sub m D u x : In x (base_scalars m D u) -> In x (M_C39.u_decls u).
Proof. destruct m; cbn; [tauto|]. intros H. apply filter_In in H. apply H. Qed.

Lemma base_keep m D u x :
  In x (M_C39.u_decls u) -> (m = M_C39.MReplace -> M_C39.mem D x = false) -> In x (base_scalars m D u).
Proof.
  destruct m; cbn; [tauto|]. intros H K. apply filter_In. split; [exact H|]. rewrite (K eq_refl). reflexivity.
Qed.

Lemma base_nodup m D u : NoDup (M_C39.u_decls u) -> NoDup (base_scalars m D u).
Proof. destruct m; cbn; [tauto | apply NoDup_filter]. Qed.

Lemma added_renamed D u : added_scalars true D u = map M_C39.pname (renamed_dummies D u).
Proof.
  unfold added_scalars, renamed_dummies. induction (M_C39.u_params u) as [|p r IH]; cbn; [reflexivity|].
  rewrite map_app, <- IH. destruct (M_C39.mem D (fst p) && negb (snd p)); reflexivity.
Qed.

Lemma added_in_pn entry D u y : In y (added_scalars entry D u) -> In y (map M_C39.pname (map fst D)).
Proof.
  unfold added_scalars. destruct entry; [|intros []]. intros H. apply in_flat_map in H. destruct H as [p [_ H]].
  destruct (M_C39.mem D (fst p)) eqn:E; cbn [andb] in H; [|destruct H].
  destruct (negb (snd p)); [|destruct H]. destruct H as [H|[]]. subst.
  apply in_map. apply mem_C39_In. exact E.
Qed.

Lemma added_nodup entry D u : param_extra entry D u = true -> NoDup (added_scalars entry D u).
Proof.
  unfold param_extra. destruct entry; cbn [negb orb]; [|intros _; constructor].
  intros H. rewrite added_renamed. apply NoDup_map_injective; [exact pname_inj|]. apply ListFacts.nodupb_NoDup. exact H.
Qed.

Lemma key_dummy_added D u p :
  keys_scalar D (M_C39.u_params u) = true -> In p (M_C39.u_params u) -> M_C39.mem D (fst p) = true ->
  In (M_C39.pname (fst p)) (added_scalars true D u).
Proof.
  intros Hk Hp Hm. unfold added_scalars. apply in_flat_map. exists p. split; [exact Hp|].
  rewrite Hm, (keys_scalar_spec _ _ _ Hk Hp Hm). left. reflexivity.
Qed.

Lemma resolves_param m entry D ext u arrs g :
  (forall y, In y (added_scalars entry D u) -> ~ In y (map fst ext)) ->
  resolves ((arrs ++ map (fun y : string => (y, KScalar)) (M_C39.u_decls u)) ++ ext) g ->
  (m = M_C39.MReplace -> M_C39.mem D (fst g) = false) ->
  resolves ((arrs ++ map (fun y : string => (y, KScalar)) (param_scalars m entry D u)) ++ ext) g.
Proof.
  intros Hext R Hk. apply (resolves_keep _ _ g R). intros k. generalize (fst g) Hk. clear R Hk. intros x Hk.
  rewrite !klookup_app. destruct (klookup arrs x) as [k0|]; [tauto|].
  rewrite !scalars_lookup, param_scalars_split, mem_app.
  destruct (mem x (M_C39.u_decls u)) eqn:E.
  - apply mem_In in E. apply (base_keep m D) in E; [|exact Hk]. apply mem_In in E. rewrite E. cbn. tauto.
  - assert (Eb : mem x (base_scalars m D u) = false).
    { apply mem_false. intros H. apply base_sub in H. apply mem_In in H. congruence. }
    rewrite Eb. cbn. destruct (mem x (added_scalars entry D u)) eqn:Ea; [|tauto].
    apply mem_In in Ea. apply Hext in Ea. apply klookup_none in Ea. rewrite Ea. discriminate.
Qed.

Theorem T_param_preserves_well_scoped succ m abort entry D ext (u : M_C39.unit) :
  well_scoped uses_stmts (unit_of_c39 ext u) ->
  param_class m abort entry D ext u = true ->
  param_extra entry D u = true ->
  well_scoped uses_stmts (T_param succ m abort entry D ext u).
Proof.
  intros (W1 & W2 & W3 & _) C X.
  unfold param_class in C. rewrite !andb_true_iff in C.
  destruct C as ((((((C1 & C2) & C3) & _) & C5) & C6) & C7).
  fold (keys_scalar D (M_C39.u_params u)) in C1.
  rewrite uses_ok_Forall, Forall_forall in C5. rewrite Forall_forall in W3.
  unfold unit_of_c39 in W1, W2, W3, C2, C5. unfold u_env in W3, C5. cbn [u_decls u_args u_body u_ext] in *.
  rewrite map_app, map_fst_scalars in W1, W2, C2.
  (* renamed names are new *)
  assert (Anew : forall y, In y (added_scalars entry D u) ->
                           ~ In y (map fst (c39_param_decls (M_C39.u_params u)) ++ M_C39.u_decls u)
                           /\ ~ In y (map fst ext)).
  { intros y Hy. apply added_in_pn in Hy.
    split; [exact (forallb_not_mem _ _ C2 y Hy) | exact (forallb_not_mem _ _ C3 y Hy)]. }
  pose proof (fun g => resolves_param m entry D ext u (c39_param_decls (M_C39.u_params u)) g
                         (fun y Hy => proj2 (Anew y Hy))) as Keep.
  unfold T_param, well_scoped, u_env. cbn [u_decls u_args u_body u_ext u_shapes u_inner].
  rewrite c39_decls_same by exact C1.
  rewrite map_app, map_fst_scalars.
  apply NoDup_app_iff in W1. destruct W1 as (N1 & N2 & N3).
  repeat split; try constructor.
  - rewrite param_scalars_split. apply NoDup_app_iff. split; [exact N1|]. split.
    + apply NoDup_app_iff. split; [apply base_nodup; exact N2|]. split; [apply added_nodup; exact X|].
      intros x Hb Ha. apply base_sub in Hb. apply (proj1 (Anew x Ha)), in_or_app. right. exact Hb.
    + intros x Hx Hin. apply in_app_iff in Hin. destruct Hin as [Hb|Ha].
      * apply base_sub in Hb. exact (N3 x Hx Hb).
      * apply (proj1 (Anew x Ha)), in_or_app. left. exact Hx.
  - (* dummies are declared: a key dummy under its new name, the others as before *)
    assert (Old : forall p, In p (M_C39.u_params u) -> M_C39.mem D (fst p) = false ->
                   In (fst p) (map fst (c39_param_decls (M_C39.u_params u)) ++ param_scalars m entry D u)).
    { intros p Hp Hm. specialize (W2 (fst p) (in_map fst _ p Hp)).
      apply in_app_iff in W2. apply in_or_app. destruct W2 as [H|H]; [left; exact H|].
      right. rewrite param_scalars_split. apply in_or_app. left. apply base_keep; [exact H | intros _; exact Hm]. }
    intros a Ha. unfold M_C39.param_names in Ha. cbn [M_C39.transform_unit M_C39.t_params] in Ha.
    apply in_map_iff in Ha. destruct Ha as [q [<- Hq]]. destruct entry.
    + apply in_map_iff in Hq. destruct Hq as [p [<- Hp]].
      destruct (M_C39.mem D (fst p)) eqn:Em; [|apply Old; assumption].
      cbn [fst]. rewrite param_scalars_split. apply in_or_app. right. apply in_or_app. right.
      exact (key_dummy_added D u p C1 Hp Em).
    + apply filter_In in Hq. destruct Hq as [Hq Hm]. apply negb_true_iff in Hm. apply Old; assumption.
  - unfold uses_stmts. rewrite flat_map_app. apply Forall_app. split; apply Forall_forall; intros g Hg.
    + (* guards: the renamed key, and the abort statements, which name no key *)
      cbn [M_C39.transform_unit M_C39.t_guards] in Hg. destruct entry; [|destruct Hg].
      apply in_flat_map in Hg. destruct Hg as [s [Hs Hg]].
      apply in_map_iff in Hs. destruct Hs as [[k v] [<- Hkv]]. cbn [fst snd] in Hg.
      rewrite uses_guard in Hg. destruct Hg as [<-|Hg].
      * unfold M_C39.guards_of in Hkv. apply filter_In in Hkv. destruct Hkv as [HD Hn]. cbn [fst] in Hn.
        unfold M_C39.in_names in Hn. apply existsb_exists in Hn. destruct Hn as [k' [Hk' E]].
        apply String.eqb_eq in E. subst k'. unfold M_C39.param_names in Hk'. apply in_map_iff in Hk'.
        destruct Hk' as [p [<- Hp]].
        assert (Em : M_C39.mem D (fst p) = true) by (apply mem_C39_In, (in_map fst _ _ HD)).
        apply declared_resolves_any. rewrite !map_app, map_fst_scalars, param_scalars_split.
        apply in_or_app. left. apply in_or_app. right. apply in_or_app. right.
        exact (key_dummy_added D u p C1 Hp Em).
      * apply (Keep g (C5 g Hg)). intros _.
        destruct (M_C39.mem D (fst g)) eqn:Em; [|reflexivity]. apply mem_C39_In in Em.
        destruct (forallb_not_mem _ _ C6 (fst g) (in_or_app _ _ _ (or_introl Em)) (in_map fst _ g Hg)).
    + (* transformed body: under replace-by-value a surviving key would be written or subscripted *)
      cbn [M_C39.transform_unit M_C39.t_body] in Hg. destruct (uses_tstmts _ _ _ _ g Hg) as [Hg' Hok].
      apply (Keep g (W3 g Hg')). intros ->.
      destruct (M_C39.mem D (fst g)) eqn:Em; [|reflexivity]. exfalso.
      apply mem_C39_In in Em. apply (forallb_not_mem _ _ C7 (fst g)); [|exact Em].
      destruct (Hok eq_refl) as [A|[[n A]|A]].
      * apply mem_C39_In in Em. congruence.
      * apply in_or_app. right. unfold array_names. apply in_flat_map.
        exists g. split; [exact Hg'|]. rewrite A. left. reflexivity.
      * apply in_or_app. left. exact A.
Qed.

Lemma nodup_flat_sub {A} (P : A -> bool) (f : A -> string) l :
  NoDup (map f l) -> NoDup (flat_map (fun a => if P a then [f a] else []) l).
Proof.
  induction l as [|a r IH]; cbn; intros H; [constructor|]. inversion H as [|? ? H1 H2]; subst.
  destruct (P a); cbn; [|apply IH; exact H2]. constructor; [|apply IH; exact H2].
  intros Hin. apply H1. apply in_flat_map in Hin. destruct Hin as [b [Hb Hx]].
  destruct (P b); [|destruct Hx]. destruct Hx as [Hx|[]]. rewrite <- Hx. apply in_map. exact Hb.
Qed.

(** [param_extra] holds when the dummy arguments are pairwise distinct *)
Lemma param_extra_of_distinct_dummies entry D u :
  nodupb (M_C39.param_names (M_C39.u_params u)) = true -> param_extra entry D u = true.
Proof.
  intros H. unfold param_extra. apply orb_true_iff. right. apply ListFacts.nodupb_NoDup. apply ListFacts.nodupb_NoDup in H.
  unfold renamed_dummies. apply (nodup_flat_sub (fun p : string * bool => M_C39.mem D (fst p) && negb (snd p)) fst).
  exact H.
Qed.

Corollary T_param_preserves_well_scoped_distinct succ m abort entry D ext (u : M_C39.unit) :
  well_scoped uses_stmts (unit_of_c39 ext u) ->
  param_class m abort entry D ext u = true ->
  nodupb (M_C39.param_names (M_C39.u_params u)) = true ->
  well_scoped uses_stmts (T_param succ m abort entry D ext u).
Proof.
  intros W C N. apply T_param_preserves_well_scoped; [exact W | exact C |].
  apply param_extra_of_distinct_dummies. exact N.
Qed.

Open Scope string_scope.
Open Scope Z_scope.

(** a(i) = n + m in a loop up to n, t = a(n), call sub(n, t, a); n is parametrised *)
Definition ex_unit : M_C39.unit :=
  {| M_C39.u_name := "k";
     M_C39.u_params := [("a", true); ("n", false); ("m", false)];
     M_C39.u_decls := ["n"; "m"; "i"; "t"];
     M_C39.u_body :=
       [SDo "i" (EInt 1) (EVar "n") None [SStore "a" [EVar "i"] (ESum false [EVar "n"; EVar "m"; EVar "q"])];
        SAssign "t" (ECall "a" [EVar "n"]);
        SCall "sub" [EVar "n"; EVar "t"; EVar "a"]] |}.
Definition ex_abort : list stmt := [SCall "abort" []].
Definition ex_dict : M_C39.dict := [("n", 5); ("q", 3)].
Definition ex_ext : denv := [("q", KScalar)].
Definition ex_succ (g : string) : bool := String.eqb g "sub".

Definition ex_all (f : M_C39.pmode -> bool -> bool) : bool :=
  f M_C39.MDecl true && f M_C39.MDecl false && f M_C39.MReplace true && f M_C39.MReplace false.

(** the hypotheses are satisfiable (entry point and kernel, both modes), the dummy [n] really is renamed /
    removed, and the results are well-scoped *)
Example T_param_class_inhabited :
  well_scopedb uses_stmts (unit_of_c39 ex_ext ex_unit)
  && ex_all (fun m e => param_class m ex_abort e ex_dict ex_ext ex_unit && param_extra e ex_dict ex_unit)
  && ex_all (fun m e => well_scopedb uses_stmts (T_param ex_succ m ex_abort e ex_dict ex_ext ex_unit))
  && list_str_eqb (u_args (T_param ex_succ M_C39.MReplace ex_abort true ex_dict ex_ext ex_unit))
                  ["a"; "parametrised_n"; "m"]
  && list_str_eqb (u_args (T_param ex_succ M_C39.MReplace ex_abort false ex_dict ex_ext ex_unit)) ["a"; "m"]
  && negb (mem "n" (map fst (u_decls (T_param ex_succ M_C39.MReplace ex_abort false ex_dict ex_ext ex_unit))))
  && mem "n" (map fst (u_decls (T_param ex_succ M_C39.MDecl ex_abort false ex_dict ex_ext ex_unit)))
  = true.
Proof. vm_compute. reflexivity. Qed.

(** outside the class: a kernel that assigns a parametrised dummy; with replace-by-value the declaration is
    gone while the left-hand side still names [n] *)
Definition ex_assigned : M_C39.unit :=
  {| M_C39.u_name := "k";
     M_C39.u_params := [("n", false)];
     M_C39.u_decls := ["n"];
     M_C39.u_body := [SAssign "n" (ESum false [EVar "n"; EInt 1])] |}.

Theorem T_param_assigned_key_refuted :
  exists succ abort D ext u,
    well_scoped uses_stmts (unit_of_c39 ext u)
    /\ ~ well_scoped uses_stmts (T_param succ M_C39.MReplace abort false D ext u).
Proof.
  exists ex_succ, ex_abort, [("n", 5)], [], ex_assigned. split.
  - apply well_scopedb_spec. vm_compute. reflexivity.
  - intros H. apply well_scopedb_spec in H. vm_compute in H. discriminate.
Qed.

(** [param_class] alone is not sufficient: two scalar dummies of the same name *)
Definition ex_dup : M_C39.unit :=
  {| M_C39.u_name := "k";
     M_C39.u_params := [("n", false); ("n", false)];
     M_C39.u_decls := ["n"; "t"];
     M_C39.u_body := [SAssign "t" (EVar "n")] |}.

Theorem T_param_dup_dummy_refuted :
  exists succ m abort D ext u,
    well_scoped uses_stmts (unit_of_c39 ext u)
    /\ param_class m abort true D ext u = true
    /\ ~ well_scoped uses_stmts (T_param succ m abort true D ext u).
Proof.
  exists ex_succ, M_C39.MDecl, ex_abort, [("n", 5)], [], ex_dup. split; [|split].
  - apply well_scopedb_spec. vm_compute. reflexivity.
  - vm_compute. reflexivity.
  - intros H. apply well_scopedb_spec in H. vm_compute in H. discriminate.
Qed.

Print Assumptions T_param_preserves_well_scoped.
Print Assumptions T_param_assigned_key_refuted.
Print Assumptions T_param_dup_dummy_refuted.
