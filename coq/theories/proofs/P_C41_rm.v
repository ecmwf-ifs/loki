(** C41 — do_remove_unused_vars at unit level: "removed declarations ∩ names still used = ∅" is exactly the
    class [rm_class]; outside of it the real code deletes declarations that are still referenced
    (a DO variable that only lives inside its loop; a variable that only an internal procedure uses). *)
From Coq Require Import ZArith List Bool String Ascii Lia.
From LV Require Import Base.Expr Base.MiniF Base.ListFacts models.M_C41 proofs.P_C41_base.
From LV Require models.M_C30 models.M_C32.
Import ListNotations.

Lemma klookup_filter_names (rm : list string) env x :
  klookup (filter (fun d : string * kind => negb (mem (fst d) rm)) env) x
  = if mem x rm then None else klookup env x.
Proof.
  induction env as [|[y k] r IH]; cbn; [destruct (mem x rm); reflexivity|].
  destruct (mem y rm) eqn:My; cbn; rewrite IH; (destruct (String.eqb y x) eqn:E; [|reflexivity]);
    apply String.eqb_eq in E; subst; rewrite My; reflexivity.
Qed.

Lemma uses_shapes_filter (P : string * list M_C30.dshape -> bool) ss :
  incl (uses_shapes (filter P ss)) (uses_shapes ss).
Proof.
  unfold uses_shapes. induction ss as [|p r IH]; cbn; [apply incl_refl|].
  destruct (P p); cbn.
  - apply incl_app; [apply incl_appl, incl_refl | apply incl_appr, IH].
  - apply incl_appr, IH.
Qed.

(** Deleting the declarations (and declared shapes) of any names [rm] that are not dummies and that neither
    the body, nor an internal procedure, nor a remaining shape still mentions.  [T_rmunused] is the instance
    [rm := removed_vars only u]; nothing else about the dataflow analysis is needed. *)
Definition drop_decls {B} (rm : list string) (u : unit B) : unit B :=
  mkUnit (u_args u)
         (filter (fun d => negb (mem (fst d) rm)) (u_decls u))
         (filter (fun p => negb (mem (fst p) rm)) (u_shapes u))
         (u_ext u) (u_inner u) (u_body u).

Lemma drop_decls_well_scoped {B} (uses : B -> list use) rm (u : unit B) :
  well_scoped uses u ->
  (forall x, In x rm -> ~ In x (u_args u)) ->
  forallb (fun x => negb (mem x rm)) (use_names (uses (u_body u)))
  && forallb (fun x => negb (mem x rm)) (use_names (u_inner u))
  && forallb (fun x => negb (mem x rm))
             (use_names (uses_shapes (filter (fun p => negb (mem (fst p) rm)) (u_shapes u)))) = true ->
  well_scoped uses (drop_decls rm u).
Proof.
  intros (Hn & Ha & Hb & Hs & Hi & Hk) Hargs Hc.
  rewrite !andb_true_iff in Hc. destruct Hc as ((Hc1 & Hc2) & Hc3).
  (* a name that is not removed keeps its declaration *)
  assert (Hkeep : forall x, mem x rm = false ->
            forall k, klookup (u_env u) x = Some k -> klookup (u_env (drop_decls rm u)) x = Some k).
  { intros x Hx k. unfold u_env, drop_decls. cbn. rewrite !klookup_app, klookup_filter_names, Hx. auto. }
  assert (Hkeeps : forall us, forallb (fun x => negb (mem x rm)) (use_names us) = true ->
            env_keeps (u_env u) (u_env (drop_decls rm u)) (use_names us)).
  { intros us H x k Hx. rewrite forallb_forall in H. apply Hkeep, negb_true_iff, H, Hx. }
  unfold well_scoped. repeat split.
  - apply NoDup_map_filter. exact Hn.
  - unfold drop_decls. cbn. intros a Hin. specialize (Ha a Hin).
    apply in_map_iff in Ha. destruct Ha as [[y k] [E Hy]]. cbn in E. subst y.
    apply in_map_iff. exists (a, k). split; [reflexivity|]. apply filter_In. split; [exact Hy|]. cbn.
    apply negb_true_iff, mem_false. intros Hr. exact (Hargs a Hr Hin).
  - exact (Forall_resolves_keep _ _ _ Hb (Hkeeps _ Hc1)).
  - apply (Forall_resolves_keep (u_env u)); [|exact (Hkeeps _ Hc3)].
    exact (incl_Forall (uses_shapes_filter _ _) Hs).
  - exact (Forall_resolves_keep _ _ _ Hi (Hkeeps _ Hc2)).
  - apply Forall_forall. intros p Hp. apply filter_In in Hp. destruct Hp as [Hp Hm].
    rewrite Forall_forall in Hk. apply (shape_ok_keep (u_env u)); [exact (Hk p Hp)|].
    apply Hkeep, negb_true_iff, Hm.
Qed.

(** an unused local is not a dummy argument *)
Lemma removed_not_arg only (u : unit (list stmt)) x :
  In x (removed_vars only u) -> ~ In x (u_args u).
Proof.
  unfold removed_vars, M_C32.unused_locals. intros H. apply filter_In in H. destruct H as [H _].
  apply filter_In in H. destruct H as [_ H]. apply andb_true_iff in H. destruct H as [H _].
  apply negb_true_iff, mem_false in H. exact H.
Qed.

Theorem T_rmunused_preserves_well_scoped only (u : unit (list stmt)) :
  well_scoped uses_stmts u -> rm_class only u = true -> well_scoped uses_stmts (T_rmunused only u).
Proof.
  intros W Hc. exact (drop_decls_well_scoped uses_stmts (removed_vars only u) u W (removed_not_arg only u) Hc).
Qed.

Lemma existsb_ext_in {A} (f g : A -> bool) l : (forall x, In x l -> f x = g x) -> existsb f l = existsb g l.
Proof.
  induction l as [|a r IH]; cbn; intros H; [reflexivity|].
  rewrite (H a (or_introl eq_refl)), IH; [reflexivity|]. intros x Hx. apply H. right. exact Hx.
Qed.

(** [lv_live]: every name of the body is reported by the dataflow analysis, hence never "unused" *)
Lemma lv_live_body_class only (u : unit (list stmt)) :
  lv_live (u_body u) = true ->
  forallb (fun x => negb (mem x (removed_vars only u))) (use_names (uses_stmts (u_body u))) = true.
Proof.
  unfold lv_live. rewrite !forallb_forall. intros H x Hx. specialize (H x Hx).
  apply negb_true_iff. apply mem_false. intros Hr.
  unfold removed_vars in Hr. apply filter_In in Hr. destruct Hr as [Hr _].
  unfold M_C32.unused_locals in Hr. apply filter_In in Hr. destruct Hr as [_ Hr].
  apply andb_true_iff in Hr. destruct Hr as [_ Hr]. apply negb_true_iff in Hr.
  unfold M_C32.used in Hr. apply orb_false_iff in Hr. destruct Hr as [Hr _]. congruence.
Qed.

(** the class is inhabited by a unit that really loses declarations *)
Definition rm_good : unit (list stmt) :=
  mkUnit ["n"%string]
         [("n", KScalar); ("j", KScalar); ("b", KArray 1); ("w", KArray 1); ("z", KScalar)]%string
         [("b", [M_C30.DSize (EInt 10)]); ("w", [M_C30.DSize (EVar "n")])]%string [] []
         [SAssign "j" (EInt 0); SDo "j" (EInt 1) (EVar "n") None [SStore "b" [EVar "j"] (EVar "j")]]%string.

Example T_rmunused_class_inhabited :
  well_scoped uses_stmts rm_good /\ rm_class false rm_good = true /\ lv_live (u_body rm_good) = true
  /\ map fst (u_decls (T_rmunused false rm_good)) = ["n"; "j"; "b"]%string
  /\ map fst (u_decls (T_rmunused true rm_good)) = ["n"; "j"; "b"; "z"]%string.
Proof. split; [apply well_scopedb_spec; vm_compute; reflexivity | vm_compute; repeat split]. Qed.

(** F-C41-rm1: the DO variable [j] only lives inside its loop: the dataflow analysis does not report it,
    remove_only_arrays=False deletes its declaration, the loop still names it *)
Definition rm_loopvar : unit (list stmt) :=
  mkUnit [] [("j", KScalar); ("b", KArray 1)]%string [("b", [M_C30.DSize (EInt 10)])]%string [] []
         [SDo "j" (EInt 1) (EInt 3) None [SStore "b" [EVar "j"] (EVar "j")]]%string.

Theorem T_rmunused_loopvar_refuted :
  exists u, well_scoped uses_stmts u /\ ~ well_scoped uses_stmts (T_rmunused false u).
Proof.
  exists rm_loopvar. split.
  - apply well_scopedb_spec. vm_compute. reflexivity.
  - intros H. apply well_scopedb_spec in H. vm_compute in H. discriminate.
Qed.

(** F-C41-rm2: the array [w] is used only by an internal procedure (host association); the default
    remove_only_arrays=True deletes its declaration *)
Definition rm_host : unit (list stmt) :=
  mkUnit ["n"; "r"]%string [("n", KScalar); ("r", KScalar); ("w", KArray 1)]%string
         [("w", [M_C30.DSize (EInt 5)])]%string []
         [("w", UArr 1); ("n", UAny); ("r", UAny)]%string
         [SCall "inner" []]%string.

Theorem T_rmunused_host_refuted :
  exists u, well_scoped uses_stmts u /\ ~ well_scoped uses_stmts (T_rmunused true u).
Proof.
  exists rm_host. split.
  - apply well_scopedb_spec. vm_compute. reflexivity.
  - intros H. apply well_scopedb_spec in H. vm_compute in H. discriminate.
Qed.
