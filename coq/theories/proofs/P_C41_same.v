(** C41 — transformations that only rewrite the body (declarations untouched): loop unrolling, dead-code
    removal, constant propagation.  Each of them only removes occurrences of names (a literal replaces the loop
    variable / a variable with a known value, a branch disappears, operands of a simplified expression are
    rearranged or dropped), so every occurrence of the new body is an occurrence of the old one and the unit
    stays well-scoped ([T_body_preserves] / [T_body_opt_preserves]). *)
From Coq Require Import ZArith List Bool String Ascii Lia.
From LV Require Import Base.Expr Base.MiniF models.M_C41 proofs.P_C41_base.
From LV Require models.M_C10 models.M_C31 models.M_C32 proofs.P_C31_unroll.
Import ListNotations.

Lemma incl_cons_same {A} (x : A) a b : incl a b -> incl (x :: a) (x :: b).
Proof. intros H y [E|E]; [left; exact E | right; apply H; exact E]. Qed.

Lemma incl_app_r {A} (a b b' : list A) : incl b b' -> incl (a ++ b) (a ++ b').
Proof. apply incl_app_app, incl_refl. Qed.

Lemma incl_fm_map {A B} (f : A -> A) (us : A -> list B) l :
  Forall (fun a => incl (us (f a)) (us a)) l -> incl (flat_map us (map f l)) (flat_map us l).
Proof.
  rewrite Forall_forall. intros H x Hx. apply in_flat_map in Hx. destruct Hx as [b [Hb Hx]].
  apply in_map_iff in Hb. destruct Hb as [a [E Ha]]. subst.
  apply in_flat_map. exists a. split; [exact Ha | apply (H a Ha); exact Hx].
Qed.

Lemma incl_fm_const {A} (g : A -> list stmt) (U : list use) l :
  (forall a, In a l -> incl (flat_map uses_stmt (g a)) U) -> incl (flat_map uses_stmt (flat_map g l)) U.
Proof.
  intros H x Hx. apply in_flat_map in Hx. destruct Hx as [s [Hs Hx]].
  apply in_flat_map in Hs. destruct Hs as [a [Ha Hs]]. apply (H a Ha).
  apply in_flat_map. exists s. split; assumption.
Qed.

Lemma incl_fm_filter {A B} (P : A -> bool) (us : A -> list B) l : incl (flat_map us (filter P l)) (flat_map us l).
Proof.
  intros x Hx. apply in_flat_map in Hx. destruct Hx as [a [Ha Hx]]. apply filter_In in Ha.
  apply in_flat_map. exists a. split; [apply Ha | exact Hx].
Qed.

Lemma uses_single s : flat_map uses_stmt [s] = uses_stmt s.
Proof. apply app_nil_r. Qed.

Lemma uses_do_incl v lo lo' hi hi' st st' b b' :
  incl (uses_e lo') (uses_e lo) -> incl (uses_e hi') (uses_e hi) -> incl (uses_oe st') (uses_oe st) ->
  incl (flat_map uses_stmt b') (flat_map uses_stmt b) ->
  incl (uses_stmt (SDo v lo' hi' st' b')) (uses_stmt (SDo v lo hi st b)).
Proof. intros. apply incl_cons_same. repeat apply incl_app_app; assumption. Qed.

Lemma uses_while_incl c c' b b' :
  incl (uses_e c') (uses_e c) -> incl (flat_map uses_stmt b') (flat_map uses_stmt b) ->
  incl (uses_stmt (SWhile c' b')) (uses_stmt (SWhile c b)).
Proof. intros. apply incl_app_app; assumption. Qed.

Lemma uses_if_incl c c' t t' e e' :
  incl (uses_e c') (uses_e c) -> incl (flat_map uses_stmt t') (flat_map uses_stmt t) ->
  incl (flat_map uses_stmt e') (flat_map uses_stmt e) ->
  incl (uses_stmt (SIf c' t' e')) (uses_stmt (SIf c t e)).
Proof. intros. repeat apply incl_app_app; assumption. Qed.

(** inclusions between concatenations of the same few lists *)
Create HintDb incl_app discriminated.
#[local] Hint Resolve incl_refl incl_nil_l incl_app incl_appl incl_appr : incl_app.

Lemma msubst_e_incl sg e :
  (forall x r, sg x = Some r -> uses_e r = []) ->
  incl (uses_e (M_C31.msubst_e sg e)) (uses_e e).
Proof.
  intros Hsg.
  induction e as [v|v|x|b|p cs IH|p cs IH|p n d IHn IHd|p n d IHn IHd|op n d IHn IHd|cs IH|cs IH|n IHn|f cs IH]
    using expr_ind'; cbn [M_C31.msubst_e uses_e].
  (* literals, n-ary operators, binary operators *)
  1,2,4: apply incl_refl.
  2,3,7,8: apply incl_fm_map, IH.
  2-4: apply incl_app_app; assumption.
  - destruct (sg x) as [r|] eqn:E; [rewrite (Hsg x r E); apply incl_nil_l | apply incl_refl].
  - exact IHn.
  - rewrite map_length. apply incl_app_r, incl_fm_map, IH.
Qed.

Lemma msubst_s_incl sg s :
  (forall x r, sg x = Some r -> uses_e r = []) ->
  incl (uses_stmt (M_C31.msubst_s sg s)) (uses_stmt s).
Proof.
  intros Hsg.
  assert (He : forall e, incl (uses_e (M_C31.msubst_e sg e)) (uses_e e)) by (intros e; apply msubst_e_incl; exact Hsg).
  assert (Hl : forall l, incl (uses_es (map (M_C31.msubst_e sg) l)) (uses_es l)).
  { intros l. apply incl_fm_map, Forall_forall. intros a _. apply He. }
  induction s as [x e|a idx e|v lo hi st b IH|c b IH|c t e IHt IHe|f args|l] using stmt_ind';
    cbn [M_C31.msubst_s].
  - apply incl_cons_same, He.
  - cbn [uses_stmt]. rewrite map_length. apply incl_cons_same, incl_app_app; [apply Hl | apply He].
  - apply uses_do_incl; [apply He | apply He | destruct st; [apply He | apply incl_refl] | apply incl_fm_map, IH].
  - apply uses_while_incl; [apply He | apply incl_fm_map, IH].
  - apply uses_if_incl; [apply He | apply incl_fm_map, IHt | apply incl_fm_map, IHe].
  - apply Hl.
  - apply incl_refl.
Qed.

Lemma subst1_lit v i x r : M_C31.subst1 v i x = Some r -> uses_e r = [].
Proof. unfold M_C31.subst1. destruct (String.eqb x v); [|discriminate]. intros H. inversion H. reflexivity. Qed.

Lemma msubst_l_incl v i l :
  incl (flat_map uses_stmt (M_C31.msubst_l (M_C31.subst1 v i) l)) (flat_map uses_stmt l).
Proof.
  apply incl_fm_map, Forall_forall. intros a _. apply msubst_s_incl, subst1_lit.
Qed.

Lemma body_in_do v lo hi st b : incl (flat_map uses_stmt b) (uses_stmt (SDo v lo hi st b)).
Proof. cbn [uses_stmt]. intros x Hx. right. rewrite !in_app_iff. tauto. Qed.

Lemma ut_incl fuel : forall d s, incl (flat_map uses_stmt (M_C31.ut fuel d s)) (uses_stmt s).
Proof.
  induction fuel as [|f IH]; intros d s; [cbn [M_C31.ut]; rewrite uses_single; apply incl_refl|].
  assert (U : forall d l, incl (flat_map uses_stmt (flat_map (M_C31.ut f d) (M_C31.strip_attached l)))
                               (flat_map uses_stmt l)).
  { intros d0 l. apply incl_fm_const. intros a Ha. apply P_C31_unroll.strip_attached_incl in Ha.
    eapply incl_tran; [apply IH|]. intros x Hx. apply in_flat_map. exists a. split; assumption. }
  destruct s as [x e|a idx e|v lo hi st body|c body|c t e|g args|l]; cbn [M_C31.ut];
    try (rewrite uses_single; apply incl_refl).
  - destruct (M_C31.lit3 lo hi st) as [[[a b] c]|].
    + (* unrolled: copies of the body (unrolled further before or after the substitution) with a literal counter *)
      destruct (c =? 0)%Z; [cbn; apply incl_nil_l|].
      destruct (M_C31.neighbour_loops body || M_C31.counter_in_bounds v body);
        apply incl_fm_const; intros i _; (eapply incl_tran; [|apply body_in_do]);
        destruct (M_C31.rec_ok (option_map Z.pred d)); try apply msubst_l_incl.
      * eapply incl_tran; [apply U | apply msubst_l_incl].
      * eapply incl_tran; [apply msubst_l_incl | apply U].
    + rewrite uses_single. apply uses_do_incl; try apply incl_refl. apply U.
  - rewrite uses_single. apply uses_while_incl; [apply incl_refl | apply U].
  - rewrite uses_single. apply uses_if_incl; [apply incl_refl | apply U | apply U].
Qed.

Lemma pu_incl fuel : forall l, incl (flat_map uses_stmt (M_C31.pu fuel l)) (flat_map uses_stmt l).
Proof.
  induction fuel as [|f IH]; intros l; [apply incl_refl|].
  (* a pragma consumes the loop after it: induction on the length *)
  assert (G : forall n l, (List.length l <= n)%nat ->
                          incl (flat_map uses_stmt (M_C31.pu (S f) l)) (flat_map uses_stmt l)).
  { clear l. induction n as [|n IHn]; intros l Hl; (destruct l as [|s r]; [apply incl_refl|]); [cbn in Hl; lia|].
    assert (Hr : incl (flat_map uses_stmt (M_C31.pu (S f) r)) (flat_map uses_stmt r))
      by (apply IHn; cbn in Hl; lia).
    assert (Same : incl (flat_map uses_stmt (s :: M_C31.pu (S f) r)) (flat_map uses_stmt (s :: r)))
      by (apply incl_app_r, Hr).
    rewrite P_C31_unroll.pu_S_cons. destruct s as [x e|a idx e|v lo hi st body|c body|c t e|g args|p]; try exact Same.
    - apply incl_app_app; [|exact Hr]. apply uses_do_incl; try apply incl_refl. apply IH.
    - apply incl_app_app; [|exact Hr]. apply uses_while_incl; [apply incl_refl | apply IH].
    - apply incl_app_app; [|exact Hr]. apply uses_if_incl; [apply incl_refl | apply IH | apply IH].
    - destruct (M_C31.unroll_pragma p) as [d|]; [|exact Same].
      destruct r as [|[x e|a idx e|v lo hi st body|c body|c t e|g args|p'] r']; try exact Same.
      rewrite flat_map_app. apply incl_appr. cbn [flat_map]. apply incl_app_app.
      + eapply incl_tran; [apply IH | apply ut_incl].
      + apply IHn. cbn in Hl. lia. }
  apply (G (List.length l)). lia.
Qed.

Lemma do_unroll_incl l : incl (uses_stmts (M_C31.do_unroll l)) (uses_stmts l).
Proof. unfold M_C31.do_unroll, uses_stmts. apply pu_incl. Qed.

Theorem T_unroll_preserves_well_scoped (u : unit (list stmt)) :
  well_scoped uses_stmts u -> well_scoped uses_stmts (T_unroll u).
Proof. intros W. unfold T_unroll. apply (T_body_preserves uses_stmts); [apply do_unroll_incl | exact W]. Qed.

Lemma uses_lit v : uses_e (M_C32.lit v) = [].
Proof. unfold M_C32.lit. destruct (v <? 0)%Z; reflexivity. Qed.

(** Every case of [sum2]/[coef]/[prod2]/[quot2] builds its result from literals and the operands' own
    expressions: [split_ifs] opens the case distinctions of the definition, [sval_fin] computes the uses of the
    result and shows them a sub-list of the two inputs' uses up to re-association of [++]. *)
Ltac sval_fin :=
  cbn [M_C32.expr_of uses_e flat_map M_C32.negx app]; rewrite ?uses_lit; cbn [app]; auto 7 with incl_app.

Ltac split_ifs E :=
  repeat match type of E with context [if ?c then _ else _] => destruct c end.

Lemma sum2_uses a b s :
  M_C32.sum2 a b = Some s ->
  incl (uses_e (M_C32.expr_of s)) (uses_e (M_C32.expr_of a) ++ uses_e (M_C32.expr_of b)).
Proof.
  destruct a, b; cbn [M_C32.sum2]; intros E; split_ifs E; try discriminate; inversion E; subst; clear E; sval_fin.
Qed.

Lemma coef_uses c y s : M_C32.coef c y = Some s -> incl (uses_e (M_C32.expr_of s)) (uses_e y).
Proof.
  unfold M_C32.coef. intros E. split_ifs E; try discriminate; inversion E; subst; clear E; sval_fin.
Qed.

Lemma prod2_uses a b s :
  M_C32.prod2 a b = Some s ->
  incl (uses_e (M_C32.expr_of s)) (uses_e (M_C32.expr_of a) ++ uses_e (M_C32.expr_of b)).
Proof.
  destruct a, b; cbn [M_C32.prod2]; intros E; try discriminate;
    try (apply coef_uses in E; cbn [M_C32.expr_of]; rewrite ?uses_lit; eapply incl_tran; [exact E|]; auto 7 with incl_app);
    inversion E; subst; clear E; sval_fin.
Qed.

Lemma quot2_uses force a b s :
  M_C32.quot2 force a b = Some s ->
  incl (uses_e (M_C32.expr_of s)) (uses_e (M_C32.expr_of a) ++ uses_e (M_C32.expr_of b)).
Proof.
  destruct a, b; cbn [M_C32.quot2]; intros E; split_ifs E; try discriminate; inversion E; subst; clear E; sval_fin.
Qed.

Lemma simp_bin_uses (op : M_C32.sval -> M_C32.sval -> option M_C32.sval) (sa sb : option M_C32.sval) a b s :
  (forall x y s, op x y = Some s ->
     incl (uses_e (M_C32.expr_of s)) (uses_e (M_C32.expr_of x) ++ uses_e (M_C32.expr_of y))) ->
  (forall x, sa = Some x -> incl (uses_e (M_C32.expr_of x)) (uses_e a)) ->
  (forall y, sb = Some y -> incl (uses_e (M_C32.expr_of y)) (uses_e b)) ->
  match sa, sb with Some x, Some y => op x y | _, _ => None end = Some s ->
  incl (uses_e (M_C32.expr_of s)) (uses_e a ++ uses_e b).
Proof.
  intros Hop Ha Hb E. destruct sa as [x|]; [|discriminate]. destruct sb as [y|]; [|discriminate].
  eapply incl_tran; [exact (Hop _ _ _ E)|]. apply incl_app_app; auto.
Qed.

Lemma simp_uses force m e : forall s,
  M_C32.simp force m e = Some s -> incl (uses_e (M_C32.expr_of s)) (uses_e e).
Proof.
  induction e as [v|v|x|b|p cs IH|p cs IH|p n d IHn IHd|p n d IHn IHd|op n d IHn IHd|cs IH|cs IH|n IHn|f cs IH]
    using expr_ind'; intros s E; cbn [M_C32.simp] in E; try discriminate.
  - injection E as <-. cbn [M_C32.expr_of]. rewrite uses_lit. apply incl_nil_l.
  - injection E as <-. cbn [M_C32.expr_of]. rewrite uses_lit. apply incl_nil_l.
  - destruct (M_C32.lookup m x); injection E as <-; cbn [M_C32.expr_of]; [rewrite uses_lit; apply incl_nil_l | apply incl_refl].
  - destruct cs as [|a [|b [|c r]]]; try discriminate.
    inversion IH as [|? ? Ha IH']; subst. inversion IH' as [|? ? Hb _]; subst.
    cbn [uses_e flat_map]. rewrite app_nil_r. exact (simp_bin_uses _ _ _ _ _ _ sum2_uses Ha Hb E).
  - destruct cs as [|a [|b [|c r]]]; try discriminate.
    inversion IH as [|? ? Ha IH']; subst. inversion IH' as [|? ? Hb _]; subst.
    cbn [uses_e flat_map]. rewrite app_nil_r. exact (simp_bin_uses _ _ _ _ _ _ prod2_uses Ha Hb E).
  - exact (simp_bin_uses _ _ _ _ _ _ (quot2_uses force) IHn IHd E).
  - destruct (M_C32.is_intr f); [discriminate|]. injection E as <-. apply incl_refl.
Qed.

Lemma simp_e_uses force m e e' : M_C32.simp_e force m e = Some e' -> incl (uses_e e') (uses_e e).
Proof.
  unfold M_C32.simp_e. destruct (M_C32.simp force m e) as [s|] eqn:E; [|discriminate].
  intros H. inversion H; subst. apply (simp_uses _ _ _ _ E).
Qed.

Lemma simp_list_uses force m l : forall l',
  M_C32.simp_list force m l = Some l' -> List.length l' = List.length l /\ incl (uses_es l') (uses_es l).
Proof.
  induction l as [|e r IH]; intros l' H; cbn [M_C32.simp_list] in H.
  - injection H as <-. split; [reflexivity | apply incl_refl].
  - destruct (M_C32.simp_e force m e) as [e'|] eqn:Ee; [|discriminate].
    destruct (M_C32.simp_list force m r) as [r'|]; [|discriminate]. injection H as <-.
    destruct (IH r' eq_refl) as [L U]. split; [cbn; rewrite L; reflexivity|].
    unfold uses_es. cbn [flat_map]. apply incl_app_app; [apply (simp_e_uses _ _ _ _ Ee) | exact U].
Qed.

(** [go_c] (and [go_s] below) name the anonymous local [fix] of [M_C32.simp_cond] ([M_C32.dce1]) so that lemmas can
    speak of it; after one [cbn] step of the model function the loop is recovered with [fold]. *)
Definition go_c (f : expr -> option expr) : list expr -> option (list expr) :=
  fix go (l : list expr) : option (list expr) :=
    match l with
    | [] => Some []
    | x :: r => match f x, go r with Some x', Some r' => Some (x' :: r') | _, _ => None end
    end.

Lemma go_c_uses f l :
  Forall (fun c => forall c', f c = Some c' -> incl (uses_e c') (uses_e c)) l ->
  forall l', go_c f l = Some l' -> incl (flat_map uses_e l') (flat_map uses_e l).
Proof.
  induction 1 as [|x r Hx Hr IH]; intros l' E.
  - inversion E. apply incl_refl.
  - cbn [go_c] in E. fold (go_c f) in E. destruct (f x) as [x'|] eqn:Ex; [|discriminate].
    destruct (go_c f r) as [r'|]; [|discriminate]. inversion E; subst. cbn [flat_map].
    apply incl_app_app; [apply Hx; reflexivity | apply IH; reflexivity].
Qed.

(** conjunction and disjunction are simplified alike: an absorbing operand decides the result, neutral operands are
    dropped, the rest is rebuilt with [mk] *)
Lemma junction_uses (absorb neutral : expr -> bool) (b : bool) (mk : list expr -> expr) cs' c' U :
  (forall l, uses_e (mk l) = flat_map uses_e l) -> incl (flat_map uses_e cs') U ->
  (if existsb absorb cs' then (if forallb M_C32.total_c cs' then Some (ELog b) else None)
   else match filter (fun x => negb (neutral x)) cs' with
        | [] => Some (ELog (negb b))
        | rest => Some (mk rest)
        end) = Some c' ->
  incl (uses_e c') U.
Proof.
  intros Hmk Eg E. destruct (existsb absorb cs').
  - destruct (forallb M_C32.total_c cs'); [|discriminate]. injection E as <-. apply incl_nil_l.
  - destruct (filter (fun x => negb (neutral x)) cs') as [|e0 l0] eqn:F; injection E as <-; [apply incl_nil_l|].
    rewrite Hmk, <- F. eapply incl_tran; [apply incl_fm_filter | exact Eg].
Qed.

Lemma simp_cond_uses force m c : forall c',
  M_C32.simp_cond force m c = Some c' -> incl (uses_e c') (uses_e c).
Proof.
  induction c as [v|v|x|b|p cs IH|p cs IH|p n d IHn IHd|p n d IHn IHd|op n d IHn IHd|cs IH|cs IH|n IHn|f cs IH]
    using expr_ind'; intros c' E; try discriminate.
  - cbn in E. inversion E. apply incl_refl.
  - cbn [M_C32.simp_cond] in E.
    destruct (M_C32.simp force m n) as [x|] eqn:Ea; [|discriminate].
    destruct (M_C32.simp force m d) as [y|] eqn:Eb; [|destruct x; discriminate].
    apply simp_uses in Ea. apply simp_uses in Eb.
    assert (R : (exists b, c' = ELog b) \/ c' = ECmp op (M_C32.expr_of x) (M_C32.expr_of y)).
    { destruct x, y; inversion E; subst; try (right; reflexivity). left. eexists. reflexivity. }
    destruct R as [[b R]|R]; subst c'; [apply incl_nil_l|]. cbn [uses_e]. apply incl_app_app; assumption.
  - cbn [M_C32.simp_cond] in E. fold (go_c (M_C32.simp_cond force m)) in E. destruct (go_c (M_C32.simp_cond force m) cs) as [cs'|] eqn:Eg; [|discriminate].
    exact (junction_uses M_C32.is_false M_C32.is_true false EAnd cs' c' _ (fun _ => eq_refl) (go_c_uses _ _ IH _ Eg) E).
  - cbn [M_C32.simp_cond] in E. fold (go_c (M_C32.simp_cond force m)) in E. destruct (go_c (M_C32.simp_cond force m) cs) as [cs'|] eqn:Eg; [|discriminate].
    exact (junction_uses M_C32.is_true M_C32.is_false true EOr cs' c' _ (fun _ => eq_refl) (go_c_uses _ _ IH _ Eg) E).
  - cbn [M_C32.simp_cond] in E. destruct (M_C32.simp_cond force m n) as [x'|]; [|discriminate].
    specialize (IHn _ eq_refl).
    destruct x'; inversion E; subst; cbn [uses_e]; exact IHn.
Qed.

Definition go_s (f : stmt -> option (list stmt)) : list stmt -> option (list stmt) :=
  fix go (l : list stmt) : option (list stmt) :=
    match l with
    | [] => Some []
    | s :: r => match f s, go r with Some a, Some b => Some (a ++ b) | _, _ => None end
    end.

Lemma go_s_uses f l :
  Forall (fun s => forall a, f s = Some a -> incl (flat_map uses_stmt a) (uses_stmt s)) l ->
  forall l', go_s f l = Some l' -> incl (flat_map uses_stmt l') (flat_map uses_stmt l).
Proof.
  induction 1 as [|x r Hx Hr IH]; intros l' E.
  - inversion E. apply incl_refl.
  - cbn [go_s] in E. fold (go_s f) in E. destruct (f x) as [a|] eqn:Ex; [|discriminate].
    destruct (go_s f r) as [b|]; [|discriminate]. inversion E; subst. rewrite flat_map_app. cbn [flat_map].
    apply incl_app_app; [apply Hx; reflexivity | apply IH; reflexivity].
Qed.

Lemma dce_go u l : M_C32.dce u l = go_s (M_C32.dce1 u) l.
Proof. induction l as [|s r IH]; [reflexivity|]. cbn [M_C32.dce go_s]. fold (go_s (M_C32.dce1 u)). rewrite <- IH. reflexivity. Qed.

Lemma dce1_incl u s : forall l', M_C32.dce1 u s = Some l' -> incl (flat_map uses_stmt l') (uses_stmt s).
Proof.
  induction s as [x e|a idx e|v lo hi st b IH|c b IH|c t e IHt IHe|f args|l] using stmt_ind'; intros l' E;
    try (injection E as <-; rewrite uses_single; apply incl_refl).
  - cbn [M_C32.dce1] in E. fold (go_s (M_C32.dce1 u)) in E. destruct (go_s (M_C32.dce1 u) b) as [b'|] eqn:Eb; [|discriminate].
    injection E as <-. rewrite uses_single. apply uses_do_incl; try apply incl_refl. exact (go_s_uses _ _ IH _ Eb).
  - cbn [M_C32.dce1] in E. fold (go_s (M_C32.dce1 u)) in E. destruct (go_s (M_C32.dce1 u) b) as [b'|] eqn:Eb; [|discriminate].
    injection E as <-. rewrite uses_single. apply uses_while_incl; [apply incl_refl | exact (go_s_uses _ _ IH _ Eb)].
  - cbn [M_C32.dce1] in E. fold (go_s (M_C32.dce1 u)) in E.
    destruct (if u then M_C32.simp_cond false [] c else Some c) as [c'|] eqn:Ec; [|discriminate].
    destruct (go_s (M_C32.dce1 u) t) as [t'|] eqn:Et; [|discriminate].
    destruct (go_s (M_C32.dce1 u) e) as [e'|] eqn:Ee; [|discriminate].
    apply (go_s_uses _ _ IHt) in Et. apply (go_s_uses _ _ IHe) in Ee.
    assert (Hc : incl (uses_e c') (uses_e c)).
    { destruct u; [apply (simp_cond_uses _ _ _ _ Ec) | injection Ec as <-; apply incl_refl]. }
    (* a constant condition selects a branch, otherwise the statement is rebuilt *)
    assert (R : l' = t' \/ l' = e' \/ l' = [SIf c' t' e']).
    { destruct c' as [| | |[]| | | | | | | | |];
        try (destruct (M_C32.is_elseif e && M_C32.is_nil e'); [discriminate|]); injection E as <-; auto. }
    destruct R as [-> | [-> | ->]].
    + cbn [uses_stmt]. apply incl_appr, incl_appl, Et.
    + cbn [uses_stmt]. apply incl_appr, incl_appr, Ee.
    + rewrite uses_single. apply uses_if_incl; assumption.
Qed.

Lemma dce_incl u l l' : M_C32.dce u l = Some l' -> incl (uses_stmts l') (uses_stmts l).
Proof.
  rewrite dce_go. unfold uses_stmts. apply go_s_uses. apply Forall_forall. intros s _. apply dce1_incl.
Qed.

Theorem T_dce_preserves_well_scoped simp (u u' : unit (list stmt)) :
  well_scoped uses_stmts u -> T_dce simp u = Some u' -> well_scoped uses_stmts u'.
Proof.
  intros W E. unfold T_dce in E.
  apply (T_body_opt_preserves uses_stmts uses_stmts (M_C32.dce simp) u u'); [|exact W | exact E].
  intros b' Hb. apply (dce_incl _ _ _ Hb).
Qed.

Lemma simp_step_uses m st sst :
  M_C32.simp_step m st = Some sst -> incl (uses_oe (M_C32.expr_of_step sst)) (uses_oe st).
Proof.
  unfold M_C32.simp_step. destruct st as [e|].
  - destruct (M_C32.simp true m e) as [s|] eqn:E; [|discriminate]. intros H. inversion H; subst.
    cbn [M_C32.expr_of_step uses_oe]. apply (simp_uses _ _ _ _ E).
  - intros H. inversion H; subst. apply incl_refl.
Qed.

(** The rebuilt statement has the shape of the old one with simplified sub-terms, so [uses_do_incl] & co. apply;
    in the DO case [R] isolates that shape from the [strict] / [bounds_const] guards, which only decide
    whether there is a result. *)
Lemma cp1_incl strict rec wl m st st' m1 :
  (forall wl m l l' m', rec wl m l = Some (l', m') -> incl (flat_map uses_stmt l') (flat_map uses_stmt l)) ->
  M_C32.cp1 strict rec wl m st = Some (st', m1) -> incl (uses_stmt st') (uses_stmt st).
Proof.
  intros Hrec E. destruct st as [x e|a idx e|v lo hi stp body|c body|c t e|g args|l]; cbn [M_C32.cp1] in E.
  - destruct (wl && M_C32.mem_expr (EVar x) (M_C32.syms e)).
    + destruct (strict && negb (M_C32.unknown m x)); [discriminate|]. inversion E; subst. apply incl_refl.
    + destruct (M_C32.simp true m e) as [s|] eqn:Es; [|discriminate]. inversion E; subst.
      cbn [uses_stmt]. apply incl_cons_same. apply (simp_uses _ _ _ _ Es).
  - destruct (wl && M_C32.mem_expr (ECall a idx) (M_C32.syms e)).
    + inversion E; subst. apply incl_refl.
    + destruct (M_C32.simp_list true m idx) as [idx'|] eqn:Ei; [|discriminate].
      destruct (M_C32.simp_e true m e) as [e'|] eqn:Ee; [|discriminate]. inversion E; subst.
      cbn [uses_stmt]. destruct (simp_list_uses _ _ _ _ Ei) as [Hlen Hi].
      rewrite Hlen. apply incl_cons_same, incl_app_app; [exact Hi | apply (simp_e_uses _ _ _ _ Ee)].
  - destruct (M_C32.simp true m lo) as [slo|] eqn:E1; [|discriminate].
    destruct (M_C32.simp true m hi) as [shi|] eqn:E2; [|discriminate].
    destruct (M_C32.simp_step m stp) as [sst|] eqn:E3; [|discriminate].
    destruct (rec true (M_C32.remove m v) body) as [[body' mm]|] eqn:E4; [|discriminate].
    assert (R : st' = SDo v (M_C32.expr_of slo) (M_C32.expr_of shi) (M_C32.expr_of_step sst) body').
    { destruct (strict && negb (M_C32.disjoint (M_C32.writes_l body) m)); [discriminate|].
      destruct (M_C32.bounds_const slo shi sst) as [[[a b] d]|].
      - match type of E with context [M_C32.post_const ?lv ?mm ?asg] => destruct (M_C32.post_const lv mm asg) end;
          [|discriminate].
        match type of E with context [if ?c then _ else _] => destruct c end; [discriminate|].
        inversion E. reflexivity.
      - inversion E. reflexivity. }
    subst st'. apply uses_do_incl;
      [apply (simp_uses _ _ _ _ E1) | apply (simp_uses _ _ _ _ E2) | apply (simp_step_uses _ _ _ E3) | apply (Hrec _ _ _ _ _ E4)].
  - destruct (rec wl m body) as [[body' mm]|] eqn:E1; [|discriminate].
    match type of E with context [if ?c then _ else _] => destruct c end; [discriminate|].
    injection E as <- _. apply uses_while_incl; [apply incl_refl | apply (Hrec _ _ _ _ _ E1)].
  - destruct (M_C32.simp_cond true m c) as [c'|] eqn:E1; [|discriminate].
    destruct (rec wl m t) as [[t' mt]|] eqn:E2; [|discriminate].
    destruct (rec wl m e) as [[e' me]|] eqn:E3; [|discriminate]. injection E as <- _.
    apply uses_if_incl; [apply (simp_cond_uses _ _ _ _ E1) | apply (Hrec _ _ _ _ _ E2) | apply (Hrec _ _ _ _ _ E3)].
  - match type of E with context [if ?c then _ else _] => destruct c end; [discriminate|].
    inversion E; subst. apply incl_refl.
  - inversion E; subst. apply incl_refl.
Qed.

Lemma cp_incl strict n : forall wl m l l' m',
  M_C32.cp strict n wl m l = Some (l', m') -> incl (flat_map uses_stmt l') (flat_map uses_stmt l).
Proof.
  induction n as [|k IH]; intros wl m l l' m' E; [discriminate|]. cbn [M_C32.cp] in E.
  destruct l as [|st r]; [inversion E; apply incl_refl|].
  destruct (M_C32.cp1 strict (M_C32.cp strict k) wl m st) as [[st' m1]|] eqn:E1; [|discriminate].
  destruct (M_C32.cp strict k wl m1 r) as [[r' m2]|] eqn:E2; [|discriminate]. inversion E; subst.
  cbn [flat_map]. apply incl_app_app; [apply (cp1_incl _ _ _ _ _ _ _ IH E1) | apply (IH _ _ _ _ _ E2)].
Qed.

Lemma constprop_incl n p p' : M_C32.constprop n p = Some p' -> incl (uses_stmts p') (uses_stmts p).
Proof.
  unfold M_C32.constprop. destruct (M_C32.cp true n false [] p) as [[q mm]|] eqn:E; [|discriminate].
  intros H. inversion H; subst. apply (cp_incl _ _ _ _ _ _ _ E).
Qed.

Lemma constprop_raw_incl n p p' : M_C32.constprop_raw n p = Some p' -> incl (uses_stmts p') (uses_stmts p).
Proof.
  unfold M_C32.constprop_raw. destruct (M_C32.cp false n false [] p) as [[q mm]|] eqn:E; [|discriminate].
  intros H. inversion H; subst. apply (cp_incl _ _ _ _ _ _ _ E).
Qed.

Theorem T_constprop_preserves_well_scoped n (u u' : unit (list stmt)) :
  well_scoped uses_stmts u -> T_body_opt (M_C32.constprop n) u = Some u' -> well_scoped uses_stmts u'.
Proof.
  intros W E.
  apply (T_body_opt_preserves uses_stmts uses_stmts (M_C32.constprop n) u u'); [|exact W | exact E].
  intros b' Hb. apply (constprop_incl _ _ _ Hb).
Qed.

Open Scope string_scope.
Open Scope Z_scope.

Definition ex_u : unit (list stmt) :=
  mkUnit ["n"] [("n", KScalar); ("i", KScalar); ("a", KArray 1); ("t", KScalar)] [] [] []
    [SSkip "$loki loop-unroll";
     SDo "i" (EInt 1) (EInt 2) None [SStore "a" [EVar "i"] (ESum false [EVar "i"; EVar "n"])];
     SAssign "t" (EInt 3);
     SIf (EAnd [ELog true; ECmp Clt (EInt 1) (EInt 2)]) [SAssign "t" (ESum false [EVar "t"; EInt 1])]
         [SAssign "n" (EVar "t")]].

Example T_same_inhabited :
  well_scopedb uses_stmts ex_u
  && well_scopedb uses_stmts (T_unroll ex_u)
  && negb (stmts_eqb (u_body (T_unroll ex_u)) (u_body ex_u))
  && (match T_dce true ex_u with
      | Some u' => well_scopedb uses_stmts u' && negb (stmts_eqb (u_body u') (u_body ex_u))
      | None => false end)
  && (match T_body_opt (M_C32.constprop 10) ex_u with
      | Some u' => well_scopedb uses_stmts u' && negb (stmts_eqb (u_body u') (u_body ex_u))
      | None => false end)
  = true.
Proof. vm_compute. reflexivity. Qed.

Print Assumptions T_unroll_preserves_well_scoped.
Print Assumptions T_dce_preserves_well_scoped.
Print Assumptions T_constprop_preserves_well_scoped.
