(** C41 — resolve_vector_notation at unit level: on the class [vec_class] (no synthesized or reused loop
    variable is the name of a declared array; every bare array reference has a declared shape) the unit
    produced by [T_vec] is well-scoped.  Outside of the class: a unit that declares an ARRAY named [i_a_0]
    ends up with a second, scalar declaration of that name, and the generated DO variable resolves to the
    array ([T_vec_array_clash_refuted], F-C41-vec1). *)
From Coq Require Import ZArith List Bool String Ascii Lia.
From LV Require Import Base.Expr Base.MiniF Base.MiniFFacts Base.ListFacts models.M_C41 proofs.P_C41_base.
From LV Require Import models.M_C30.
From LV Require proofs.P_C30_idx.
Import ListNotations.

Definition uses_range (r : range3) : list use :=
  match r with (lo, hi, st) => uses_oe lo ++ uses_oe hi ++ uses_oe st end.

(** occurrences in a QUALIFIED section expression: every reference counts with its number of subscripts *)
Fixpoint uses_qvexpr (e : vexpr) : list use :=
  match e with
  | VScal e => uses_e e
  | VRef a idx => (a, UArr (List.length idx)) :: flat_map uses_vindex idx
  | VSum _ cs | VProd _ cs => flat_map uses_qvexpr cs
  | VQuot _ n d => uses_qvexpr n ++ uses_qvexpr d
  | VCall f cs => (if is_intr f then [] else [(f, UArr (List.length cs))]) ++ flat_map uses_qvexpr cs
  end.

Lemma qualify_zip_length idx sh : List.length (qualify_zip idx sh) = Nat.min (List.length idx) (List.length sh).
Proof.
  revert sh. induction idx as [|d r IH]; intros [|s q]; cbn; try reflexivity. rewrite IH. reflexivity.
Qed.

Lemma resolve_go_body lm ds l :
  (fix go (l : list vstmt) : option (list stmt) :=
     match l with
     | [] => Some []
     | x :: r => obind (resolve_stmt lm ds x) (fun a => obind (go r) (fun b => Some (a ++ b)))
     end) l = resolve_body lm ds l.
Proof. induction l as [|x r IH]; [reflexivity|]. cbn [resolve_body]. rewrite <- IH. reflexivity. Qed.

Lemma lookup_decl_in ds a sh : lookup_decl ds a = Some sh -> In (a, sh) ds.
Proof.
  induction ds as [|[b s] r IH]; cbn; [discriminate|].
  destruct (String.eqb b a) eqn:E.
  - apply String.eqb_eq in E. subst. intros H. inversion H. left. reflexivity.
  - intros H. right. apply IH. exact H.
Qed.

(** [R0]: a use resolves in the input unit; [R]: it resolves in the output unit (more declarations);
    [ivs]: the loop variables the output declares as scalars.  [Hlen] reads the rank of a shaped array off an
    input use, [Hbare] gives the output use of a bare reference its full rank: the theorem gets both from
    [shape_ok].  [ok_index]/[ok_range]/[ok_pair]/[ok_map]: every use inside a subscript / a range / a
    (loop variable, range) pair / a dictionary of such pairs satisfies [R]. *)
Section Gen.
  Variables (ds : decls) (lm : loop_map) (R0 R : use -> Prop) (ivs : list string).
  Hypothesis HR0R : forall g, R0 g -> R g.
  Hypothesis Hiv : forall x, In x ivs -> R (x, UScal) /\ R (x, UAny).
  Hypothesis Hsh : forall a sh, lookup_decl ds a = Some sh ->
                                Forall (fun s => Forall R (uses_es (dshape_exprs s))) sh.
  Hypothesis Hlen : forall a sh n, lookup_decl ds a = Some sh -> sh <> [] -> R0 (a, UArr n) -> n = List.length sh.
  Hypothesis Hbare : forall a sh, lookup_decl ds a = Some sh -> sh <> [] -> R (a, UArr (List.length sh)).

  Definition ok_index (d : vindex) : Prop := Forall R (uses_vindex d).
  Definition ok_range (r : range3) : Prop := Forall R (uses_range r).
  Definition ok_pair (p : string * range3) : Prop := R (fst p, UScal) /\ R (fst p, UAny) /\ ok_range (snd p).

  Lemma Forall_R0_R l : Forall R0 l -> Forall R l.
  Proof. apply Forall_impl. exact HR0R. Qed.

  Lemma call_good a es n :
    R (a, UArr n) -> List.length es = n -> Forall R (flat_map uses_e es) -> Forall R (uses_e (ECall a es)).
  Proof.
    intros Ha <- He. cbn [uses_e]. apply Forall_app. split; [|exact He].
    destruct (is_intr a); constructor; [exact Ha | constructor].
  Qed.

  Lemma ranges_good idx : Forall ok_index idx -> Forall ok_range (ranges_of idx).
  Proof.
    induction idx as [|[e|lo hi st] r IH]; cbn; intros H; [constructor| |]; inversion H; subst; auto.
  Qed.

  Lemma shape_range_good s : Forall R (uses_es (dshape_exprs s)) -> ok_index (shape_range s).
  Proof. destruct s; unfold ok_index; cbn; intros H; exact H. Qed.

  Lemma qualify_zip_good idx : forall sh,
    Forall ok_index idx -> Forall (fun s => Forall R (uses_es (dshape_exprs s))) sh -> Forall ok_index (qualify_zip idx sh).
  Proof.
    induction idx as [|d r IH]; intros [|s q] Hi Hs; cbn; try constructor.
    - apply Forall_cons_iff in Hi. apply Forall_cons_iff in Hs. destruct Hi, Hs. destruct (is_colon d); [apply shape_range_good; assumption | assumption].
    - apply Forall_cons_iff in Hi. apply Forall_cons_iff in Hs. destruct Hi, Hs. apply IH; assumption.
  Qed.

  Lemma colons_good {A} (l : list A) : Forall ok_index (map (fun _ => IRange None None None) l).
  Proof. induction l; cbn; constructor; [constructor | assumption]. Qed.

  Lemma qualify_idx_good a idx : Forall ok_index idx -> Forall ok_index (qualify_idx ds a idx).
  Proof.
    intros H. unfold qualify_idx. destruct (lookup_decl ds a) as [[|s sh]|] eqn:E; try exact H.
    apply qualify_zip_good; [|apply (Hsh a); exact E].
    destruct idx; [apply colons_good | exact H].
  Qed.

  Lemma qualify_idx_len a idx :
    shaped ds a idx = true -> R0 (a, ref_usage idx) -> R (a, UArr (List.length (qualify_idx ds a idx))).
  Proof.
    unfold qualify_idx, shaped. destruct (lookup_decl ds a) as [[|s sh]|] eqn:E.
    - destruct idx; [discriminate|]. intros _ H. apply HR0R. exact H.
    - intros _ H.
      assert (L : List.length (qualify_zip match idx with [] => map (fun _ => IRange None None None) (s :: sh) | _ :: _ => idx end (s :: sh))
                  = List.length (s :: sh)).
      { rewrite qualify_zip_length. destruct idx as [|d r].
        - rewrite map_length. apply Nat.min_id.
        - cbn [ref_usage] in H. apply (Hlen a (s :: sh)) in H; [|exact E|discriminate]. rewrite H. apply Nat.min_id. }
      rewrite L. apply Hbare; [exact E | discriminate].
    - destruct idx; [discriminate|]. intros _ H. apply HR0R. exact H.
  Qed.

  Lemma idx_good_of_R0 idx : Forall R0 (flat_map uses_vindex idx) -> Forall ok_index idx.
  Proof. intros H. apply Forall_R0_R in H. apply Forall_flat_map in H. exact H. Qed.

  (** a subscript list whose sections have been replaced: scalar positions are kept, a range position holds an
      expression whose uses resolve *)
  Definition pos_ok (d : vindex) (e : expr) : Prop :=
    match d with IScalar e0 => e = e0 | IRange _ _ _ => Forall R (uses_e e) end.

  Lemma pos_ok_good idx es :
    Forall2 pos_ok idx es -> Forall ok_index idx -> List.length es = List.length idx /\ Forall R (uses_es es).
  Proof.
    induction 1 as [|d e idx es Hd _ IH]; intros Hi; [split; [reflexivity | constructor]|].
    apply Forall_cons_iff in Hi. destruct (IH (proj2 Hi)) as [A B]. split; [cbn; rewrite A; reflexivity|].
    unfold uses_es in *. cbn [flat_map]. apply Forall_app. split; [|exact B].
    destruct d; [rewrite Hd; exact (proj1 Hi) | exact Hd].
  Qed.

  Lemma lhs_subst_pos : forall idx ivs0 li,
    lhs_subst idx ivs0 = Some li -> (forall x, In x ivs0 -> R (x, UAny)) -> Forall2 pos_ok idx li.
  Proof.
    induction idx as [|[e|lo hi st] r IH]; intros ivs0 li; cbn [lhs_subst].
    - destruct ivs0; [|discriminate]. intros [= <-] _. constructor.
    - intros H Hv. apply option_map_some in H. destruct H as [l [E ->]].
      constructor; [reflexivity | exact (IH _ _ E Hv)].
    - destruct ivs0 as [|iv ivs']; [discriminate|]. intros H Hv. apply option_map_some in H. destruct H as [l [E ->]].
      constructor; [|exact (IH _ _ E (fun x Hx => Hv x (or_intror Hx)))].
      constructor; [apply Hv; left; reflexivity | constructor].
  Qed.

  Lemma scalars_of_pos : forall idx es, scalars_of idx = Some es -> Forall2 pos_ok idx es.
  Proof.
    induction idx as [|[e|lo hi st] r IH]; intros es; cbn [scalars_of]; [intros [= <-]; constructor | | discriminate].
    intros H. apply option_map_some in H. destruct H as [l [E ->]]. constructor; [reflexivity | exact (IH _ E)].
  Qed.

  Lemma rhs_index_good iv lr rr e :
    rhs_index iv lr rr = Some e -> R (iv, UAny) -> ok_range lr -> ok_range rr -> Forall R (uses_e e).
  Proof.
    destruct lr as [[lo_l hi_l] st_l]. destruct rr as [[lo_r hi_r] st_r]. unfold rhs_index.
    intros H Hv Hl Hr.
    destruct (range3_eqb (lo_l, hi_l, st_l) (lo_r, hi_r, st_r) || oexpr_eqb lo_l lo_r).
    - inversion H. cbn. constructor; [exact Hv | constructor].
    - destruct lo_l as [l|]; [|discriminate]. destruct lo_r as [r|]; [|discriminate]. inversion H.
      unfold ok_range in *. cbn in Hl, Hr. rewrite !Forall_app in Hl, Hr.
      cbn. constructor; [exact Hv|]. rewrite !Forall_app. repeat split; try constructor; tauto.
  Qed.

  Lemma rhs_subst_pos : forall idx lrs es,
    rhs_subst idx lrs = Some es -> Forall ok_index idx -> Forall ok_pair lrs -> Forall2 pos_ok idx es.
  Proof.
    induction idx as [|[e|lo hi st] r IH]; intros lrs es; cbn [rhs_subst].
    - destruct lrs; [|discriminate]. intros [= <-] _ _. constructor.
    - intros H Hi Hv. apply option_map_some in H. destruct H as [l [E ->]]. apply Forall_cons_iff in Hi.
      constructor; [reflexivity | exact (IH _ _ E (proj2 Hi) Hv)].
    - destruct lrs as [|[iv lr] lrs']; [discriminate|]. intros H Hi Hv.
      apply obind_some in H. destruct H as [x [Ex H]]. apply option_map_some in H. destruct H as [l [E ->]].
      apply Forall_cons_iff in Hi. apply Forall_cons_iff in Hv. destruct Hv as [(_ & Hany & Hlr) Hv].
      constructor; [exact (rhs_index_good _ _ _ _ Ex Hany Hlr (proj1 Hi)) | exact (IH _ _ E (proj2 Hi) Hv)].
  Qed.

  Lemma tr_go_good lrs cs : forall rs,
    Forall (fun e => forall r, tr_vexpr lrs e = Some r -> Forall R (uses_qvexpr e) -> Forall R (uses_e r)) cs ->
    (fix go (l : list vexpr) : option (list expr) :=
       match l with
       | [] => Some []
       | x :: r => obind (tr_vexpr lrs x) (fun y => obind (go r) (fun ys => Some (y :: ys)))
       end) cs = Some rs ->
    Forall R (flat_map uses_qvexpr cs) ->
    List.length rs = List.length cs /\ Forall R (flat_map uses_e rs).
  Proof.
    induction cs as [|c cs IH]; intros rs HF E Hg.
    - inversion E. split; [reflexivity | constructor].
    - apply obind_some in E. destruct E as [y [E1 E]]. apply obind_some in E. destruct E as [ys [E2 E]].
      inversion E; subst. apply Forall_cons_iff in HF. destruct HF as [H1 H2]. cbn in Hg. apply Forall_app in Hg. destruct Hg as [Hg1 Hg2].
      destruct (IH _ H2 E2 Hg2) as [A B]. split; [cbn; rewrite A; reflexivity|].
      cbn. apply Forall_app. split; [apply H1; assumption | assumption].
  Qed.

  Lemma tr_vexpr_good lrs : Forall ok_pair lrs ->
    forall e r, tr_vexpr lrs e = Some r -> Forall R (uses_qvexpr e) -> Forall R (uses_e r).
  Proof.
    intros HL. induction e as [e|a idx|p cs IH|p cs IH|p n d IHn IHd|f cs IH] using vexpr_ind'; intros r E Hg.
    (* sums and products *)
    3,4: cbn in E; apply option_map_some in E; destruct E as [rs [E ->]]; cbn in Hg;
         destruct (tr_go_good lrs cs rs IH E Hg) as [_ B]; exact B.
    - cbn in E. inversion E; subst. exact Hg.
    - cbn in E, Hg. apply Forall_cons_iff in Hg. destruct Hg as [H1 H2]. apply Forall_flat_map in H2.
      destruct (ranges_of idx).
      + apply option_map_some in E. destruct E as [es [E ->]]. destruct (pos_ok_good _ _ (scalars_of_pos _ _ E) H2) as [A B].
        exact (call_good a es _ H1 A B).
      + apply option_map_some in E. destruct E as [es [E ->]]. destruct (pos_ok_good _ _ (rhs_subst_pos _ _ _ E H2 HL) H2) as [A B].
        exact (call_good a es _ H1 A B).
    - cbn in E. apply obind_some in E. destruct E as [x [E1 E]]. apply obind_some in E. destruct E as [y [E2 E]].
      inversion E; subst. cbn in Hg. apply Forall_app in Hg. destruct Hg as [Hg1 Hg2].
      cbn. apply Forall_app. split; [apply IHn | apply IHd]; assumption.
    - cbn in E. apply option_map_some in E. destruct E as [rs [E ->]]. cbn in Hg. apply Forall_app in Hg. destruct Hg as [Hg1 Hg2].
      destruct (tr_go_good lrs cs rs IH E Hg2) as [A B].
      cbn. apply Forall_app. split; [|exact B]. rewrite A. exact Hg1.
  Qed.

  Lemma qualify_list_good cs :
    Forall (fun e => all_refs_vexpr (shaped ds) e = true -> Forall R0 (uses_vexpr e) ->
                     Forall R (uses_qvexpr (qualify_vexpr ds e))) cs ->
    forallb (all_refs_vexpr (shaped ds)) cs = true -> Forall R0 (flat_map uses_vexpr cs) ->
    Forall R (flat_map uses_qvexpr (map (qualify_vexpr ds) cs)).
  Proof.
    induction cs as [|c cs IH]; intros HF Hb Hg; cbn; [constructor|].
    apply Forall_cons_iff in HF. destruct HF as [H1 H2]. cbn in Hb, Hg. apply andb_true_iff in Hb. destruct Hb as [Hb1 Hb2].
    apply Forall_app in Hg. destruct Hg as [Hg1 Hg2].
    apply Forall_app. split; [apply H1; assumption | apply IH; assumption].
  Qed.

  Lemma qualify_vexpr_good e :
    all_refs_vexpr (shaped ds) e = true -> Forall R0 (uses_vexpr e) -> Forall R (uses_qvexpr (qualify_vexpr ds e)).
  Proof.
    induction e as [e|a idx|p cs IH|p cs IH|p n d IHn IHd|f cs IH] using vexpr_ind'; cbn; intros Hb Hg.
    - apply Forall_R0_R; exact Hg.
    - apply Forall_cons_iff in Hg. destruct Hg as [H1 H2]. constructor; [apply qualify_idx_len; assumption|].
      apply Forall_flat_map. apply qualify_idx_good. apply idx_good_of_R0. assumption.
    - apply qualify_list_good; assumption.
    - apply qualify_list_good; assumption.
    - apply andb_true_iff in Hb. destruct Hb as [Hb1 Hb2]. apply Forall_app in Hg. destruct Hg as [Hg1 Hg2].
      apply Forall_app. split; [apply IHn | apply IHd]; assumption.
    - apply Forall_app in Hg. destruct Hg as [G1 G2]. apply Forall_app.
      split; [rewrite map_length; apply Forall_R0_R; exact G1 | apply qualify_list_good; assumption].
  Qed.

  Lemma combine_good (ivs0 : list string) (rs : list range3) :
    incl ivs0 ivs -> Forall ok_range rs -> Forall ok_pair (combine ivs0 rs).
  Proof.
    intros Hv Hr. apply Forall_forall. intros [iv r] Hp. unfold ok_pair. cbn.
    pose proof (in_combine_l _ _ _ _ Hp) as A. pose proof (in_combine_r _ _ _ _ Hp) as B.
    destruct (Hiv iv (Hv iv A)) as [S1 S2]. rewrite Forall_forall in Hr. repeat split; auto.
  Qed.

  Lemma wrap_loops_good : forall lrs body l,
    wrap_loops lrs body = Some l -> Forall ok_pair lrs -> Forall R (uses_stmts body) -> Forall R (uses_stmts l).
  Proof.
    induction lrs as [|[iv [[lo hi] st]] rest IH]; intros body l; cbn.
    - intros H _ Hb. inversion H; subst. exact Hb.
    - destruct lo as [lo|]; [|discriminate]. destruct hi as [hi|]; [|discriminate].
      intros E HG Hb. inversion HG; subst. apply (IH _ _ E); [assumption|].
      destruct H1 as [Hs [_ Hr]]. cbn in Hs, Hr. unfold ok_range in Hr. cbn in Hr.
      unfold uses_stmts in *. cbn [flat_map uses_stmt]. rewrite app_nil_r. constructor; [exact Hs|].
      apply Forall_app in Hr. destruct Hr as [Hlo Hr]. apply Forall_app in Hr. destruct Hr as [Hhi Hst].
      repeat (apply Forall_app; split); assumption.
  Qed.

  Lemma resolve_core_good a idx rhs st lrs :
    resolve_core lm ds a idx rhs = Some (st, lrs) ->
    shaped ds a idx = true -> all_refs_vexpr (shaped ds) rhs = true ->
    R0 (a, ref_usage idx) -> Forall R0 (flat_map uses_vindex idx) -> Forall R0 (uses_vexpr rhs) ->
    incl (core_ivars lm ds a idx) ivs ->
    Forall R (uses_stmt st) /\ Forall ok_pair lrs.
  Proof.
    unfold resolve_core, core_ivars. intros E Hs Hr Ha Hi Hrhs Hinc.
    apply obind_some in E. destruct E as [li [E1 E]]. apply obind_some in E. destruct E as [r [E2 E]].
    inversion E; subst. clear E.
    assert (Gq : Forall ok_index (qualify_idx ds a idx)) by (apply qualify_idx_good, idx_good_of_R0; exact Hi).
    assert (GL : Forall ok_pair (combine (name_ranges lm ("i_" ++ a) 0 (ranges_of (qualify_idx ds a idx)) [])
                                    (ranges_of (qualify_idx ds a idx)))).
    { apply combine_good; [exact Hinc | apply ranges_good; exact Gq]. }
    destruct (pos_ok_good _ _ (lhs_subst_pos _ _ _ E1 (fun x Hx => proj2 (Hiv x (Hinc x Hx)))) Gq) as [A B].
    split; [|exact GL].
    cbn. constructor.
    - rewrite A. apply qualify_idx_len; assumption.
    - apply Forall_app. split; [exact B|]. apply (tr_vexpr_good _ GL _ _ E2). apply qualify_vexpr_good; assumption.
  Qed.

  Definition ok_map (m : list (string * range3)) : Prop := Forall (fun p => ok_range (snd p)) m.

  Lemma dict_set_keys m k r x : In x (map fst m) \/ x = k -> In x (map fst (dict_set m k r)).
  Proof.
    induction m as [|[k' r'] rest IH]; cbn.
    - intros [[] | ->]. left. reflexivity.
    - destruct (String.eqb k' k) eqn:E; cbn.
      + apply String.eqb_eq in E. subst. intros [[A|A] | ->]; [left; exact A | right; exact A | left; reflexivity].
      + intros [[A|A]|A]; [left; exact A | right; apply IH; left; exact A | right; apply IH; right; exact A].
  Qed.

  Lemma dict_set_ok m k r : ok_map m -> ok_range r -> ok_map (dict_set m k r).
  Proof.
    unfold ok_map. induction m as [|[k' r'] rest IH]; cbn; intros Hm Hr.
    - constructor; [exact Hr | constructor].
    - inversion Hm; subst. destruct (String.eqb k' k); constructor; auto.
  Qed.

  Lemma dict_update_keys upd : forall m x,
    In x (map fst m) \/ In x (map fst upd) -> In x (map fst (dict_update m upd)).
  Proof.
    unfold dict_update. induction upd as [|[k r] rest IH]; intros m x; cbn.
    - intros [A|[]]. exact A.
    - intros H. apply IH. destruct H as [A|[A|A]]; [left | left | right; exact A]; apply dict_set_keys.
      + left. exact A.
      + right. symmetry. exact A.
  Qed.

  Lemma dict_update_ok upd : forall m, ok_map m -> ok_map upd -> ok_map (dict_update m upd).
  Proof.
    unfold dict_update. induction upd as [|[k r] rest IH]; intros m Hm Hu; cbn; [exact Hm|].
    inversion Hu; subst. apply IH; [apply dict_set_ok; assumption | assumption].
  Qed.

  Lemma where_map_pos : forall idx i used es m,
    where_map lm i idx used = (es, m) -> Forall ok_index idx ->
    ok_map m /\ (incl (map fst m) ivs -> Forall2 pos_ok idx es).
  Proof.
    induction idx as [|[e|lo hi st] r IH]; intros i used es m; cbn [where_map].
    - intros [= <- <-] _. split; [constructor | intros _; constructor].
    - destruct (where_map lm (S i) r used) as [es' m'] eqn:W. intros [= <- <-] Hi. apply Forall_cons_iff in Hi.
      destruct (IH _ _ _ _ W (proj2 Hi)) as [B C]. split; [exact B|].
      intros Hinc. constructor; [reflexivity | exact (C Hinc)].
    - match goal with |- context [where_map lm (S i) r (?n :: used)] => set (nm := n) end.
      destruct (where_map lm (S i) r (nm :: used)) as [es' m'] eqn:W. intros [= <- <-] Hi. apply Forall_cons_iff in Hi.
      destruct (IH _ _ _ _ W (proj2 Hi)) as [B C]. split; [constructor; [exact (proj1 Hi) | exact B]|].
      intros Hinc. apply incl_cons_inv in Hinc. constructor; [|exact (C (proj2 Hinc))].
      constructor; [exact (proj2 (Hiv _ (proj1 Hinc))) | constructor].
  Qed.

  Definition where_goal (e : vexpr) : Prop := forall m x m',
    where_vexpr lm e m = Some (x, m') -> Forall R (uses_qvexpr e) -> ok_map m ->
    incl (map fst m) (map fst m') /\ ok_map m' /\ (incl (map fst m') ivs -> Forall R (uses_e x)).

  Lemma where_go_good cs : Forall where_goal cs -> forall m xs m',
    (fix go (l : list vexpr) (m : list (string * range3)) : option (list expr * list (string * range3)) :=
       match l with
       | [] => Some ([], m)
       | x :: r => obind (where_vexpr lm x m) (fun q => obind (go r (snd q)) (fun qs => Some (fst q :: fst qs, snd qs)))
       end) cs m = Some (xs, m') ->
    Forall R (flat_map uses_qvexpr cs) -> ok_map m ->
    incl (map fst m) (map fst m') /\ ok_map m' /\ List.length xs = List.length cs
    /\ (incl (map fst m') ivs -> Forall R (flat_map uses_e xs)).
  Proof.
    induction cs as [|c cs IH]; intros HF m xs m' E Hg Hm.
    - inversion E; subst. split; [apply incl_refl|]. split; [exact Hm|]. split; [reflexivity | intros _; constructor].
    - apply obind_some in E. destruct E as [[y m1] [E1 E]]. apply obind_some in E. destruct E as [[ys m2] [E2 E]].
      cbn in E, E2. inversion E; subst. apply Forall_cons_iff in HF. destruct HF as [H1 H2]. cbn in Hg. apply Forall_app in Hg. destruct Hg as [Hg1 Hg2].
      destruct (H1 _ _ _ E1 Hg1 Hm) as [A1 [B1 C1]].
      destruct (IH H2 _ _ _ E2 Hg2 B1) as [A2 [B2 [L2 C2]]].
      split; [eapply incl_tran; eassumption|]. split; [exact B2|]. split; [cbn; rewrite L2; reflexivity|].
      intros Hinc. cbn. apply Forall_app. split; [apply C1; eapply incl_tran; eassumption | apply C2; exact Hinc].
  Qed.

  Lemma where_vexpr_good e : where_goal e.
  Proof.
    induction e as [e|a idx|p cs IH|p cs IH|p n d IHn IHd|f cs IH] using vexpr_ind'; intros m x m' E Hg Hm.
    (* sums and products *)
    3,4: cbn in E; apply option_map_some in E; destruct E as [[xs m2] [E Ex]]; inversion Ex; subst; cbn in Hg;
         destruct (where_go_good cs IH _ _ _ E Hg Hm) as [A [B [_ C]]]; cbn; auto.
    - cbn in E. inversion E; subst. split; [apply incl_refl|]. split; [exact Hm | intros _; exact Hg].
    - cbn in E, Hg. apply Forall_cons_iff in Hg. destruct Hg as [H1 H2]. apply Forall_flat_map in H2.
      destruct (ranges_of idx).
      + apply option_map_some in E. destruct E as [es [E Ex]]. inversion Ex; subst.
        destruct (pos_ok_good _ _ (scalars_of_pos _ _ E) H2) as [A B].
        split; [apply incl_refl|]. split; [exact Hm|]. intros _.
        exact (call_good a es _ H1 A B).
      + destruct (where_map lm 0 idx []) as [es mm] eqn:W. inversion E; subst.
        destruct (where_map_pos _ _ _ _ _ W H2) as [B C].
        split; [intros k Hk; apply dict_update_keys; left; exact Hk|].
        split; [apply dict_update_ok; assumption|]. intros Hinc.
        destruct (pos_ok_good idx es) as [A Hes]; [|exact H2 | exact (call_good a es _ H1 A Hes)].
        apply C. intros k Hk. apply Hinc. apply dict_update_keys. right. exact Hk.
    - cbn in E. apply obind_some in E. destruct E as [[y m1] [E1 E]]. apply obind_some in E. destruct E as [[z m2] [E2 E]].
      cbn in E, E2. inversion E; subst. cbn in Hg. apply Forall_app in Hg. destruct Hg as [Hg1 Hg2].
      destruct (IHn _ _ _ E1 Hg1 Hm) as [A1 [B1 C1]]. destruct (IHd _ _ _ E2 Hg2 B1) as [A2 [B2 C2]].
      split; [eapply incl_tran; eassumption|]. split; [exact B2|]. intros Hinc.
      cbn. apply Forall_app. split; [apply C1; eapply incl_tran; eassumption | apply C2; exact Hinc].
    - cbn in E. apply option_map_some in E. destruct E as [[xs m2] [E Ex]]. inversion Ex; subst. cbn in Hg.
      apply Forall_app in Hg. destruct Hg as [Hg1 Hg2].
      destruct (where_go_good cs IH _ _ _ E Hg2 Hm) as [A [B [L C]]]. cbn.
      split; [exact A|]. split; [exact B|]. intros Hinc. apply Forall_app. split; [rewrite L; exact Hg1 | apply C; exact Hinc].
  Qed.

  Lemma ok_map_pairs m : ok_map m -> incl (map fst m) ivs -> Forall ok_pair m.
  Proof.
    unfold ok_map. intros Hm Hinc. apply Forall_forall. intros p Hp. rewrite Forall_forall in Hm.
    destruct (Hiv (fst p)) as [A B]; [apply Hinc; apply in_map; exact Hp|]. unfold ok_pair. auto.
  Qed.

  Lemma where_body_good : forall b l,
    resolve_where_body lm ds b = Some l ->
    forallb (all_refs_stmt (shaped ds)) b = true -> Forall R0 (flat_map uses_vstmt b) ->
    incl (where_body_ivars lm ds b) ivs -> Forall R (uses_stmts l).
  Proof.
    induction b as [|s r IH]; intros l; cbn [resolve_where_body].
    - intros H _ _ _. inversion H. constructor.
    - destruct s as [s|a idx rhs|v lo hi st bb|c t e|c bb e]; try discriminate.
      intros E Hb Hg Hinc. apply obind_some in E. destruct E as [[st lrs] [E1 E]]. apply option_map_some in E. destruct E as [l' [E2 ->]].
      cbn [forallb all_refs_stmt] in Hb. apply andb_true_iff in Hb. destruct Hb as [Hb1 Hb2]. apply andb_true_iff in Hb1. destruct Hb1 as [Hs Hr].
      cbn [flat_map uses_vstmt app] in Hg. apply Forall_cons_iff in Hg. destruct Hg as [H1 H2]. rewrite <- app_assoc in H2. rewrite !Forall_app in H2. destruct H2 as [Gi [Gr Gb]].
      unfold where_body_ivars in Hinc. cbn [flat_map] in Hinc. fold (where_body_ivars lm ds r) in Hinc.
      apply incl_app_inv in Hinc. destruct Hinc as [I1 I2].
      destruct (resolve_core_good _ _ _ _ _ E1 Hs Hr H1 Gi Gr I1) as [A _].
      unfold uses_stmts. cbn. apply Forall_app. split; [exact A | apply IH; assumption].
  Qed.

  Definition vstmt_goal (s : vstmt) : Prop := forall l,
    resolve_stmt lm ds s = Some l -> all_refs_stmt (shaped ds) s = true -> Forall R0 (uses_vstmt s) ->
    incl (stmt_ivars lm ds s) ivs -> Forall R (uses_stmts l).

  Lemma resolve_body_good b : Forall vstmt_goal b -> forall l,
    resolve_body lm ds b = Some l -> forallb (all_refs_stmt (shaped ds)) b = true ->
    Forall R0 (flat_map uses_vstmt b) -> incl (flat_map (stmt_ivars lm ds) b) ivs -> Forall R (uses_stmts l).
  Proof.
    induction b as [|s r IH]; intros HF l E Hb Hg Hinc.
    - inversion E. constructor.
    - cbn [resolve_body] in E. apply obind_some in E. destruct E as [x [E1 E]]. apply obind_some in E. destruct E as [y [E2 E]].
      inversion E; subst. apply Forall_cons_iff in HF. destruct HF as [H1 H2]. cbn [forallb flat_map] in Hb, Hg, Hinc.
      apply andb_true_iff in Hb. destruct Hb as [Hb1 Hb2]. apply Forall_app in Hg. destruct Hg as [Hg1 Hg2].
      apply incl_app_inv in Hinc. destruct Hinc as [I1 I2].
      unfold uses_stmts. rewrite flat_map_app. apply Forall_app.
      split; [exact (H1 _ E1 Hb1 Hg1 I1) | exact (IH H2 _ E2 Hb2 Hg2 I2)].
  Qed.

  Lemma resolve_stmt_good s : vstmt_goal s.
  Proof.
    induction s as [s|a idx rhs|v lo hi st b IH|c t e IHt IHe|c b e _ _] using P_C30_idx.vstmt_ind'; intros l E Hb Hg Hinc.
    - cbn in E. inversion E; subst. unfold uses_stmts. cbn. rewrite app_nil_r. apply Forall_R0_R. exact Hg.
    - change (resolve_vec lm ds a idx rhs = Some l) in E. unfold resolve_vec in E.
      apply obind_some in E. destruct E as [[st lrs] [E1 E]]. cbn [fst snd] in E.
      cbn [all_refs_stmt] in Hb. apply andb_true_iff in Hb. destruct Hb as [Hs Hr].
      cbn [uses_vstmt] in Hg. apply Forall_cons_iff in Hg. destruct Hg as [H1 H2]. rewrite !Forall_app in H2. destruct H2 as [Gi Gr].
      cbn [stmt_ivars] in Hinc.
      destruct (resolve_core_good _ _ _ _ _ E1 Hs Hr H1 Gi Gr Hinc) as [A B].
      apply (wrap_loops_good _ _ _ E B). unfold uses_stmts. cbn. rewrite app_nil_r. exact A.
    - cbn [resolve_stmt] in E. rewrite resolve_go_body in E. apply option_map_some in E. destruct E as [b' [E ->]].
      cbn [all_refs_stmt uses_vstmt stmt_ivars] in Hb, Hg, Hinc. apply Forall_cons_iff in Hg. destruct Hg as [H1 H2]. rewrite !Forall_app in H2. destruct H2 as [Glo [Ghi [Gst Gb]]].
      unfold uses_stmts. cbn. rewrite app_nil_r. constructor; [apply HR0R; exact H1|].
      rewrite !Forall_app. repeat split; try (apply Forall_R0_R; assumption).
      apply (resolve_body_good b IH _ E Hb Gb Hinc).
    - cbn [resolve_stmt] in E. rewrite !resolve_go_body in E. apply obind_some in E. destruct E as [t' [E1 E]]. apply obind_some in E. destruct E as [e' [E2 E]].
      inversion E; subst. cbn [all_refs_stmt uses_vstmt stmt_ivars] in Hb, Hg, Hinc. apply andb_true_iff in Hb. destruct Hb as [Hb1 Hb2].
      rewrite !Forall_app in Hg. destruct Hg as [Gc [Gt Ge]]. apply incl_app_inv in Hinc. destruct Hinc as [I1 I2].
      unfold uses_stmts. cbn. rewrite app_nil_r. rewrite !Forall_app. repeat split.
      + apply Forall_R0_R; assumption.
      + exact (resolve_body_good t IHt _ E1 Hb1 Gt I1).
      + exact (resolve_body_good e IHe _ E2 Hb2 Ge I2).
    - (* WHERE: the mask references of both sides are resolved first (their loop variables are collected in a
         dictionary), then the two bodies; the loops are wrapped around all of it *)
      change (resolve_where lm ds c b e = Some l) in E. unfold resolve_where, where_side in E.
      cbn [all_refs_stmt uses_vstmt stmt_ivars] in Hb, Hg, Hinc. rewrite !andb_true_iff in Hb. destruct Hb as [[[Al Ar] Ab] Ae].
      rewrite !Forall_app in Hg. destruct Hg as [Gl [Gr [Gb Ge]]].
      apply incl_app_inv in Hinc. destruct Hinc as [Ib I2]. apply incl_app_inv in I2. destruct I2 as [Ie Ic].
      unfold where_ivars, where_side in Ic.
      apply obind_some in E. destruct E as [[xl ml] [E1 E]]. apply obind_some in E. destruct E as [[xr mr] [E2 E]].
      apply obind_some in E. destruct E as [b' [E3 E]]. apply obind_some in E. destruct E as [e' [E4 E]].
      rewrite E1 in Ic. cbn [snd fst] in *. rewrite E2 in Ic. cbn [snd fst] in Ic.
      destruct (where_vexpr_good _ _ _ _ E1 (qualify_vexpr_good _ Al Gl) (Forall_nil _)) as [A1 [B1 C1]].
      destruct (where_vexpr_good _ _ _ _ E2 (qualify_vexpr_good _ Ar Gr) B1) as [A2 [B2 C2]].
      destruct mr as [|p mr]; [discriminate|].
      apply (wrap_loops_good _ _ _ E); [apply ok_map_pairs; assumption|].
      unfold uses_stmts. cbn. rewrite app_nil_r. rewrite !Forall_app. repeat split.
      + (* the loop variables of the left mask are among those of the right dictionary, which are in [ivs] *)
        exact (C1 (incl_tran A2 Ic)).
      + exact (C2 Ic).
      + exact (where_body_good _ _ E3 Ab Gb Ib).
      + exact (where_body_good _ _ E4 Ae Ge Ie).
  Qed.

  Lemma resolve_body_uses b l :
    resolve_body lm ds b = Some l -> forallb (all_refs_stmt (shaped ds)) b = true ->
    Forall R0 (flat_map uses_vstmt b) -> incl (flat_map (stmt_ivars lm ds) b) ivs -> Forall R (uses_stmts l).
  Proof. apply resolve_body_good. apply Forall_forall. intros s _. apply resolve_stmt_good. Qed.

End Gen.

Lemma uses_shapes_in (ss : shapes) a sh s g :
  In (a, sh) ss -> In s sh -> In g (uses_es (dshape_exprs s)) -> In g (uses_shapes ss).
Proof.
  intros H1 H2 H3. unfold uses_shapes. apply in_flat_map. exists (a, sh). split; [exact H1|]. cbn.
  unfold uses_es, shape_exprs in *. apply in_flat_map in H3. destruct H3 as [e [He Hg]].
  apply in_flat_map. exists e. split; [|exact Hg]. apply in_flat_map. exists s. split; assumption.
Qed.

Theorem T_vec_preserves_well_scoped (u : unit (list M_C30.vstmt)) (u' : unit (list stmt)) :
  well_scoped uses_vstmts u ->
  vec_class u = true ->
  T_vec u = Some u' ->
  well_scoped uses_stmts u'.
Proof.
  intros W Hc HT. pose proof W as (Hn & _ & Hb & Hs & _ & Hk).
  unfold vec_class in Hc. apply andb_true_iff in Hc. destruct Hc as [Hc1 Hc2].
  unfold T_vec in HT. destruct (resolve_prog (u_shapes u) (u_body u)) as [b'|] eqn:E; [|discriminate].
  (* on the class the symbol-based declaration test of the real setter is the name-based one *)
  rewrite (add_scalars_raw_class _ (u_ext u) _ Hn Hc1) in HT. injection HT as <-.
  set (ivs := body_ivars (u_shapes u) (u_body u)) in *.
  set (env := u_env u) in *. set (env' := add_scalars (u_decls u) ivs ++ u_ext u).
  pose proof (add_scalars_le _ _ _ Hc1 : env_le env env') as K.
  pose proof (add_scalars_scalar (u_decls u) (u_ext u) ivs Hc1 : forall x, In x ivs -> klookup env' x = Some KScalar) as KI.
  pose proof (resolves_le env env' K) as K01.
  assert (KS : forall a sh, lookup_decl (u_shapes u) a = Some sh -> sh <> [] ->
                            klookup env a = Some (KArray (List.length sh))).
  { intros a sh L Hne. apply lookup_decl_in in L. rewrite Forall_forall in Hk. specialize (Hk _ L).
    unfold shape_ok in Hk. cbn [fst snd] in Hk. destruct sh as [|s q]; [contradiction|].
    destruct (klookup env a) as [k|] eqn:D; [|discriminate].
    destruct k as [|m]; cbn in Hk; [discriminate|]. apply Nat.eqb_eq in Hk. rewrite Hk. reflexivity. }
  apply (well_scoped_redeclare uses_vstmts uses_stmts u (add_scalars (u_decls u) ivs) b');
    [exact W | apply add_scalars_nodup; exact Hn
     | intros a Ha'; apply add_scalars_names; left; exact Ha' | exact K |].
  unfold resolve_prog in E.
  apply (resolve_body_uses (u_shapes u) (loops_of_body (u_body u)) (resolves env) (resolves env') ivs K01) with (b := u_body u).
  - intros x Hx. pose proof (KI x Hx) as Q. split; exists KScalar; (split; [exact Q | reflexivity]).
  - intros a sh L. apply Forall_forall. intros s Hs'. apply Forall_forall. intros g Hg. apply K01.
    rewrite Forall_forall in Hs. apply Hs. apply (uses_shapes_in _ a sh s); [apply lookup_decl_in; exact L | exact Hs' | exact Hg].
  - intros a sh n L Hne [k [A B]]. cbn [fst snd] in A, B. rewrite (KS a sh L Hne) in A. inversion A; subst k.
    cbn in B. apply Nat.eqb_eq in B. exact B.
  - intros a sh L Hne. exists (KArray (List.length sh)). split; [apply K; apply KS; assumption | cbn; apply Nat.eqb_refl].
  - exact E.
  - exact Hc2.
  - exact Hb.
  - apply incl_refl.
Qed.

Local Open Scope string_scope.

(** [a(1:n) = 0] with [a(n)] declared: the loop variable [i_a_0] is added *)
Definition vec_ex : unit (list vstmt) :=
  mkUnit ["a"; "n"] [("a", KArray 1); ("n", KScalar)] [("a", [DSize (EVar "n")])] [] []
         [VAssign "a" [IRange (Some (EInt 1)) (Some (EVar "n")) None] (VScal (EInt 0))].

Example T_vec_class_inhabited :
  exists u u', well_scoped uses_vstmts u /\ vec_class u = true /\ T_vec u = Some u' /\ u_decls u' <> u_decls u.
Proof.
  exists vec_ex. destruct (T_vec vec_ex) as [u'|] eqn:E; [|vm_compute in E; discriminate]. exists u'.
  split; [apply well_scopedb_spec; vm_compute; reflexivity|].
  split; [vm_compute; reflexivity|].
  split; [reflexivity|].
  vm_compute in E. inversion E; subst u'. cbn. discriminate.
Qed.

(** the same statement in a unit that declares an ARRAY named [i_a_0]: [add_scalars_raw] appends a scalar
    declaration of the same name (F-C41-vec1), the array is found first and the generated DO variable is an array *)
Definition vec_clash : unit (list vstmt) :=
  mkUnit ["a"; "n"] [("a", KArray 1); ("n", KScalar); ("i_a_0", KArray 1)] [("a", [DSize (EVar "n")])] [] []
         [VAssign "a" [IRange (Some (EInt 1)) (Some (EVar "n")) None] (VScal (EInt 0))].

Theorem T_vec_array_clash_refuted :
  exists u u', well_scoped uses_vstmts u /\ T_vec u = Some u' /\ ~ well_scoped uses_stmts u'.
Proof.
  exists vec_clash. destruct (T_vec vec_clash) as [u'|] eqn:E; [|vm_compute in E; discriminate]. exists u'.
  split; [apply well_scopedb_spec; vm_compute; reflexivity|].
  split; [reflexivity|].
  vm_compute in E. inversion E; subst u'. intros H. apply well_scopedb_spec in H. vm_compute in H. discriminate.
Qed.

Print Assumptions T_vec_preserves_well_scoped.
