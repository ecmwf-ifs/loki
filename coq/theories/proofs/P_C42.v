(** C42 — the parallel lint protocol.  Everything rests on one invariant of the transition system ([inv], kept
    by every rule: [inv_step]): at any reachable state the shared list of handler [h] is a permutation of the
    reports of the files whose [h]-th append has happened ([appended]), the files are conserved, the count is that of
    the finished files and at most [N] tasks run.  From it: the final lists are permutations of the serial ones
    ([reachable_final_is_perm]) and, through the canonical per-file view of any such permutation
    ([per_file_canonical]), the schedule-independence results; then the serial loop as a one-worker execution
    ([serial_from]), the equality-valued invariant of one worker ([inv1]), soundness of the executable
    semantics used by the trace check ([run_sound], [chk_trace_sound]), and the witnesses. *)
From Coq Require Import ZArith List Bool Arith Lia Permutation.
From LV Require Import models.M_C42.
Import ListNotations.

Lemma item_eqb_eq : forall a b : item, item_eqb a b = true <-> a = b.
Proof.
  intros [a1 a2] [b1 b2]; unfold item_eqb; simpl. rewrite andb_true_iff, !Z.eqb_eq.
  split; [intros [-> ->]; reflexivity | intros E; inversion E; auto].
Qed.

Lemma items_eqb_eq : forall a b, items_eqb a b = true <-> a = b.
Proof.
  induction a as [|x a IH]; destruct b as [|y b]; simpl; try (split; [discriminate|discriminate]); try tauto.
  rewrite andb_true_iff, item_eqb_eq, IH. split; [intros [-> ->]; reflexivity | intros E; inversion E; auto].
Qed.

Lemma Permutation_filter : forall (A : Type) (p : A -> bool) l1 l2,
  Permutation l1 l2 -> Permutation (filter p l1) (filter p l2).
Proof.
  induction 1; simpl.
  - constructor.
  - destruct (p x); auto.
  - destruct (p x), (p y); auto using perm_swap.
  - eapply perm_trans; eauto.
Qed.

(** appending [g y] to a list that is a permutation of [map g (l1 ++ l2)] gives a permutation of the list with
    [y] inserted at any position: the step of [inv_step] for an append *)
Lemma perm_insert : forall (A B : Type) (g : A -> B) (L : list B) (l1 l2 : list A) (y : A),
  Permutation L (map g (l1 ++ l2)) -> Permutation (L ++ [g y]) (map g (l1 ++ y :: l2)).
Proof.
  intros. eapply perm_trans; [apply Permutation_app_comm|]. simpl.
  eapply perm_trans; [apply perm_skip; exact H|].
  change (g y :: map g (l1 ++ l2)) with (map g (y :: l1 ++ l2)).
  apply Permutation_map. apply Permutation_middle.
Qed.

Lemma remove1_perm : forall x l l', remove1 x l = Some l' -> Permutation l (x :: l').
Proof.
  induction l as [|y l IH]; simpl; intros l' E; [discriminate|].
  destruct (item_eqb x y) eqn:Exy.
  - apply item_eqb_eq in Exy; subst. inversion E; subst. reflexivity.
  - destruct (remove1 x l) as [r|] eqn:Er; [|discriminate]. inversion E; subst.
    eapply perm_trans; [apply perm_skip; apply IH; reflexivity|]. apply perm_swap.
Qed.

Lemma is_perm_sound : forall a b, is_perm a b = true -> Permutation a b.
Proof.
  induction a as [|x a IH]; simpl; intros b E.
  - destruct b; [constructor|discriminate].
  - destruct (remove1 x b) as [b'|] eqn:Er; [|discriminate].
    apply remove1_perm in Er. eapply perm_trans; [apply perm_skip; apply IH; exact E|]. symmetry; exact Er.
Qed.

Lemma nodup_keys_sound : forall l, nodup_keys l = true -> NoDup (map fst l).
Proof.
  induction l as [|x l IH]; simpl; intros E; [constructor|].
  apply andb_true_iff in E as [E1 E2]. constructor; auto.
  intros Hin. apply in_map_iff in Hin as [y [Ey Hy]].
  apply negb_true_iff in E1. assert (existsb (fun y0 => (fst y0 =? fst x)%Z) l = true); [|congruence].
  apply existsb_exists. exists y; split; auto. apply Z.eqb_eq; auto.
Qed.

Section Proofs.
  Variable H : nat.
  Variable cont : nat -> file -> Z.
  Variable okf : file -> bool.

  (* these notations shadow the model's names inside the section: the model's own definitions are unfolded
     under their qualified names ([unfold M_C42.count_ok]) *)
  Notation rep := (rep cont).
  Notation step := (step H cont okf).
  Notation steps := (steps H cont okf).
  Notation reachable := (reachable H cont okf).
  Notation serial_list := (serial_list cont).
  Notation count_ok := (count_ok okf).

  Lemma steps_trans : forall N a b c, steps N a b -> steps N b c -> steps N a c.
  Proof. induction 1; intros; auto. econstructor; eauto. Qed.

  Lemma steps_one : forall N a b, step N a b -> steps N a b.
  Proof. intros. econstructor; [eassumption|constructor]. Qed.

  (** files whose report for handler [h] has been appended *)
  Definition appended (s : state) (h : nat) : list file :=
    done s ++ map t_file (filter (fun t => h <? t_prog t) (running s)).

  Record inv (N : nat) (fs : list file) (s : state) : Prop := {
    inv_files : Permutation (done s ++ map t_file (running s) ++ pending s) fs;
    inv_lists : forall h, h < H -> Permutation (lists s h) (map (rep h) (appended s h));
    inv_out   : forall h, H <= h -> lists s h = [];
    inv_count : count s = count_ok (done s);
    inv_bound : length (running s) <= N
  }.

  Lemma inv_init : forall N fs, inv N fs (init fs).
  Proof.
    intros; constructor; simpl; intros; auto; try lia; try contradiction.
  Qed.

  Lemma count_ok_snoc : forall d f, count_ok (d ++ [f]) = count_ok d + b2n (okf f).
  Proof.
    intros. unfold M_C42.count_ok. rewrite filter_app, app_length. simpl. destruct (okf f); simpl; lia.
  Qed.

  Lemma inv_step : forall N fs s s', step N s s' -> inv N fs s -> inv N fs s'.
  Proof.
    intros N fs s s' St [If Il Io Ic Ib]. inversion St; subst; clear St; simpl in *.
    - (* start: the new task has progress 0 and has appended nothing *)
      constructor; simpl.
      + rewrite map_app. simpl. rewrite <- app_assoc. simpl. exact If.
      + intros h Hh. unfold appended in *; simpl in *. rewrite filter_app. simpl.
        replace (h <? 0) with false by (symmetry; apply Nat.ltb_ge; lia). rewrite app_nil_r. auto.
      + auto.
      + auto.
      + rewrite app_length. simpl. lia.
    - (* append by task [f] at handler [k]: for [h = k] the report is inserted at the task's position
         ([perm_insert]); the other handlers see the same appended files *)
      constructor; simpl.
      + rewrite map_app in *. simpl in *. exact If.
      + intros h Hh. unfold appended in *; simpl in *. specialize (Il h Hh).
        rewrite filter_app in Il |- *. simpl in Il |- *. unfold upd.
        destruct (Nat.eqb h k) eqn:Ehk.
        * apply Nat.eqb_eq in Ehk; subst h.
          replace (k <? S k) with true by (symmetry; apply Nat.ltb_lt; lia).
          replace (k <? k) with false in Il by (symmetry; apply Nat.ltb_ge; lia).
          rewrite (map_app t_file) in Il |- *. simpl. rewrite (app_assoc d) in Il |- *.
          apply (perm_insert _ _ (rep k)). exact Il.
        * apply Nat.eqb_neq in Ehk.
          destruct (Nat.ltb_spec h (S k)); destruct (Nat.ltb_spec h k);
            try (rewrite (map_app t_file) in Il |- *; simpl in Il |- *; exact Il);
            exfalso; lia.
      + intros h Hh. unfold upd. replace (Nat.eqb h k) with false by (symmetry; apply Nat.eqb_neq; lia). auto.
      + auto.
      + rewrite app_length in *. simpl in *. lia.
    - (* finish: the file moves from the running tasks to the end of [done] ([Permutation_middle]) *)
      assert (P : forall (m1 m2 q : list file),
                 Permutation ((d ++ [f]) ++ (m1 ++ m2) ++ q) (d ++ (m1 ++ f :: m2) ++ q)).
      { intros. rewrite <- !app_assoc. apply Permutation_app_head. simpl.
        apply (Permutation_middle m1 (m2 ++ q) f). }
      constructor; simpl.
      + rewrite (map_app t_file) in If |- *. simpl in If. eapply perm_trans; [apply P|exact If].
      + intros h Hh. unfold appended in *; simpl in *. specialize (Il h Hh).
        rewrite filter_app in Il |- *. simpl in Il.
        replace (h <? H) with true in Il by (symmetry; apply Nat.ltb_lt; lia).
        eapply perm_trans; [exact Il|]. apply Permutation_map. symmetry.
        rewrite !(map_app t_file). simpl.
        specialize (P (map t_file (filter (fun t => h <? t_prog t) r1))
                      (map t_file (filter (fun t => h <? t_prog t) r2)) []).
        rewrite !app_nil_r in P. exact P.
      + auto.
      + rewrite count_ok_snoc. congruence.
      + rewrite app_length in *. simpl in *. lia.
  Qed.

  Lemma inv_steps : forall N fs s s', steps N s s' -> inv N fs s -> inv N fs s'.
  Proof. induction 1; intros; auto. apply IHsteps. eapply inv_step; eauto. Qed.

  Lemma inv_reachable : forall N fs s, reachable N fs s -> inv N fs s.
  Proof. intros. eapply inv_steps; [exact H0|apply inv_init]. Qed.

  Lemma final_done_perm : forall N fs s, reachable N fs s -> final s -> Permutation (done s) fs.
  Proof.
    intros N fs s R [Fp Fr]. destruct (inv_reachable _ _ _ R) as [If _ _ _ _].
    rewrite Fp, Fr in If. simpl in If. rewrite app_nil_r in If. exact If.
  Qed.

  (** main theorem: the final shared list of every handler is a permutation of the serial list *)
  Theorem reachable_final_is_perm : forall N fs s h,
    reachable N fs s -> final s -> h < H -> Permutation (lists s h) (serial_list h fs).
  Proof.
    intros N fs s h R F Hh. pose proof (final_done_perm _ _ _ R F) as Pd.
    destruct F as [Fp Fr]. destruct (inv_reachable _ _ _ R) as [_ Il _ _ _].
    specialize (Il h Hh). unfold appended in Il. rewrite Fr in Il. simpl in Il. rewrite app_nil_r in Il.
    eapply perm_trans; [exact Il|]. apply Permutation_map. exact Pd.
  Qed.

  Theorem reachable_final_no_other_lists : forall N fs s h,
    reachable N fs s -> H <= h -> lists s h = [].
  Proof. intros. destruct (inv_reachable _ _ _ H0). auto. Qed.

  Theorem running_bounded : forall N fs s, reachable N fs s -> length (running s) <= N.
  Proof. intros. destruct (inv_reachable _ _ _ H0). auto. Qed.

  Lemma per_file_serial_length : forall h fs f,
    length (per_file (serial_list h fs) f) = count_occ Z.eq_dec fs f.
  Proof.
    intros h fs f. unfold per_file, M_C42.serial_list. induction fs as [|a fs IH]; simpl; [reflexivity|].
    destruct (Z.eq_dec a f) as [->|Ne].
    - rewrite Z.eqb_refl. simpl. congruence.
    - replace (a =? f)%Z with false by (symmetry; apply Z.eqb_neq; auto). exact IH.
  Qed.

  Lemma per_file_canonical : forall h l fs f,
    Permutation l (serial_list h fs) ->
    per_file l f = repeat (rep h f) (count_occ Z.eq_dec fs f).
  Proof.
    intros h l fs f P.
    assert (L : length (per_file l f) = count_occ Z.eq_dec fs f).
    { rewrite <- (per_file_serial_length h). apply Permutation_length. unfold per_file.
      apply Permutation_filter; exact P. }
    rewrite <- L. apply Forall_eq_repeat, Forall_forall. intros y Hy. unfold per_file in Hy.
    apply filter_In in Hy as [Hin Hk]. apply Z.eqb_eq in Hk.
    eapply Permutation_in in Hin; [|exact P]. unfold M_C42.serial_list in Hin.
    apply in_map_iff in Hin as [f' [<- _]]. unfold M_C42.rep in *. simpl in Hk. subst. reflexivity.
  Qed.

  Theorem each_file_once : forall N fs s h f,
    NoDup fs -> reachable N fs s -> final s -> h < H ->
    (In f fs -> per_file (lists s h) f = [rep h f]) /\ (~ In f fs -> per_file (lists s h) f = []).
  Proof.
    intros N fs s h f ND R F Hh.
    rewrite (per_file_canonical h _ fs f (reachable_final_is_perm _ _ _ _ R F Hh)). split; intros Hf.
    - rewrite (proj1 (NoDup_count_occ' Z.eq_dec fs) ND f Hf). reflexivity.
    - rewrite (proj1 (count_occ_not_In Z.eq_dec fs f) Hf). reflexivity.
  Qed.

  Theorem per_file_view_schedule_independent : forall N1 N2 fs s1 s2 h,
    reachable N1 fs s1 -> final s1 -> reachable N2 fs s2 -> final s2 -> h < H ->
    (forall f, per_file (lists s1 h) f = per_file (lists s2 h) f) /\
    view fs (lists s1 h) = view fs (lists s2 h) /\
    view fs (lists s1 h) = view fs (serial_list h fs).
  Proof.
    intros N1 N2 fs s1 s2 h R1 F1 R2 F2 Hh.
    pose proof (reachable_final_is_perm _ _ _ _ R1 F1 Hh) as P1.
    pose proof (reachable_final_is_perm _ _ _ _ R2 F2 Hh) as P2.
    assert (E : forall l, Permutation l (serial_list h fs) ->
                          forall f, per_file l f = per_file (serial_list h fs) f).
    { intros l P f. rewrite (per_file_canonical h l fs f P).
      rewrite (per_file_canonical h (serial_list h fs) fs f (Permutation_refl _)). reflexivity. }
    split; [|split].
    - intros f. rewrite (E _ P1), (E _ P2). reflexivity.
    - unfold view. apply map_ext. intros f. rewrite (E _ P1), (E _ P2). reflexivity.
    - unfold view. apply map_ext. intros f. apply E; exact P1.
  Qed.

  Theorem visible_schedule_independent : forall N fs s h,
    reachable N fs s -> final s -> h < H -> Permutation (visible (lists s h)) (visible (serial_list h fs)).
  Proof. intros. unfold visible. apply Permutation_filter. eapply reachable_final_is_perm; eauto. Qed.

  Lemma count_ok_perm : forall a b, Permutation a b -> count_ok a = count_ok b.
  Proof. intros. unfold M_C42.count_ok. apply Permutation_length. apply Permutation_filter; auto. Qed.

  Theorem count_eq_files : forall N fs s,
    reachable N fs s -> final s ->
    (forall h, h < H -> length (lists s h) = length fs) /\
    length (done s) = length fs /\ Permutation (done s) fs /\ count s = count_ok fs.
  Proof.
    intros N fs s R F. pose proof (final_done_perm _ _ _ R F) as Pd. split; [|split; [|split]].
    - intros h Hh. rewrite (Permutation_length (reachable_final_is_perm _ _ _ _ R F Hh)).
      unfold M_C42.serial_list. apply map_length.
    - apply Permutation_length; exact Pd.
    - exact Pd.
    - destruct (inv_reachable _ _ _ R) as [_ _ _ Ic _]. rewrite Ic. apply count_ok_perm; exact Pd.
  Qed.

  Lemma do_appends : forall N p f d c m k ls,
    k + m = H ->
    exists ls', steps N (St p [Task f k] ls d c) (St p [Task f H] ls' d c) /\
                (forall h, k <= h < H -> ls' h = ls h ++ [rep h f]) /\
                (forall h, ~ (k <= h < H) -> ls' h = ls h).
  Proof.
    intros N p f d c. induction m as [|m IH]; intros k ls E.
    - assert (k = H) by lia. subst k. exists ls. split; [constructor|]. split; intros; [lia|reflexivity].
    - assert (Hk : k < H) by lia.
      destruct (IH (S k) (upd ls k (rep k f)) ltac:(lia)) as [ls' [S1 [A1 A2]]].
      exists ls'. split; [|split].
      + eapply steps_cons; [|exact S1]. exact (st_append H cont okf N p [] f k [] ls d c Hk).
      + intros h Hh. destruct (Nat.eq_dec h k) as [->|Ne].
        * rewrite A2 by lia. unfold upd. rewrite Nat.eqb_refl. reflexivity.
        * rewrite A1 by lia. unfold upd. replace (Nat.eqb h k) with false by (symmetry; apply Nat.eqb_neq; auto).
          reflexivity.
      + intros h Hh. rewrite A2 by lia. unfold upd.
        replace (Nat.eqb h k) with false by (symmetry; apply Nat.eqb_neq; lia). reflexivity.
  Qed.

  Lemma serial_from : forall fs ls d c,
    exists s, steps 1 (St fs [] ls d c) s /\ pending s = [] /\ running s = [] /\
              (forall h, h < H -> lists s h = ls h ++ serial_list h fs) /\
              (forall h, H <= h -> lists s h = ls h) /\
              done s = d ++ fs /\ count s = c + count_ok fs.
  Proof.
    induction fs as [|f fs IH]; intros ls d c.
    - exists (St [] [] ls d c). simpl. repeat split; auto; try constructor; intros;
        unfold M_C42.serial_list, M_C42.count_ok; simpl; rewrite ?app_nil_r; auto.
    - destruct (do_appends 1 fs f d c H 0 ls eq_refl) as [ls' [S1 [A1 A2]]].
      destruct (IH ls' (d ++ [f]) (c + b2n (okf f))) as [s [S2 [Ep [Er [El [Eo [Ed Ec]]]]]]].
      exists s. split; [|repeat split; auto].
      + eapply steps_cons.
        { exact (st_start H cont okf 1 f fs [] ls d c (Nat.lt_0_succ 0)). }
        simpl. eapply steps_trans; [exact S1|].
        eapply steps_cons; [|exact S2].
        exact (st_finish H cont okf 1 fs [] f [] ls' d c).
      + intros h Hh. rewrite El by auto. rewrite A1 by lia. unfold M_C42.serial_list. simpl.
        rewrite <- app_assoc. reflexivity.
      + intros h Hh. rewrite Eo by auto. apply A2. lia.
      + rewrite Ed, <- app_assoc. reflexivity.
      + rewrite Ec. unfold M_C42.count_ok. simpl. destruct (okf f); simpl; lia.
  Qed.

  Theorem serial_is_execution : forall fs,
    exists s, reachable 1 fs s /\ final s /\
              (forall h, h < H -> lists s h = serial_list h fs) /\ done s = fs /\ count s = count_ok fs.
  Proof.
    intros fs. destruct (serial_from fs (fun _ => []) [] 0) as [s [S [Ep [Er [El [_ [Ed Ec]]]]]]].
    exists s. split; [exact S|]. split; [split; auto|]. split; [|split]; auto.
  Qed.

  (** [inv] for one worker, with equalities in place of the permutations *)
  Record inv1 (fs : list file) (s : state) : Prop := {
    inv1_bound : length (running s) <= 1;
    inv1_files : done s ++ map t_file (running s) ++ pending s = fs;
    inv1_lists : forall h, h < H -> lists s h = map (rep h) (appended s h)
  }.

  Lemma inv1_step : forall fs s s', step 1 s s' -> inv1 fs s -> inv1 fs s'.
  Proof.
    intros fs s s' St [Ib If Il]. inversion St; subst; clear St; simpl in *.
    - destruct r; [|simpl in *; lia]. constructor; simpl; auto.
    - destruct r1; [|simpl in Ib; rewrite app_length in Ib; simpl in Ib; lia].
      destruct r2; [|simpl in Ib; lia]. simpl in *. constructor; simpl; auto.
      intros h Hh. specialize (Il h Hh). unfold appended, upd in *; simpl in *.
      destruct (Nat.eqb h k) eqn:Ehk.
      + apply Nat.eqb_eq in Ehk; subst h.
        replace (k <? S k) with true by (symmetry; apply Nat.ltb_lt; lia).
        replace (k <? k) with false in Il by (symmetry; apply Nat.ltb_ge; lia).
        simpl in *. rewrite Il, app_nil_r, map_app. reflexivity.
      + apply Nat.eqb_neq in Ehk.
        destruct (Nat.ltb_spec h (S k)); destruct (Nat.ltb_spec h k); auto; exfalso; lia.
    - destruct r1; [|simpl in Ib; rewrite app_length in Ib; simpl in Ib; lia].
      destruct r2; [|simpl in Ib; lia]. simpl in *. constructor; simpl; auto.
      + rewrite <- app_assoc. reflexivity.
      + intros h Hh. specialize (Il h Hh). unfold appended in *; simpl in *.
        replace (h <? H) with true in Il by (symmetry; apply Nat.ltb_lt; lia). simpl in Il.
        rewrite app_nil_r. exact Il.
  Qed.

  (** with one worker every execution is the serial one: the order is fixed *)
  Theorem one_worker_is_serial : forall fs s h,
    reachable 1 fs s -> final s -> h < H -> lists s h = serial_list h fs /\ done s = fs.
  Proof.
    intros fs s h R [Fp Fr] Hh.
    assert (I : inv1 fs s).
    { unfold M_C42.reachable in R. remember (init fs) as s0.
      assert (I0 : inv1 fs s0) by (subst; constructor; simpl; auto).
      clear Heqs0. induction R; auto. apply IHR; auto. eapply inv1_step; eauto. }
    destruct I as [_ If Il]. specialize (Il h Hh). unfold appended in Il.
    rewrite Fp, Fr in *. simpl in *. rewrite app_nil_r in *. subst. auto.
  Qed.

  Lemma pick_spec : forall f r a t b, pick f r = Some (a, t, b) -> r = a ++ t :: b.
  Proof.
    induction r as [|x r IH]; simpl; intros a t b E; [discriminate|].
    destruct (t_file x =? f)%Z.
    - inversion E; subst. reflexivity.
    - destruct (pick f r) as [[[a' t'] b']|]; [|discriminate]. inversion E; subst.
      simpl. f_equal. apply IH. reflexivity.
  Qed.

  Lemma do_ev_sound : forall N s e s', do_ev H cont okf N s e = Some s' -> step N s s'.
  Proof.
    intros N [p r ls d c] e s' E. destruct e; simpl in E.
    - destruct p as [|f p]; [discriminate|]. destruct (length r <? N) eqn:L; [|discriminate].
      inversion E; subst. apply st_start. apply Nat.ltb_lt; auto.
    - destruct (pick f r) as [[[a t] b]|] eqn:Pk; [|discriminate].
      destruct (t_prog t <? H) eqn:L; [|discriminate]. inversion E; subst.
      apply pick_spec in Pk; subst. destruct t as [tf tk]; simpl in *.
      apply st_append. apply Nat.ltb_lt; auto.
    - destruct (pick f r) as [[[a t] b]|] eqn:Pk; [|discriminate].
      destruct (t_prog t =? H) eqn:L; [|discriminate]. inversion E; subst.
      apply pick_spec in Pk; subst. destruct t as [tf tk]; simpl in *.
      apply Nat.eqb_eq in L; subst. apply st_finish.
  Qed.

  Lemma run_sound : forall N evs s s', run H cont okf N s evs = Some s' -> steps N s s'.
  Proof.
    induction evs as [|e evs IH]; simpl; intros s s' E.
    - inversion E; subst. constructor.
    - destruct (do_ev H cont okf N s e) as [s1|] eqn:D; [|discriminate].
      econstructor; [eapply do_ev_sound; eauto|apply IH; auto].
  Qed.

  Lemma finalb_final : forall s, finalb s = true -> final s.
  Proof. intros [p r ls d c]. unfold finalb, final; simpl. destruct p, r; try discriminate. auto. Qed.

  Theorem chk_trace_sound : forall N fs sched obs cnt,
    chk_trace H cont okf N fs sched obs cnt = true ->
    exists s, reachable N fs s /\ final s /\ (forall h l, In (h, l) obs -> lists s h = l) /\ count s = cnt.
  Proof.
    intros N fs sched obs cnt E. unfold chk_trace in E.
    destruct (run H cont okf N (init fs) sched) as [s|] eqn:R; [|discriminate].
    apply andb_true_iff in E as [E Ec]. apply andb_true_iff in E as [Ef Eo].
    exists s. split; [apply run_sound in R; exact R|]. split; [apply finalb_final; auto|]. split.
    - intros h l Hin. unfold obs_ok in Eo. rewrite forallb_forall in Eo. specialize (Eo _ Hin). simpl in Eo.
      apply items_eqb_eq; auto.
    - apply Nat.eqb_eq; auto.
  Qed.

  (** an accepted observation is, by the main theorem, a permutation of the serial lists with the serial count *)
  Corollary chk_trace_observation_is_perm : forall N fs sched obs cnt,
    chk_trace H cont okf N fs sched obs cnt = true ->
    (forall h l, In (h, l) obs -> h < H -> Permutation l (serial_list h fs)) /\ cnt = count_ok fs.
  Proof.
    intros N fs sched obs cnt E. destruct (chk_trace_sound _ _ _ _ _ E) as [s [R [F [Eo Ec]]]]. split.
    - intros h l Hin Hh. rewrite <- (Eo _ _ Hin). eapply reachable_final_is_perm; eauto.
    - rewrite <- Ec. apply (count_eq_files _ _ _ R F).
  Qed.

  Theorem sink_complete : forall N fs s h par g,
    reachable N fs s -> final s -> h < H ->
    view fs (sink par g (lists s h)) = view fs (serial_list h fs).
  Proof.
    intros N fs s h par g R F Hh. unfold sink.
    destruct (serial_is_execution fs) as [s0 [R0 [F0 [E0 _]]]].
    destruct (per_file_view_schedule_independent _ _ _ _ _ h R F R0 F0 Hh) as [_ [_ V]]. exact V.
  Qed.
End Proofs.

Definition ex_cont (h : nat) (f : file) : Z := (10 * Z.of_nat h + f + 1)%Z.
Definition ex_ok (f : file) : bool := negb (f =? 2)%Z.

(* two workers, two handlers, files 0 1 2: task 1 overtakes task 0 on handler 0 but not on handler 1 *)
Definition ex_sched : list (ev) :=
  [EStart; EStart; EApp 1; EApp 0; EApp 0; EApp 1; EFin 0; EStart; EFin 1; EApp 2; EApp 2; EFin 2]%Z.

Lemma ex_run : exists s, reachable 2 ex_cont ex_ok 2 [0; 1; 2]%Z s /\ final s /\
  lists s 0 = [(1, 2); (0, 1); (2, 3)]%Z /\ lists s 1 = [(0, 11); (1, 12); (2, 13)]%Z.
Proof.
  destruct (run 2 ex_cont ex_ok 2 (init [0; 1; 2]%Z) ex_sched) as [s|] eqn:R; [|vm_compute in R; discriminate].
  exists s. split; [exact (run_sound _ _ _ _ _ _ _ R)|].
  (* [lists s] is a closure: the state is named by the run, and only its observable parts are evaluated *)
  assert (E : match run 2 ex_cont ex_ok 2 (init [0; 1; 2]%Z) ex_sched with
              | Some s => finalb s = true /\ lists s 0 = [(1, 2); (0, 1); (2, 3)]%Z
                          /\ lists s 1 = [(0, 11); (1, 12); (2, 13)]%Z
              | None => False end) by (vm_compute; repeat split).
  rewrite R in E. destruct E as (F & L0 & L1). split; [exact (finalb_final s F) | split; assumption].
Qed.

Theorem order_is_schedule_dependent :
  exists fs s1 s2, reachable 2 ex_cont ex_ok 2 fs s1 /\ final s1 /\ reachable 2 ex_cont ex_ok 1 fs s2 /\ final s2 /\
                   lists s1 0 <> lists s2 0 /\ view fs (lists s1 0) = view fs (lists s2 0).
Proof.
  destruct ex_run as (s1 & R1 & F1 & L0 & _).
  destruct (serial_is_execution 2 ex_cont ex_ok [0; 1; 2]%Z) as (s2 & R2 & F2 & L2 & _).
  exists [0; 1; 2]%Z, s1, s2. repeat split; try assumption; try apply F1; try apply F2.
  - rewrite L0, (L2 0) by lia. vm_compute. discriminate.
  - apply (per_file_view_schedule_independent 2 ex_cont ex_ok 2 1 _ s1 s2 0 R1 F1 R2 F2). lia.
Qed.

Theorem handlers_may_disagree_on_order :
  exists fs s, reachable 2 ex_cont ex_ok 2 fs s /\ final s /\ map fst (lists s 0) <> map fst (lists s 1).
Proof.
  destruct ex_run as (s & R & F & L0 & L1). exists [0; 1; 2]%Z, s.
  split; [exact R | split; [exact F|]]. rewrite L0, L1. vm_compute. discriminate.
Qed.

(** F-C42-1 (fixed by 89a45c7), OLD behaviour: in the parallel path the text of a handler is lost when the buffer is
    finalised before the LazyTextfile ([gc_in_order = false]) *)
Theorem file_output_old_refuted :
  exists fs s h, reachable 2 ex_cont ex_ok 2 fs s /\ final s /\ h < 2 /\
    view fs (sink_old true false (lists s h)) <> view fs (sink_old false false (serial_list ex_cont h fs)).
Proof.
  destruct ex_run as (s & R & F & _). exists [0; 1; 2]%Z, s, 0.
  split; [exact R | split; [exact F | split; [lia|]]]. vm_compute. discriminate.
Qed.

Lemma survives_old_odd : forall j, survives_old j = Nat.odd j.
Proof.
  fix IH 1. intros [|[|j]]; try reflexivity. simpl survives_old. rewrite IH. reflexivity.
Qed.

(** F-C42-2 (fixed by 230fb41), OLD behaviour: logger handlers at odd positions survived in the worker and saw every message twice *)
Theorem log_copies_old_refuted : log_copies_old true 1 = 2 /\ log_copies_old false 1 = 1.
Proof. split; reflexivity. Qed.

Theorem survivors_old_none_iff : forall (A : Type) (l : list A), survivors_old l = [] <-> length l <= 1.
Proof.
  intros A [|x [|y l]]; simpl; split; intros; auto; try lia; try discriminate.
Qed.

(** since 230fb41: every logger handler of the parent sees each message once, whatever the number of handlers and workers *)
Theorem log_copies_independent : forall j, log_copies true j = log_copies false j /\ log_copies true j = 1.
Proof. intros j. split; reflexivity. Qed.
