(** C43 — basic facts about the model of the lint auto-fix mechanism (M_C43.v): operator spellings and the token
    predicates ([f90_spelling], [is_f77], [f77_free]); induction over statement trees ([node_ind']); [src_of] and [is_sep]
    are unchanged by [mark]/[transform]; the fixed tree [X]; the own-line groups add up to the original text and the
    specification keeps the groups of unreported statements ([keeps]); an action-free subtree has no action below it and
    is specified to stay as it is ([no_act_*]). *)
From Coq Require Import List String Ascii Bool Arith ZArith Lia.
From LV Require Import Base.Strings Base.ListFacts Base.Expr models.M_C43.
Import ListNotations.
Open Scope string_scope.
Open Scope list_scope.

Lemma lines_eqb_eq a : forall b, lines_eqb a b = true <-> a = b.
Proof.
  induction a as [|x a IH]; intros [|y b]; cbn; try (split; congruence).
  rewrite andb_true_iff, String.eqb_eq, IH. split; [intros [-> ->]; reflexivity | intros H; inversion H; auto].
Qed.

Lemma lines_eqb_refl a : lines_eqb a a = true.
Proof. apply lines_eqb_eq. reflexivity. Qed.

Lemma last_opt_app_one {A} (l : list A) (x : A) : last_opt (l ++ [x]) = Some x.
Proof.
  induction l as [|y l IH]; cbn; [reflexivity|].
  destruct (l ++ [x]) eqn:E; [destruct l; discriminate|]. exact IH.
Qed.

(** only letters change, and the two quote characters are not letters *)
Lemma lower_ascii_quote c : is_quote (lower_ascii c) = is_quote c.
Proof.
  unfold lower_ascii. destruct (is_upper c) eqn:U; [|reflexivity].
  assert (Hc : (65 <= nat_of_ascii c <= 90)%nat).
  { unfold is_upper in U. apply andb_true_iff in U as [U1 U2]. apply Nat.leb_le in U1, U2. auto. }
  assert (Q : forall q, (nat_of_ascii q < 65)%nat -> Ascii.eqb c q = false /\ Ascii.eqb (ascii_of_nat (nat_of_ascii c + 32)) q = false).
  { intros q Hq. split; apply Ascii.eqb_neq; intros E; apply (f_equal nat_of_ascii) in E;
      [|rewrite nat_ascii_embedding in E]; lia. }
  unfold is_quote. destruct (Q "'"%char) as [-> ->]; [cbn; lia|]. destruct (Q """"%char) as [-> ->]; [cbn; lia|]. reflexivity.
Qed.

(** a token is an F77 spelling iff its folded form is one of the six literals; any other token is spelled as it is *)
Lemma is_f77_In t : is_f77 t = true <-> In (lower t) [".eq."; ".ne."; ".lt."; ".le."; ".gt."; ".ge."].
Proof.
  rewrite <- existsb_eqb_In. unfold is_f77, f77_lower. cbn [existsb]. now rewrite orb_false_r, !orb_assoc.
Qed.

Lemma f90_spelling_other t : is_f77 t = false -> f90_spelling t = t.
Proof.
  unfold is_f77, f77_lower, f90_spelling. rewrite !orb_false_iff. now intros [[[[[-> ->] ->] ->] ->] ->].
Qed.

Lemma f90_spelling_not_f77 t : is_f77 (f90_spelling t) = false.
Proof.
  destruct (is_f77 t) eqn:F; [|now rewrite f90_spelling_other].
  apply is_f77_In in F. unfold f90_spelling. cbn [In] in F.
  repeat (destruct F as [<-|F]; [reflexivity|]). destruct F.
Qed.

Lemma is_f77_foldt t : is_f77 (foldt t) = is_f77 t.
Proof.
  unfold foldt. destruct (is_str_tok t); [reflexivity|]. unfold is_f77. rewrite lower_idem. reflexivity.
Qed.

Lemma f90_spelling_denote t op : denote t = Some op -> denote (f90_spelling t) = Some op.
Proof.
  destruct (is_f77 t) eqn:F; [|now rewrite f90_spelling_other].
  apply is_f77_In in F. unfold denote at 1, f90_spelling. cbn [In] in F.
  repeat (destruct F as [<-|F]; [exact (fun H => H)|]). destruct F.
Qed.

(** the operator denotes the same comparison in both spellings *)
Lemma f90_spelling_semantics t op a b :
  denote t = Some op ->
  exists op', denote (f90_spelling t) = Some op' /\ cmp_z op' a b = cmp_z op a b.
Proof. intros H. exists op. split; [apply f90_spelling_denote; exact H | reflexivity]. Qed.

Lemma f90_spelling_total t : is_f77 t = true -> exists op, denote t = Some op /\ denote (f90_spelling t) = Some op.
Proof.
  intros F. destruct (denote t) as [op|] eqn:D; [exists op; split; [reflexivity|now apply f90_spelling_denote]|].
  apply is_f77_In in F. unfold denote in D. cbn [In] in F. revert D.
  repeat (destruct F as [<-|F]; [discriminate|]). destruct F.
Qed.

Lemma toks_match_f77_free o r : toks_match o r = true -> f77_free r = true.
Proof.
  unfold toks_match, f77_free. intros H. apply lines_eqb_eq in H.
  assert (E : forallb (fun t => negb (is_f77 t)) (lex_lines r)
              = forallb (fun t => negb (is_f77 t)) (map foldt (lex_lines r))).
  { rewrite forallb_map. apply forallb_ext. intros t. rewrite is_f77_foldt. reflexivity. }
  rewrite E, H, !forallb_map. apply forallb_forall. intros t _.
  rewrite is_f77_foldt, f90_spelling_not_f77. reflexivity.
Qed.

Lemma f77_free_app a b : f77_free (a ++ b) = f77_free a && f77_free b.
Proof. unfold f77_free, lex_lines. rewrite flat_map_app, forallb_app. reflexivity. Qed.

Lemma f77_free_concat l : f77_free (List.concat l) = forallb f77_free l.
Proof. induction l as [|x l IH]; [reflexivity|]. cbn [List.concat forallb]. rewrite f77_free_app, IH. reflexivity. Qed.

Lemma f77_free_nil : f77_free [] = true.
Proof. reflexivity. Qed.

Lemma f77_free_removelast l : f77_free l = true -> f77_free (removelast l) = true.
Proof.
  induction l as [|x l IH]; [auto|]. intros H. change (x :: l) with ([x] ++ l) in H. rewrite f77_free_app in H.
  apply andb_true_iff in H as [H1 H2]. cbn [removelast]. destruct l as [|y l]; [reflexivity|].
  change (x :: removelast (y :: l)) with ([x] ++ removelast (y :: l)). rewrite f77_free_app, H1. cbn [andb]. apply IH. exact H2.
Qed.

Lemma f77_free_write l : f77_free l = true -> f77_free (write_lines l) = true.
Proof.
  intros H. unfold write_lines. destruct (last_opt l) as [[|c s]|]; auto. apply f77_free_removelast. exact H.
Qed.

Section node_ind'.
  Variable P : node -> Prop.
  Hypothesis HL : forall k st a src regen, P (Leaf k st a src regen).
  Hypothesis HB : forall k st a fr kids, Forall P kids -> P (Blk k st a fr kids).
  Fixpoint node_ind' (n : node) : P n :=
    match n with
    | Leaf k st a src regen => HL k st a src regen
    | Blk k st a fr kids =>
        HB k st a fr kids ((fix go (l : list node) : Forall P l :=
                              match l with [] => Forall_nil P | c :: r => Forall_cons c (node_ind' c) (go r) end) kids)
    end.
End node_ind'.

Lemma is_sep_mark n : is_sep (mark n) = is_sep n.
Proof. destruct n as [[] ? ? ? ?|]; reflexivity. Qed.

Lemma is_sep_transform n : is_sep (transform n) = is_sep n.
Proof. destruct n as [[] ? ? ? ?|? ? a ? ?]; try reflexivity. cbn. destruct (is_found a); reflexivity. Qed.

Lemma has_node_kid_mark kids : has_node_kid (map mark kids) = has_node_kid kids.
Proof. unfold has_node_kid. rewrite existsb_map. apply existsb_ext. intros x. rewrite is_sep_mark. reflexivity. Qed.

Lemma sep_kids_mark kids : existsb is_sep (map mark kids) = existsb is_sep kids.
Proof. rewrite existsb_map. apply existsb_ext. intros; apply is_sep_mark. Qed.

Lemma sep_kids_transform kids : existsb is_sep (map transform kids) = existsb is_sep kids.
Proof. rewrite existsb_map. apply existsb_ext. intros; apply is_sep_transform. Qed.

Lemma src_of_mark n : src_of (mark n) = src_of n.
Proof.
  induction n as [|k st a fr kids IH] using node_ind'; [reflexivity|].
  cbn. destruct k; try reflexivity; rewrite flat_map_map; f_equal; f_equal;
    apply flat_map_ext_Forall; exact IH.
Qed.

Lemma src_of_transform n : src_of (transform n) = src_of n.
Proof.
  induction n as [|k st a fr kids IH] using node_ind'; [reflexivity|].
  cbn. destruct (is_found a); [reflexivity|]. cbn.
  destruct k; try reflexivity; rewrite flat_map_map; f_equal; f_equal; apply flat_map_ext_Forall; exact IH.
Qed.

(** [X m n]: the tree after the fix, in the two contexts of the Transformer ([MVisit]: the node is visited, so marked
    and transformed; [MUntouched]: it sits below a block the mapper look-up found, so only marked) *)
Definition X (m : tmode) (n : node) : node := match m with MVisit => transform (mark n) | MUntouched => mark n end.

Lemma src_of_X m n : src_of (X m n) = src_of n.
Proof. destruct m; cbn; [rewrite src_of_transform|]; apply src_of_mark. Qed.

Lemma is_sep_X m n : is_sep (X m n) = is_sep n.
Proof. destruct m; cbn; [rewrite is_sep_transform|]; apply is_sep_mark. Qed.

Lemma flat_src_X m kids : flat_map src_of (map (X m) kids) = flat_map src_of kids.
Proof. rewrite flat_map_map. apply flat_map_ext_Forall. apply Forall_forall. intros; apply src_of_X. Qed.

(** the original text is the concatenation of the own-line groups; the specification touches only the groups of
    reported statements *)
Lemma groups_src : forall n prep, List.concat (map snd (groups prep n)) = src_of n.
Proof.
  induction n as [k st a src regen|k st a fr kids IH] using node_ind'; intros prep.
  - cbn. apply app_nil_r.
  - cbn [groups]. destruct (is_drop a); [cbn; apply app_nil_r|].
    destruct k; cbn [src_of]; try (cbn; apply app_nil_r);
      (cbn [map List.concat fst snd]; rewrite map_app, concat_app; cbn; rewrite app_nil_r; f_equal; f_equal;
       induction IH as [|c r Hc _ IHr]; cbn; [reflexivity|]; rewrite map_app, concat_app, Hc, IHr; reflexivity).
Qed.

(** [keeps g o]: the output [o] for the own-line group [g] is its source text unless the group is a reported one *)
Definition keeps (g : bool * list line) (o : list line) : Prop := fst g = false -> o = snd g.

Lemma spec_keeps : forall n prep, Forall2 keeps (groups prep n) (spec_g prep n).
Proof.
  induction n as [k st a src regen|k st a fr kids IH] using node_ind'; intros prep.
  - cbn. constructor; [|constructor]. unfold keeps; cbn.
    destruct k; cbn; intros H; try rewrite H; try reflexivity; destruct a; try discriminate; reflexivity.
  - cbn [groups spec_g]. destruct (is_drop a); [constructor; [unfold keeps; cbn; discriminate|constructor]|].
    destruct k.
    (* BInline is the third block kind; BLoop, BCond and BOther share the other case *)
    3: { constructor; [|constructor]. unfold keeps; cbn. intros ->. reflexivity. }
    all: constructor; [unfold keeps; cbn; intros ->; reflexivity|];
      (apply Forall2_app; [|constructor; [unfold keeps; cbn; intros ->; reflexivity|constructor]]);
      apply Forall2_flat_map; eapply Forall_impl; [|exact IH]; cbn; auto.
Qed.

Lemma no_act_has_action n : no_act n = true -> has_action n = false.
Proof.
  induction n as [k st a src regen|k st a fr kids IH] using node_ind'; cbn.
  - destruct a, k; cbn; congruence.
  - rewrite andb_true_iff. intros [Ha Hk]. destruct (is_act a); [discriminate|]. cbn.
    apply forallb_Forall in Hk. induction IH as [|c r Hc _ IHr]; [reflexivity|].
    inversion Hk; subst. cbn. rewrite Hc by assumption. cbn. apply IHr. assumption.
Qed.

Lemma no_act_kids_has_action kids : forallb no_act kids = true -> existsb has_action kids = false.
Proof.
  induction kids as [|c r IH]; cbn; [reflexivity|]. rewrite andb_true_iff. intros [H1 H2].
  rewrite (no_act_has_action _ H1). cbn. auto.
Qed.

(** an action-free subtree is specified to stay as it is *)
Lemma no_act_spec : forall n, no_act n = true -> List.concat (spec_g false n) = src_of n.
Proof.
  induction n as [k st a src regen|k st a fr kids IH] using node_ind'; cbn [no_act].
  - intros H. destruct a; try discriminate. destruct k; cbn; apply app_nil_r.
  - rewrite andb_true_iff. intros [Ha Hk]. destruct a; try discriminate. cbn [spec_g is_drop is_act].
    destruct k; cbn [src_of].
    (* BInline is the third block kind; BLoop, BCond and BOther share the other case *)
    3: { cbn. rewrite (no_act_kids_has_action _ Hk). cbn. apply app_nil_r. }
    all: cbn; rewrite concat_app; cbn; rewrite app_nil_r; f_equal; f_equal;
      apply forallb_Forall in Hk; rewrite concat_flat_map; apply flat_map_ext_Forall;
      rewrite Forall_forall in *; intros x Hx; apply IH; auto.
Qed.

Lemma no_act_kids_spec kids :
  forallb no_act kids = true -> List.concat (flat_map (spec_g false) kids) = flat_map src_of kids.
Proof.
  intros H. rewrite concat_flat_map. apply flat_map_ext_Forall. apply forallb_Forall in H.
  eapply Forall_impl; [|exact H]. intros x. apply no_act_spec.
Qed.
