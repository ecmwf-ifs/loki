(** C43 — file level: the property theorems about [fix_file]. *)
From Coq Require Import List String Ascii Bool Arith ZArith Lia.
From LV Require Import Base.Strings Base.ListFacts Base.Expr models.M_C43 proofs.P_C43 proofs.P_C43_main.
Import ListNotations.
Open Scope string_scope.
Open Scope list_scope.

Lemma routine_main rk fa r :
  routine_in_class rk fa r = true ->
  emit_routine rk fa r = List.concat (routine_spec r) /\ routine_ok rk fa r = true.
Proof.
  unfold routine_in_class, emit_routine, routine_ok, routine_spec. destruct (touched rk fa r).
  - rewrite !andb_true_iff. intros [[Hh Hf] Hk]. apply lines_eqb_eq in Hh. apply lines_eqb_eq in Hf.
    assert (G : Forall good (r_kids r)) by (apply Forall_forall; intros; apply main).
    destruct (kids_flat MVisit false false (r_kids r) G Hk) as [E1 E2].
    rewrite flat_map_map in E1. rewrite forallb_map in E2.
    cbn [negb orb]. rewrite concat_frame, <- E1, Hh, Hf. split; [reflexivity|exact E2].
  - intros Hk. cbn [negb orb]. split; [|reflexivity]. unfold routine_src.
    rewrite concat_frame, (no_act_kids_spec _ Hk). reflexivity.
Qed.

Lemma item_main rk fa it :
  item_in_class rk fa it = true ->
  emit_item rk fa it = List.concat (item_spec it)
  /\ match it with IRoutine x => routine_ok rk fa x | _ => true end = true.
Proof.
  destruct it as [l|rp s g|r]; cbn.
  - intros _. rewrite app_nil_r. auto.
  - intros _. rewrite app_nil_r. auto.
  - apply routine_main.
Qed.

Lemma items_main rk fa f :
  forallb (item_in_class rk fa) f = true ->
  emit_items rk fa f = List.concat (file_spec f) /\ items_ok rk fa f = true.
Proof.
  unfold emit_items, file_spec, items_ok. induction f as [|it f IH]; cbn; [auto|].
  rewrite andb_true_iff. intros [H1 H2]. destruct (item_main _ _ _ H1) as [E1 E2]. destruct (IH H2) as [E3 E4].
  rewrite concat_app, E1, E3, E2, E4. auto.
Qed.

Lemma touched_false rk f r : file_act f = false -> In (IRoutine r) f -> touched rk false r = false.
Proof.
  intros Hf Hin. destruct rk; [reflexivity|]. cbn. unfold file_act in Hf.
  destruct (routine_act r) eqn:E; [|reflexivity].
  assert (existsb (fun it => match it with IRoutine r0 => routine_act r0 | IOpaque rp _ _ => rp | IText _ => false end) f = true)
    by (apply existsb_exists; exists (IRoutine r); auto).
  congruence.
Qed.

(** without any report the specification is the original text *)
Lemma file_spec_orig rk f :
  file_act f = false -> forallb (item_in_class rk false) f = true -> List.concat (file_spec f) = orig f.
Proof.
  intros Hf Hc. unfold file_spec, orig. rewrite concat_flat_map. apply flat_map_ext_Forall.
  apply Forall_forall. intros it Hin. rewrite forallb_forall in Hc. specialize (Hc _ Hin).
  destruct it as [l|rp s g|r]; cbn [item_in_class item_spec item_src] in *.
  - apply app_nil_r.
  - apply lines_eqb_eq in Hc. subst. apply app_nil_r.
  - unfold routine_in_class in Hc. rewrite (touched_false rk f r Hf Hin) in Hc.
    unfold routine_spec, routine_src. rewrite concat_frame, (no_act_kids_spec _ Hc). reflexivity.
Qed.

Lemma file_groups_src f : List.concat (map snd (file_groups f)) = orig f.
Proof.
  unfold file_groups, orig. induction f as [|it f IH]; cbn; [reflexivity|].
  rewrite map_app, concat_app, IH. f_equal.
  destruct it as [l|rp s g|r]; cbn; try apply app_nil_r.
  unfold routine_src. rewrite map_app, concat_app. cbn. rewrite app_nil_r. f_equal. f_equal.
  induction (r_kids r) as [|c k IHk]; cbn; [reflexivity|]. rewrite map_app, concat_app, groups_src, IHk. reflexivity.
Qed.

Lemma file_spec_keeps rk fa f :
  forallb (item_in_class rk fa) f = true -> Forall2 keeps (file_groups f) (file_spec f).
Proof.
  unfold file_groups, file_spec. intros H. apply Forall2_flat_map. apply Forall_forall. intros it Hin.
  rewrite forallb_forall in H. specialize (H _ Hin). destruct it as [l|rp s g|r]; cbn in *.
  - constructor; [intro; reflexivity|constructor].
  - apply lines_eqb_eq in H. subst. constructor; [intro; reflexivity|constructor].
  - unfold routine_groups, routine_spec. constructor; [intro; reflexivity|].
    apply Forall2_app; [|constructor; [intro; reflexivity|constructor]].
    apply Forall2_flat_map. apply Forall_forall. intros c _. apply spec_keeps.
Qed.

(** what [fix_file] writes *)
Definition written (f : list item) (body : list line) : list line :=
  if file_act f then write_lines body else body.

Theorem fix_file_spec rk f :
  file_in_class rk f = true -> fix_file rk f = Some (written f (List.concat (file_spec f))).
Proof.
  unfold file_in_class, fix_file, written. intros H. destruct (file_act f) eqn:Ha; cbn [negb].
  - destruct (items_main _ _ _ H) as [E1 E2]. rewrite E2, E1. reflexivity.
  - rewrite (file_spec_orig rk f Ha H). reflexivity.
Qed.

Theorem fix_other_nodes_verbatim rk f :
  file_in_class rk f = true ->
  exists outs,
    fix_file rk f = Some (written f (List.concat outs))
    /\ Forall2 keeps (file_groups f) outs
    /\ List.concat (map snd (file_groups f)) = orig f.
Proof.
  intros H. exists (file_spec f). split; [apply fix_file_spec; exact H|].
  split; [eapply file_spec_keeps; exact H | apply file_groups_src].
Qed.

Definition same_tokens (g : bool * list line) (o : list line) : Prop := fst g = true -> toks_match (snd g) o = true.

Lemma only_self_not_drop a : match a with ANone | ASelf | AVisit => true | _ => false end = true -> is_drop a = false.
Proof. destruct a; cbn; congruence. Qed.

Lemma spec_tokens : forall n prep, only_self n = true -> toks_ok prep n = true ->
  Forall2 same_tokens (groups prep n) (spec_g prep n).
Proof.
  induction n as [k st a src regen|k st a fr kids IH] using node_ind'; intros prep Hs Ht.
  - cbn in *. constructor; [|constructor]. unfold same_tokens; cbn.
    destruct k; cbn in *.
    + destruct a; cbn in *; try discriminate; auto.
    + destruct a; cbn in *; try discriminate; auto.
    + intros ->. cbn in Ht. exact Ht.
    + intros E. rewrite E in *. cbn in Ht. exact Ht.
  - cbn [only_self] in Hs. apply andb_true_iff in Hs as [Hs Hk]. apply andb_true_iff in Hs as [Hs Hi].
    pose proof (only_self_not_drop _ Hs) as Hd. cbn [groups spec_g toks_ok] in *. rewrite Hd in *. cbn [orb] in Ht.
    apply andb_true_iff in Ht as [Hfr Htk].
    assert (K : Forall2 same_tokens (flat_map (groups (is_act a)) kids) (flat_map (spec_g (is_act a)) kids)).
    { apply Forall2_flat_map. rewrite Forall_forall in *. rewrite forallb_forall in Hk, Htk. intros c Hc. apply IH; auto. }
    destruct k.
    (* BInline is the third block kind; BLoop, BCond and BOther share the other case *)
    3: { constructor; [|constructor]. unfold same_tokens; cbn. intros E. apply negb_true_iff in Hi. congruence. }
    all: constructor; [|apply Forall2_app; [exact K|constructor; [|constructor]]]; unfold same_tokens; cbn; intros E;
      rewrite E in *; cbn in Hfr; apply andb_true_iff in Hfr as [? ?]; assumption.
Qed.

Lemma file_spec_tokens f :
  file_forall only_self f = true -> file_forall (toks_ok false) f = true ->
  Forall2 same_tokens (file_groups f) (file_spec f).
Proof.
  unfold file_forall, file_groups, file_spec. intros Hs Ht. apply Forall2_flat_map. apply Forall_forall. intros it Hin.
  rewrite forallb_forall in Hs, Ht. specialize (Hs _ Hin). specialize (Ht _ Hin). destruct it as [l|rp s g|r]; cbn in *.
  - constructor; [intro; discriminate|constructor].
  - constructor; [intro; discriminate|constructor].
  - unfold routine_groups, routine_spec. constructor; [intro; discriminate|].
    apply Forall2_app; [|constructor; [intro; discriminate|constructor]].
    apply Forall2_flat_map. apply Forall_forall. intros c Hc. rewrite forallb_forall in Hs, Ht. apply spec_tokens; auto.
Qed.

Theorem fixed_stmt_same_tokens_modulo_ops rk f :
  file_in_class rk f = true -> file_forall only_self f = true -> file_forall (toks_ok false) f = true ->
  exists outs,
    fix_file rk f = Some (written f (List.concat outs))
    /\ Forall2 (fun g o => fst g = true ->
                  map foldt (lex_lines o) = map foldt (map f90_spelling (lex_lines (snd g)))) (file_groups f) outs.
Proof.
  intros Hc Hs Ht. exists (file_spec f). split; [apply fix_file_spec; exact Hc|].
  pose proof (file_spec_tokens f Hs Ht) as H. induction H as [|g o gs os Hgo _ IH]; constructor; auto.
  intros E. apply lines_eqb_eq, Hgo, E.
Qed.

Lemma spec_f77_free : forall n prep, only_self n = true -> toks_ok prep n = true -> reports_complete prep n = true ->
  forallb f77_free (spec_g prep n) = true.
Proof.
  induction n as [k st a src regen|k st a fr kids IH] using node_ind'; intros prep Hs Ht Hr.
  - cbn in *. rewrite andb_true_r. destruct k; cbn in *.
    + destruct a; cbn in *; try discriminate; auto; eapply toks_match_f77_free; eauto.
    + destruct a; cbn in *; try discriminate; auto; eapply toks_match_f77_free; eauto.
    + destruct prep; cbn in *; [eapply toks_match_f77_free; eauto | exact Hr].
    + destruct (is_act a); cbn in *; [eapply toks_match_f77_free; eauto | exact Hr].
  - cbn [only_self] in Hs. apply andb_true_iff in Hs as [Hs Hk]. apply andb_true_iff in Hs as [Hs Hi].
    pose proof (only_self_not_drop _ Hs) as Hd. cbn [spec_g toks_ok reports_complete] in *. rewrite Hd in *. cbn [orb] in Ht, Hr.
    apply andb_true_iff in Ht as [Hfr Htk].
    assert (K : forall p, forallb (reports_complete p) kids = true -> p = is_act a ->
                          forallb f77_free (flat_map (spec_g p) kids) = true).
    { intros p Hrk ->. apply forallb_forall. intros x Hx. apply in_flat_map in Hx as [c [Hc Hx]].
      rewrite Forall_forall in IH. rewrite forallb_forall in Hk, Htk, Hrk.
      specialize (IH c Hc (is_act a) (Hk _ Hc) (Htk _ Hc) (Hrk _ Hc)). rewrite forallb_forall in IH. auto. }
    destruct k.
    (* BInline is the third block kind; BLoop, BCond and BOther share the other case *)
    3: { apply negb_true_iff in Hi. rewrite Hi in *. cbn in *. rewrite Hr. reflexivity. }
    all: apply andb_true_iff in Hr as [Hr Hrk]; cbn [forallb]; rewrite forallb_app, (K _ Hrk eq_refl); cbn;
      destruct (is_act a); cbn in *;
      [apply andb_true_iff in Hfr as [H1 H2]; rewrite (toks_match_f77_free _ _ H1), (toks_match_f77_free _ _ H2)
      |apply andb_true_iff in Hr as [H1 H2]; rewrite H1, H2]; reflexivity.
Qed.

Lemma file_spec_f77_free f :
  file_forall only_self f = true -> file_forall (toks_ok false) f = true ->
  file_forall (reports_complete false) f = true -> file_frame_clean f = true ->
  f77_free (List.concat (file_spec f)) = true.
Proof.
  unfold file_forall, file_frame_clean, file_spec. intros Hs Ht Hr Hf. rewrite f77_free_concat.
  apply forallb_forall. intros x Hx. apply in_flat_map in Hx as [it [Hin Hx]].
  rewrite forallb_forall in Hs, Ht, Hr, Hf. specialize (Hs _ Hin). specialize (Ht _ Hin). specialize (Hr _ Hin). specialize (Hf _ Hin).
  destruct it as [l|rp s g|r]; cbn in *.
  - destruct Hx as [<-|[]]. exact Hf.
  - destruct Hx as [<-|[]]. exact Hf.
  - apply andb_true_iff in Hf as [H1 H2]. unfold routine_spec in Hx. destruct Hx as [<-|Hx]; [exact H1|].
    apply in_app_or in Hx as [Hx|[<-|[]]]; [|exact H2].
    apply in_flat_map in Hx as [c [Hc Hx]]. rewrite forallb_forall in Hs, Ht, Hr.
    pose proof (spec_f77_free c false (Hs _ Hc) (Ht _ Hc) (Hr _ Hc)) as E. rewrite forallb_forall in E. auto.
Qed.

(** ** fix_clears_rule: re-running the rule's check (as the token predicate) on the fixed text reports nothing *)
Theorem fix_clears_rule rk f :
  file_in_class rk f = true -> file_forall only_self f = true -> file_forall (toks_ok false) f = true ->
  file_forall (reports_complete false) f = true -> file_frame_clean f = true ->
  exists out, fix_file rk f = Some out /\ f77_free out = true.
Proof.
  intros Hc Hs Ht Hr Hf. eexists. split; [apply fix_file_spec; exact Hc|].
  pose proof (file_spec_f77_free f Hs Ht Hr Hf) as E. unfold written. destruct (file_act f); [apply f77_free_write|]; exact E.
Qed.

Lemma fix_no_reports rk f : file_act f = false -> fix_file rk f = Some (orig f).
Proof. unfold fix_file. intros ->. reflexivity. Qed.

Lemma reparse_no_action : forall n prep, has_action (reparse prep n) = false.
Proof.
  induction n as [k st a src regen|k st a fr kids IH] using node_ind'; intros prep.
  - cbn. destruct k; reflexivity.
  - cbn [reparse]. destruct (is_drop a); [reflexivity|]. cbn. rewrite existsb_map.
    induction IH as [|c r Hc _ IHr]; cbn; [reflexivity|]. rewrite Hc. exact IHr.
Qed.

Lemma reparse_file_no_action f : file_act (reparse_file f) = false.
Proof.
  unfold file_act, reparse_file. rewrite existsb_map. induction f as [|it f IH]; cbn; [reflexivity|].
  rewrite IH, orb_false_r. destruct it as [l|rp s g|r]; cbn; try reflexivity.
  unfold routine_act. cbn. rewrite existsb_map. induction (r_kids r) as [|c k IHk]; cbn; [reflexivity|].
  rewrite reparse_no_action. exact IHk.
Qed.

Lemma reparse_src : forall n prep, inline_ok n = true -> src_of (reparse prep n) = List.concat (spec_g prep n).
Proof.
  induction n as [k st a src regen|k st a fr kids IH] using node_ind'; intros prep Hi.
  - cbn. rewrite app_nil_r. destruct k; reflexivity.
  - cbn [reparse spec_g inline_ok] in *. destruct (is_drop a) eqn:Hd; [reflexivity|]. cbn [orb] in Hi.
    apply andb_true_iff in Hi as [Hin Hk].
    assert (K : flat_map src_of (map (reparse (is_act a)) kids) = List.concat (flat_map (spec_g (is_act a)) kids)).
    { rewrite flat_map_map, concat_flat_map. apply flat_map_ext_Forall. rewrite Forall_forall in *.
      rewrite forallb_forall in Hk. intros c Hc. apply IH; auto. }
    destruct k; cbn [src_of hs fs].
    + rewrite concat_frame, K. reflexivity.
    + rewrite concat_frame, K. reflexivity.
    + apply negb_true_iff in Hin. rewrite Hin. apply orb_false_iff in Hin as [Ha _]. rewrite Ha. cbn. rewrite app_nil_r. reflexivity.
    + rewrite concat_frame, K. reflexivity.
Qed.

Lemma reparse_file_orig f : file_forall inline_ok f = true -> orig (reparse_file f) = List.concat (file_spec f).
Proof.
  unfold file_forall, orig, reparse_file, file_spec. intros H. rewrite flat_map_map, concat_flat_map.
  apply flat_map_ext_Forall. apply Forall_forall. intros it Hin. rewrite forallb_forall in H. specialize (H _ Hin).
  destruct it as [l|rp s g|r]; cbn [item_src item_spec].
  - symmetry. apply app_nil_r.
  - symmetry. apply app_nil_r.
  - unfold routine_src, routine_spec. cbn [r_hsrc r_kids r_fsrc]. rewrite concat_frame. f_equal. f_equal.
    rewrite flat_map_map, concat_flat_map. apply flat_map_ext_Forall. apply Forall_forall. intros c Hc.
    rewrite forallb_forall in H. apply reparse_src. auto.
Qed.

(** fix_idempotent: [reparse_file f] is the fixed text read back (same statements, sources = the specified text, every
    action [ANone], hence no reports: [reparse_file_no_action]); a second run leaves it alone.  [body] is what the first
    run hands to [write_lines] ([written]); the second run is given [body] itself. *)
Theorem fix_idempotent rk f :
  file_in_class rk f = true -> file_forall inline_ok f = true ->
  exists body,
    fix_file rk f = Some (written f body)
    /\ orig (reparse_file f) = body
    /\ fix_file rk (reparse_file f) = Some body.
Proof.
  intros Hc Hi. exists (List.concat (file_spec f)). split; [apply fix_file_spec; exact Hc|].
  split; [apply reparse_file_orig; exact Hi|].
  rewrite (fix_no_reports rk _ (reparse_file_no_action f)), (reparse_file_orig f Hi). reflexivity.
Qed.

(** the shipped Fortran90OperatorsRule.fix_subroutine never fixes anything *)
Theorem shipped_f90_fix_never_fixes f : file_act f = true -> fix_file_shipped_f90 f = None.
Proof. unfold fix_file_shipped_f90. intros ->. reflexivity. Qed.
