(** C43 — the main lemma: on the class, the conservative printer applied to the transformed tree gives exactly
    the specified text (unreported statements verbatim, reported ones as the structural printer gives them),
    and raises no exception. *)
From Coq Require Import List String Ascii Bool Arith ZArith Lia.
From LV Require Import Base.Strings Base.ListFacts Base.Expr models.M_C43 proofs.P_C43.
Import ListNotations.
Open Scope string_scope.
Open Scope list_scope.

Lemma X_untouched k st a fr kids :
  X MUntouched (Blk k st a fr kids) = Blk k (if is_act a then NOSRC else VALID) a fr (map (X MUntouched) kids).
Proof. reflexivity. Qed.

Lemma is_found_act a : is_found a = true -> is_act a = true.
Proof. destruct a; cbn; congruence. Qed.

Lemma X_visit_found k st a fr kids :
  is_found a = true ->
  X MVisit (Blk k st a fr kids) = Blk k NOSRC a fr (map (X MUntouched) kids).
Proof. intros H. cbn. rewrite H, (is_found_act _ H). reflexivity. Qed.

Lemma X_visit_notfound k st a fr kids :
  is_found a = false ->
  X MVisit (Blk k st a fr kids)
  = Blk k (if is_act a then NOSRC else if has_node_kid kids then INV_CHILDREN else VALID) a fr (map (X MVisit) kids).
Proof.
  intros H. cbn. rewrite H, has_node_kid_mark, map_map. destruct (is_act a); cbn; [reflexivity|].
  destruct (has_node_kid kids); reflexivity.
Qed.

(** [good c]: in every context of the class ([in_class]: Transformer mode [m], parent reported or not [prep],
    separator mode, else-if flag) the printer applied to the fixed tree [X m c] gives the specified text
    [spec_g prep c] and does not raise ([emit_ok]).  [main] proves it for every node. *)
Definition good (c : node) : Prop :=
  forall m prep sm ise, in_class m prep sm ise c = true ->
    emit sm ise (X m c) = List.concat (spec_g prep c) /\ emit_ok ise (X m c) = true.

Lemma kids_flat km p ise kids :
  Forall good kids -> forallb (in_class km p SRegen ise) kids = true ->
  flat_map (emit SRegen ise) (map (X km) kids) = List.concat (flat_map (spec_g p) kids)
  /\ forallb (emit_ok ise) (map (X km) kids) = true.
Proof.
  induction 1 as [|c r Hc _ IH]; cbn; [auto|]. rewrite andb_true_iff. intros [H1 H2].
  destruct (Hc _ _ _ _ H1) as [E1 E2]. destruct (IH H2) as [E3 E4].
  rewrite E1, E2, E3, E4, concat_app. auto.
Qed.

Lemma kids_chain km p sm own e kids :
  Forall good kids -> class_kids (in_class km p sm) own e kids = true ->
  emit_kids (emit sm) own e (map (X km) kids) = List.concat (flat_map (spec_g p) kids)
  /\ ok_kids emit_ok own e (map (X km) kids) = true.
Proof.
  induction 1 as [|c r Hc Hr IH]; [cbn; auto|].
  unfold class_kids. cbn [ok_kids emit_kids map flat_map]. destruct r as [|c2 r].
  - intros H1. destruct (Hc _ _ _ _ H1) as [E1 E2]. cbn. rewrite E1, E2, app_nil_r. auto.
  - rewrite andb_true_iff. intros [H1 H2]. destruct (Hc _ _ _ _ H1) as [E1 E2].
    destruct (IH H2) as [E3 E4]. cbn [map] in *. rewrite E1, E2, concat_app.
    change (emit_kids (emit sm) own e (X km c2 :: map (X km) r)) with (emit_kids (emit sm) own e (map (X km) (c2 :: r))).
    change (ok_kids emit_ok own e (X km c2 :: map (X km) r)) with (ok_kids emit_ok own e (map (X km) (c2 :: r))).
    cbn [map]. rewrite E3, E4. auto.
Qed.

Lemma concat_frame (h f : list line) (mid : list (list line)) :
  List.concat (h :: mid ++ [f]) = h ++ List.concat mid ++ f.
Proof. cbn. rewrite concat_app. cbn. rewrite app_nil_r. reflexivity. Qed.

Lemma one_line_inv l : one_line l = true -> exists x, l = [x].
Proof. destruct l as [|x [|y l]]; cbn; try discriminate. eauto. Qed.

Lemma no_line_inv (l : list line) : no_line l = true -> l = [].
Proof. destruct l; cbn; congruence. Qed.

Lemma sep_kids_X m kids : existsb is_sep (map (X m) kids) = existsb is_sep kids.
Proof. rewrite existsb_map. apply existsb_ext. intros; apply is_sep_X. Qed.

Lemma main : forall n, good n.
Proof.
  induction n as [k st a src regen|k st a fr kids IH] using node_ind'; intros m prep sm ise H.
  - (* leaves *)
    assert (EX : X m (Leaf k st a src regen) = Leaf k (if leaf_mapped k a then NOSRC else VALID) a src regen)
      by (destruct m; reflexivity).
    rewrite EX. split; [|reflexivity]. cbn in H |- *. rewrite app_nil_r.
    destruct k; cbn in *.
    + destruct a; reflexivity.
    + destruct a; cbn in *; try reflexivity. apply lines_eqb_eq in H. exact H.
    + destruct sm; cbn in *; apply lines_eqb_eq in H; exact H.
    + destruct (is_act a); cbn in *; [reflexivity|]. apply lines_eqb_eq in H. exact H.
  - (* blocks *)
    cbn [in_class] in H. destruct (is_drop a) eqn:Hd.
    { assert (a = ADrop) by (destruct a; cbn in Hd; congruence). subst a.
      destruct m; cbn; auto. }
    cbn [orb] in H.
    set (km := match m with MUntouched => MUntouched | MVisit => if is_found a then MUntouched else MVisit end) in *.
    destruct (is_act a) eqn:Ha.
    + (* reported: printed structurally around its children *)
      assert (EX : X m (Blk k st a fr kids) = Blk k NOSRC a fr (map (X km) kids)).
      { destruct m.
        - destruct (is_found a) eqn:Hf; subst km; cbn zeta iota.
          + apply X_visit_found; assumption.
          + rewrite X_visit_notfound by assumption. rewrite Ha. reflexivity.
        - rewrite X_untouched, Ha. reflexivity. }
      rewrite EX. cbn [spec_g emit emit_ok]. rewrite Hd, Ha. cbn [orb].
      destruct k; try discriminate.
      2: { (* BCond, the second kind *) apply andb_true_iff in H as [He Hk]. destruct (kids_chain km true SRegen false (ei fr) kids IH Hk) as [E1 E2].
           rewrite concat_frame, E1, E2, He. auto. }
      (* BLoop and BOther *)
      all: destruct (kids_flat km true ise kids IH H) as [E1 E2]; rewrite concat_frame, E1, E2; auto.
    + (* not reported *)
      assert (Hnf : is_found a = false) by (destruct a; cbn in *; congruence).
      assert (Hkm : km = m) by (subst km; destruct m; [rewrite Hnf|]; reflexivity).
      rewrite Hkm in H. clear km Hkm.
      (* a DO loop or block IF that is not entered (or has no statement child) stays VALID and is printed verbatim *)
      assert (EXv : forall k', match m with MUntouched => false | MVisit => has_node_kid kids end = false ->
                               X m (Blk k' st a fr kids) = Blk k' VALID a fr (map (X m) kids)).
      { intros k' Hv. destruct m; [rewrite X_visit_notfound by assumption; rewrite Ha, Hv|rewrite X_untouched, Ha]; reflexivity. }
      destruct k.
      * (* BLoop *)
        destruct (match m with MUntouched => false | MVisit => has_node_kid kids end) eqn:Hv.
        -- destruct m; [|discriminate]. rewrite X_visit_notfound by assumption. rewrite Ha, Hv.
           apply andb_true_iff in H as [H Hk]. apply andb_true_iff in H as [Hh Hf].
           destruct (one_line_inv _ Hh) as [h Eh]. destruct (one_line_inv _ Hf) as [f Ef].
           destruct (kids_flat MVisit false ise kids IH Hk) as [E1 E2].
           cbn [spec_g emit emit_ok src_of]. rewrite Hd, Ha. cbn [orb]. rewrite concat_frame, E1, E2, flat_src_X.
           rewrite Eh, Ef. split; [|reflexivity]. cbn [app firstn].
           replace (h :: flat_map src_of kids ++ [f]) with ((h :: flat_map src_of kids) ++ [f]) by reflexivity.
           rewrite last_opt_app_one. reflexivity.
        -- rewrite (EXv _ eq_refl). cbn [spec_g emit emit_ok src_of]. rewrite Hd, Ha. cbn [orb].
           rewrite concat_frame, (no_act_kids_spec _ H), flat_src_X. auto.
      * (* BCond *)
        destruct (match m with MUntouched => false | MVisit => has_node_kid kids end) eqn:Hv.
        -- destruct m; [|discriminate]. rewrite X_visit_notfound by assumption. rewrite Ha, Hv.
           apply andb_true_iff in H as [H Hk]. apply andb_true_iff in H as [H Hel].
           apply andb_true_iff in H as [H Hie]. apply andb_true_iff in H as [Hh Hf].
           destruct (one_line_inv _ Hh) as [h Eh].
           destruct (kids_chain MVisit false (SElse (last_else (src_of (Blk BCond st a fr kids)))) ise (ei fr) kids IH Hk)
             as [E1 E2].
           cbn [spec_g emit emit_ok]. rewrite Hd, Ha. cbn [orb].
           assert (ES : src_of (Blk BCond INV_CHILDREN a fr (map (X MVisit) kids)) = src_of (Blk BCond st a fr kids))
             by (cbn [src_of]; rewrite flat_src_X; reflexivity).
           rewrite ES, concat_frame, E1, E2, Hie, sep_kids_X. cbn [andb].
           split.
           ++ cbn [src_of]. rewrite Eh. cbn [app firstn]. f_equal. f_equal.
              destruct (ei fr).
              ** rewrite (no_line_inv _ Hf). reflexivity.
              ** destruct (one_line_inv _ Hf) as [f Ef]. rewrite Ef.
                 replace (h :: flat_map src_of kids ++ [f]) with ((h :: flat_map src_of kids) ++ [f]) by reflexivity.
                 rewrite last_opt_app_one. reflexivity.
           ++ destruct (existsb is_sep kids); cbn in *; [|reflexivity]. destruct (ei fr); cbn in *; [reflexivity|].
              (* the printer indexes the last ELSE line of the source ([last_else]): it must exist *)
              match goal with |- match ?l with [] => _ | _ => _ end = _ => destruct l end; cbn in *; congruence.
        -- rewrite (EXv _ eq_refl). cbn [spec_g emit emit_ok src_of]. rewrite Hd, Ha. cbn [orb].
           rewrite concat_frame, (no_act_kids_spec _ H), flat_src_X. auto.
      * (* in-line IF: only verbatim *)
        destruct m; [discriminate|]. rewrite X_untouched, Ha.
        cbn [spec_g emit emit_ok]. rewrite Hd, Ha. cbn [orb status_valid].
        rewrite (no_act_kids_has_action _ H). cbn. rewrite app_nil_r. auto.
      * (* frame always printed structurally *)
        apply andb_true_iff in H as [H Hk]. apply andb_true_iff in H as [Hh Hf].
        apply lines_eqb_eq in Hh. apply lines_eqb_eq in Hf.
        assert (EX : exists st', X m (Blk BOther st a fr kids) = Blk BOther st' a fr (map (X m) kids)).
        { destruct m; [rewrite X_visit_notfound by assumption|rewrite X_untouched]; eauto. }
        destruct EX as [st' EX]. rewrite EX.
        destruct (kids_flat m false ise kids IH Hk) as [E1 E2].
        cbn [spec_g emit emit_ok]. rewrite Hd, Ha. cbn [orb]. rewrite concat_frame, E1, E2, Hh, Hf. auto.
Qed.
