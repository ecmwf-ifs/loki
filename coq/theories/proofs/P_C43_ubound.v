(** C43 — DynamicUboundCheckRule on MiniF: removing run-time checks that never fire preserves every run; the extent the
    fix puts into the declaration comes from a comparison of that array and that dimension ([ub_pick_sound]). *)
From Coq Require Import List String Ascii Bool Arith ZArith Lia.
From LV Require Import Base.Strings Base.Expr Base.MiniF Base.MiniFFacts models.M_C43.
Import ListNotations.

Lemma uboundfix_preserves ps : forall p s s',
  quiet (runs1 ps) p s ->
  (runs ps (ub_prog p) s s' <-> runs ps (ub_prog (ub_fix p)) s s').
Proof.
  induction p as [|u p IH]; intros s s' Hq; [reflexivity|].
  destruct u as [c b|st]; cbn [ub_prog ub_fix map filter to_minif] in *.
  - destruct Hq as [Hc Hq]. rewrite <- (IH s s' Hq). split.
    + intros H. apply runs_cons_inv in H as [s1 [H1 H2]].
      apply (runs1_if ps c b [] s s1 false Hc) in H1. apply runs_nil_inv in H1. subst. exact H2.
    + intros H. apply (runs_cons ps _ _ s s s'); [|exact H].
      apply (runs1_if ps c b [] s s false Hc). apply runs_nil.
  - split; intros H; apply runs_cons_inv in H as [s1 [H1 H2]]; apply (runs_cons ps _ _ s s1 s'); try exact H1;
      apply (IH s1 s' (Hq s1 H1)); exact H2.
Qed.

(** the hypothesis is satisfiable and necessary: a check that fires makes the two programs differ *)
Definition ub_ex : list ustmt :=
  [UStmt (SAssign "m" (EInt 1));
   UCheck (ECmp Clt (ECall "ubound" [EInt 1]) (EVar "n")) [SAssign "m" (EInt 99)];
   UStmt (SAssign "k" (ESum false [EVar "m"; EInt 1]))].

Definition st_of (ub n : Z) : store :=
  {| sv := fun x => if String.eqb x "n" then n else 0; av := fun a _ => if String.eqb a "ubound" then ub else 0 |}.

Definition run_k (p : list ustmt) (s : store) : option Z :=
  match exec [] 10 (ub_prog p) s with Some s' => Some (sv s' "k") | None => None end.

(** the check does not fire (extent 5 >= n = 3): same result *)
Example ub_quiet_example :
  quiet (runs1 []) ub_ex (st_of 5 3) /\ run_k ub_ex (st_of 5 3) = Some 2%Z /\ run_k (ub_fix ub_ex) (st_of 5 3) = Some 2%Z.
Proof.
  split; [|split; vm_compute; reflexivity].
  cbn [quiet ub_ex]. intros s1 H1. apply runs1_assign_inv in H1. destruct H1 as [v [Hv ->]].
  cbn in Hv. inversion Hv; subst. split; [vm_compute; reflexivity|]. intros s2 _. exact I.
Qed.

(** the check fires (extent 2 < n = 3): removing it changes the result - the hypothesis of the theorem is needed *)
Example ub_firing_check_changes_result :
  run_k ub_ex (st_of 2 3) = Some 100%Z /\ run_k (ub_fix ub_ex) (st_of 2 3) = Some 2%Z.
Proof. vm_compute. split; reflexivity. Qed.

(** * The selected extent belongs to a comparison of THIS array and THIS dimension *)
Lemma last_opt_In {A} (l : list A) x : last_opt l = Some x -> In x l.
Proof.
  induction l as [|y l IH]; cbn; [discriminate|]. destruct l as [|z l]; [intros H; inversion H; auto|].
  intros H. right. apply IH. exact H.
Qed.

Lemma ub_pick_sound conds a d b :
  ub_pick conds a d = Some b ->
  exists cs c, In cs conds /\ In c cs /\ lower (uc_arr c) = lower a /\ uc_dim c = d /\ uc_bound c = b.
Proof.
  unfold ub_pick, ub_cond. destruct (last_opt _) as [cs|] eqn:E; [|discriminate].
  apply last_opt_In in E. apply filter_In in E as [Hin _].
  destruct (find (ub_match a d) cs) as [c|] eqn:F; [|discriminate]. intros H. inversion H; subst.
  apply find_some in F as [Hc Hm]. unfold ub_match in Hm. apply andb_true_iff in Hm as [H1 H2].
  apply String.eqb_eq in H1. apply Nat.eqb_eq in H2. exists cs, c. auto.
Qed.

(** the order of the comparisons inside one conditional is irrelevant when every (array, dimension) is checked once *)
Example ub_pick_order :
  let c1 := [ {| uc_arr := "a"; uc_dim := 1; uc_bound := "n" |}; {| uc_arr := "B"; uc_dim := 1; uc_bound := "m" |} ] in
  let c2 := [ {| uc_arr := "B"; uc_dim := 1; uc_bound := "m" |}; {| uc_arr := "a"; uc_dim := 1; uc_bound := "n" |} ] in
  ub_pick [c1] "b" 1 = Some "m" /\ ub_pick [c2] "b" 1 = Some "m" /\ ub_pick [c1] "A" 1 = Some "n" /\ ub_pick [c2] "a" 1 = Some "n"
  /\ ub_pick [c1] "a" 2 = None.
Proof. vm_compute. repeat split; reflexivity. Qed.
