(** C43 — concrete witnesses: the unconditional statements are false for the mechanism as it is; every witness
    is a small statement tree evaluated by the model (the corresponding Fortran files are replayed against the real
    code as known findings by the harness). *)
From Coq Require Import List String Ascii Bool Arith ZArith.
From LV Require Import Base.Strings Base.ListFacts Base.Expr models.M_C43 proofs.P_C43.
Import ListNotations.
Open Scope string_scope.
Open Scope list_scope.

Definition rt (kids : list node) : item :=
  IRoutine {| r_hsrc := ["SUBROUTINE foo (n, m, flag)"]; r_hregen := ["SUBROUTINE foo (n, m, flag)"];
              r_kids := kids; r_fsrc := ["END SUBROUTINE foo"]; r_fregen := ["END SUBROUTINE foo"] |}.

(** a file of the class: a reported block IF around an unreported DO loop, a reported assignment, comments,
    a string literal containing an F77 spelling *)
Definition ex_ok : list item :=
  [IText ["! old style .gt. here"];
   rt [L LRegen ANone ["  IMPLICIT NONE"] ["  IMPLICIT NONE"];
       L LVerb ANone ["  msg = 'a .gt. b'   ! .lt."] ["  msg = 'a .gt. b'  ! .lt."];
       B BCond ASelf ["  if (n .GT. 3 .and. m.le.2) then"] ["  IF (n > 3 .and. m <= 2) THEN"] ["  IF (n > 3 .and. m <= 2) THEN"]
         ["  end if"] ["  END IF"] false false
         [B BLoop ANone ["    do i = 1, n"] ["    DO i=1,n"] ["    DO i=1,n"] ["    enddo"] ["    END DO"] false false
            [L LVerb ANone ["      m = m   +  1"] ["      m = m + 1"]];
          L LSep ANone ["  else"] ["  ELSE"];
          L LVerb ASelf ["    flag = m .eq. n"] ["    flag = m == n"]];
       L LVerb ANone ["  ! done"] ["  ! done"]]].

Example class_inhabited :
  file_in_class RF90 ex_ok = true /\ file_act ex_ok = true /\ file_forall only_self ex_ok = true
  /\ file_forall (toks_ok false) ex_ok = true /\ file_forall (reports_complete false) ex_ok = true
  /\ file_frame_clean ex_ok = true /\ file_forall inline_ok ex_ok = true
  /\ fix_file RF90 ex_ok = Some
       ["! old style .gt. here"; "SUBROUTINE foo (n, m, flag)"; "  IMPLICIT NONE"; "  msg = 'a .gt. b'   ! .lt.";
        "  IF (n > 3 .and. m <= 2) THEN"; "    do i = 1, n"; "      m = m   +  1"; "    enddo"; "  ELSE";
        "    flag = m == n"; "  END IF"; "  ! done"; "END SUBROUTINE foo"].
Proof. vm_compute. repeat split; reflexivity. Qed.

(** F-C43-4: an unreported in-line IF next to a fixed statement is printed as IF (c) + its own source line *)
Definition ex_inline : list item :=
  [rt [L LVerb ASelf ["  flag = n .gt. 3"] ["  flag = n > 3"];
       B BInline ANone ["  if (m > 3)   m = 1"] ["  IF (m > 3) "] ["  IF (m > 3) "] [] [] false false
         [L LVerb ANone ["  if (m > 3)   m = 1"] ["m = 1"]]]].

Theorem fix_other_nodes_verbatim_refuted :
  exists f out l, fix_file RF90 f = Some out /\ In (false, [l]) (file_groups f) /\ In l (orig f) /\ ~ In l out.
Proof.
  exists ex_inline, ["SUBROUTINE foo (n, m, flag)"; "  flag = n > 3"; "  IF (m > 3) if (m > 3)   m = 1"; "END SUBROUTINE foo"],
    "  if (m > 3)   m = 1".
  split; [vm_compute; reflexivity|]. split; [vm_compute; auto|]. split; [vm_compute; auto|].
  apply existsb_eqb_false. vm_compute. reflexivity.
Qed.

Example ex_inline_output :
  fix_file RF90 ex_inline = Some ["SUBROUTINE foo (n, m, flag)"; "  flag = n > 3"; "  IF (m > 3) if (m > 3)   m = 1"; "END SUBROUTINE foo"].
Proof. vm_compute. reflexivity. Qed.

(** F-C43-10: the mapper look-up finds a reported block, its unreported child loop stays VALID and is printed
    verbatim: the reported statement inside it is not fixed although every statement with an F77 operator is
    reported and every structural print has the right tokens *)
Definition ex_unfixed : list item :=
  [rt [B BCond ASelf ["  if (n .gt. 3) then"] ["  IF (n > 3) THEN"] ["  IF (n > 3) THEN"] ["  end if"] ["  END IF"] false false
         [B BLoop ANone ["    do i = 1, n"] ["    DO i=1,n"] ["    DO i=1,n"] ["    end do"] ["    END DO"] false false
            [L LVerb ASelf ["      flag = i .gt. 2"] ["      flag = i > 2"]]]]].

Theorem fix_clears_rule_refuted :
  exists f out, file_forall only_self f = true /\ file_forall (toks_ok false) f = true
                /\ file_forall (reports_complete false) f = true /\ file_frame_clean f = true
                /\ fix_file RF90 f = Some out /\ f77_free out = false.
Proof.
  exists ex_unfixed,
    ["SUBROUTINE foo (n, m, flag)"; "  IF (n > 3) THEN"; "    do i = 1, n"; "      flag = i .gt. 2"; "    end do";
     "  END IF"; "END SUBROUTINE foo"].
  (* evaluate first: [split] on an unevaluated [_ = true] would decide it by ordinary reduction through the lexer *)
  vm_compute. repeat split.
Qed.

(** the same tree when the look-up misses (AVisit): everything is fixed *)
Definition ex_visited : list item :=
  [rt [B BCond AVisit ["  if (n .gt. 3) then"] ["  IF (n > 3) THEN"] ["  IF (n > 3) THEN"] ["  end if"] ["  END IF"] false false
         [B BLoop ANone ["    do i = 1, n"] ["    DO i=1,n"] ["    DO i=1,n"] ["    end do"] ["    END DO"] false false
            [L LVerb ASelf ["      flag = i .gt. 2"] ["      flag = i > 2"]]]]].

Example ex_visited_fixed :
  file_in_class RF90 ex_visited = true /\
  fix_file RF90 ex_visited = Some ["SUBROUTINE foo (n, m, flag)"; "  IF (n > 3) THEN"; "    do i = 1, n"; "      flag = i > 2";
                                   "    end do"; "  END IF"; "END SUBROUTINE foo"].
Proof. vm_compute. split; reflexivity. Qed.

(** F-C43-11: a reported block IF inside an unreported ELSE IF branch comes out as ELSE IF *)
Definition ex_elseif : list item :=
  [rt [B BCond ANone ["  if (flag) then"] ["  IF (flag) THEN"] ["  ELSE IF (flag) THEN"] [] [] true false
         [L LVerb ANone ["    m = 1"] ["    m = 1"];
          B BCond ANone ["  else if (n > 3) then"] ["  ELSE IF (n > 3) THEN"] ["  IF (n > 3) THEN"] ["  end if"] ["  END IF"] false true
            [B BCond ASelf ["    if (m .gt. 2) then"] ["    IF (m > 2) THEN"] ["    ELSE IF (m > 2) THEN"] ["    end if"] ["    END IF"] false false
               [L LVerb ANone ["      m = 2"] ["      m = 2"]]]]]].

Theorem elseif_leak :
  exists f out, fix_file RF90 f = Some out /\ In "    ELSE IF (m > 2) THEN" out /\ ~ In "    IF (m > 2) THEN" out.
Proof.
  exists ex_elseif,
    ["SUBROUTINE foo (n, m, flag)"; "  if (flag) then"; "    m = 1"; "  else if (n > 3) then"; "    ELSE IF (m > 2) THEN";
     "      m = 2"; "    END IF"; "  end if"; "END SUBROUTINE foo"].
  split; [vm_compute; reflexivity|].
  split; [apply existsb_eqb_In|apply existsb_eqb_false]; vm_compute; reflexivity.
Qed.

(** F-C43-12: an unreported IF / ELSE IF / ELSE IF chain next to a fixed statement: TypeError, nothing is written *)
Definition ex_chain : list item :=
  [rt [L LVerb ASelf ["  flag = n .gt. 3"] ["  flag = n > 3"];
       B BCond ANone ["  if (flag) then"] ["  IF (flag) THEN"] ["  ELSE IF (flag) THEN"] [] [] true false
         [L LVerb ANone ["    m = 1"] ["    m = 1"];
          B BCond ANone ["  else if (n > 3) then"] ["  ELSE IF (n > 3) THEN"] ["  IF (n > 3) THEN"] [] [] true true
            [L LVerb ANone ["    m = 2"] ["    m = 2"];
             B BCond ANone ["  else if (n > 5) then"] ["  ELSE IF (n > 5) THEN"] ["  IF (n > 5) THEN"] ["  end if"] ["  END IF"] false true
               [L LVerb ANone ["    m = 3"] ["    m = 3"]]]]]].

Theorem writer_raises : exists f, file_act f = true /\ fix_file RF90 f = None.
Proof. exists ex_chain. vm_compute. split; reflexivity. Qed.

(** the lexer on the spellings the generator uses *)
Example lex_examples :
  lex_line "  IF (a(i).GT.b .and. x .le. 1.5E0 .or. s == 'it''s .eq. x') THEN  ! c .ne. d"
  = ["IF"; "("; "a"; "("; "i"; ")"; ".GT."; "b"; ".and."; "x"; ".le."; "1"; "."; "5E0"; ".or."; "s"; "=="; "'it'"; "'s .eq. x'"; ")"; "THEN"]
  /\ toks_match ["  if (a(i).GT.b .and. x .le. 1.5E0) then"] ["  IF (a(i) > b .and. x <= 1.5E0) THEN"] = true
  /\ toks_match ["  flag = (n .gt. 3)"] ["  flag = n > 3"] = false
  /\ f77_free ["  msg = 'a .gt. b'   ! x .lt. y"] = true.
Proof. vm_compute. repeat split; reflexivity. Qed.
