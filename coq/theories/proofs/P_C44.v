(** C44 — the protocol layer: the inductive invariant [Inv] over all reachable states and what follows from it (ordering,
    built once, pool bound, final state); progress ([no_stuck]) and the measure [work_left] that bounds every run; the
    acceptor [accept] accepts only complete runs of the transition system. *)
From Coq Require Import List Bool String Ascii Arith PeanoNat Lia Permutation.
From LV Require Import Base.Strings Base.ListFacts models.M_C44.
Import ListNotations.
Open Scope list_scope.

Lemma mem_In x l : mem x l = true <-> In x l.
Proof.
  induction l as [|y r IH]; cbn; [intuition discriminate|].
  rewrite orb_true_iff, IH, String.eqb_eq. intuition congruence.
Qed.

Lemma mem_false x l : mem x l = false <-> ~ In x l.
Proof. rewrite <- mem_In. destruct (mem x l); intuition congruence. Qed.

Lemma remove1_spec x l l' : remove1 x l = Some l' -> exists l1 l2, l = l1 ++ x :: l2 /\ l' = l1 ++ l2.
Proof.
  revert l'; induction l as [|y r IH]; cbn; intros l' H; [discriminate|].
  destruct (String.eqb x y) eqn:E.
  - apply String.eqb_eq in E; subst. inversion H; subst. exists [], l'. auto.
  - destruct (remove1 x r) as [r'|]; [|discriminate]. inversion H; subst.
    destruct (IH r' eq_refl) as (l1 & l2 & -> & ->). exists (y :: l1), l2. auto.
Qed.

Lemma snoc_split {A} (l : list A) e t1 x t2 :
  l ++ [e] = t1 ++ x :: t2 ->
  (t2 = [] /\ x = e /\ t1 = l) \/ (exists t2', t2 = t2' ++ [e] /\ l = t1 ++ x :: t2').
Proof.
  intros H. destruct t2 as [|y r].
  - left. apply app_inj_tail in H. destruct H as [-> ->]. auto.
  - right. destruct (@exists_last _ (y :: r)) as (t2' & b & E); [discriminate|]. rewrite E in *.
    replace (t1 ++ x :: t2' ++ [b]) with ((t1 ++ x :: t2') ++ [b]) in H
      by (rewrite <- app_assoc; reflexivity).
    apply app_inj_tail in H. destruct H as [-> ->]. eauto.
Qed.

Lemma ev_eqb_eq a b : ev_eqb a b = true <-> a = b.
Proof.
  destruct a, b; cbn; try (split; [discriminate|intros H; inversion H]);
    rewrite String.eqb_eq; split; congruence.
Qed.

Lemma ev_eqb_refl a : ev_eqb a a = true.
Proof. now apply ev_eqb_eq. Qed.

Lemma count_ev_snoc e l x : count_ev e (l ++ [x]) = count_ev e l + (if ev_eqb e x then 1 else 0).
Proof. induction l as [|y r IH]; cbn; [lia|]. rewrite IH. lia. Qed.

Lemma count_ev_notin e l : ~ In e l -> count_ev e l = 0.
Proof.
  induction l as [|y r IH]; cbn; intros H; [reflexivity|].
  destruct (ev_eqb e y) eqn:E.
  - apply ev_eqb_eq in E. subst. exfalso. apply H. now left.
  - rewrite IH; [reflexivity|]. intros Hin. apply H. now right.
Qed.

Lemma count_ev_in e l : In e l -> 1 <= count_ev e l.
Proof.
  induction l as [|y r IH]; cbn; intros H; [contradiction|].
  destruct H as [->|H]; [rewrite ev_eqb_refl; lia|]. specialize (IH H). lia.
Qed.

Lemma perm_in_iff {A} (l l' : list A) : Permutation l l' -> forall x, In x l <-> In x l'.
Proof. intros HP x. split; apply Permutation_in; [exact HP|now symmetry]. Qed.

(** how the executor's lists change in the three logged transitions *)
Lemma perm_submit {A} (q : list A) o X : Permutation ((q ++ [o]) ++ X) (o :: q ++ X).
Proof. rewrite <- app_assoc. cbn. symmetry. apply Permutation_middle. Qed.

Lemma perm_start {A} (q1 q2 : list A) o ru d :
  Permutation ((q1 ++ q2) ++ (o :: ru) ++ d) ((q1 ++ o :: q2) ++ ru ++ d).
Proof.
  rewrite <- !app_assoc. apply Permutation_app_head. cbn.
  symmetry. apply (Permutation_middle q2 (ru ++ d) o).
Qed.

Lemma perm_finish {A} (q r1 r2 : list A) o d :
  Permutation (q ++ (r1 ++ r2) ++ o :: d) (q ++ (r1 ++ o :: r2) ++ d).
Proof.
  apply Permutation_app_head. rewrite <- !app_assoc. apply Permutation_app_head. cbn.
  symmetry. apply Permutation_middle.
Qed.

Lemma in_snoc_other (a e : event) l : e <> a -> (In a (l ++ [e]) <-> In a l).
Proof. intros Hne. rewrite in_app_iff. cbn. tauto. Qed.

Lemma in_snoc_same (K : node -> event) o x l :
  (forall y z, K y = K z -> y = z) -> (In (K x) (l ++ [K o]) <-> o = x \/ In (K x) l).
Proof.
  intros HK. rewrite in_app_iff. cbn. split; [intros [H|[H|[]]]; auto|intros [->|H]; auto].
Qed.

Lemma precedes_snoc a b l e : precedes a b l -> (e = b -> In a l) -> precedes a b (l ++ [e]).
Proof.
  intros Hp He t1 t2 E. apply snoc_split in E as [(_ & -> & ->)|(t2' & _ & ->)]; [now apply He|].
  now apply (Hp t1 t2').
Qed.

Section ProtoFacts.
  Variable src : node -> bool.
  Variable deps : node -> list node.
  Variable stale : list node.
  Variable N : nat.

  Notation step := (step src deps stale N).
  Notation reach := (reach src deps stale N).
  Notation steps := (steps src deps stale N).
  Notation is_topo_aux := (is_topo_aux src deps).
  Notation submitted := (submitted stale).
  Notation skippable := (skippable src stale).
  Notation can_submit := (can_submit deps stale).
  Notation dep_ready := (dep_ready stale).

  Lemma topo_nodup seen l :
    is_topo_aux seen l = true -> NoDup l /\ forall x, In x l -> ~ In x seen.
  Proof.
    revert seen; induction l as [|o r IH]; intros seen H; cbn in H.
    - split; [constructor|intros x []].
    - apply andb_true_iff in H as [H H3]. apply andb_true_iff in H as [H1 H2].
      apply negb_true_iff, mem_false in H1. destruct (IH _ H3) as [ND Hd]. split.
      + constructor; [|exact ND]. intros Hin. apply (Hd o Hin). now left.
      + intros x [<-|Hx]; [exact H1|]. intros Hs. apply (Hd x Hx). now right.
  Qed.

  (** * the invariant: the objects handed to the executor are the visited ones that have a source and no stale
        future, each once; the log records exactly the status of every object; whatever was submitted or started
        had its dependencies finished by then *)
  Record Inv (order : list node) (s : state) : Prop := mkInv {
    inv_pre : exists seen, order = rev seen ++ todo s /\ is_topo_aux seen (todo s) = true
        /\ (forall o, In o (in_flight s) <-> (In o seen /\ src o = true /\ ~ In o stale));
    inv_nodup : NoDup (in_flight s);
    inv_submit : forall o, In (ESubmit o) (log s) <-> In o (in_flight s);
    inv_start : forall o, In (EStart o) (log s) <-> In o (running s ++ done s);
    inv_finish : forall o, In (EFinish o) (log s) <-> In o (done s);
    inv_submits : forall o d, In d (deps o) -> src d = true -> ~ In d stale ->
        precedes (EFinish d) (ESubmit o) (log s);
    inv_starts : forall o d, In d (deps o) -> src d = true -> ~ In d stale ->
        precedes (EFinish d) (EStart o) (log s);
    inv_once : forall o, count_ev (EStart o) (log s) <= 1;
    inv_cap : List.length (running s) <= N }.

  Lemma Inv_init order : is_topo_aux [] order = true -> Inv order (init order).
  Proof.
    intros Ht. constructor; unfold in_flight; cbn; try tauto; try lia.
    - exists []. cbn. repeat split; try assumption; tauto.
    - constructor.
    - intros o d _ _ _ [|] t2 E; discriminate.
    - intros o d _ _ _ [|] t2 E; discriminate.
  Qed.

  (** what waits in the queue was submitted, hence after its dependencies had finished *)
  Lemma queued_deps_done order s o d :
    Inv order s -> In o (queued s) -> In d (deps o) -> src d = true -> ~ In d stale -> In d (done s).
  Proof.
    intros I Ho Hd Hs Hn. apply (inv_finish _ _ I).
    assert (Hl : In (ESubmit o) (log s)) by (apply (inv_submit _ _ I), in_or_app; now left).
    apply in_split in Hl as (t1 & t2 & E). rewrite E. apply in_or_app. left.
    exact (inv_submits _ _ I o d Hd Hs Hn t1 t2 E).
  Qed.

  Lemma skippable_false s o :
    skippable s o = false -> src o = true /\ ~ In o stale /\ ~ In o (in_flight s).
  Proof.
    unfold M_C44.skippable, M_C44.submitted. intros H.
    apply orb_false_iff in H as [H1 H2]. apply negb_false_iff in H1.
    apply orb_false_iff in H2 as [H2 H3]. apply mem_false in H2, H3. auto.
  Qed.

  Lemma skippable_true s o :
    skippable s o = true -> src o = false \/ In o stale \/ In o (in_flight s).
  Proof.
    unfold M_C44.skippable, M_C44.submitted. intros H.
    apply orb_true_iff in H as [H|H]; [left; now apply negb_true_iff|].
    apply orb_true_iff in H as [H|H]; apply mem_In in H; auto.
  Qed.

  Lemma can_submit_dep s o d :
    can_submit s o = true -> In d (deps o) -> In d (in_flight s) -> ~ In d stale -> In d (done s).
  Proof.
    unfold M_C44.can_submit. intros H Hd Hf Hs. rewrite forallb_forall in H. specialize (H d Hd).
    unfold M_C44.dep_ready, M_C44.submitted in H.
    apply mem_In in Hf. apply mem_false in Hs. rewrite Hf, Hs in H. cbn in H.
    rewrite orb_false_r in H. now apply mem_In.
  Qed.

  Lemma topo_head seen o r d :
    is_topo_aux seen (o :: r) = true -> In d (deps o) -> src d = true -> In d seen.
  Proof.
    cbn. intros H Hd Hs. apply andb_true_iff in H as [H _]. apply andb_true_iff in H as [_ H].
    rewrite forallb_forall in H. specialize (H d Hd). rewrite Hs in H. cbn in H. now apply mem_In.
  Qed.

  Lemma topo_tail seen o r : is_topo_aux seen (o :: r) = true -> is_topo_aux (o :: seen) r = true.
  Proof. cbn. intros H. now apply andb_true_iff in H as [_ H]. Qed.

  Lemma Inv_step order s s' : Inv order s -> step s s' -> Inv order s'.
  Proof.
    intros I Hstep.
    destruct Hstep as [o r q ru d l Hsk | o r q ru d l Hsk Hcs | o t q1 q2 ru d l Hlen | o t q r1 r2 d l];
      pose proof (fun dd => queued_deps_done _ _ o dd I) as Hq;
      destruct I as [(seen & Ho & Ht & Hin) Hnd Hsu Hst Hfi Hsb Hss Honce Hcap];
      unfold in_flight in *; cbn [todo queued running done log] in *.
    - (* skip: nothing but the position in the order changes *)
      constructor; unfold in_flight; cbn [todo queued running done log]; try assumption.
      exists (o :: seen). split; [cbn; rewrite <- app_assoc; exact Ho|]. split; [now apply topo_tail|].
      intros x. rewrite Hin. split.
      + intros (H1 & H2 & H3). repeat split; auto. now right.
      + intros ([<-|H1] & H2 & H3); [|auto].
        apply skippable_true in Hsk as [H|[H|H]]; [congruence|contradiction|]. now apply Hin in H.
    - (* submit; in this and the next two cases the sub-bullets follow the fields of [Inv] *)
      apply skippable_false in Hsk as (Hsrc & Hnst & Hnf). unfold in_flight in Hnf; cbn in Hnf.
      assert (Hdeps : forall dd, In dd (deps o) -> src dd = true -> ~ In dd stale -> In dd d).
      { intros dd Hd Hs Hn. eapply (can_submit_dep _ _ _ Hcs Hd); [|exact Hn].
        unfold in_flight; cbn. apply Hin. repeat split; auto. eapply topo_head; eauto. }
      assert (HP := perm_submit q o (ru ++ d)). pose proof (perm_in_iff _ _ HP) as Hfl. cbn [In] in Hfl.
      constructor; unfold in_flight; cbn [todo queued running done log]; try assumption.
      + exists (o :: seen). split; [cbn; rewrite <- app_assoc; exact Ho|]. split; [now apply topo_tail|].
        intros x. rewrite Hfl, Hin. cbn [In]. split.
        * intros [<-|(H1 & H2 & H3)]; auto.
        * intros ([<-|H1] & H2 & H3); auto.
      + apply (Permutation_NoDup (Permutation_sym HP)). now constructor.
      + intros x. rewrite (in_snoc_same ESubmit) by congruence. now rewrite Hfl, Hsu.
      + intros x. rewrite in_snoc_other by discriminate. apply Hst.
      + intros x. rewrite in_snoc_other by discriminate. apply Hfi.
      + intros x dd Hd Hs Hn. apply precedes_snoc; [now apply Hsb|]. intros [= <-]. now apply Hfi, Hdeps.
      + intros x dd Hd Hs Hn. apply precedes_snoc; [now apply Hss|discriminate].
      + intros x. rewrite count_ev_snoc. cbn. rewrite Nat.add_0_r. apply Honce.
    - (* start *)
      assert (HP := perm_start q1 q2 o ru d). pose proof (perm_in_iff _ _ HP) as Hfl.
      assert (Hnew : ~ In (EStart o) l).
      { destruct (NoDup_app_inv _ _ Hnd) as (_ & _ & Hdis). rewrite Hst. apply Hdis, in_elt. }
      constructor; unfold in_flight; cbn [todo queued running done log].
      + exists seen. split; [exact Ho|split; [exact Ht|]]. intros x. rewrite Hfl. apply Hin.
      + apply (Permutation_NoDup (Permutation_sym HP)). exact Hnd.
      + intros x. rewrite in_snoc_other by discriminate. rewrite Hfl. apply Hsu.
      + intros x. rewrite (in_snoc_same EStart) by congruence. now rewrite Hst.
      + intros x. rewrite in_snoc_other by discriminate. apply Hfi.
      + intros x dd Hd Hs Hn. apply precedes_snoc; [now apply Hsb|discriminate].
      + intros x dd Hd Hs Hn. apply precedes_snoc; [now apply Hss|]. intros [= <-].
        apply Hfi, Hq; auto. apply in_elt.
      + intros x. rewrite count_ev_snoc. cbn. destruct (String.eqb x o) eqn:E.
        * apply String.eqb_eq in E as ->. rewrite (count_ev_notin _ _ Hnew). lia.
        * rewrite Nat.add_0_r. apply Honce.
      + cbn. lia.
    - (* finish *)
      assert (HP := perm_finish q r1 r2 o d). pose proof (perm_in_iff _ _ HP) as Hfl.
      constructor; unfold in_flight; cbn [todo queued running done log].
      + exists seen. split; [exact Ho|split; [exact Ht|]]. intros x. rewrite Hfl. apply Hin.
      + apply (Permutation_NoDup (Permutation_sym HP)). exact Hnd.
      + intros x. rewrite in_snoc_other by discriminate. rewrite Hfl. apply Hsu.
      + intros x. rewrite in_snoc_other by discriminate. rewrite Hst.
        apply (perm_in_iff _ _ (Permutation_sym (perm_finish [] r1 r2 o d))).
      + intros x. rewrite (in_snoc_same EFinish) by congruence. now rewrite Hfi.
      + intros x dd Hd Hs Hn. apply precedes_snoc; [now apply Hsb|discriminate].
      + intros x dd Hd Hs Hn. apply precedes_snoc; [now apply Hss|discriminate].
      + intros x. rewrite count_ev_snoc. cbn. rewrite Nat.add_0_r. apply Honce.
      + rewrite app_length in *. cbn in Hcap. lia.
  Qed.

  Lemma Inv_reach order s : is_topo_aux [] order = true -> reach order s -> Inv order s.
  Proof. intros Ht H. induction H; [now apply Inv_init|eapply Inv_step; eauto]. Qed.

  Lemma deps_done_before_start order s t1 t2 o d :
    is_topo_aux [] order = true -> reach order s ->
    log s = t1 ++ EStart o :: t2 -> In d (deps o) -> src d = true -> ~ In d stale ->
    In (EFinish d) t1.
  Proof. intros Ht Hr E Hd Hs Hn. exact (inv_starts _ _ (Inv_reach _ _ Ht Hr) o d Hd Hs Hn t1 t2 E). Qed.

  Lemma deps_done_before_submit order s t1 t2 o d :
    is_topo_aux [] order = true -> reach order s ->
    log s = t1 ++ ESubmit o :: t2 -> In d (deps o) -> src d = true -> ~ In d stale ->
    In (EFinish d) t1.
  Proof. intros Ht Hr E Hd Hs Hn. exact (inv_submits _ _ (Inv_reach _ _ Ht Hr) o d Hd Hs Hn t1 t2 E). Qed.

  Lemma built_once order s o :
    is_topo_aux [] order = true -> reach order s -> count_ev (EStart o) (log s) <= 1.
  Proof. intros Ht Hr. apply (inv_once _ _ (Inv_reach _ _ Ht Hr)). Qed.

  Lemma pool_bound order s :
    is_topo_aux [] order = true -> reach order s -> List.length (running s) <= N.
  Proof. intros Ht Hr. apply (inv_cap _ _ (Inv_reach _ _ Ht Hr)). Qed.

  Lemma stale_never_started order s o :
    is_topo_aux [] order = true -> reach order s -> In o stale -> ~ In (EStart o) (log s).
  Proof.
    intros Ht Hr Hs Hc. destruct (Inv_reach _ _ Ht Hr) as [(seen & _ & _ & Hin) _ _ Hst _ _ _ _ _].
    apply Hst in Hc. assert (Hfl : In o (in_flight s)) by (unfold in_flight; rewrite !in_app_iff in *; tauto).
    apply Hin in Hfl. tauto.
  Qed.

  Lemma final_done order s :
    is_topo_aux [] order = true -> reach order s -> is_final s = true ->
    Permutation (done s) (par_build src stale order).
  Proof.
    intros Ht Hr Hf. destruct (Inv_reach _ _ Ht Hr) as [(seen & Ho & _ & Hin) Hnd _ _ _ _ _ _ _].
    unfold is_final in Hf. unfold in_flight in *.
    destruct (todo s) eqn:E1; [|discriminate]. destruct (queued s) eqn:E2; [|discriminate].
    destruct (running s) eqn:E3; [|discriminate]. cbn in *. rewrite app_nil_r in Ho.
    apply NoDup_Permutation.
    - exact Hnd.
    - unfold par_build. apply NoDup_filter. now apply topo_nodup in Ht.
    - intros x. rewrite Hin. unfold par_build. rewrite filter_In, andb_true_iff, negb_true_iff, mem_false.
      subst order. rewrite <- in_rev. tauto.
  Qed.

  Lemma no_stuck s : 1 <= N -> is_final s = false -> exists s', step s s'.
  Proof.
    intros HN Hf. destruct s as [t q ru d l]. unfold is_final in Hf; cbn in Hf.
    destruct ru as [|o ru'].
    - destruct q as [|o q'].
      + destruct t as [|o r]; [discriminate|].
        destruct (skippable (mkState (o :: r) [] [] d l) o) eqn:E.
        * eexists. now apply step_skip.
        * eexists. apply step_submit; [exact E|].
          unfold M_C44.can_submit. apply forallb_forall. intros x _.
          unfold M_C44.dep_ready, M_C44.submitted, in_flight. cbn.
          destruct (mem x stale), (mem x d); reflexivity.
      + eexists. apply (step_start src deps stale N o t [] q' [] d l). cbn. lia.
    - eexists. apply (step_finish src deps stale N o t q [] ru' d l).
  Qed.

  Lemma step_decreases s s' : step s s' -> work_left s' < work_left s.
  Proof.
    intros H. inversion H; subst; unfold work_left; cbn [todo queued running done log];
      rewrite ?app_length; cbn [List.length]; lia.
  Qed.

  Lemma steps_bounded n s s' : steps n s s' -> n + work_left s' <= work_left s.
  Proof.
    induction 1 as [|n s s' s'' Hs _ IH]; [lia|]. apply step_decreases in Hs. lia.
  Qed.

  Lemma reach_steps order s s' n : reach order s -> steps n s s' -> reach order s'.
  Proof.
    intros Hr Hs. induction Hs as [|n s s' s'' H1 _ IH]; [exact Hr|].
    apply IH. eapply reach_step; eauto.
  Qed.

  (** * the acceptor accepts only runs of the transition system *)
  Lemma skip_until_spec sk o t r :
    skip_until sk o t = Some r -> exists pre, t = pre ++ o :: r /\ forallb sk pre = true /\ sk o = false.
  Proof.
    revert r; induction t as [|x t' IH]; cbn; intros r H; [discriminate|].
    destruct (sk x) eqn:E.
    - destruct (IH _ H) as (pre & -> & H1 & H2). exists (x :: pre). cbn. rewrite E. auto.
    - destruct (String.eqb x o) eqn:E2; [|discriminate]. apply String.eqb_eq in E2. subst.
      inversion H; subst. exists []. auto.
  Qed.

  Lemma skips_reach order pre t q ru d l :
    forallb (skippable (mkState t q ru d l)) pre = true ->
    reach order (mkState (pre ++ t) q ru d l) -> reach order (mkState t q ru d l).
  Proof.
    induction pre as [|x pre IH]; cbn; intros H Hr; [exact Hr|].
    apply andb_true_iff in H as [H1 H2]. apply IH; [exact H2|].
    eapply reach_step; [exact Hr|]. apply step_skip. exact H1.
  Qed.

  Lemma acc_step_reach order s e s' :
    reach order s -> acc_step src deps stale N s e = Some s' -> reach order s' /\ log s' = log s ++ [e].
  Proof.
    intros Hr H. destruct s as [t q ru d l].
    destruct e as [o|o|o]; unfold acc_step in H; cbn [todo queued running done log] in H.
    - destruct (skip_until _ o t) as [r|] eqn:E; [|discriminate].
      destruct (M_C44.can_submit deps stale _ o) eqn:E2; [|discriminate]. inversion H; subst; clear H.
      apply skip_until_spec in E as (pre & -> & H1 & H2). split; [|reflexivity].
      eapply reach_step; [eapply (skips_reach order pre (o :: r)); eauto|].
      apply step_submit; assumption.
    - destruct (remove1 o q) as [q'|] eqn:E; [|discriminate].
      destruct (Nat.ltb (List.length ru) N) eqn:E2; [|discriminate]. inversion H; subst; clear H.
      apply remove1_spec in E as (q1 & q2 & -> & ->). apply Nat.ltb_lt in E2. split; [|reflexivity].
      eapply reach_step; [exact Hr|]. now apply step_start.
    - destruct (remove1 o ru) as [r'|] eqn:E; [|discriminate]. inversion H; subst; clear H.
      apply remove1_spec in E as (r1 & r2 & -> & ->). split; [|reflexivity].
      eapply reach_step; [exact Hr|]. apply step_finish.
  Qed.

  Lemma acc_run_reach order tr : forall s s',
    reach order s -> acc_run src deps stale N s tr = Some s' -> reach order s' /\ log s' = log s ++ tr.
  Proof.
    induction tr as [|e r IH]; cbn; intros s s' Hr H.
    - inversion H; subst. rewrite app_nil_r. auto.
    - destruct (acc_step src deps stale N s e) as [s1|] eqn:E; [|discriminate].
      destruct (acc_step_reach _ _ _ _ Hr E) as [Hr1 Hl1].
      destruct (IH _ _ Hr1 H) as [Hr2 Hl2]. split; [exact Hr2|].
      rewrite Hl2, Hl1, <- app_assoc. reflexivity.
  Qed.

  Lemma accept_sound order tr s :
    accept src deps stale N order tr = Some s ->
    reach order s /\ is_final s = true /\ log s = tr.
  Proof.
    unfold accept. destruct (acc_run src deps stale N (init order) tr) as [s1|] eqn:E; [|intros; discriminate].
    destruct (acc_run_reach order tr _ _ (reach_init src deps stale N order) E) as [Hr Hl].
    destruct s1 as [t q ru d l]. cbn [todo queued running done log] in *.
    destruct (forallb _ t) eqn:E1; cbn; [|intros; discriminate].
    destruct q; cbn; [|intros; discriminate]. destruct ru; cbn; [|intros; discriminate].
    intros H; inversion H; subst; clear H.
    split; [|split; [reflexivity|reflexivity]].
    apply (skips_reach order t []); [exact E1|]. rewrite app_nil_r. exact Hr.
  Qed.
End ProtoFacts.
