(** C44 — project layer: name resolution vs the providers of modules (F16), rebuild with stale futures (F16b),
    and the property statements instantiated for a project. *)
From Coq Require Import List Bool String Ascii Arith PeanoNat Lia Permutation.
From LV Require Import Base.Strings models.M_C44 proofs.P_C44.
Import ListNotations.
Open Scope list_scope.

Lemma find_file_in fs f : In f fs -> exists f', find_file fs (lower (f_stem f)) = Some f'.
Proof.
  induction fs as [|g r IH]; cbn; intros H; [contradiction|].
  destruct (String.eqb (lower (f_stem g)) (lower (f_stem f))) eqn:E; [eauto|].
  destruct H as [->|H]; [rewrite String.eqb_refl in E; discriminate|auto].
Qed.

(** on the class, a provider of a used module is a code-level dependency that has a source *)
Lemma true_dep_resolved p o g :
  conv_ok p = true -> true_dep p o g -> In g (p_deps p o) /\ p_src p g = true.
Proof.
  intros Hc (fo & fg & m & Hfo & Hfg & -> & Hm & Hprov).
  unfold conv_ok in Hc. rewrite forallb_forall in Hc. specialize (Hc fg Hfg). rewrite forallb_forall in Hc.
  apply in_map_iff in Hprov as (m' & Em & Hm').
  specialize (Hc m' Hm'). apply String.eqb_eq in Hc.
  assert (Eg : lower (f_stem fg) = lower m) by congruence.
  split.
  - unfold p_deps. rewrite Hfo, Eg. now apply in_map.
  - unfold p_src. destruct (find_file_in _ _ Hfg) as (f' & ->). reflexivity.
Qed.

Lemma par_build_fresh src order : par_build src [] order = serial_build src order.
Proof.
  unfold par_build, serial_build. apply filter_ext. intros a. cbn. apply andb_true_r.
Qed.

Lemma order_ok_topo p roots order :
  order_ok p roots order = true -> is_topo_aux (p_src p) (p_deps p) [] order = true.
Proof. unfold order_ok, is_topo. intros H. now apply andb_true_iff in H as [H _]. Qed.

Lemma order_ok_roots p roots order r :
  order_ok p roots order = true -> In r roots -> In r order.
Proof.
  unfold order_ok. intros H Hr. apply andb_true_iff in H as [_ H]. rewrite forallb_forall in H.
  apply mem_In. now apply H.
Qed.

Lemma deps_done_before_start_p p stale roots n order s o d :
  order_ok p roots order = true -> run_of p stale n order s ->
  In d (p_deps p o) -> p_src p d = true -> ~ In d stale ->
  precedes (EFinish d) (EStart o) (log s).
Proof.
  intros Hok Hr Hd Hs Hn t1 t2 E.
  eapply deps_done_before_start; eauto using order_ok_topo.
Qed.

Lemma deps_done_before_submit_p p stale roots n order s o d :
  order_ok p roots order = true -> run_of p stale n order s ->
  In d (p_deps p o) -> p_src p d = true -> ~ In d stale ->
  precedes (EFinish d) (ESubmit o) (log s).
Proof.
  intros Hok Hr Hd Hs Hn t1 t2 E.
  eapply deps_done_before_submit; eauto using order_ok_topo.
Qed.

Lemma provider_first_on_class p roots n order s o g :
  conv_ok p = true -> order_ok p roots order = true -> run_of p [] n order s ->
  true_dep p o g -> precedes (EFinish g) (EStart o) (log s).
Proof.
  intros Hc Hok Hr Ht. destruct (true_dep_resolved _ _ _ Hc Ht) as [Hd Hs].
  eapply deps_done_before_start_p; eauto.
Qed.

Lemma terminates_run p stale n order k s :
  steps (p_src p) (p_deps p) stale n k (init order) s ->
  k <= 3 * List.length order /\ run_of p stale n order s.
Proof.
  intros H. split.
  - apply steps_bounded in H. unfold work_left, init in H. cbn in H. lia.
  - eapply reach_steps; [apply reach_init|exact H].
Qed.

Lemma same_object_set_as_serial p roots n order s :
  order_ok p roots order = true -> run_of p [] n order s -> is_final s = true ->
  Permutation (done s) (serial_build (p_src p) order)
  /\ (forall r, In r roots -> p_src p r = true -> In r (done s)).
Proof.
  intros Hok Hr Hf.
  assert (HP : Permutation (done s) (serial_build (p_src p) order)).
  { rewrite <- par_build_fresh. eapply final_done; eauto using order_ok_topo. }
  split; [exact HP|]. intros r Hin Hs.
  apply (Permutation_in _ (Permutation_sym HP)). unfold serial_build. apply filter_In. split; [|exact Hs].
  eapply order_ok_roots; eauto.
Qed.

Lemma rebuild_compiles p stale roots n order s :
  order_ok p roots order = true -> run_of p stale n order s -> is_final s = true ->
  Permutation (done s) (par_build (p_src p) stale order).
Proof. intros Hok Hr Hf. eapply final_done; eauto using order_ok_topo. Qed.

Lemma chk_trace_sound p stale roots order n tr compiled :
  chk_trace p stale roots order n tr compiled = true ->
  order_ok p roots order = true /\
  exists s, run_of p stale n order s /\ is_final s = true /\ log s = tr
            /\ (forall o, In o (done s) <-> In o compiled).
Proof.
  unfold chk_trace. intros H. apply andb_true_iff in H as [Hok H]. split; [exact Hok|].
  destruct (accept _ _ _ _ _ _) as [s|] eqn:E; [|discriminate].
  apply andb_true_iff in H as [H _]. destruct (accept_sound _ _ _ _ _ _ _ E) as (Hr & Hf & Hl).
  exists s. repeat split; try assumption.
  - intros Ho. unfold same_set, subset in H. apply andb_true_iff in H as [H _].
    rewrite forallb_forall in H. apply mem_In. now apply H.
  - intros Ho. unfold same_set, subset in H. apply andb_true_iff in H as [_ H].
    rewrite forallb_forall in H. apply mem_In. now apply H.
Qed.

(** * F16: a module provided by a file of another name *)
Definition f16_proj : project :=
  mkProj [mkFile "foo" ["bar_mod"%string] [] []; mkFile "zuser" [] ["bar_mod"%string] []] [].
Definition f16_roots : list node := ["foo"%string; "zuser"%string].
(** the order the real code computes for this project (reversed networkx topological sort) *)
Definition f16_order : list node := ["bar_mod"%string; "zuser"%string; "foo"%string].
Definition f16_state : state :=
  mkState ["foo"%string] [] ["zuser"%string] [] [ESubmit "zuser"; EStart "zuser"].

Lemma provider_first_refuted :
  exists p roots n order s o g,
    order_ok p roots order = true /\ run_of p [] n order s /\ true_dep p o g /\
    In (EStart o) (log s) /\ ~ In (EFinish g) (log s).
Proof.
  exists f16_proj, f16_roots, 1, f16_order, f16_state, "zuser"%string, "foo"%string.
  split; [vm_compute; reflexivity|]. split; [|split; [|split]].
  - assert (E : acc_run (p_src f16_proj) (p_deps f16_proj) [] 1 (init f16_order)
                  [ESubmit "zuser"; EStart "zuser"] = Some f16_state) by (vm_compute; reflexivity).
    unfold run_of. eapply acc_run_reach; [apply reach_init|exact E].
  - exists (mkFile "zuser" [] ["bar_mod"%string] []), (mkFile "foo" ["bar_mod"%string] [] []), "bar_mod"%string.
    repeat split; cbn; auto.
  - cbn. auto.
  - cbn. intros [H|[H|[]]]; discriminate.
Qed.

(** * F16b: building the same Lib a second time in one process *)
Definition f16b_proj : project :=
  mkProj [mkFile "m_a" ["m_a"%string] [] []; mkFile "s_c" [] ["m_a"%string] []] [].
Definition f16b_roots : list node := ["m_a"%string; "s_c"%string].
Definition f16b_order : list node := ["m_a"%string; "s_c"%string].
Definition f16b_trace : list event := [ESubmit "m_a"; EStart "m_a"; EFinish "m_a"].
Definition f16b_state : state := mkState [] [] [] ["m_a"%string] f16b_trace.

Lemma rebuild_refuted :
  exists p roots n order s o,
    conv_ok p = true /\ order_ok p roots order = true /\
    run_of p (stale_after p roots) n order s /\ is_final s = true /\
    In o (serial_build (p_src p) order) /\ ~ In o (done s).
Proof.
  exists f16b_proj, f16b_roots, 3, f16b_order, f16b_state, "s_c"%string.
  split; [vm_compute; reflexivity|]. split; [vm_compute; reflexivity|]. split; [|split; [|split]].
  - assert (E : accept (p_src f16b_proj) (p_deps f16b_proj) (stale_after f16b_proj f16b_roots) 3 f16b_order f16b_trace
                = Some f16b_state) by (vm_compute; reflexivity).
    now apply accept_sound in E.
  - reflexivity.
  - vm_compute. auto.
  - cbn. intros [H|[]]. discriminate.
Qed.

(** * a non-trivial instance of the hypotheses *)
Definition ex_proj : project :=
  mkProj [mkFile "m_1" ["m_1"%string] ["iso_fortran_env"%string] [];
          mkFile "m_2" ["M_2"%string] ["m_1"%string] [];
          mkFile "M_3" ["m_3"%string] ["M_1"%string] [];
          mkFile "m_4" ["m_4"%string] ["m_2"%string; "m_3"%string] [];
          mkFile "s_5" [] [] ["hdr"%string]]
         [("hdr"%string, ["m_3"%string])].
Definition ex_roots : list node := ["m_1"; "m_2"; "m_3"; "m_4"; "s_5"]%string.
Definition ex_order : list node := ["iso_fortran_env"; "m_1"; "m_3"; "s_5"; "m_2"; "m_4"]%string.
(** [ex_trace] is NOT a run (s_5 comes before m_2 in the order, the main thread cannot submit m_2 first) *)
Definition ex_trace : list event :=
  [ESubmit "m_1"; EStart "m_1"; EFinish "m_1"; ESubmit "m_3"; ESubmit "m_2"%string; EStart "m_2"; EStart "m_3";
   EFinish "m_3"; ESubmit "s_5"; EStart "s_5"; EFinish "m_2"; ESubmit "m_4"; EFinish "s_5"; EStart "m_4"; EFinish "m_4"].
Definition ex_trace_ok : list event :=
  [ESubmit "m_1"; EStart "m_1"; EFinish "m_1"; ESubmit "m_3"; EStart "m_3"; EFinish "m_3"; ESubmit "s_5";
   ESubmit "m_2"; EStart "m_2"; EStart "s_5"; EFinish "m_2"; ESubmit "m_4"; EFinish "s_5"; EStart "m_4"; EFinish "m_4"].

Lemma example_nontrivial :
  conv_ok ex_proj = true /\
  chk_trace ex_proj [] ex_roots ex_order 2 ex_trace_ok ["m_1"; "m_2"; "m_3"; "m_4"; "s_5"]%string = true /\
  chk_trace ex_proj [] ex_roots ex_order 2 ex_trace ["m_1"; "m_2"; "m_3"; "m_4"; "s_5"]%string = false /\
  chk_trace ex_proj [] ex_roots ex_order 1 ex_trace_ok ["m_1"; "m_2"; "m_3"; "m_4"; "s_5"]%string = false /\
  true_dep ex_proj "s_5" "m_3".
Proof.
  split; [vm_compute; reflexivity|]. split; [vm_compute; reflexivity|].
  split; [vm_compute; reflexivity|]. split; [vm_compute; reflexivity|].
  exists (mkFile "s_5" [] [] ["hdr"%string]), (mkFile "M_3" ["m_3"%string] ["M_1"%string] []), "m_3"%string.
  repeat split; vm_compute; auto.
Qed.
