(** C02 — property theorems only. *)
From Coq Require Import ZArith List Bool String.
From LV Require Import Base.Expr Base.MiniF models.M_C06 models.M_C01 models.M_C02 proofs.P_C01 proofs.P_C02.
Import ListNotations.
Open Scope Z_scope.
Open Scope string_scope.

(** The normalisation hidden in the round trip (the unit loop step that is not printed) is idempotent ... *)
Theorem C02_norm_idem : forall p, norm_list (norm_list p) = norm_list p.
Proof. exact norm_idem_list. Qed.
Print Assumptions C02_norm_idem.

(** ... and invisible in the text. *)
Theorem C02_print_norm : forall p, print_stmts (norm_list p) = print_stmts p.
Proof. exact print_norm. Qed.
Print Assumptions C02_print_norm.

(** Statement level, expression slots kept as trees: the re-read IR is identical on normal forms ... *)
Theorem C02_reread_identical_on_class : forall p, wf_list p = true -> nf_list p = true ->
  read_lines (fuel_for p) (print_stmts p) = Some p.
Proof. exact roundtrip_stmts. Qed.
Print Assumptions C02_reread_identical_on_class.

(** ... the unconditional statement is refuted by [DO i=1,n,1] (re-read without step; the text is the same) ... *)
Theorem C02_reread_identical_refuted :
  wf_list w_unit_step = true /\
  exists q, read_lines (fuel_for w_unit_step) (print_stmts w_unit_step) = Some q /\ q <> w_unit_step /\
            print_stmts q = print_stmts w_unit_step.
Proof. exact reread_refuted_unit_step. Qed.
Print Assumptions C02_reread_identical_refuted.

(** ... and the text is a fixpoint for every well-formed program: print (reparse (print p)) = print p. *)
Theorem C02_text_fixpoint_stmts : forall p q, wf_list p = true ->
  read_lines (fuel_for p) (print_stmts p) = Some q -> print_stmts q = print_stmts p.
Proof. exact text_fixpoint_stmts. Qed.
Print Assumptions C02_text_fixpoint_stmts.

(** Statement and expression level together (partial: the expression-level facts are hypotheses per slot, decidable by
    evaluation): for ANY expression reader [r], if every expression slot is re-read to a tree that prints the same
    tokens, the printed lines - every slot re-read by [r] - are read back to a program that prints the same token lines. *)
Theorem C02_text_fixpoint_lifted : forall r p, wf_list p = true -> slots_all_list (fix_with r) p = true ->
  exists q, reparse_with r p = Some q /\ map render (print_stmts q) = map render (print_stmts p).
Proof. exact text_fixpoint_with. Qed.
Print Assumptions C02_text_fixpoint_lifted.

(** If every slot is re-read to the identical tree and no loop has a unit step, the re-read program is identical. *)
Theorem C02_reread_identical_lifted : forall r p, wf_list p = true -> nf_list p = true ->
  slots_all_list (id_with r) p = true -> reparse_with r p = Some p.
Proof. exact reread_identical_with. Qed.
Print Assumptions C02_reread_identical_lifted.

(** Instances for the model of the frontend's expression reader. *)
Theorem C02_text_fixpoint_on_class : forall p, wf_list p = true -> slots_all_list fe_fix p = true ->
  exists q, reparse_fe p = Some q /\ map render (print_stmts q) = map render (print_stmts p).
Proof. intros p. exact (text_fixpoint_with reread_fe p). Qed.
Print Assumptions C02_text_fixpoint_on_class.

Theorem C02_reread_identical_fe_on_class : forall p, wf_list p = true -> nf_list p = true ->
  slots_all_list fe_id p = true -> reparse_fe p = Some p.
Proof. intros p. exact (reread_identical_with reread_fe p). Qed.
Print Assumptions C02_reread_identical_fe_on_class.

(** the classes are inhabited by non-trivial trees / programs *)
Theorem C02_class_inhabited :
  fe_id ex_fe = true /\ fe_id ex_fe_logic = true /\
  wf_list ex_prog_fe = true /\ nf_list ex_prog_fe = true /\ slots_all_list fe_id ex_prog_fe = true.
Proof. exact ex_in_classes. Qed.
Print Assumptions C02_class_inhabited.

(** Expression level, outside the classes (all reproduced on the real code):
    [a - (+2)] prints "a - (2)", is re-read as [a - 2] and printed "a - 2": the TEXT is not a fixpoint *)
Theorem C02_expr_text_refuted_paren_plus :
  print_f w_paren_plus PREC_NONE = [TVar "a"; TMinus; TLP; TInt 2; TRP] /\
  exists e', reread_fe w_paren_plus = Some e' /\ print_f e' PREC_NONE = [TVar "a"; TMinus; TInt 2] /\ fe_fix w_paren_plus = false.
Proof. exact expr_text_refuted_paren_plus. Qed.
Print Assumptions C02_expr_text_refuted_paren_plus.

(** [+a] (one-child Sum) prints "a" and is re-read as the variable: same text, different IR *)
Theorem C02_expr_ir_refuted_unary_plus :
  reread_fe w_unary_plus = Some (EVar "a") /\ fe_fix w_unary_plus = true /\ fe_id w_unary_plus = false.
Proof. exact expr_ir_refuted_unary_plus. Qed.
Print Assumptions C02_expr_ir_refuted_unary_plus.

(** [p .and. (q .and. r)]: same text, re-associated IR *)
Theorem C02_expr_ir_refuted_and_right :
  fe_fix w_and_right = true /\ fe_id w_and_right = false /\
  reread_fe w_and_right = Some (EAnd [EAnd [ECmp Clt (EVar "a") (EInt 1); ECmp Clt (EVar "b") (EInt 1)]; ECmp Clt (EVar "c") (EInt 1)]).
Proof. exact expr_ir_refuted_and_right. Qed.
Print Assumptions C02_expr_ir_refuted_and_right.

(** [.not. (.not. p)] prints ".not..not.(a < 1)", which cannot be read back *)
Theorem C02_expr_reread_fails_not_not :
  print_f w_not_not PREC_NONE = [TNot; TNot; TLP; TVar "a"; TRel Clt; TInt 1; TRP] /\ reread_fe w_not_not = None.
Proof. exact expr_reread_fails_not_not. Qed.
Print Assumptions C02_expr_reread_fails_not_not.
