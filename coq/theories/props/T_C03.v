(** C03 — property theorems only.
    [cp ei t] is what FortranCodegenConservative prints for the node [t] (None = the backend raises), a text is a list of
    lines, [text_of t] the original text recorded in the node's Source, [trn M t] the tree Transformer(M).visit(t) builds,
    [tr sel M t] the same for the sections [sel] of a file whose enclosing units are then marked INVALID_CHILDREN. *)
From Coq Require Import ZArith List Bool String.
From LV Require Import Base.Strings models.M_C03 proofs.P_C03 proofs.P_C03_edit proofs.P_C03_wit.
Import ListNotations.
Open Scope list_scope.
Open Scope Z_scope.

(** unmodified source: if the recorded texts tile (every node's text is its header lines, its children's texts and its
    footer lines, as its printing rule frames them) and nothing has been invalidated, the output is the original text *)
Theorem C03_tiling_verbatim : forall t ei, tiled t = true -> all_valid t = true -> cp ei t = text_of t.
Proof. exact tiling_verbatim. Qed.
Print Assumptions C03_tiling_verbatim.

(** ... and this stays true however many nodes WITH children are marked INVALID_CHILDREN (what every Transformer pass
    does in the unchanged code), as long as no ELSE IF is involved *)
Theorem C03_over_invalidation_harmless_on_tiled : forall t,
  tiled t = true -> okstatus t = true -> ei_free t = true -> cp false t = text_of t.
Proof. exact over_invalidation_harmless. Qed.
Print Assumptions C03_over_invalidation_harmless_on_tiled.

(** the decidable class evaluated on every exported tree is sound *)
Theorem C03_verb_sound : forall t ei, verb ei t = true -> cp ei t = text_of t.
Proof. exact verb_cp. Qed.
Print Assumptions C03_verb_sound.

(** a node whose source is still VALID and that the printer reaches is emitted with exactly its original text, whatever
    happened elsewhere in the tree *)
Theorem C03_valid_node_verbatim : forall ei t n, emits ei t n ->
  forall out s, cp ei t = Some out -> src_of n = Some s ->
  mode_of (kind_of n) (src_of n) = MT ->
  (is_comment (kind_of n) = true -> plain_comment (s_txt s) = true) ->
  nonblank (s_txt s) = true ->
  exists pre post, out = pre ++ s_txt s ++ post.
Proof. exact emitted_valid_verbatim. Qed.
Print Assumptions C03_valid_node_verbatim.

(** local edit: what is printed after Transformer(M) is the frame of every visited node taken from its own text, the
    printed replacements in place of the mapped nodes, and everything else as it was printed before *)
Theorem C03_local_edit : forall t M ei, nt false M ei t = true -> cp ei (trn M t) = spl false M ei t.
Proof. intros t. exact (edit_sound t false). Qed.
Print Assumptions C03_local_edit.

(** ... on the strong class (texts tile, untouched statements VALID) "as it was printed before" is "its original text" *)
Theorem C03_local_edit_text : forall M ei t, nt true M ei t = true -> cp ei (trn M t) = spl true M ei t.
Proof. intros M ei t. exact (edit_sound t true M ei). Qed.
Print Assumptions C03_local_edit_text.

(** ... and where nothing below a node is mapped, the expected text is the node's original text: unchanged nodes are
    byte-identical and in place *)
Theorem C03_splice_untouched : forall t M ei, nt true M ei t = true -> touched M t = false -> spl true M ei t = text_of t.
Proof. exact spl_untouched. Qed.
Print Assumptions C03_splice_untouched.

Theorem C03_untouched_verbatim : forall M ei t, nt true M ei t = true -> touched M t = false -> cp ei (trn M t) = text_of t.
Proof. exact untouched_verbatim. Qed.
Print Assumptions C03_untouched_verbatim.

(** in particular an identity pass (nothing mapped) is harmless on the strong class ... *)
Theorem C03_identity_pass_on_class : forall ei t,
  nt true (fun _ => None) ei t = true -> cp ei (trn (fun _ => None) t) = text_of t.
Proof. exact identity_pass_on_class. Qed.
Print Assumptions C03_identity_pass_on_class.

(** the same for a whole file: sections [sel] transformed, enclosing units / contains-sections / file marked *)
Theorem C03_local_edit_file : forall t sel M, ntp false sel M t = true -> cp false (tr sel M t) = splp false sel M t.
Proof. intros t. exact (edit_sound_p t false). Qed.
Print Assumptions C03_local_edit_file.

Theorem C03_local_edit_file_text : forall sel M t, ntp true sel M t = true -> cp false (tr sel M t) = splp true sel M t.
Proof. intros sel M t. exact (edit_sound_p t true sel M). Qed.
Print Assumptions C03_local_edit_file_text.

(** invalidation: a rebuilt node that keeps at least one node child is never left VALID ... *)
Theorem C03_invalidation_sound : forall M k u lbl s grp lits alt slots,
  has_node_child (slots_of (trn M (T k u lbl (Some s) TN grp lits alt slots))) = true ->
  forall s', src_of (trn M (T k u lbl (Some s) TN grp lits alt slots)) = Some s' -> is_valid s' = false.
Proof. exact invalidation_sound. Qed.
Print Assumptions C03_invalidation_sound.

(** ... but one that loses all its children is: the deleted statement is still printed (stale text) *)
Theorem C03_invalidation_refuted :
  touched m_del w_loop = true /\
  option_map s_st (src_of (trn m_del w_loop)) = Some VALID /\
  slots_of (trn m_del w_loop) = [[]] /\
  cp false (trn m_del w_loop) = Some ["do i = 1, n"; "  a(i) = 0"; "end do"]%string.
Proof. exact invalidation_refuted. Qed.
Print Assumptions C03_invalidation_refuted.

(** the unconditional statements are false for the unchanged code: an identity Transformer pass (nothing replaced) ... *)
(** ... duplicates the statements of a line that holds two statements *)
Theorem C03_identity_pass_refuted :
  exists t, all_valid t = true /\ cp false t = text_of t /\
            cp false (trn nomap t) = Some ["  a = 1 ; b = a"; "  a = 1 ; b = a"; "  c = 3"]%string.
Proof. exact identity_pass_refuted. Qed.
Print Assumptions C03_identity_pass_refuted.

(** ... writes the label of a labelled statement twice *)
Theorem C03_label_duplicated_refuted :
  all_valid w_label = true /\ cp false (trn nomap w_label) = Some ["20 20 a = 1"; "   b = 2"]%string.
Proof. exact label_duplicated. Qed.
Print Assumptions C03_label_duplicated_refuted.

(** ... regenerates VALID statements of classes without conservative handler *)
Theorem C03_valid_other_regenerated_refuted :
  all_valid w_other = true /\ cp false (trn nomap w_other) = Some ["  IMPLICIT NONE"; "  integer :: i"]%string.
Proof. exact valid_other_regenerated. Qed.
Print Assumptions C03_valid_other_regenerated_refuted.

(** ... makes the backend raise on IF / ELSE IF / ELSE IF *)
Theorem C03_elseif_chain_crash_refuted :
  all_valid w_chain = true /\ cp false w_chain = text_of w_chain /\ cp false (trn nomap w_chain) = None.
Proof. exact elseif_chain_crash. Qed.
Print Assumptions C03_elseif_chain_crash_refuted.

(** a regenerated IF below an ELSE IF gets an ELSE IF header *)
Theorem C03_elseif_kwarg_leak_refuted :
  cp false (trn m_leak w_leak) =
  Some ["if (a) then"; "  x = 1"; "else if (b) then"; "    ELSE IF (d) THEN"; "      x = 3"; "    END IF"; "end if"]%string.
Proof. exact elseif_kwarg_leak. Qed.
Print Assumptions C03_elseif_kwarg_leak_refuted.

(** a module without specification part cannot be printed once it is INVALID_CHILDREN *)
Theorem C03_module_without_spec_crash_refuted : cp false w_mod = None.
Proof. exact module_without_spec_crash. Qed.
Print Assumptions C03_module_without_spec_crash_refuted.
