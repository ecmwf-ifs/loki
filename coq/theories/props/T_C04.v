(** C04 — property theorems only.
    Model: M_C04 (JoinableStringList, Stringifier.format_line).  [str_of fuel (IJ p items)] is [str(JoinableStringList(items, ...))];
    [Brk p content text]: [text] is [content] with copies of the continuation [c0 p ++ c1 p] inserted and nothing else changed;
    [atoms p ss]: the chunks (as cut by the splitter of [_add_item_to_line]) of every non-empty item followed by its separator;
    [renderb p line m]: the lines obtained from the atoms [map snd m] when a break is made before the atoms marked [true]. *)
From Coq Require Import ZArith List Bool Ascii.
From LV Require Import models.M_C04 proofs.P_C04 proofs.P_C04_wit proofs.P_C04_nested proofs.P_C04_lit.
Import ListNotations.
Open Scope Z_scope.

(** (0) the chunk splitter loses and invents nothing *)
Theorem C04_chunks_partition : forall s, concat (chunk_list s) = s.
Proof. exact chunk_list_concat. Qed.
Print Assumptions C04_chunks_partition.

(** (1) content preservation, lists of strings, any separator / width / continuation, any fuel:
    removing the inserted continuations gives back the joined items *)
Theorem C04_content_preserved : forall fuel p ss text,
  str_of fuel (IJ p (map IStr ss)) = Ok text -> Brk p (flat_skip p ss) text.
Proof. exact content_preserved. Qed.
Print Assumptions C04_content_preserved.

Theorem C04_content_is_sep_join : forall fuel p ss text,
  Forall (fun s => s <> []) ss ->
  str_of fuel (IJ p (map IStr ss)) = Ok text -> Brk p (join (sep p) ss) text.
Proof. exact content_preserved_join. Qed.
Print Assumptions C04_content_is_sep_join.

(** (2) every break is at an item boundary or at a chunk boundary of the splitter *)
Theorem C04_breaks_at_boundaries : forall fuel p ss text,
  str_of fuel (IJ p (map IStr ss)) = Ok text ->
  exists m, map snd m = atoms p ss /\ text = text_of (renderb p [] m).
Proof. exact breaks_at_boundaries. Qed.
Print Assumptions C04_breaks_at_boundaries.

(** (3) every line, with its end-of-line marker, is within the width unless it consists of the start-of-line marker
    and a single chunk; the last line leaves room for a marker under the same exception *)
Theorem C04_line_width : forall fuel p ss text,
  len (c0 p) <= width p ->
  str_of fuel (IJ p (map IStr ss)) = Ok text ->
  exists lines last, text = concat lines ++ last /\
    Forall (fun l => len l <= width p \/ exists ch, In ch ([] :: atoms p ss) /\ l = c1 p ++ ch ++ c0 p) lines /\
    (len last + len (c0 p) <= width p \/ exists ch, In ch ([] :: atoms p ss) /\ last = c1 p ++ ch).
Proof. exact line_width. Qed.
Print Assumptions C04_line_width.

(** format_line on string items: the indented, wrapped text with only trailing white space removed;
    the constructor has checked that each continuation marker is shorter than the width *)
Theorem C04_format_line_strings : forall w indent cont ss out,
  format_line w indent cont (map RStr ss) None false false true = Ok out ->
  exists a b ws, norm_cont cont w = Some (a, b) /\ len a < w /\ len b < w /\
    text_of (wrap_lines (mkP [] w a b true) (indent :: ss) []) = out ++ ws /\
    Forall (fun c => is_space c = true) ws.
Proof. exact format_line_strings. Qed.
Print Assumptions C04_format_line_strings.

(** F13: the unconditional "no token is altered" is false: the splitter cuts a character literal at a doubled quote *)
Theorem C04_quoted_split_refuted :
  exists p ss pre post,
    text_of (wrap_lines p ss []) = pre ++ c0 p ++ c1 p ++ post /\
    flat_skip p ss = pre ++ post /\ cut_in_literal pre post = true.
Proof. exists (fstyle 132 4), f13_items, f13_pre, f13_post. exact f13_witness. Qed.
Print Assumptions C04_quoted_split_refuted.

(** content preservation is false for deeper nesting and for empty items inside nested lists (current behaviour) *)
Theorem C04_nested_rewrap_refuted :
  exists fuel q its text, str_of fuel (IJ q its) = Ok text /\ ~ Brk q (flatsk (IJ q its)) text.
Proof. destruct nested_rewrap_refuted as (t & H1 & H2). unfold nested_bad in *. do 3 eexists. exists t. split; [exact H1 | exact H2]. Qed.
Print Assumptions C04_nested_rewrap_refuted.

Theorem C04_empty_item_refuted :
  exists fuel q its text, str_of fuel (IJ q its) = Ok text /\ ~ Brk q (flatsk (IJ q its)) text.
Proof. destruct empty_item_refuted as (t & H1 & H2). unfold empty_bad in *. do 3 eexists. exists t. split; [exact H1 | exact H2]. Qed.
Print Assumptions C04_empty_item_refuted.

(** (1') content preservation for the shape built by format_line + join_items: items are strings or lists of non-empty strings,
    all lists with the same width and continuation markers ([d1_top]); [flatsk] = what is printed when nothing is wrapped *)
Theorem C04_content_preserved_nested_on_class : forall fuel q its text,
  Forall (d1_top q) its -> str_of fuel (IJ q its) = Ok text -> Brk q (flatsk (IJ q its)) text.
Proof. exact content_nested_d1. Qed.
Print Assumptions C04_content_preserved_nested_on_class.

(** (2') F13 cannot happen on the class: if every item (with its separator) and the joined text have terminated literals without
    doubled quotes ([lit_clean]), no place where a break may be made lies inside a character literal *)
Theorem C04_no_break_inside_literal_on_class : forall p ss l1 l2,
  Forall (fun x => lit_clean x = true) (pieces p ss) -> lit_clean (flat_skip p ss) = true ->
  atoms p ss = l1 ++ l2 -> cut_in_literal (concat l1) (concat l2) = false.
Proof. exact no_cut_in_literal. Qed.
Print Assumptions C04_no_break_inside_literal_on_class.

Theorem C04_chunks_respect_literals_on_class : forall s l1 l2,
  lit_clean s = true -> chunk_list s = l1 ++ l2 -> cut_in_literal (concat l1) (concat l2) = false.
Proof. exact chunks_respect_literals. Qed.
Print Assumptions C04_chunks_respect_literals_on_class.
