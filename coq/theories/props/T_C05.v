(** C05 — property theorems only.  Frontend input sanitisation leaves untargeted text untouched. *)
From Coq Require Import String Ascii List Bool ZArith.
From LV Require Import Base.Strings models.M_C05 proofs.P_C05_base proofs.P_C05_rules proofs.P_C05.
Import ListNotations.
Open Scope string_scope.

(** str.splitlines(keepends=True) loses nothing: the passes work on a partition of the source *)
Theorem C05_splitlines_concat : forall s, sconcat (splitlines s) = s.
Proof. exact sconcat_splitlines. Qed.
Print Assumptions C05_splitlines_concat.

(** a source that contains none of the trigger keywords (in any letter case) comes back unchanged, with an empty pp_info;
    unbounded over the text of the lines and over the number of lines *)
Theorem C05_no_trigger_identity : forall src,
  no_trigger src = true -> sanitize src = (src, [[]; []; []; []; []; []]).
Proof. exact no_trigger_identity. Qed.
Print Assumptions C05_no_trigger_identity.

(** the same with the exact letter case for the case-sensitive rules (@PROCESS, the macro tokens, the fypp marker) *)
Theorem C05_no_trigger_identity_sharp : forall src,
  no_trigger_sharp src = true -> sanitize src = (src, [[]; []; []; []; []; []]).
Proof. intros src H. exact (untriggered_identity src (no_trigger_sharp_untriggered src H)). Qed.
Print Assumptions C05_no_trigger_identity_sharp.

(** in a source WITH triggers, every rule leaves each trigger-free line exactly as it was *)
Theorem C05_untriggered_lines_untouched : forall f src,
  In f rules -> linewise (fun l l' => no_trigger l = true -> l' = l) src (fst (pass f src)).
Proof. exact untriggered_lines_untouched. Qed.
Print Assumptions C05_untriggered_lines_untouched.

(** the output differs from the input only inside matched spans: the six passes are line-wise, and on each line
    - IBM: the text from "@PROCESS" up to the newline is dropped, the text before it and the newline are kept;
    - macro tokens / __LINE__: disjoint token occurrences are replaced ("tok" in double quotes / 0), every other character is kept;
    - CONVERT=: the line is ws pre convert post tail and becomes ws pre post tail;
    - NEWUNIT=: the line is ws open args1 delim key val args2 tail and becomes ws open val delim args1 args2 tail;
    - fypp: a suffix starting with "# " and containing the fypp/hypp marker is dropped, the text before it is kept. *)
Theorem C05_sanitize_only_touches_matches : forall src,
  exists s1 s2 s3 s4 s5,
    linewise R_ibm src s1 /\ linewise R_strpp s1 s2 /\ linewise R_line s2 s3 /\
    linewise R_conv s3 s4 /\ linewise R_nu s4 s5 /\ linewise R_fypp s5 (fst (sanitize src)).
Proof. exact sanitize_only_touches_matches. Qed.
Print Assumptions C05_sanitize_only_touches_matches.

(** CONVERT=: the text rebuilt by reinsert_convert_endian from the recorded groups is the line the rule saw, byte for byte,
    minus its final newline (no blank or case normalisation at this stage); for a line continued with "&" the rest of the
    statement's source string (located by str.find of the post group) is appended right-stripped *)
Theorem C05_convert_roundtrip : forall l l' g,
  f_conv l = (l', [e_conv g]) ->
  exists tail, (tail = "" \/ tail = nl) /\
    (ends_amp (cg_post g) = false -> forall s, reinsert_convert g s ++ tail = l) /\
    (ends_amp (cg_post g) = true -> forall a b,
       first_occ (cg_post g) (a ++ cg_post g ++ b) = Some (String.length a) ->
       exists first, first ++ tail = l /\ reinsert_convert g (a ++ cg_post g ++ b) = first ++ rstrip b).
Proof. exact convert_roundtrip. Qed.
Print Assumptions C05_convert_roundtrip.

Theorem C05_newunit_roundtrip : forall l l' g,
  f_nu l = (l', [e_nu g]) ->
  exists tail, (tail = "" \/ tail = nl) /\
    (ends_amp (ng_args2 g) = false -> forall s, reinsert_newunit g s ++ tail = l) /\
    (ends_amp (ng_args2 g) = true -> forall a b,
       first_occ (ng_args2 g) (a ++ ng_args2 g ++ b) = Some (String.length a) ->
       exists first, first ++ tail = l /\ reinsert_newunit g (a ++ ng_args2 g ++ b) = first ++ rstrip b).
Proof. exact newunit_roundtrip. Qed.
Print Assumptions C05_newunit_roundtrip.

(** after BOTH callbacks (registry order), on the class "only one of the two OPEN rules matched the line": the statement
    gets its original first line back *)
Theorem C05_restored_convert_only_on_class : forall l g tail s,
  conv_match l = Some (g, tail) -> nu_match (fst (f_conv l)) = None -> ends_amp (cg_post g) = false ->
  exists text, restored_text l s = Some text /\ text ++ tail = l.
Proof. exact restored_convert_only. Qed.
Print Assumptions C05_restored_convert_only_on_class.

Theorem C05_restored_newunit_only_on_class : forall l g tail s,
  conv_match l = None -> nu_match l = Some (g, tail) -> ends_amp (ng_args2 g) = false ->
  exists text, restored_text l s = Some text /\ text ++ tail = l.
Proof. exact restored_newunit_only. Qed.
Print Assumptions C05_restored_newunit_only_on_class.

(** F14 (and @PROCESS): trigger text inside string literals, comments and longer identifiers is rewritten, and nothing is
    recorded for the re-inserting rules, so nothing restores it *)
Theorem C05_literal_rewritten_refuted :
  sanitize ("  c = '__LINE__'" ++ nl) = ("  c = '0'" ++ nl, [[]; []; [(1%Z, [EP "__LINE__" "0"])]; []; []; []]) /\
  sanitize ("  c = 'in __FILE__'" ++ nl)
    = ("  c = 'in ""__FILE__""'" ++ nl, [[]; [(1%Z, [e_else "__FILE__"])]; []; []; []; []]) /\
  sanitize ("  c = ""in __FILE__""" ++ nl)
    = ("  c = ""in ""__FILE__""""" ++ nl, [[]; [(1%Z, [e_else "__FILE__"])]; []; []; []; []]) /\
  sanitize ("  k = 1 ! see __LINE__" ++ nl) = ("  k = 1 ! see 0" ++ nl, [[]; []; [(1%Z, [EP "__LINE__" "0"])]; []; []; []]) /\
  sanitize ("  ! __DATE__ here" ++ nl)
    = ("  ! ""__DATE__"" here" ++ nl, [[]; [(1%Z, [e_else "__DATE__"])]; []; []; []; []]) /\
  sanitize ("  k__LINE__k = 1" ++ nl) = ("  k0k = 1" ++ nl, [[]; []; [(1%Z, [EP "__LINE__" "0"])]; []; []; []]) /\
  sanitize ("  c = 'the @PROCESS x'" ++ nl) = ("  c = 'the " ++ nl, [[(1%Z, [EG []])]; []; []; []; []; []]) /\
  sanitize ("  k = 1 ! @PROCESS x" ++ nl) = ("  k = 1 ! " ++ nl, [[(1%Z, [EG []])]; []; []; []; []; []]).
Proof. exact literal_rewritten_refuted. Qed.
Print Assumptions C05_literal_rewritten_refuted.

(** an OPEN line with both CONVERT= and NEWUNIT=: the second callback rebuilds the text from what rule 5 saw — CONVERT= is lost *)
Theorem C05_both_specifiers_convert_lost_refuted :
  let l := "  open(newunit=u, file=f, convert='big_endian')" in
  fst (sanitize (l ++ nl)) = "  open(u, file=f)" ++ nl /\
  restored_text l "  open(u, file=f)" = Some "  open(newunit=u, file=f)".
Proof. exact both_specifiers_convert_lost_refuted. Qed.
Print Assumptions C05_both_specifiers_convert_lost_refuted.

(** the NEWUNIT= value ends at the first ")": a subscripted unit variable is cut (the result no longer parses) *)
Theorem C05_newunit_value_cut_refuted :
  fst (f_nu "  open(file=f, newunit=arr(2))") = "  open(arr(2,file=f))".
Proof. exact newunit_value_cut_refuted. Qed.
Print Assumptions C05_newunit_value_cut_refuted.

(** NEWUNIT= inside a string literal of an OPEN statement is pulled out of the literal *)
Theorem C05_open_literal_rewritten_refuted :
  fst (f_nu "  open(unit=u, file='a,newunit=b,c')") = "  open(b,unit=u, file='a,c')".
Proof. exact open_literal_rewritten_refuted. Qed.
Print Assumptions C05_open_literal_rewritten_refuted.

(** a CONVERT= specifier at the end of its line swallows the line break *)
Theorem C05_convert_eats_newline_refuted :
  fst (sanitize ("open(1, convert='big_endian'" ++ nl ++ "x = 1" ++ nl)) = "open(1x = 1" ++ nl.
Proof. exact convert_eats_newline_refuted. Qed.
Print Assumptions C05_convert_eats_newline_refuted.
