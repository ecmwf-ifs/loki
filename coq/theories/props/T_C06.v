(** C06 — property theorems only. *)
From Coq Require Import ZArith List Bool String.
From LV Require Import Base.Expr models.M_C06 proofs.P_C06_base proofs.P_C06.
Import ListNotations.
Open Scope Z_scope.
Open Scope string_scope.
Open Scope list_scope.

(** On the class: the token list FCodeMapper prints for [e] at top level is a phrase of the Fortran expression
    grammar whose parse tree [t] has, under every environment, the integer (resp. logical) value of [e]. *)
Theorem C06_print_denotes_on_class : forall e, fortran_safe e = true ->
  exists t, G LExpr (print_f e PREC_NONE) t /\
    ((arith_safe e = true /\ forall rho, evalF rho t = evalZ rho e) \/
     (logic_safe e = true /\ forall rho, evalFB rho t = evalB rho e)).
Proof. exact print_denotes_on_class. Qed.
Print Assumptions C06_print_denotes_on_class.

Theorem C06_print_denotes_arith : forall e, arith_safe e = true ->
  exists t, G LExpr (print_f e PREC_NONE) t /\ forall rho, evalF rho t = evalZ rho e.
Proof. exact print_denotes_arith. Qed.
Print Assumptions C06_print_denotes_arith.

Theorem C06_print_denotes_logic : forall e, logic_safe e = true ->
  exists t, G LExpr (print_f e PREC_NONE) t /\ forall rho, evalFB rho t = evalB rho e.
Proof. exact print_denotes_logic. Qed.
Print Assumptions C06_print_denotes_logic.

(** The same with the enclosing precedence generalised: whenever the class predicate accepts [e] at precedence [p]
    with grammar class [k], the text printed at [p] is a phrase of class [k] (primary, mult-operand, product chain,
    add-operand, signed add-operand, level-2 chain, signed level-2 chain) with the value of [e]. *)
Theorem C06_print_denotes_at_prec : forall e p k, classify e (MP p) = Some k ->
  exists t, RA k (print_f e p) t /\ G LExpr (print_f e p) t /\ forall rho, evalF rho t = evalZ rho e.
Proof. exact print_denotes_at_prec. Qed.
Print Assumptions C06_print_denotes_at_prec.

(** the class is inhabited by non-trivial trees *)
Theorem C06_class_inhabited : arith_safe ex_arith = true /\ logic_safe ex_logic = true.
Proof. exact (conj ex_arith_safe ex_logic_safe). Qed.
Print Assumptions C06_class_inhabited.

(** Every phrase of the grammar passes the local token check [wf_toks]; texts that fail it are not Fortran expressions. *)
Theorem C06_not_fortran : forall ts, wf_toks LExpr ts = false -> forall t, ~ G LExpr ts t.
Proof. exact not_fortran. Qed.
Print Assumptions C06_not_fortran.

(** Outside the class (finding F1): the unconditional statement is refuted by concrete trees.
    Value changes: the printed text is a Fortran expression, but of a different value. *)
Theorem C06_print_refuted_quot_prod :
  print_f w_quot_prod 0 = [TVar "a"; TSlash; TVar "b"; TStar; TVar "c"] /\
  (exists t, G LExpr (print_f w_quot_prod 0) t /\ ref_parse (print_f w_quot_prod 0) = Some t /\
             evalF (rho_w 8 2 2) t = Some 8 /\ evalZ (rho_w 8 2 2) w_quot_prod = Some 2).
Proof. exact print_refuted_quot_prod. Qed.
Print Assumptions C06_print_refuted_quot_prod.

Theorem C06_print_refuted_quot_quot :
  print_f w_quot_quot 0 = [TVar "a"; TSlash; TVar "b"; TSlash; TVar "c"] /\
  (exists t, G LExpr (print_f w_quot_quot 0) t /\ ref_parse (print_f w_quot_quot 0) = Some t /\
             evalF (rho_w 8 4 2) t = Some 1 /\ evalZ (rho_w 8 4 2) w_quot_quot = Some 4).
Proof. exact print_refuted_quot_quot. Qed.
Print Assumptions C06_print_refuted_quot_quot.

Theorem C06_print_refuted_prod_quot :
  print_f w_prod_quot 0 = [TVar "a"; TStar; TVar "b"; TSlash; TVar "c"] /\
  (exists t, G LExpr (print_f w_prod_quot 0) t /\ ref_parse (print_f w_prod_quot 0) = Some t /\
             evalF (rho_w 2 1 2) t = Some 1 /\ evalZ (rho_w 2 1 2) w_prod_quot = Some 0).
Proof. exact print_refuted_prod_quot. Qed.
Print Assumptions C06_print_refuted_prod_quot.

Theorem C06_print_refuted_pow_pow :
  print_f w_pow_pow 0 = [TVar "a"; TPow; TVar "b"; TPow; TVar "c"] /\
  (exists t, G LExpr (print_f w_pow_pow 0) t /\ ref_parse (print_f w_pow_pow 0) = Some t /\
             evalF (rho_w 2 3 2) t = Some 512 /\ evalZ (rho_w 2 3 2) w_pow_pow = Some 64).
Proof. exact print_refuted_pow_pow. Qed.
Print Assumptions C06_print_refuted_pow_pow.

Theorem C06_print_refuted_neg_base :
  print_f w_neg_base 0 = [TMinus; TInt 3; TPow; TInt 2] /\
  (exists t, G LExpr (print_f w_neg_base 0) t /\ ref_parse (print_f w_neg_base 0) = Some t /\
             evalF (rho_w 0 0 0) t = Some (-9) /\ evalZ (rho_w 0 0 0) w_neg_base = Some 9).
Proof. exact print_refuted_neg_base. Qed.
Print Assumptions C06_print_refuted_neg_base.

(** Not Fortran at all: no derivation exists for the printed text. *)
Theorem C06_print_refuted_mul_neg :
  print_f w_mul_neg 0 = [TVar "a"; TStar; TMinus; TVar "b"] /\
  (forall t, ~ G LExpr (print_f w_mul_neg 0) t) /\ ref_parse (print_f w_mul_neg 0) = None /\
  evalZ (rho_w 2 3 0) w_mul_neg = Some (-6).
Proof. apply print_unreadable; vm_compute; reflexivity. Qed.
Print Assumptions C06_print_refuted_mul_neg.

Theorem C06_print_refuted_add_neg :
  print_f w_add_neg 0 = [TVar "a"; TPlus; TMinus; TInt 1] /\
  (forall t, ~ G LExpr (print_f w_add_neg 0) t) /\ ref_parse (print_f w_add_neg 0) = None /\
  evalZ (rho_w 2 0 0) w_add_neg = Some 1.
Proof. apply print_unreadable; vm_compute; reflexivity. Qed.
Print Assumptions C06_print_refuted_add_neg.

Theorem C06_print_refuted_not_not :
  print_f w_not_not 0 = [TNot; TNot; TLP; TVar "a"; TRel Clt; TVar "b"; TRP] /\
  (forall t, ~ G LExpr (print_f w_not_not 0) t) /\ ref_parse (print_f w_not_not 0) = None /\
  evalB (rho_w 1 2 0) w_not_not = Some true.
Proof. apply print_unreadable; vm_compute; reflexivity. Qed.
Print Assumptions C06_print_refuted_not_not.

Theorem C06_witnesses_outside_class :
  forallb (fun e => negb (fortran_safe e))
    [w_quot_prod; w_quot_quot; w_prod_quot; w_pow_pow; w_neg_base; w_mul_neg; w_add_neg; w_not_not] = true.
Proof. exact witnesses_outside_class. Qed.
Print Assumptions C06_witnesses_outside_class.
