(** C12 — property theorems only.
    Model = [mstep]/[mouts]/[mexec] (association lists), specification = [sstep]/[souts]/[sexec]
    (total functions keyed by the folded name); [absR] relates a model state to a specification state:
    same caller objects, same parent links, and every table's list denotes the specification's function. *)
From Coq Require Import ZArith String Ascii List Bool.
From LV Require Import Base.Strings models.M_C12 proofs.P_C12.
Import ListNotations.
Open Scope string_scope.
Open Scope list_scope.

(** Refinement for EVERY operation history (every step's output equals the specification's,
    and abstraction commutes with the whole fold_left). *)
Theorem C12_history_refines : forall ops s a,
  absR s a ->
  mouts s ops = souts a ops /\ absR (mexec s ops) (sexec a ops).
Proof. exact history_refines. Qed.
Print Assumptions C12_history_refines.

Theorem C12_history_refines_from_init : forall ops,
  mouts minit ops = souts sinit ops /\ absR (mexec minit ops) (sexec sinit ops).
Proof. exact history_refines_from_init. Qed.
Print Assumptions C12_history_refines_from_init.

(** the same through the abstraction function *)
Theorem C12_history_refines_abs : forall ops s,
  mouts s ops = souts (abs_state s) ops /\ absR (mexec s ops) (sexec (abs_state s) ops).
Proof. exact history_refines_abs. Qed.
Print Assumptions C12_history_refines_abs.

(** the behaviour before commit 0d55598 (F7c: clone() below an empty parent table lost the parent) did not refine the
    specification; the present model does on the same history *)
Theorem C12_clone_old_refuted :
  exists ops, mouts_old minit ops <> souts sinit ops /\ mouts minit ops = souts sinit ops.
Proof. exact clone_old_refuted. Qed.
Print Assumptions C12_clone_old_refuted.

(** Look-ups find the innermost declaration: the table that answers is the first one on the parent chain that binds the name *)
Theorem C12_lookup_innermost : forall s t n r v,
  snd (mstep s (OLookup t n true)) = OutObj r v ->
  exists pre i post,
    chain (S (length (st_tabs s))) (st_tabs s) t = pre ++ i :: post
    /\ (forall j, In j pre -> tab_has m_ops (st_tabs s) j (fmt n) = None)
    /\ tab_has m_ops (st_tabs s) i (fmt n) = Some v.
Proof. exact (lookup_innermost m_ops false). Qed.
Print Assumptions C12_lookup_innermost.

Theorem C12_lookup_none_everywhere : forall s t n,
  nth_error (st_tabs s) t <> None ->
  snd (mstep s (OLookup t n true)) = OutNone ->
  forall j, In j (chain (S (length (st_tabs s))) (st_tabs s) t) -> tab_has m_ops (st_tabs s) j (fmt n) = None.
Proof. exact (lookup_none_everywhere m_ops false). Qed.
Print Assumptions C12_lookup_none_everywhere.

Theorem C12_lookup_after_set : forall s t n n' r rec tb v,
  nth_error (st_tabs s) t = Some tb -> nth_error (st_objs s) r = Some v -> same_key n n' ->
  mouts s [OSet t n r; OLookup t n' rec] = [OutNone; OutObj (length (st_objs s)) v].
Proof. exact lookup_after_set. Qed.
Print Assumptions C12_lookup_after_set.

(** Every operation, hence every history, is invariant under re-spelling the names (same folded look-up name) *)
Theorem C12_spelling_invariant : forall ops ops',
  Forall2 op_same ops ops' ->
  forall s, mouts s ops = mouts s ops' /\ mexec s ops = mexec s ops'.
Proof. exact (history_same m_ops false). Qed.
Print Assumptions C12_spelling_invariant.

Theorem C12_spellings_with_same_key : forall a b d,
  (same_fold a b -> same_key a b) /\ same_key (a ++ "(" ++ d) a /\ same_key (upper a) a.
Proof. intros a b d. split; [apply same_fold_same_key|split; [apply fmt_dims|apply fmt_upper]]. Qed.
Print Assumptions C12_spellings_with_same_key.

(** Deletion agrees with membership, for any two spellings of the name *)
Theorem C12_deletion_agrees_with_membership : forall s t n n',
  same_key n n' ->
  let present := snd (mstep s (OContains t n)) in
  (present = OutBool true <-> snd (mstep s (ODel t n')) = OutNone)
  /\ (present = OutBool false <-> snd (mstep s (ODel t n')) = OutErr EKey)
  /\ (present = OutBool true <-> exists r v, snd (mstep s (OPop t n' false)) = OutObj r v)
  /\ (present = OutBool false <-> snd (mstep s (OPop t n' false)) = OutErr EKey)
  /\ (present = OutBool true -> snd (mstep (fst (mstep s (ODel t n'))) (OContains t n)) = OutBool false)
  /\ (present = OutBool true -> snd (mstep (fst (mstep s (OPop t n' false))) (OContains t n)) = OutBool false).
Proof. exact deletion_agrees_with_membership. Qed.
Print Assumptions C12_deletion_agrees_with_membership.

(** the behaviour before commit 32dff38 (F7) did not have this property *)
Theorem C12_del_unfolded_refuted :
  exists (tb : atab) n, al_get String.eqb (fmt n) tb <> None /\ del_unfolded tb n = None.
Proof. exact del_unfolded_refuted. Qed.
Print Assumptions C12_del_unfolded_refuted.

(** Returned attributes are independent copies: every object handed out is a brand-new reference, nothing the caller
    does to its objects changes a table, an inserted object is copied, a returned one is a copy *)
Theorem C12_returned_attrs_fresh : forall s o r v,
  snd (mstep s o) = OutObj r v ->
  r = length (st_objs s) /\ st_objs (fst (mstep s o)) = st_objs s ++ [v].
Proof. exact returned_fresh. Qed.
Print Assumptions C12_returned_attrs_fresh.

Theorem C12_caller_ops_leave_tables : forall s,
  (forall r v, st_tabs (fst (mstep s (OMutate r v))) = st_tabs s)
  /\ (forall v, st_tabs (fst (mstep s (ONew v))) = st_tabs s).
Proof. exact caller_ops_leave_tables. Qed.
Print Assumptions C12_caller_ops_leave_tables.

Theorem C12_set_stores_copy : forall s t n n' r tb v w,
  nth_error (st_tabs s) t = Some tb -> nth_error (st_objs s) r = Some v -> same_key n n' ->
  mouts s [OSet t n r; OMutate r w; OGetItem t n'] = [OutNone; OutNone; OutObj (length (st_objs s)) v].
Proof. exact set_stores_copy. Qed.
Print Assumptions C12_set_stores_copy.

Theorem C12_get_returns_copy : forall (s : mstate) t n n' tb v w,
  nth_error (st_tabs s) t = Some tb -> tget m_ops (fmt n) (t_ents tb) = Some v -> same_key n n' ->
  mouts s [OGetItem t n; OMutate (length (st_objs s)) w; OGetItem t n']
  = [OutObj (length (st_objs s)) v; OutNone; OutObj (S (length (st_objs s))) v].
Proof. exact get_returns_copy. Qed.
Print Assumptions C12_get_returns_copy.

Theorem C12_dict_history_refines_on_class : forall fl ops t f,
  dabsR t f -> forallb (dop_ok fl) ops = true ->
  douts dm_ops fl t ops = douts ds_ops (spec_fl fl) f ops
  /\ dabsR (dexec dm_ops fl t ops) (dexec ds_ops (spec_fl fl) f ops).
Proof. exact dict_history_refines. Qed.
Print Assumptions C12_dict_history_refines_on_class.

(** CaseInsensitiveDict (OrderedDict based): unconditional *)
Theorem C12_dict_ordered_refines : forall ops,
  douts dm_ops fl_ordered [] ops = douts ds_ops fl_ordered (fun _ => None) ops
  /\ dabsR (dexec dm_ops fl_ordered [] ops) (dexec ds_ops fl_ordered (fun _ => None) ops).
Proof. exact dict_ordered_refines. Qed.
Print Assumptions C12_dict_ordered_refines.

(** CaseInsensitiveDefaultDict: update()/setdefault()/constructor data bypass the folding (known finding) *)
Theorem C12_defaultdict_update_refuted :
  exists ops, douts dm_ops (fl_default None) [] ops <> douts ds_ops (spec_fl (fl_default None)) (fun _ => None) ops.
Proof. exact defaultdict_update_refuted. Qed.
Print Assumptions C12_defaultdict_update_refuted.

Theorem C12_dict_spelling_invariant : forall fl (t : dtab) o o',
  dop_same o o' -> dstep dm_ops fl t o = dstep dm_ops fl t o'.
Proof. exact (dstep_same dm_ops). Qed.
Print Assumptions C12_dict_spelling_invariant.

Theorem C12_dict_deletion_agrees_with_membership : forall fl (t : dtab) k k',
  dkey_same k k' ->
  let present := snd (dstep dm_ops fl t (DContains k)) in
  (present = RBool true <-> snd (dstep dm_ops fl t (DDel k')) = RNone)
  /\ (present = RBool false <-> snd (dstep dm_ops fl t (DDel k')) = RKeyError)
  /\ (present = RBool true <-> exists v, snd (dstep dm_ops fl t (DPop k' false)) = RVal v)
  /\ (present = RBool true -> snd (dstep dm_ops fl (fst (dstep dm_ops fl t (DDel k'))) (DContains k)) = RBool false)
  /\ (present = RBool true -> snd (dstep dm_ops fl (fst (dstep dm_ops fl t (DPop k' false))) (DContains k)) = RBool false).
Proof. exact dict_deletion_agrees_with_membership. Qed.
Print Assumptions C12_dict_deletion_agrees_with_membership.
