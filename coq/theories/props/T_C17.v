(** C17 — property theorems only. *)
From Coq Require Import ZArith List Bool String.
From LV Require Import models.M_C17 proofs.P_C17 proofs.P_C17_indep proofs.P_C17_types proofs.P_C17_wit.
Import ListNotations.
Open Scope Z_scope.

(** the scope objects of the copy are new: none is a scope of the original unit, of its enclosing scopes, or mentioned by the original *)
Theorem C17_clone_fresh : forall d ctx u, bounded d ctx u = true ->
  forall i, In i (ids (clone d ctx u)) -> ~ In i (ids u) /\ ~ In i (map fst ctx) /\ ~ In i (refs u).
Proof. exact clone_fresh. Qed.
Print Assumptions C17_clone_fresh.

(** on well-scoped clean units (any tree shape, any depth) the name-look-up based rescoping of the real code produces exactly the
    original with its own scope objects renamed to the new ones and every pointer to the outside untouched *)
Theorem C17_clone_iso : forall d ctx u,
  bounded d ctx u = true -> wf ctx u = true -> clean u = true ->
  clone d ctx u = rename (ren d (ids u)) u.
Proof. exact clone_iso. Qed.
Print Assumptions C17_clone_iso.

(** without the cleanliness condition this still holds for scope ids, parents, table keys and type tags and all symbols of the IR *)
Theorem C17_clone_skeleton_iso : forall d ctx u,
  bounded d ctx u = true -> wf ctx u = true ->
  skeleton (clone d ctx u) = skeleton (rename (ren d (ids u)) u).
Proof. exact clone_skeleton_iso. Qed.
Print Assumptions C17_clone_skeleton_iso.

(** nothing in the copy (symbol scopes, symbols inside types, procedure/typedef pointers, parents) refers to a scope object of the original *)
Theorem C17_clone_closed : forall d ctx u,
  bounded d ctx u = true -> wf ctx u = true -> clean u = true ->
  forall r, In r (refs (clone d ctx u)) -> ~ In r (ids u).
Proof. exact clone_closed. Qed.
Print Assumptions C17_clone_closed.

(** ... which the real code violates outside the class: ASSOCIATE over an array with a local shape, a derived type defined in the unit,
    CHARACTER(LEN=n) *)
Theorem C17_clone_closed_refuted :
  (exists d ctx u, bounded d ctx u = true /\ wf ctx u = true /\ exists r, In r (refs (clone d ctx u)) /\ In r (ids u) /\ u = w_assoc) /\
  (exists d ctx u, bounded d ctx u = true /\ wf ctx u = true /\ exists r, In r (refs (clone d ctx u)) /\ In r (ids u) /\ u = w_typedef) /\
  (exists d ctx u, bounded d ctx u = true /\ wf ctx u = true /\ exists r, In r (refs (clone d ctx u)) /\ In r (ids u) /\ u = w_charlen).
Proof. exact clone_closed_refuted. Qed.
Print Assumptions C17_clone_closed_refuted.

(** every symbol of the copy reads the type the corresponding symbol of the original reads (through its own scope chain) *)
Theorem C17_clone_types_equal : forall d ctx u,
  bounded d ctx u = true -> wf ctx u = true ->
  occ_types ctx (clone d ctx u) = occ_types ctx u.
Proof. exact clone_types_equal. Qed.
Print Assumptions C17_clone_types_equal.

(** arbitrary histories of edits made through one copy (its scope objects, or the scopes its symbols are attached to) that do not
    import symbols of the other copy leave the other copy exactly as it was *)
Theorem C17_independent : forall es a b,
  sep a b -> valid_edits b a es -> apply_edits es b = b /\ sep (apply_edits es a) b.
Proof. exact independent. Qed.
Print Assumptions C17_independent.

Theorem C17_clone_independent_of_clone_edits : forall d ctx u es,
  bounded d ctx u = true -> wf ctx u = true -> clean u = true ->
  valid_edits u (clone d ctx u) es -> apply_edits es u = u.
Proof. exact orig_unchanged_by_clone_edits. Qed.
Print Assumptions C17_clone_independent_of_clone_edits.

Theorem C17_clone_independent_of_orig_edits : forall d ctx u es,
  bounded d ctx u = true ->
  valid_edits (clone d ctx u) u es -> apply_edits es (clone d ctx u) = clone d ctx u.
Proof. exact clone_unchanged_by_orig_edits. Qed.
Print Assumptions C17_clone_independent_of_orig_edits.

(** with a leak the independence is really lost: a type set through a symbol of the CLONE rewrites the table of the original *)
Theorem C17_clone_independence_refuted :
  exists e, valid_edits w_assoc (clone 10 [] w_assoc) [e] /\ apply_edits [e] w_assoc <> w_assoc.
Proof. exact clone_independence_refuted. Qed.
Print Assumptions C17_clone_independence_refuted.

(** the hypotheses are satisfiable by a non-trivial unit (module context, member procedure, ASSOCIATE, host association, shadowing) *)
Theorem C17_nonvacuous :
  bounded 10 ex_ctx ex_unit = true /\ wf ex_ctx ex_unit = true /\ clean ex_unit = true /\
  clone 10 ex_ctx ex_unit <> ex_unit /\
  valid_edits ex_unit (clone 10 ex_ctx ex_unit) [ESetEntry 12 "x"%string (ent 9 []); EAddOcc 10 (oc "x"%string 12); ESetEntry 5 "v"%string (ent 6 [])].
Proof. exact c17_nonvacuous. Qed.
Print Assumptions C17_nonvacuous.
