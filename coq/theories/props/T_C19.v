(** C19 — property theorems only. *)
From Coq Require Import NArith List Bool String Arith Permutation.
From LV Require Import models.M_C19 proofs.P_C19 proofs.P_C19_blocks.
Import ListNotations.

(** (i) incremental re-parses.  Class: the initial parse contains ProgramUnitClass and every request is
    addressed to the file or to the top-level unit ([top_level]).  [parse] is an arbitrary function of the
    class set and the unit's text. *)

(** after ANY sequence of requests, every unit on the chain is exactly what ONE parse with the union of all
    requested classes gives *)
Theorem C19_incremental_order_irrelevant :
  forall (text ir : Type) (parse : flags -> text -> ir) (texts : list text) p0 rs,
    has_pu p0 = true -> forallb top_level rs = true ->
    final_ir parse texts (run (List.length texts) p0 rs) =
    Some (map (parse (f_union p0 (req_classes rs))) texts).
Proof. exact incremental_order_irrelevant. Qed.
Print Assumptions C19_incremental_order_irrelevant.

(** ... which is also what a single request with that union produces *)
Theorem C19_incremental_single_request :
  forall (text ir : Type) (parse : flags -> text -> ir) (texts : list text) p0 rs,
    has_pu p0 = true -> forallb top_level rs = true ->
    final_ir parse texts (run (List.length texts) p0 rs) =
    final_ir parse texts (run (List.length texts) p0 [(TFile, req_classes rs)]).
Proof. exact incremental_single_request. Qed.
Print Assumptions C19_incremental_single_request.

(** ... hence any two orders of the same requests give the same result *)
Theorem C19_incremental_permutation :
  forall (text ir : Type) (parse : flags -> text -> ir) (texts : list text) p0 rs rs',
    has_pu p0 = true -> forallb top_level rs = true -> Permutation rs rs' ->
    final_ir parse texts (run (List.length texts) p0 rs) = final_ir parse texts (run (List.length texts) p0 rs').
Proof. exact incremental_permutation. Qed.
Print Assumptions C19_incremental_permutation.

(** the same on the level of the recorded class sets *)
Theorem C19_order_irrelevant_records : forall n p0 rs rs',
  has_pu p0 = true -> forallb top_level rs = true -> Permutation rs rs' ->
  h_units (run n p0 rs) = h_units (run n p0 rs') /\ h_disc (run n p0 rs) = h_disc (run n p0 rs').
Proof. exact order_irrelevant_records. Qed.
Print Assumptions C19_order_irrelevant_records.

(** if the frontend finds more when asked for more, nothing any single request would have found is missing at the end *)
Theorem C19_incremental_never_loses :
  forall (text ir : Type) (parse : flags -> text -> ir) (le_ir : ir -> ir -> Prop) (ok : flags -> bool),
    (forall a b t, ok a = true -> f_sub a b = true -> le_ir (parse a t) (parse b t)) ->
    forall (texts : list text) p0 rs r,
      has_pu p0 = true -> forallb top_level rs = true -> (r = p0 \/ In r (map snd rs)) -> ok r = true ->
      exists irs, final_ir parse texts (run (List.length texts) p0 rs) = Some irs /\
                  Forall2 (fun t i => le_ir (parse r t) i) texts irs.
Proof. exact incremental_never_loses. Qed.
Print Assumptions C19_incremental_never_loses.

(** in EVERY state (no class restriction): a request to a unit is honoured — afterwards its record covers the request *)
Theorem C19_request_is_honoured : forall s k r g,
  h_disc s = true -> nth_error (h_units s) k = Some g ->
  exists g', nth_error (h_units (step s (TUnit k, r))) k = Some g' /\ f_sub r g' = true.
Proof. exact request_is_honoured. Qed.
Print Assumptions C19_request_is_honoured.

Theorem C19_file_request_is_honoured : forall s r g,
  h_disc s = true -> nth_error (h_units s) 0 = Some g ->
  exists g', nth_error (h_units (step s (TFile, r))) 0 = Some g' /\ f_sub r g' = true.
Proof. exact file_request_is_honoured. Qed.
Print Assumptions C19_file_request_is_honoured.

(** after every history a nested unit records at least the classes of the unit around it *)
Theorem C19_nested_records_cover_parent : forall n p0 rs, chain_mono (h_units (run n p0 rs)) = true.
Proof. exact nested_records_cover_parent. Qed.
Print Assumptions C19_nested_records_cover_parent.

(** outside the class, as the code behaves today: without ProgramUnitClass in the initial parse the units are
    created by the first file request containing it, with that request's classes only *)
Theorem C19_late_discovery_forgets : forall n p0 cs,
  has_pu p0 = false ->
  let s := run n p0 (map (fun r => (TFile, r)) cs) in
  match after_pu cs with
  | None => h_disc s = false
  | Some l => h_disc s = true /\ h_units s = repeat (f_unions l) n
  end.
Proof. exact late_discovery_forgets. Qed.
Print Assumptions C19_late_discovery_forgets.

(** the unconditional statement is refuted: CallClass then ProgramUnitClass ends without calls, the other order with *)
Theorem C19_late_program_unit_refuted :
  h_units (run 1 32%N [(TFile, 1%N)]) = [1%N] /\ h_units (run 1 1%N [(TFile, 32%N)]) = [33%N].
Proof. exact late_program_unit_refuted. Qed.
Print Assumptions C19_late_program_unit_refuted.

(** ... and a request addressed to a nested unit is lost when the enclosing unit is re-parsed afterwards *)
Theorem C19_nested_request_lost_refuted :
  exists rs rs', Permutation rs rs' /\
    h_units (run 2 1%N rs) = [5%N; 5%N] /\ h_units (run 2 1%N rs') = [5%N; 37%N].
Proof. exact nested_request_lost_refuted. Qed.
Print Assumptions C19_nested_request_lost_refuted.

(** (ii) block matching on classified lines.  Class: [wfsb CFile us] — every node sits in a context whose
    candidate patterns look for it (e.g. typedefs only in a module's specification part). *)

(** every supported tree, of any size and nesting depth, is recovered exactly from its text *)
Theorem C19_blocks_roundtrip : forall us, wfsb CFile us = true -> match_blocks (flats us) = Some us.
Proof. exact blocks_roundtrip. Qed.
Print Assumptions C19_blocks_roundtrip.

Theorem C19_items_roundtrip : forall c l t rest, wfsb c l = true -> terminates c t = true ->
  forall f, List.length (flats l ++ t :: rest) <= f -> items f c (flats l ++ t :: rest) = Some (l, t :: rest).
Proof. exact items_roundtrip. Qed.
Print Assumptions C19_items_roundtrip.

(** the discovered items (units, imports, calls, typedefs, bindings, interfaces and their members), each
    attributed to the path of its enclosing units, are exactly those of the tree *)
Theorem C19_discovered_items_complete : forall us, wfsb CFile us = true ->
  option_map (collects []) (match_blocks (flats us)) = Some (collects [] us).
Proof. exact discovered_items_complete. Qed.
Print Assumptions C19_discovered_items_complete.

(** no CALL / USE statement of the text is lost: the reported ones are all call/use lines of the text, in order *)
Theorem C19_all_calls_and_uses_found : forall us, wfsb CFile us = true ->
  exists ns, match_blocks (flats us) = Some ns /\
             found_calls (collects [] ns) = line_calls (flats us) /\
             found_uses (collects [] ns) = line_uses (flats us).
Proof. exact all_calls_and_uses_found. Qed.
Print Assumptions C19_all_calls_and_uses_found.

(** the boolean used in the correspondence run means equality of trees *)
Theorem C19_chk_tree_sound : forall ls obs, chk_tree ls obs = true ->
  exists ns, match_blocks ls = Some ns /\ strips ns = obs.
Proof. exact chk_tree_sound. Qed.
Print Assumptions C19_chk_tree_sound.

(** outside the class: a derived type defined inside a subroutine is not discovered *)
Theorem C19_typedef_in_routine_missed :
  match_blocks (flatten witness_type_in_routine) =
    Some [NUnit KSub "s"%string [NOther; NOther; NOther; NCall "foo"%string] None] /\
  ~ In ([ "s"%string ], FType "loc"%string)
       (collects [] [NUnit KSub "s"%string [NOther; NOther; NOther; NCall "foo"%string] None]) /\
  In ([ "s"%string ], FType "loc"%string) (collects [] [witness_type_in_routine]).
Proof. exact typedef_in_routine_missed. Qed.
Print Assumptions C19_typedef_in_routine_missed.
