(** C20 — recorded source locations match the original text: property theorems only. *)
From Coq Require Import ZArith List Bool String Ascii Sorting.Sorted.
From LV Require Import Base.Strings models.M_C20
  proofs.P_C20_base proofs.P_C20_find proofs.P_C20_reader proofs.P_C20_scan proofs.P_C20_wit.
Import ListNotations.
Open Scope Z_scope.

(** * clone_with_span *)
(** For every text (any list of lines) and every span that starts at column ca of line i and ends at column cb
    of line j: the lines recorded by clone_with_span are exactly l0+i .. l0+j, the string is the substring of the
    text, which is the tail of line i, the lines in between and the head of line j; the file is kept. *)
Theorem C20_span_lines_correct : forall ls l0 f i la ca j lb cb a b,
  forallb no_nl ls = true ->
  nth_error ls i = Some la -> (ca <= slen la)%nat -> a = (line_start ls i + ca)%nat ->
  nth_error ls j = Some lb -> (cb <= slen lb)%nat -> b = (line_start ls j + cb)%nat ->
  (a <= b)%nat ->
  s_l0 (clone_with_span (mk l0 (Some (l0 + zlen ls - 1)) (join_nl ls) f) a (Some b)) = l0 + Z.of_nat i /\
  s_l1 (clone_with_span (mk l0 (Some (l0 + zlen ls - 1)) (join_nl ls) f) a (Some b)) = Some (l0 + Z.of_nat j) /\
  s_str (clone_with_span (mk l0 (Some (l0 + zlen ls - 1)) (join_nl ls) f) a (Some b)) = slice a b (join_nl ls) /\
  s_str (clone_with_span (mk l0 (Some (l0 + zlen ls - 1)) (join_nl ls) f) a (Some b)) = text_between ls i ca j cb /\
  s_file (clone_with_span (mk l0 (Some (l0 + zlen ls - 1)) (join_nl ls) f) a (Some b)) = f.
Proof. exact span_lines_correct. Qed.
Print Assumptions C20_span_lines_correct.

(** every offset of the text lies on one and only one (line, column): the theorem above covers all in-range spans *)
Theorem C20_offset_on_one_line : forall ls a, ls <> [] -> (a <= slen (join_nl ls))%nat ->
  (exists i l ca, nth_error ls i = Some l /\ (ca <= slen l)%nat /\ a = (line_start ls i + ca)%nat) /\
  (forall i i' l l' ca ca', nth_error ls i = Some l -> nth_error ls i' = Some l' ->
     (ca <= slen l)%nat -> (ca' <= slen l')%nat ->
     a = (line_start ls i + ca)%nat -> a = (line_start ls i' + ca')%nat -> i = i' /\ ca = ca').
Proof.
  intros ls a Hne Ha. split; [exact (offset_line_exists ls Hne a Ha)|].
  intros i i' l l' ca ca' Hi Hi' Hc Hc' E E'. apply (offset_line_unique ls i i' l l' ca ca' Hi Hi' Hc Hc'). congruence.
Qed.
Print Assumptions C20_offset_on_one_line.

(** an open end (None) and an end beyond the string mean "up to the end"; the result always has as many lines
    as its string *)
Theorem C20_span_end_cases : forall src a,
  clone_with_span src a None = clone_with_span src a (Some (slen (s_str src))) /\
  (forall b, (slen (s_str src) <= b)%nat -> clone_with_span src a (Some b) = clone_with_span src a (Some (slen (s_str src)))) /\
  (forall ob, consistent (clone_with_span src a ob) = true).
Proof.
  intros src a. split; [apply clone_with_span_none|]. split; [intros b; apply clone_with_span_clamp|].
  intros ob. apply clone_with_span_consistent.
Qed.
Print Assumptions C20_span_end_cases.

(** * find / clone_with_string *)
(** when find returns a span without the ignore_space fall-back (ignore_space off, or the folded string occurs as
    it is), the text at the span equals the searched string up to the requested case folding, and it is the
    first such place *)
Theorem C20_find_locates : forall hay needle ic isp a b,
  (isp = false \/ find_sub (fold_case ic needle) (fold_case ic hay) <> None) ->
  find hay needle ic isp = FSpan a b ->
  b = (a + slen needle)%nat /\ (b <= slen hay)%nat /\
  fold_case ic (slice a b hay) = fold_case ic needle /\
  (forall k, (k < a)%nat -> fold_case ic (slice k (k + slen needle) hay) <> fold_case ic needle).
Proof. exact find_locates. Qed.
Print Assumptions C20_find_locates.

Theorem C20_find_none_means_absent : forall hay needle ic,
  find hay needle ic false = FNone ->
  hay = EmptyString \/ forall k, fold_case ic (slice k (k + slen needle) hay) <> fold_case ic needle.
Proof. exact find_FNone_absent. Qed.
Print Assumptions C20_find_none_means_absent.

(** the ignore_space fall-back only guarantees: start of the first occurrence of the first token, end of the
    first occurrence of the last token *)
Theorem C20_find_space_partial : forall hay needle ic a b,
  find_sub (fold_case ic needle) (fold_case ic hay) = None ->
  find hay needle ic true = FSpan a b ->
  exists t0 tl il, hd_error (split_ws (fold_case ic needle)) = Some t0 /\
    tl = List.last (split_ws (fold_case ic needle)) t0 /\
    find_sub t0 (fold_case ic hay) = Some a /\ find_sub tl (fold_case ic hay) = Some il /\ b = (il + slen tl)%nat /\
    slice a (a + slen t0) (fold_case ic hay) = t0 /\ slice il b (fold_case ic hay) = tl.
Proof. exact find_space_partial. Qed.
Print Assumptions C20_find_space_partial.

(** ... so the unconditional statement fails: reversed span, extra text inside the span, IndexError; and the
    frontend's literal look-up returns a continued character literal with its continuation markers *)
Theorem C20_find_locates_refuted :
  find "c a" "a  c" true true = FSpan 2%nat 1%nat /\
  (find "a + b * a" "a  *" true true = FSpan 0%nat 7%nat /\
   remove_ws (lower (slice 0%nat 7%nat "a + b * a")) <> remove_ws (lower "a  *")) /\
  find "x" " " true true = FIndexError /\
  (exists r, clone_with_string (mk 3 (Some 4) continued_literal None) "'hello world'" true true = Some r /\
     s_str r = ("'hello &" ++ String nl "     &world'")%string /\ s_l0 r = 3 /\ s_l1 r = Some 4).
Proof.
  split; [exact find_space_reversed|]. split; [exact find_space_extra|].
  split; [exact find_space_index_error|exact cws_continued_literal].
Qed.
Print Assumptions C20_find_locates_refuted.

(** clone_with_string on the class: the result lies on the lines l0+i .. l0+j of the text that hold the located
    string, which equals the searched one up to case *)
Theorem C20_clone_with_string_located : forall ls l0 f needle ic isp r,
  forallb no_nl ls = true -> ls <> [] ->
  (isp = false \/ find_sub (fold_case ic needle) (fold_case ic (join_nl ls)) <> None) ->
  find (join_nl ls) needle ic isp <> FNone ->
  clone_with_string (mk l0 (Some (l0 + zlen ls - 1)) (join_nl ls) f) needle ic isp = Some r ->
  exists i ca j cb,
    (i <= j < List.length ls)%nat /\
    s_l0 r = l0 + Z.of_nat i /\ s_l1 r = Some (l0 + Z.of_nat j) /\
    s_str r = text_between ls i ca j cb /\ fold_case ic (s_str r) = fold_case ic needle /\ s_file r = f.
Proof. exact clone_with_string_located. Qed.
Print Assumptions C20_clone_with_string_located.

(** * join_source_list *)
(** sources that are consistent (as many lines as their string) and do not overlap: the joined source runs from
    the first start to the last end, is consistent, keeps the first file, and holds part k at offset
    join_offset .. k, which is the line where that part starts *)
Theorem C20_join_covers : forall s rest r,
  ordered_sources (s_l0 s) (s :: rest) = true ->
  join_source_list (s :: rest) = Some r ->
  s_l0 r = s_l0 s /\ s_l1 r = s_l1 (List.last (s :: rest) s) /\ consistent r = true /\ s_file r = s_file s /\
  forall k p, nth_error (s :: rest) k = Some p ->
    slice (join_offset (s_l0 s) (s :: rest) k) (join_offset (s_l0 s) (s :: rest) k + slen (s_str p)) (s_str r) = s_str p /\
    s_l0 r + count_nl (stake (join_offset (s_l0 s) (s :: rest) k) (s_str r)) = s_l0 p.
Proof. exact join_covers. Qed.
Print Assumptions C20_join_covers.

(** on this class the call does not trip the Source constructor's assertion *)
Theorem C20_join_no_assertion_on_class : forall s rest r,
  ordered_sources (s_l0 s) (s :: rest) = true ->
  join_source_list (s :: rest) = Some r -> join_source_list_py (s :: rest) = JSrc r.
Proof. exact join_no_assertion_on_class. Qed.
Print Assumptions C20_join_no_assertion_on_class.

(** overlapping parts: inconsistent result, or AssertionError when a part lies before the first one *)
Theorem C20_join_overlap_refuted :
  (exists a b r, consistent a = true /\ consistent b = true /\
    join_source_list [a; b] = Some r /\ consistent r = false) /\
  join_source_list_py [mk 6 (Some 6) "x" None; mk 2 (Some 2) "y" None] = JAssertErr.
Proof. split; [exact join_overlap_refuted|exact join_overlap_assert]. Qed.
Print Assumptions C20_join_overlap_refuted.

(** * FortranReader *)
(** sanitized_spans: one entry per sanitised line plus one, starting at 0, strictly increasing; sanitized_string
    is the joined sanitised lines *)
Theorem C20_reader_spans_increasing : forall src items,
  List.length (rd_spans (mk_reader src items)) = S (List.length (rd_san (mk_reader src items))) /\
  nth_error (rd_spans (mk_reader src items)) 0 = Some 0 /\
  rd_str (mk_reader src items) = join_nl (map r_text (rd_san (mk_reader src items))) /\
  forall k t x y, (k < t)%nat ->
    nth_error (rd_spans (mk_reader src items)) k = Some x -> nth_error (rd_spans (mk_reader src items)) t = Some y -> x < y.
Proof.
  intros src items. destruct (spans_shape src items) as (A & B & C).
  split; [exact A|]. split; [exact B|]. split; [exact C|]. exact (spans_incr src items).
Qed.
Print Assumptions C20_reader_spans_increasing.

(** the sanitised -> original line map of the modelled line reader, for every text:
    - every item's span lies inside the text;
    - when no '!$' comment sits inside a statement, the sanitised lines are in strictly increasing reading order
      (statements of one ';' list share their span);
    - every logical line is made of pieces of physical lines with increasing numbers, the first on line g_s and
      the last on line g_e, which hold code; all other lines of g_s..g_e are blank or comment lines;
    - every statement item carries the span of such a logical line and its text is one of its ';' pieces *)
Theorem C20_reader_map_monotone_and_exact : forall ls,
  Forall (span_ok_p (zlen ls)) (fp_read ls) /\
  (inner_ok (fp_read ls) = true -> StronglySorted after_p (sanitize (fp_read ls))) /\
  Forall (group_exact ls) (groups_of (scan 1 None ls)) /\
  (forall x, In x (fp_read ls) -> r_kind x = KLine ->
     exists g, In g (groups_of (scan 1 None ls)) /\ r_s x = g_s g /\ r_e x = g_e g /\
               In (r_text x) (pieces (g_content g))).
Proof.
  intros ls. split; [apply fp_read_spans_ok|]. split; [apply fp_read_sanitized_sorted|].
  split; [apply fp_groups_exact|]. intros x. apply fp_read_line_from_group.
Qed.
Print Assumptions C20_reader_map_monotone_and_exact.

(** a pragma-like comment inside a continued statement breaks the order: spans (1,3) then (3,3) *)
Theorem C20_reader_map_monotone_refuted :
  map (fun x => (r_s x, r_e x)) (rd_san (reader_of_text inner_pragma_text)) = [(1, 3); (3, 3); (4, 4)].
Proof. exact inner_pragma_refuted. Qed.
Print Assumptions C20_reader_map_monotone_refuted.

(** a span of the sanitised string that starts at the start of sanitised line i and ends inside or at the end of
    sanitised line j-1 maps to the physical lines from the start of line i to the end of line j-1, with the raw
    text of exactly these lines *)
Theorem C20_span_maps_to_lines : forall src items i j x y a b p q,
  (i < j)%nat ->
  nth_error (rd_spans (mk_reader src items)) i = Some a ->
  nth_error (rd_spans (mk_reader src items)) (j - 1) = Some p ->
  nth_error (rd_spans (mk_reader src items)) j = Some q -> p < b <= q ->
  nth_error (rd_san (mk_reader src items)) i = Some x ->
  nth_error (rd_san (mk_reader src items)) (j - 1) = Some y ->
  1 <= r_s x -> r_s x <= r_e y -> r_e y <= zlen src ->
  source_from_span (mk_reader src items) a (Some b) false =
    (if sempty (join_nl (firstn (Z.to_nat (r_e y - r_s x + 1)) (skipn (Z.to_nat (r_s x - 1)) src))) then Ok None
     else Ok (Some (mk (r_s x) (Some (r_e y))
                       (join_nl (firstn (Z.to_nat (r_e y - r_s x + 1)) (skipn (Z.to_nat (r_s x - 1)) src))) None))).
Proof. exact source_from_span_aligned. Qed.
Print Assumptions C20_span_maps_to_lines.

(** ... and when the sanitised lines are in reading order this range contains the physical lines of every
    sanitised line in between *)
Theorem C20_span_contains_touched_lines : forall n (l : list ritem),
  StronglySorted after_p l -> Forall (span_ok_p n) l ->
  forall k t x y, (k <= t)%nat -> nth_error l k = Some x -> nth_error l t = Some y ->
  r_s x <= r_s y /\ r_e x <= r_e y.
Proof. exact sorted_nth. Qed.
Print Assumptions C20_span_contains_touched_lines.

(** a span that starts inside a sanitised line loses that line *)
Theorem C20_span_midline_refuted :
  exists rd a b s, rd = reader_of_text demo_text /\
    a = 2 /\ b = 8 /\ rd_spans rd = [0; 6; 12; 18] /\
    source_from_span rd a (Some b) false = Ok (Some s) /\ s_l0 s = 2 /\ s_l1 s = Some 2.
Proof. exact span_midline_refuted. Qed.
Print Assumptions C20_span_midline_refuted.

(** with an open end (span = (a, None)) the sub-reader is consistent: its string is its joined sanitised lines and
    its spans are their line starts (this carries over to sub-readers of sub-readers) *)
Theorem C20_sub_reader_consistent_on_class : forall src items a pad sub,
  reader_from_span (mk_reader src items) a None pad = Ok (Some sub) ->
  rd_str sub = join_nl (map r_text (rd_san sub)) /\ rd_spans sub = 0 :: accum 0 (rd_san sub).
Proof. intros src items a pad sub. apply sub_reader_consistent_gen, mk_reader_consistent. Qed.
Print Assumptions C20_sub_reader_consistent_on_class.

(** a sub-reader that stops inside the text carries one sanitised line too many in its sanitized_string *)
Theorem C20_sub_reader_string_refuted :
  exists rd sub, rd = reader_of_text demo_text /\
    reader_from_span rd 0 (Some 5) false = Ok (Some sub) /\
    map r_text (rd_san sub) = ["a = 1"%string] /\
    rd_str sub = ("a = 1" ++ String nl ("b = 2" ++ String nl ""))%string.
Proof. exact sub_reader_string_refuted. Qed.
Print Assumptions C20_sub_reader_string_refuted.
