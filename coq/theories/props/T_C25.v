(** C25 — renaming, duplicating and removing items keeps the graph consistent: property theorems. *)
From Coq Require Import List Bool String Ascii Arith.
From LV Require Import models.M_C25 proofs.P_C25_graph proofs.P_C25_keys proofs.P_C25 proofs.P_C25_stable.
Import ListNotations.
Open Scope string_scope.
Open Scope list_scope.

(** [inv seed st]: every cache key is the name of the item stored under it and keys are pairwise distinct; the seeds
    are nodes; every dependency of a node (call, import, interface block, planned addition, minus planned removals) is a
    node; every edge joins two nodes and is a dependency of its source; every node is reachable from the seed. *)

Theorem C25_init_inv :
  forall disk seed st, init disk seed = Some st -> inv seed st.
Proof. exact init_inv. Qed.
Print Assumptions C25_init_inv.

(** one processing step (transformation, rekey_item_cache, re-discovery, graph rebuild) of any of the four
    transformations re-establishes the invariant; only the uniqueness of the cache keys is needed of the state before *)
Theorem C25_step_inv :
  forall disk seed st o st',
    kok (st_cache st) -> step disk seed st o = Some st' -> inv (next_seeds o st seed) st' /\ kok (st_cache st').
Proof. exact step_inv. Qed.
Print Assumptions C25_step_inv.

(** hence for every operation history, of any length, from any generated project *)
Theorem C25_history_inv :
  forall disk seed ops st0 sts,
    init disk seed = Some st0 -> run disk seed st0 ops = Some sts ->
    Forall2 inv (seed :: run_seeds disk seed st0 ops) (st0 :: sts).
Proof. exact history_inv_from_init. Qed.
Print Assumptions C25_history_inv.

Theorem C25_fold_history_inv :
  forall disk seed ops st0 seed' st,
    init disk seed = Some st0 -> fold_left (step_opt disk) ops (Some (seed, st0)) = Some (seed', st) -> inv seed' st.
Proof. exact fold_history_inv. Qed.
Print Assumptions C25_fold_history_inv.

(** Scheduler.rekey_item_cache: whatever the transformation did to the item names, afterwards every key is the name
    of its item and the keys are distinct (unconditional) *)
Theorem C25_rekey_keys_are_names :
  forall st, keys_are_names (rekey st) = true /\ keys_distinct (rekey st) = true.
Proof. exact rekey_keys_are_names. Qed.
Print Assumptions C25_rekey_keys_are_names.

(** ... and it is needed: between the transformation and the re-keying the keys are stale *)
Theorem C25_rekey_needed :
  exists st0, init ex_disk ex_seed = Some st0 /\
              keys_are_names (apply_dep "_test" "_mod" st0) = false /\
              keys_are_names (rekey (apply_dep "_test" "_mod" st0)) = true.
Proof. exact rekey_needed. Qed.
Print Assumptions C25_rekey_needed.

(** the rebuilt graph, for any cache and sources: dependency-closed, no dangling edge, nothing unreachable *)
Theorem C25_rebuild_spec :
  forall seed st st',
    rebuild seed st = Some st' ->
    incl seed (st_nodes st') /\
    (forall x d, In x (st_nodes st') -> In d (deps_of st' x) -> In d (st_nodes st')) /\
    (forall x y, In (x, y) (st_edges st') -> In x (st_nodes st') /\ In y (st_nodes st') /\ In y (deps_of st' x)) /\
    (forall x, In x (st_nodes st') -> exists s, In s seed /\ reach st' s x).
Proof. exact rebuild_spec. Qed.
Print Assumptions C25_rebuild_spec.

(** a later processing visits exactly the surviving procedure nodes, all of them reachable from the seed *)
Theorem C25_later_processing_visits_survivors :
  forall seed st, inv seed st ->
    forall x, In x (visits st) <->
              exists s r, x = (s ++ "#" ++ r)%string /\ In (NProc s r) (st_nodes st) /\
                          exists s0, In s0 seed /\ reach st s0 (NProc s r).
Proof. exact later_processing_visits_survivors. Qed.
Print Assumptions C25_later_processing_visits_survivors.

(** ... and the graph it traverses is stable: re-discovery + rebuild (what the scheduler does after any item-creating
    transformation that changes nothing) reproduce exactly the same nodes, edges, cache and sources *)
Theorem C25_later_processing_stable :
  forall disk seed st o st',
    step disk seed st o = Some st' ->
    exists st'', reprocess disk (next_seeds o st seed) st' = Some st'' /\ st_nodes st'' = st_nodes st' /\
                 st_edges st'' = st_edges st' /\ st_cache st'' = st_cache st' /\ st_srcs st'' = st_srcs st'.
Proof. exact later_processing_stable. Qed.
Print Assumptions C25_later_processing_stable.

(** PARTIAL: the invariant above does not say that a dependency resolves to a DEFINED program unit of the output
    (no external node, every imported module written).  That part ([consistent_b]) is evaluated on every state of
    every history of the correspondence run; its preservation by the four transformations is not proved.  It fails
    outside the class: *)
Theorem C25_remove_leaves_import_refuted :
  exists st0 st1,
    init ex_disk2 ex_seed = Some st0 /\ consistent_b st0 = true /\
    step ex_disk2 ex_seed st0 (ORem "ka") = Some st1 /\
    inv_b st1 = true /\ imports_written st1 = false.
Proof. exact remove_leaves_import_refuted. Qed.
Print Assumptions C25_remove_leaves_import_refuted.

(** class boundary of the model: steps whose real behaviour breaks the graph are undefined *)
Theorem C25_same_suffix_twice_outside_class :
  exists st0 st1,
    init ex_disk ex_seed = Some st0 /\ step ex_disk ex_seed st0 (ODep "_test" "_mod") = Some st1 /\
    step ex_disk ex_seed st1 (ODep "_test" "_mod") = None.
Proof. exact same_suffix_twice_outside_class. Qed.
Print Assumptions C25_same_suffix_twice_outside_class.

Theorem C25_wrap_without_interface_outside_class :
  exists st0, init ex_disk3 ex_seed = Some st0 /\ step ex_disk3 ex_seed st0 (OWrap "_mod") = None.
Proof. exact wrap_without_interface_outside_class. Qed.
Print Assumptions C25_wrap_without_interface_outside_class.

(** several seeds, two of them kernel entry points: Scheduler.seeds is renamed element-wise and the renamed entry points
    are nodes of the graph *)
Theorem C25_multi_seed_history :
  exists st0 sts,
    init ex_disk ex_seeds2 = Some st0 /\ run ex_disk ex_seeds2 st0 [OWrap "_mod"; ODep "_test" "_mod"] = Some sts /\
    forallb consistent_b (st0 :: sts) = true /\
    seeds_after ex_disk ex_seeds2 st0 [OWrap "_mod"; ODep "_test" "_mod"] =
      [NProc "" "driver"; NProc "m_test_mod" "kc_test"; NProc "kf_test_mod" "kf_test"] /\
    forallb (fun n => mem_n n (st_nodes (last sts st0)))
            [NProc "" "driver"; NProc "m_test_mod" "kc_test"; NProc "kf_test_mod" "kf_test"] = true.
Proof. exact multi_seed_history. Qed.
Print Assumptions C25_multi_seed_history.

(** a non-trivial history (duplicate with subgraph, module wrap, suffixing, removal) inside the class *)
Theorem C25_example_history :
  exists st0 sts st,
    init ex_disk ex_seed = Some st0 /\ run ex_disk ex_seed st0 ex_ops = Some sts /\
    forallb consistent_b (st0 :: sts) = true /\
    last sts st0 = st /\
    names_of st = ["#driver"; "d_mod"; "m_test_mod#ka_test"; "m_mod_dup_test_mod#ka_dup_test"; "kf_test_mod#kf_test";
                   "l_test_mod#kl_test"; "l_mod_dup_test_mod#kl_dup_test"; "m_test_mod#kb_test"] /\
    visits st = ["#driver"; "m_test_mod#ka_test"; "m_mod_dup_test_mod#ka_dup_test"; "kf_test_mod#kf_test";
                 "l_test_mod#kl_test"; "l_mod_dup_test_mod#kl_dup_test"; "m_test_mod#kb_test"].
Proof. exact example_history. Qed.
Print Assumptions C25_example_history.
