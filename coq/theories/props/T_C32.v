(** C32 — property theorems only. *)
From Coq Require Import ZArith List Bool String.
From LV Require Import Base.Expr Base.MiniF Base.MiniFFacts models.M_C32
  proofs.P_C32 proofs.P_C32_cond proofs.P_C32_cp proofs.P_C32_dce proofs.P_C32_refute proofs.P_C32_unused proofs.P_C32_call.
Import ListNotations.
Open Scope Z_scope.

(** expression rewriting (substitute known constants, fold literal arithmetic with truncating division) keeps the
    value -- and the undefinedness -- of every expression under any store the map describes *)
Theorem C32_fold_sound : forall m s e e',
  agrees m s -> simp_e true m e = Some e' -> evalZ (env_st s) e' = evalZ (env_st s) e.
Proof. exact (simp_e_sound true). Qed.
Print Assumptions C32_fold_sound.

Theorem C32_cond_fold_sound : forall force m s c c',
  agrees m s -> simp_cond force m c = Some c' -> evalB (env_st s) c' = evalB (env_st s) c.
Proof. intros force m s c c' A. exact (simp_cond_sound force m s A c c'). Qed.
Print Assumptions C32_cond_fold_sound.

(** the constants map stays a sound description of the store across every statement of the class *)
Theorem C32_cmap_sound : forall ps n wl m st st' m' s s',
  cp true n wl m [st] = Some ([st'], m') -> agrees m s -> runs ps [st] s s' -> agrees m' s'.
Proof. exact cmap_sound. Qed.
Print Assumptions C32_cmap_sound.

(** constant propagation from the empty map: the output is equivalent to the input, for every store, every set of
    procedures, every program of the class (no size bound) *)
Theorem C32_constprop_preserves_on_class : forall ps n p p',
  constprop n p = Some p' -> equiv ps p' p.
Proof. exact constprop_preserves. Qed.
Print Assumptions C32_constprop_preserves_on_class.

(** partial (second pass of unroll_loops=True): a pass that starts from a non-empty map preserves behaviour only
    from stores that the map describes *)
Theorem C32_constprop_from_map_partial : forall ps n m p p' m',
  cp true n false m p = Some (p', m') ->
  forall s s', agrees m s -> (runs ps p' s s' <-> runs ps p s s').
Proof. exact cp_from_preserves. Qed.
Print Assumptions C32_constprop_from_map_partial.

(** the unconditional statement is false for what Loki computes (class conditions switched off) *)
Theorem C32_constprop_refuted : exists ps p p', constprop_raw 30 p = Some p' /\ ~ equiv ps p' p.
Proof. exact constprop_unconditional_refuted. Qed.
Print Assumptions C32_constprop_refuted.

Theorem C32_constprop_refuted_witnesses :
  refuted [] W_incr [] ["y"%string] /\ refuted [] W_loopdep [] ["d"%string] /\
  refuted [] W_zerotrip [] ["y"%string] /\ refuted [] W_carried [("n"%string, 2)] ["y"%string] /\
  refuted [] W_while [("k"%string, 5)] ["y"%string] /\ refuted [("setv"%string, setv)] W_call [] ["y"%string].
Proof.
  repeat split; [exact refuted_incr|exact refuted_loopdep|exact refuted_zerotrip|exact refuted_carried
                |exact refuted_while|exact refuted_call].
Qed.
Print Assumptions C32_constprop_refuted_witnesses.

Theorem C32_second_pass_refuted :
  exists p1 m1 p3 m3,
    cp true 30 false [] W_stale = Some (p1, m1) /\ cp true 30 false m1 p1 = Some (p3, m3) /\
    differs [] 60 W_stale p3 [("x"%string, 7)] ["y"%string] = true.
Proof. exact second_pass_refuted. Qed.
Print Assumptions C32_second_pass_refuted.

(** dead-code removal: replacing a conditional whose condition folds to a literal by the taken branch (nested,
    inside loops, with or without simplification of the condition) preserves behaviour *)
Theorem C32_deadcode_preserves : forall ps u p p', dce u p = Some p' -> equiv ps p' p.
Proof. exact deadcode_preserves. Qed.
Print Assumptions C32_deadcode_preserves.

(** removal of unused variables: a program cannot tell apart two stores that differ only on names that do not occur in
    it (scalars and arrays, through loops and calls), and it runs to stores that differ only there *)
Theorem C32_nonoccurring_names_irrelevant : forall ps f (X : string -> Prop) p s1 s2 s1',
  (forall x, X x -> occurs_l x p = false) -> sim X s1 s2 -> exec ps f p s1 = Some s1' ->
  exists s2', exec ps f p s2 = Some s2' /\ sim X s1' s2'.
Proof. exact exec_sim. Qed.
Print Assumptions C32_nonoccurring_names_irrelevant.

Theorem C32_remove_unused_preserves : forall ps x p s s' v,
  occurs_l x p = false -> runs ps p s s' ->
  exists s'', runs ps p (set_sv x v s) s'' /\ sim (eq x) s' s''.
Proof. exact unused_var_irrelevant. Qed.
Print Assumptions C32_remove_unused_preserves.

Theorem C32_remove_unused_array_preserves : forall ps x p s s' g,
  occurs_l x p = false -> runs ps p s s' ->
  exists s'', runs ps p (set_arr x g s) s'' /\ sim (eq x) s' s''.
Proof. exact unused_array_irrelevant. Qed.
Print Assumptions C32_remove_unused_array_preserves.

(** what find_unused_dummy_args_and_vars (as modelled) reports as an unused local does not occur in the body, unless it
    is a DO variable (the exception is finding F32-13) *)
Theorem C32_unused_locals_do_not_occur_on_class : forall args decls body x,
  In x (unused_locals args decls body) -> ~ In x (flat_map loopvars body) -> occurs_l x body = false.
Proof. exact unused_locals_do_not_occur. Qed.
Print Assumptions C32_unused_locals_do_not_occur_on_class.

(** partial (dummy arguments + call arguments): the callee computes the same values for every name outside the
    removed dummies whether or not they, and the matching actual arguments, are passed.  Not covered by a theorem:
    the copy-out into the caller (checked by the oracle on every `unused` case). *)
Theorem C32_remove_dummy_callee_partial : forall ps (X : string -> Prop) ks params body s args f c1 c1',
  rem_ok X 0 ks params -> (forall x, X x -> occurs_l x body = false) ->
  copy_in s params args empty_store = Some c1 -> exec ps f body c1 = Some c1' ->
  exists c2 c2', copy_in s (remove_pos ks params) (remove_pos ks args) empty_store = Some c2
                 /\ exec ps f body c2 = Some c2' /\ sim X c1' c2'.
Proof. exact remove_dummy_callee_partial. Qed.
Print Assumptions C32_remove_dummy_callee_partial.

(** removing unused scalar dummies of a procedure together with the matching actual arguments of a CALL: the call
    has the same effect on the caller's store (extensionally), provided dummy names are distinct, variable actuals
    are distinct (no aliasing), the removed dummies do not occur in the callee body, and the callee body runs
    alike under both procedure tables (e.g. it contains no call to a changed procedure).  Partial: array dummies
    are not removed here ([rem_ok] requires scalars). *)
Theorem C32_remove_dummy_with_callargs_partial : forall ps ps' (X : string -> Prop) g P ks args s s' f,
  find_proc ps g = Some P -> find_proc ps' g = Some (rm_dummies ks P) ->
  (forall f0 s0, exec ps' f0 (p_body P) s0 = exec ps f0 (p_body P) s0) ->
  NoDup (map fst (p_params P)) -> NoDup (evars args) ->
  rem_ok X 0 ks (p_params P) -> kept_ok X 0 ks (p_params P) ->
  (forall x, X x -> occurs_l x (p_body P) = false) ->
  exec1 ps f (SCall g args) s = Some s' ->
  exists s'', exec1 ps' f (SCall g (remove_pos ks args)) s = Some s'' /\ sim none s' s''.
Proof. exact remove_dummy_call_preserves. Qed.
Print Assumptions C32_remove_dummy_with_callargs_partial.
