(** C37 — single-column (SCC) pipelines preserve driver and kernel results: the property theorems.
    A verified relation: [V] (M_C37) is evaluated by every run of the check on (original, Loki's output). *)
From Coq Require Import ZArith List Bool String.
From LV Require Import Base.Expr Base.MiniF Base.MiniFFacts models.M_C37
     proofs.P_C37_base proofs.P_C37_in proofs.P_C37_out proofs.P_C37_dem proofs.P_C37 proofs.P_C37_wit.
Import ListNotations.
Open Scope Z_scope.

(** factorisation (forward direction, full class, any depth of vertical loops / conditionals, unbounded trip counts):
    a terminating run of a class program is, for every column [i] of the horizontal range, a run of the per-column program
    [project] started with [h = i]; its column-[i] cells are the cells of the global result; nothing else is written *)
Theorem C37_factorises_fwd : forall k ps p s s',
  in_class k false p = true -> runs ps p s s' ->
  (forall i, sv s (k_lo k) <= i <= sv s (k_hi k) ->
     exists ci, runs ps (project (k_h k) p) (set_sv (k_h k) i s) ci /\
                (forall a r, mem a (k_H k) = true -> av s' a (i :: r) = av ci a (i :: r))) /\
  (forall a idx, outside k s a idx -> av s' a idx = av s a idx).
Proof. exact factorises_fwd. Qed.
Print Assumptions C37_factorises_fwd.

(** soundness of the validator on call-free bodies (vector variant, and the sequential variant after wrapping the
    transformed body in the horizontal loop): all arrays except the demoted temporaries agree *)
Theorem C37_V_sound : forall seqv ar h lo hi H Dm p p' ps s s1 s1',
  V false seqv ar h lo hi H Dm p p' = true ->
  runs ps p s s1 -> runs ps p' s s1' -> arrays_agree_except Dm s1 s1'.
Proof. exact V_sound. Qed.
Print Assumptions C37_V_sound.

(** two class programs (possibly with different sets of local scalars) with the same column program compute the same arrays *)
Theorem C37_same_projection_same_arrays : forall k k' ps p p' s s1 s1',
  in_class k false p = true -> in_class k' false p' = true ->
  k_h k' = k_h k -> k_lo k' = k_lo k -> k_hi k' = k_hi k -> k_H k' = k_H k ->
  project (k_h k) p = project (k_h k) p' ->
  runs ps p s s1 -> runs ps p' s s1' -> forall a idx, av s1 a idx = av s1' a idx.
Proof. exact same_projection_same_arrays. Qed.
Print Assumptions C37_same_projection_same_arrays.

(** demotion t(h) -> t is a simulation of column programs *)
Theorem C37_demote_sound : forall h Dm ps i, mem h Dm = false -> disjoint Dm intrinsic_names = true ->
  forall q c c' c1, dclean h Dm false q = true -> drel h Dm i c c' -> runs ps q c c1 ->
  exists c1', runs ps (demote h Dm q) c' c1' /\ drel h Dm i c1 c1'.
Proof. intros h Dm ps i A B q c c' c1. exact (dem_sim h Dm ps i A B q c c' c1). Qed.
Print Assumptions C37_demote_sound.

(** the loop-distribution core of SCCDevector + SCCRevector *)
Theorem C37_loop_distribution : forall k ps A B s s1 s2,
  in_class k false [hl k A; hl k B] = true ->
  runs ps [hl k A; hl k B] s s1 -> runs ps [hl k (A ++ B)] s s2 ->
  forall a idx, av s1 a idx = av s2 a idx.
Proof. exact loop_distribution. Qed.
Print Assumptions C37_loop_distribution.

Theorem C37_fusion_stays_in_class : forall k A B,
  in_class k false [hl k A; hl k B] = true -> in_class k false [hl k (A ++ B)] = true.
Proof. exact fusion_in_class. Qed.
Print Assumptions C37_fusion_stays_in_class.

Theorem C37_loop_distribution_n : forall k ps bodies s s1 s2,
  in_class k false (hloops k bodies) = true -> in_class k false [hl k (List.concat bodies)] = true ->
  runs ps (hloops k bodies) s s1 -> runs ps [hl k (List.concat bodies)] s s2 ->
  forall a idx, av s1 a idx = av s2 a idx.
Proof. exact loop_distribution_n. Qed.
Print Assumptions C37_loop_distribution_n.

(** a vertical loop moves inside the horizontal loop *)
Theorem C37_loop_interchange : forall k1 k2 ps v lo hi st A s s1 s2,
  k_h k2 = k_h k1 -> k_lo k2 = k_lo k1 -> k_hi k2 = k_hi k1 -> k_H k2 = k_H k1 ->
  in_class k1 false [SDo v lo hi st [hl k1 A]] = true ->
  in_class k2 false [hl k2 [SDo v lo hi st A]] = true ->
  runs ps [SDo v lo hi st [hl k1 A]] s s1 -> runs ps [hl k2 [SDo v lo hi st A]] s s2 ->
  forall a idx, av s1 a idx = av s2 a idx.
Proof. exact loop_interchange. Qed.
Print Assumptions C37_loop_interchange.

(** the hypotheses are satisfiable by a non-trivial instance (two horizontal loops + vertical loop, demoted temporary) *)
Theorem C37_class_inhabited :
  V false false [] "jl" "start" "end" ["a"; "c"; "t"] ["t"] ex_p ex_p' = true /\
  runs [] ex_p ex_s (run ex_p ex_s) /\ runs [] ex_p' ex_s (run ex_p' ex_s) /\
  av (run ex_p ex_s) "a" [2; 3] = 30 /\ av (run ex_p' ex_s) "a" [2; 3] = 30.
Proof. split; [exact ex_V|exact ex_runs]. Qed.
Print Assumptions C37_class_inhabited.

(** equal column programs are NOT enough: the transformed program must be in the class too (a counter initialised outside
    the re-created horizontal loop keeps counting across columns) *)
Theorem C37_wrapped_counter_refuted :
  project "jl" w1_p = project "jl" w1_p' /\
  in_class (mk_ctx "jl" "start" "end" ["a"] (locals "jl" w1_p)) false w1_p = true /\
  V false false [] "jl" "start" "end" ["a"] [] w1_p w1_p' = false /\
  runs [] w1_p w1_s (run w1_p w1_s) /\ runs [] w1_p' w1_s (run w1_p' w1_s) /\
  av (run w1_p w1_s) "a" [2; 1] = 1 /\ av (run w1_p' w1_s) "a" [2; 1] = 3.
Proof. exact wrapped_counter_refuted. Qed.
Print Assumptions C37_wrapped_counter_refuted.

(** demotion without the written-before-read condition changes results *)
Theorem C37_demote_carried_refuted :
  demote "jl" ["t"] (project "jl" w2_p) = project "jl" w2_p' /\
  in_class (mk_ctx "jl" "start" "end" ["a"; "c"; "t"] (locals "jl" w2_p)) false w2_p = true /\
  V false false [] "jl" "start" "end" ["a"; "c"; "t"] ["t"] w2_p w2_p' = false /\
  runs [] w2_p w2_s (run w2_p w2_s) /\ runs [] w2_p' w2_s (run w2_p' w2_s) /\
  av (run w2_p w2_s) "a" [1; 2] = 10 /\ av (run w2_p' w2_s) "a" [1; 2] = 20.
Proof. exact demote_carried_refuted. Qed.
Print Assumptions C37_demote_carried_refuted.
