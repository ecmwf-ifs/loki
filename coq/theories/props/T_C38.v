(** C38 — property theorems only (temporaries: stack / pool allocation and hoisting). *)
From Coq Require Import ZArith List Bool String.
From LV Require Import Base.Expr Base.MiniF models.M_C38 proofs.P_C38_expr proofs.P_C38 proofs.P_C38_more proofs.P_C38_hoist proofs.P_C38_hclass.
Import ListNotations.
Open Scope Z_scope.

(** Enough storage on every call path: for every call tree whose size expressions and actual arguments only mention
    the dummies of the kernel they occur in, and every valuation on which the allocation protocol runs (all sizes
    defined and non-negative), the highest value the stack pointer reaches is EXACTLY start + the value of the size
    expression [_determine_stack_size] builds ([dbl = true], the FtrPtr/DirectIdx variant, only for idempotent calls). *)
Theorem C38_highwater_eq_size : forall dbl g k rho p live d h sn,
  closed_tree k = true -> (dbl = true -> idem_tree k = true) -> funeq rho g ->
  sim g k rho p live = Some (d, h, sn) ->
  evalZ rho (ssize dbl k) = Some (h - p) /\ p <= h.
Proof. exact highwater_eq_size. Qed.
Print Assumptions C38_highwater_eq_size.

Theorem C38_highwater_le_size : forall g k rho p live d h sn v,
  closed_tree k = true -> funeq rho g ->
  sim g k rho p live = Some (d, h, sn) -> evalZ rho (ssize false k) = Some v -> h <= p + v.
Proof. exact highwater_le_size. Qed.
Print Assumptions C38_highwater_le_size.

(** At every kernel activation the live temporaries (its own and those of all its callers) are pairwise disjoint and
    lie inside [base, base + computed size). *)
Theorem C38_allocations_disjoint : forall dbl g k rho base d h sn v,
  closed_tree k = true -> (dbl = true -> idem_tree k = true) -> funeq rho g ->
  sim g k rho base [] = Some (d, h, sn) -> evalZ rho (ssize dbl k) = Some v ->
  Forall (fun s => ForallOrdPairs disjoint s /\
                   Forall (fun iv => base <= fst iv /\ fst iv <= snd iv /\ snd iv <= base + v) s) sn.
Proof. exact allocations_disjoint. Qed.
Print Assumptions C38_allocations_disjoint.

(** After any sequence of calls the caller's stack pointer is what it was before (the callee copies the dummy and
    never assigns it). *)
Theorem C38_stack_reset_after_call : forall g cs rho pl live pl' h sn,
  simcs g cs rho pl live = Some (pl', h, sn) -> pl' = pl.
Proof. exact simcs_reset. Qed.
Print Assumptions C38_stack_reset_after_call.

(** A size/shape expression of the callee with the dummies replaced by the call's actuals has, in the caller, the
    value it has in the callee; and so along a whole call path down from the driver. *)
Theorem C38_hoist_size_subst_correct : forall g rho ps acts rc e,
  call_env g rho ps acts = Some rc -> closedb ps e = true -> funeq rho g ->
  evalZ rho (subst (combine ps acts) e) = evalZ rc e.
Proof. exact hoist_size_subst_correct. Qed.
Print Assumptions C38_hoist_size_subst_correct.

Theorem C38_hoist_path_subst_correct : forall g cur rho path rl e,
  closed_path cur path e = true -> funeq rho g -> env_path g rho path = Some rl ->
  evalZ rho (subst_path path e) = evalZ rl e.
Proof. exact hoist_path_subst_correct. Qed.
Print Assumptions C38_hoist_path_subst_correct.

(** The per-block slices of the driver's stack do not overlap and stay inside the allocation. *)
Theorem C38_block_ranges_disjoint : forall size nb b1 b2,
  0 <= size -> 1 <= b1 -> b1 < b2 -> b2 <= nb ->
  block_base size b1 + size <= block_base size b2 /\ 0 <= block_base size b1 /\ block_base size b2 + size <= nb * size.
Proof. exact block_ranges_disjoint. Qed.
Print Assumptions C38_block_ranges_disjoint.

(** Pool allocator units: ISHFT(bytes + 7, -3) 8-byte words cover the bytes of the temporary (and waste < 8). *)
Theorem C38_pool_words_cover_bytes : forall n b, 0 <= n -> 0 <= b -> n * b <= 8 * ((n * b + 7) / 2 ^ 3) < n * b + 8.
Proof. exact pool_words_cover_bytes. Qed.
Print Assumptions C38_pool_words_cover_bytes.

Theorem C38_pool_units_value : forall rho t ds,
  omap_list (evalZ rho) (t_dims t) = Some ds -> 0 <= prodz ds * t_bytes t ->
  (forall f a, ev_fun rho f a = cfun f a) ->
  evalZ rho (units MPool t) = Some ((prodz ds * t_bytes t + 7) / 2 ^ 3).
Proof. exact evalZ_pool_units. Qed.
Print Assumptions C38_pool_units_value.

(** FtrPtr addressing: every element of every live temporary is an index inside 1..size. *)
Theorem C38_ftr_indices_in_bounds : forall dbl g k rho d h sn v,
  closed_tree k = true -> (dbl = true -> idem_tree k = true) -> funeq rho g ->
  sim g k rho 1 [] = Some (d, h, sn) -> evalZ rho (ssize dbl k) = Some v ->
  Forall (fun s => Forall (fun iv => forall i, 1 <= i <= snd iv - fst iv ->
                                               1 <= addr_ftr (fst iv) i <= v) s) sn.
Proof. exact ftr_indices_in_bounds. Qed.
Print Assumptions C38_ftr_indices_in_bounds.

(** Refutations of the unconditional statements (defects of the current code, witnesses computed by vm_compute). *)
(** DirectIdx: the last element of the topmost temporary has index size + 1. *)
Theorem C38_idx_off_by_one_refuted :
  exists k rho iv v,
    sim (cenv []) k rho 1 [] = Some (1, 1 + v, [[iv]]) /\ evalZ rho (ssize true k) = Some v /\
    addr_idx (fst iv) (snd iv - fst iv) > v.
Proof. exact idx_off_by_one_refuted. Qed.
Print Assumptions C38_idx_off_by_one_refuted.

Theorem C38_idx_top_index_exceeds_stack : forall lo hi v,
  hi = 1 + v -> lo < hi -> addr_idx lo (hi - lo) = v + 1.
Proof. exact idx_top_index_exceeds_stack. Qed.
Print Assumptions C38_idx_top_index_exceeds_stack.

(** FtrPtr/DirectIdx size computation: substituting twice under-estimates when an actual names another dummy. *)
Theorem C38_dbl_subst_refuted :
  exists k rho h v,
    closed_tree k = true /\
    highwater (sim (cenv []) k rho 1 []) = Some h /\
    evalZ rho (ssize true k) = Some v /\ 1 + v < h.
Proof. exact dbl_subst_refuted. Qed.
Print Assumptions C38_dbl_subst_refuted.

(** Hoisting: with two calls of one kernel the hoisted array gets the size of the LAST call. *)
Theorem C38_hoist_last_call_refuted : exists k rho, hoist_enough (cenv []) k rho = Some false.
Proof. exact hoist_last_call_refuted. Qed.
Print Assumptions C38_hoist_last_call_refuted.

(** ... while on proper call trees (pairwise distinct callees in every kernel, all hoisted names of the unfolded tree
    distinct, shapes and actuals closed over the dummies) the driver's declarations evaluate exactly to what every
    activation of every temporary needs: the hoisted storage is sufficient on every path. *)
Theorem C38_hoist_enough_on_class : forall g nm ps ts cs rho d n,
  hclosed_cs ps cs = true -> uniq_cs cs -> NoDup (call_names cs) -> NoDup (hnames_cs cs) -> funeq rho g ->
  hoist_decl (Kern nm ps ts cs) rho = Some d -> needs_cs g cs rho = Some n ->
  d = n /\ hoist_enough g (Kern nm ps ts cs) rho = Some true.
Proof. exact hoist_enough_on_class. Qed.
Print Assumptions C38_hoist_enough_on_class.

(** Hoisting preserves behaviour of one call (MiniF), PARTIAL: for a kernel body whose effect outside the local array
    [t] does not depend on the initial contents of [t] (written before read, semantic hypothesis), calling the original
    kernel and calling the kernel with [t] as extra dummy bound to ANY caller array [t'] give the same result up to [t']. *)
Theorem C38_hoist_preserves_partial : forall ps ps' k P B t t' args f s,
  find_proc ps k = Some {| p_params := P; p_body := B |} ->
  find_proc ps' k = Some {| p_params := P ++ [(t, true)]; p_body := B |} ->
  (forall f0 s0, exec ps' f0 B s0 = exec ps f0 B s0) ->
  init_insensitive ps t B ->
  ~ In t (map fst P) ->
  List.length P = List.length args ->
  orel (fun a b => exists a', store_eq a a' /\ agree_except_arr t' a' b)
       (exec1 ps f (SCall k args) s) (exec1 ps' f (SCall k (args ++ [EVar t'])) s).
Proof. exact hoist_call_preserves. Qed.
Print Assumptions C38_hoist_preserves_partial.
