(** C39 — property theorems only: parametrisation preserves behaviour for matching inputs. *)
From Coq Require Import ZArith List Bool String.
From LV Require Import Base.Expr Base.MiniF Base.MiniFFacts models.M_C39 proofs.P_C39.
Import ListNotations.
Open Scope Z_scope.

(** replacing the variables of a dictionary by their literals preserves integer and logical evaluation in
    every environment that gives these variables these values (the other environment may give them anything) *)
Theorem C39_subst_const_sound : forall D r r', env_rel D r r' ->
  (forall e, evalZ r e = evalZ r' (subst D e)) /\ (forall e, evalB r e = evalB r' (subst D e)).
Proof. intros D r r' H. split; [exact (subst_evalZ D r r' H)|exact (subst_evalB D r r' H)]. Qed.
Print Assumptions C39_subst_const_sound.

(** statements and whole call trees, any depth: for dictionaries [A] satisfying the class predicate, related
    stores are taken to related stores by the original body and its transformed version, in both directions
    (so a run-time error or divergence of one is one of the other) *)
Theorem C39_subst_stmts_sound : forall m abort A, wf_assigned A = true ->
  forall D ss s s', forallb (wf_stmt A D) ss = true -> R m D s s' ->
    (forall s1, runs (procs_orig A) ss s s1 ->
       exists s1', runs (procs_trans m abort A) (tstmts (succ_of A) m D ss) s' s1' /\ R m D s1 s1') /\
    (forall s1', runs (procs_trans m abort A) (tstmts (succ_of A) m D ss) s' s1' ->
       exists s1, runs (procs_orig A) ss s s1 /\ R m D s1 s1').
Proof. exact subst_stmts_sound. Qed.
Print Assumptions C39_subst_stmts_sound.

(** the transformation as the Scheduler applies it ([assign_dicts] = flow of trafo_data, [param_tree] = output):
    on a tree with uniform calls, for an input [s] in which the parametrised dummies have the fixed values, the
    transformed entry point started from [s'] (equal to [s] outside the parametrised names, [parametrised_x = v])
    terminates iff the original does, with equal arrays and equal scalars outside the parametrised names *)
Theorem C39_param_preserves : forall m abort us entries D0,
  uniform_calls us entries D0 = true ->
  forall a, In a (assign_dicts us entries D0) -> a_entry a = true ->
  forall s s', Rpre D0 s s' -> guards_pass (guards_of D0 (u_params (a_unit a))) s' ->
    let A := assign_dicts us entries D0 in
    let t := transform_aunit A m abort a in
    (forall s1, runs (procs_orig A) (u_body (a_unit a)) s s1 ->
       exists s1', runs (procs_trans m abort A) (tunit_stmts t) s' s1' /\ R m D0 s1 s1') /\
    (forall s1', runs (procs_trans m abort A) (tunit_stmts t) s' s1' ->
       exists s1, runs (procs_orig A) (u_body (a_unit a)) s s1 /\ R m D0 s1 s1').
Proof. exact param_preserves. Qed.
Print Assumptions C39_param_preserves.

(** what [R] gives for the observable part of the final stores *)
Theorem C39_related_observables : forall m D s s', R m D s s' ->
  (forall y, lookup D y = None -> sv s y = sv s' y) /\ av s = av s'.
Proof. exact R_obs. Qed.
Print Assumptions C39_related_observables.

(** the procedure table used above is the table of the routines [param_tree] returns, and entry points carry dic2p *)
Theorem C39_model_output_is_param_tree : forall m abort us entries D0,
  procs_trans m abort (assign_dicts us entries D0) =
  map (fun t => (t_name t, proc_trans t)) (param_tree m abort us entries D0) /\
  (forall a, In a (assign_dicts us entries D0) -> a_entry a = true -> a_dict a = D0).
Proof.
  intros. split; [apply procs_trans_param_tree|intros a; apply assign_entry_dict].
Qed.
Print Assumptions C39_model_output_is_param_tree.

(** without [uniform_calls] the statement is false: same kernel called with the two parametrised variables at
    swapped positions; the transformed tree runs and computes another array *)
Theorem C39_param_preserves_refuted :
  exists us entries D0 a s,
    uniform_calls us entries D0 = false /\
    In a (assign_dicts us entries D0) /\ a_entry a = true /\
    Rpre D0 s s /\ guards_pass (guards_of D0 (u_params (a_unit a))) s /\
    exists s1 s1',
      runs (procs_orig (assign_dicts us entries D0)) (u_body (a_unit a)) s s1 /\
      runs (procs_trans MDecl [] (assign_dicts us entries D0))
           (tunit_stmts (transform_aunit (assign_dicts us entries D0) MDecl [] a)) s s1' /\
      av s1 "a"%string [1] <> av s1' "a"%string [1].
Proof. exact param_preserves_refuted. Qed.
Print Assumptions C39_param_preserves_refuted.

(** non-matching input: the first guard whose dummy differs from the fixed value evaluates its condition to
    true and executes exactly the abort branch; the guards before it are no-ops *)
Theorem C39_guard_triggers : forall ps abort gs s k v,
  first_fail gs s = Some (k, v) ->
  sv s (pname k) <> v /\
  exists pre post, guard_stmts abort gs = pre ++ guard_stmt abort (pname k) v :: post /\
    runs ps pre s s /\
    evalB (env_st s) (guard_cond (pname k) v) = Some true /\
    (forall s1, runs1 ps (guard_stmt abort (pname k) v) s s1 <-> runs ps abort s s1).
Proof. exact guard_triggers. Qed.
Print Assumptions C39_guard_triggers.

(** a guard fires exactly when some guarded dummy differs; matching inputs pass all guards unchanged *)
Theorem C39_guard_fires_iff : forall gs s,
  (first_fail gs s = None <-> guards_pass gs s) /\
  (forall ps abort, guards_pass gs s -> runs ps (guard_stmts abort gs) s s).
Proof. intros gs s. split; [apply first_fail_none|intros ps abort; apply guards_noop]. Qed.
Print Assumptions C39_guard_fires_iff.

(** declaring the constants and replacing by value give equivalent programs (same start store, same arrays and
    same scalars outside the parametrised names, termination included) *)
Theorem C39_replace_by_value_eq_parameter_decl : forall abort A a,
  wf_assigned A = true -> In a A -> a_entry a = true ->
  forall s', guards_pass (guards_of (a_dict a) (u_params (a_unit a))) s' ->
  forall m1 m2 t1,
    runs (procs_trans m1 abort A) (tunit_stmts (transform_aunit A m1 abort a)) s' t1 ->
    exists t2, runs (procs_trans m2 abort A) (tunit_stmts (transform_aunit A m2 abort a)) s' t2 /\
               (forall y, lookup (a_dict a) y = None -> sv t1 y = sv t2 y) /\ av t1 = av t2.
Proof. exact replace_eq_decl. Qed.
Print Assumptions C39_replace_by_value_eq_parameter_decl.

(** declare_fixed_value_scalars_as_constants (model [dfv_transform]): on bodies without CALL in which no selected
    variable is a DO variable, the routine with the selected assignments removed behaves like the original started
    with the selected variables holding their constants (what the PARAMETER attribute provides); partial: bodies
    with CALL statements are covered by the differential runs only *)
Theorem C39_declare_constants_sound_partial : forall ps params decls body s s',
  let cs := fst (dfv_transform params decls body) in
  let body' := snd (dfv_transform params decls body) in
  forallb (dfv_wf (dfv_dict cs)) body = true -> ext_eq s s' -> Inv (dfv_dict cs) s ->
  (forall s1, runs ps body s s1 -> exists s1', runs ps body' s' s1' /\ ext_eq s1 s1') /\
  (forall s1', runs ps body' s' s1' -> exists s1, runs ps body s s1 /\ ext_eq s1 s1').
Proof. exact dfv_transform_sound_partial. Qed.
Print Assumptions C39_declare_constants_sound_partial.

(** the side condition is needed: a loop variable initialised once by a literal becomes a constant that the DO
    statement of the output still writes (invalid Fortran) *)
Theorem C39_declare_constants_invalid_witness :
  exists params decls body,
    let r := dfv_transform params decls body in
    fst r <> [] /\ dfv_valid (fst r) (snd r) = false.
Proof. exact dfv_invalid_exists. Qed.
Print Assumptions C39_declare_constants_invalid_witness.
