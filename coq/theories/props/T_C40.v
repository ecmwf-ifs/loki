(** C40 — property theorems only: normalising transformations are idempotent. *)
From Coq Require Import ZArith List Bool String.
From LV Require Import Base.Strings Base.Expr Base.MiniF.
From LV Require models.M_C29 models.M_C30 models.M_C32.
From LV Require Import models.M_C40 proofs.P_C40_base proofs.P_C40_assoc proofs.P_C40_vec proofs.P_C40_sel proofs.P_C40_dce
  proofs.P_C40_lower2 proofs.P_C40_decl.
Import ListNotations.
Open Scope Z_scope.

(** the route used throughout: T lands in a set of normal forms on which it is the identity *)
Theorem C40_idem_by_normal_form : forall (A : Type) (T : A -> A) (nf : A -> Prop),
  (forall p, nf (T p)) -> (forall q, nf q -> T q = q) -> forall p, T (T p) = T p.
Proof. exact @idem_by_nf. Qed.
Print Assumptions C40_idem_by_normal_form.

(** * do_resolve_associates *)

(** full resolution: the output has no ASSOCIATE block, and such programs are left alone *)
Theorem C40_resolve_associates_normal_form : forall ss,
  assoc_free (T_assoc ss) = true /\ (forall q, assoc_free q = true -> T_assoc q = q).
Proof. intros ss. split; [apply T_assoc_nf|apply T_assoc_fix]. Qed.
Print Assumptions C40_resolve_associates_normal_form.

Theorem C40_resolve_associates_idem : forall ss, T_assoc (T_assoc ss) = T_assoc ss.
Proof. exact T_assoc_idem. Qed.
Print Assumptions C40_resolve_associates_idem.

(** partial resolution with any start_depth: no block deeper than start_depth remains, and shallow programs are left alone *)
Theorem C40_resolve_associates_depth_idem : forall sd ss,
  shallow sd (M_C29.resolve_sd sd ss) = true
  /\ (forall q, shallow sd q = true -> M_C29.resolve_sd sd q = q)
  /\ M_C29.resolve_sd sd (M_C29.resolve_sd sd ss) = M_C29.resolve_sd sd ss.
Proof. intros sd ss. split; [apply resolve_sd_nf|split; [apply resolve_sd_fix|apply resolve_sd_idem]]. Qed.
Print Assumptions C40_resolve_associates_depth_idem.

(** merging (outside the list of the property) is NOT idempotent: three nested blocks need two applications *)
Theorem C40_merge_associates_refuted :
  exists ss m1 m2, M_C29.merge_list ss = Some m1 /\ M_C29.merge_list m1 = Some m2 /\ m2 <> m1.
Proof. exact merge_not_idempotent. Qed.
Print Assumptions C40_merge_associates_refuted.

(** * resolve_vector_notation *)

(** section-free programs are fixed points; the output read back is section-free *)
Theorem C40_vector_notation_normal_form : forall lm ds b q,
  (sec_free b = true -> M_C30.resolve_body lm ds b = Some (vflat b))
  /\ sec_free (vembed q) = true /\ vflat (vembed q) = q.
Proof. intros lm ds b q. split; [apply resolve_body_fix|split; [apply sec_free_vembed|apply vflat_vembed]]. Qed.
Print Assumptions C40_vector_notation_normal_form.

Theorem C40_vector_notation_idem : forall ds b q,
  M_C30.resolve_prog ds b = Some q -> M_C30.resolve_prog ds (vembed q) = Some q.
Proof. exact resolve_prog_idem. Qed.
Print Assumptions C40_vector_notation_idem.

(** * add / remove explicit array dimensions, normalize_range_indexing *)
Theorem C40_add_explicit_idem : forall ds b, M_C30.add_explicit ds (M_C30.add_explicit ds b) = M_C30.add_explicit ds b.
Proof. exact add_explicit_idem. Qed.
Print Assumptions C40_add_explicit_idem.

Theorem C40_remove_explicit_idem : forall b, M_C30.remove_explicit (M_C30.remove_explicit b) = M_C30.remove_explicit b.
Proof. exact remove_explicit_idem. Qed.
Print Assumptions C40_remove_explicit_idem.

Theorem C40_normalize_range_idem : forall ds, M_C30.normrange_decls (M_C30.normrange_decls ds) = M_C30.normrange_decls ds.
Proof. exact normrange_decls_idem. Qed.
Print Assumptions C40_normalize_range_idem.

(** * do_remove_dead_code *)

(** programs in normal form (no literal condition; with use_simplify: conditions are fixed points of the
    modelled simplification) are fixed points, and every output is in normal form *)
Theorem C40_dead_code_normal_form : forall u p q,
  (dce_nf_l u q = true -> M_C32.dce u q = Some q)
  /\ (M_C32.dce u p = Some q -> (u = true -> conds_stable q = true) -> dce_nf_l u q = true).
Proof. intros u p q. split; [apply dce_nf_fix|apply dce_out_nf]. Qed.
Print Assumptions C40_dead_code_normal_form.

Theorem C40_dead_code_idem : forall p q, M_C32.dce false p = Some q -> M_C32.dce false q = Some q.
Proof. exact dce_idem_nosimplify. Qed.
Print Assumptions C40_dead_code_idem.

(** with use_simplify=True the expression model of C32 is partial (binary expressions over literals and atoms);
    the modelled simplification is idempotent wherever it is defined on its own output ... *)
Theorem C40_simplify_model_idem : forall c c' c'',
  M_C32.simp_cond false [] c = Some c' -> M_C32.simp_cond false [] c' = Some c'' -> c'' = c'.
Proof. intros c c' c'' H1 H2. exact (simp_cond_ok c c' H1 c'' H2). Qed.
Print Assumptions C40_simplify_model_idem.

(** ... hence whenever the model is defined on its own output, the second application changes nothing *)
Theorem C40_dead_code_simplify_idem : forall p q q',
  M_C32.dce true p = Some q -> M_C32.dce true q = Some q' -> q' = q.
Proof. exact dce_idem_simplify. Qed.
Print Assumptions C40_dead_code_simplify_idem.

(** the same in validated form: the hypothesis is the decidable predicate evaluated for every generated case *)
Theorem C40_dead_code_simplify_idem_validated : forall p q,
  M_C32.dce true p = Some q -> conds_stable q = true -> M_C32.dce true q = Some q.
Proof. exact dce_idem_simplify_validated. Qed.
Print Assumptions C40_dead_code_simplify_idem_validated.

(** * do_remove_dead_code with SELECT CASE (own source-level model [kdce]: visit_MultiConditional + visit_Conditional) *)
Theorem C40_dead_code_select_normal_form : forall u p q,
  (knf_l u q = true -> kdce u q = Some q)
  /\ (kdce u p = Some q -> (u = true -> kconds_stable q = true) -> knf_l u q = true).
Proof. intros u p q. split; [apply kdce_nf_fix|apply kdce_out_nf]. Qed.
Print Assumptions C40_dead_code_select_normal_form.

(** every body is visited BEFORE the matching case is spliced in, so one application removes all nested dead code *)
Theorem C40_dead_code_select_idem : forall p q, kdce false p = Some q -> kdce false q = Some q.
Proof. exact kdce_idem_nosimplify. Qed.
Print Assumptions C40_dead_code_select_idem.

Theorem C40_dead_code_select_simplify_idem_validated : forall p q,
  kdce true p = Some q -> kconds_stable q = true -> kdce true q = Some q.
Proof. exact kdce_idem_simplify_validated. Qed.
Print Assumptions C40_dead_code_select_simplify_idem_validated.

(** * convert_to_lower_case *)

(** a single name: Python's [x if x.islower() else x.lower()] *)
Theorem C40_lower_name_idem : forall s, lower (lower s) = lower s.
Proof. exact lower_idem. Qed.
Print Assumptions C40_lower_name_idem.

(** on routines whose subscript / intrinsic nesting stays within the ten iterations of
    recursive_expression_map_update, one application reaches every name and a second one changes nothing *)
Theorem C40_lower_case_idem_on_class : forall p, lc_class p = true ->
  low_prog (lc p) = true /\ lc (lc p) = lc p.
Proof. intros p H. split; [now apply lc_class_low|now apply lc_idem_on_class]. Qed.
Print Assumptions C40_lower_case_idem_on_class.

(** unconditionally the function is NOT idempotent: ARR(IDX(IDX(...(I)))) with ten IDX levels *)
Theorem C40_lower_case_refuted : exists p, lc (lc p) <> lc p /\ lc_class p = false.
Proof. exact lc_refuted. Qed.
Print Assumptions C40_lower_case_refuted.

(** the specification (every name lower-case) is idempotent without any bound *)
Theorem C40_lower_case_spec_idem : forall p, lower_all (lower_all p) = lower_all p.
Proof. exact lower_all_idem. Qed.
Print Assumptions C40_lower_case_spec_idem.

(** declarations: idempotent when no initialised symbol with an upper-case letter has upper-case names in its
    initial value; refuted otherwise ([INTEGER :: W0 = K0]) *)
Theorem C40_lower_case_decls_on_class : forall ds, init_class ds = true -> lc_decls (lc_decls ds) = lc_decls ds.
Proof. exact lc_decls_idem_on_class. Qed.
Print Assumptions C40_lower_case_decls_on_class.

Theorem C40_lower_case_decls_refuted : exists ds, lc_decls (lc_decls ds) <> lc_decls ds /\ init_class ds = false.
Proof. exact lc_decls_refuted. Qed.
Print Assumptions C40_lower_case_decls_refuted.

(** * single_variable_declaration (default, variables=..., group_by_shape) *)
Theorem C40_single_variable_declaration_idem : forall mode ds, svd_mode mode (svd_mode mode ds) = svd_mode mode ds.
Proof. exact svd_mode_idem. Qed.
Print Assumptions C40_single_variable_declaration_idem.

(** * sanitise_imports (for a fixed set of used names: import statements do not contribute to it) *)
Theorem C40_sanitise_imports_idem : forall used ims,
  imports_nf used (prune used ims) = true /\ prune used (prune used ims) = prune used ims.
Proof. intros used ims. split; [apply prune_nf|apply prune_idem]. Qed.
Print Assumptions C40_sanitise_imports_idem.

(** * do_resolve_sequence_association *)
Theorem C40_sequence_association_idem : forall ds ranks args,
  seq_args ds ranks (seq_args ds ranks args) = seq_args ds ranks args.
Proof. exact seq_args_idem. Qed.
Print Assumptions C40_sequence_association_idem.
