(** C43 — Lint auto-fix changes only what the fixed rules target: property theorems about the model M_C43.v
    (Fixer + Transformer with source invalidation + conservative printer + the two fixable rules). *)
From Coq Require Import List String Ascii Bool Arith ZArith.
From LV Require Import Base.Strings Base.Expr Base.MiniF Base.MiniFFacts models.M_C43
                       proofs.P_C43 proofs.P_C43_main proofs.P_C43_file proofs.P_C43_wit proofs.P_C43_ubound.
Import ListNotations.
Open Scope string_scope.
Open Scope list_scope.

(** On the class, the file after the fix is exactly the specified text: every own-line group of an unreported
    statement as in the source, every group of a reported statement as the structural printer gives it
    (unbounded file length and nesting depth). *)
Theorem C43_fix_file_spec : forall rk f,
  file_in_class rk f = true ->
  fix_file rk f = Some (if file_act f then write_lines (List.concat (file_spec f)) else List.concat (file_spec f)).
Proof. exact fix_file_spec. Qed.
Print Assumptions C43_fix_file_spec.

(** The emitted text of every non-reported statement is byte-identical to its original text, and the order is
    preserved: the output is the sequence of the original own-line groups with only the reported ones replaced. *)
Theorem C43_fix_other_nodes_verbatim : forall rk f,
  file_in_class rk f = true ->
  exists outs,
    fix_file rk f = Some (if file_act f then write_lines (List.concat outs) else List.concat outs)
    /\ Forall2 (fun (g : bool * list line) (o : list line) => fst g = false -> o = snd g) (file_groups f) outs
    /\ List.concat (map snd (file_groups f)) = orig f.
Proof. exact fix_other_nodes_verbatim. Qed.
Print Assumptions C43_fix_other_nodes_verbatim.

(** Inside a fixed statement the tokens are the original tokens with the F77 operator spellings replaced by the F90
    ones, modulo blanks and letter case (string literals compared exactly). *)
Theorem C43_fixed_stmt_same_tokens_modulo_ops : forall rk f,
  file_in_class rk f = true -> file_forall only_self f = true -> file_forall (toks_ok false) f = true ->
  exists outs,
    fix_file rk f = Some (if file_act f then write_lines (List.concat outs) else List.concat outs)
    /\ Forall2 (fun (g : bool * list line) (o : list line) => fst g = true ->
                  map foldt (lex_lines o) = map foldt (map f90_spelling (lex_lines (snd g)))) (file_groups f) outs.
Proof. exact fixed_stmt_same_tokens_modulo_ops. Qed.
Print Assumptions C43_fixed_stmt_same_tokens_modulo_ops.

(** Re-running the rule's check on the fixed text reports nothing: no F77 spelling is left in a code token. *)
Theorem C43_fix_clears_rule : forall rk f,
  file_in_class rk f = true -> file_forall only_self f = true -> file_forall (toks_ok false) f = true ->
  file_forall (reports_complete false) f = true -> file_frame_clean f = true ->
  exists out, fix_file rk f = Some out /\ f77_free out = true.
Proof. exact fix_clears_rule. Qed.
Print Assumptions C43_fix_clears_rule.

(** Fixing twice = fixing once: the fixed text, read back, has no fixable report and is left alone. *)
Theorem C43_fix_idempotent : forall rk f,
  file_in_class rk f = true -> file_forall inline_ok f = true ->
  exists body,
    fix_file rk f = Some (if file_act f then write_lines body else body)
    /\ orig (reparse_file f) = body
    /\ fix_file rk (reparse_file f) = Some body.
Proof. exact fix_idempotent. Qed.
Print Assumptions C43_fix_idempotent.

Theorem C43_no_report_no_change : forall rk f, file_act f = false -> fix_file rk f = Some (orig f).
Proof. exact fix_no_reports. Qed.
Print Assumptions C43_no_report_no_change.

(** The operator denotes the same comparison in both spellings; an F90 spelling is never reported again. *)
Theorem C43_f90_spelling_semantics : forall t op a b,
  denote t = Some op ->
  exists op', denote (f90_spelling t) = Some op' /\ cmp_z op' a b = cmp_z op a b.
Proof. exact f90_spelling_semantics. Qed.
Print Assumptions C43_f90_spelling_semantics.

Theorem C43_f90_spelling_total : forall t,
  is_f77 t = true -> exists op, denote t = Some op /\ denote (f90_spelling t) = Some op.
Proof. exact f90_spelling_total. Qed.
Print Assumptions C43_f90_spelling_total.

Theorem C43_f90_spelling_not_f77 : forall t, is_f77 (f90_spelling t) = false.
Proof. exact f90_spelling_not_f77. Qed.
Print Assumptions C43_f90_spelling_not_f77.

(** The hypotheses are satisfiable by a non-trivial file (reported block IF with ELSE around a loop, reported
    assignment, comments and a string literal with F77 spellings). *)
Theorem C43_class_inhabited :
  file_in_class RF90 ex_ok = true /\ file_act ex_ok = true /\ file_forall only_self ex_ok = true
  /\ file_forall (toks_ok false) ex_ok = true /\ file_forall (reports_complete false) ex_ok = true
  /\ file_frame_clean ex_ok = true /\ file_forall inline_ok ex_ok = true
  /\ fix_file RF90 ex_ok = Some
       ["! old style .gt. here"; "SUBROUTINE foo (n, m, flag)"; "  IMPLICIT NONE"; "  msg = 'a .gt. b'   ! .lt.";
        "  IF (n > 3 .and. m <= 2) THEN"; "    do i = 1, n"; "      m = m   +  1"; "    enddo"; "  ELSE";
        "    flag = m == n"; "  END IF"; "  ! done"; "END SUBROUTINE foo"].
Proof. exact class_inhabited. Qed.
Print Assumptions C43_class_inhabited.

(** * The unconditional statements are false for the mechanism as it is (each witness is replayed on the real code) *)

(** an unreported statement (an in-line IF) next to a fixed one is rewritten (F-C43-4) *)
Theorem C43_fix_other_nodes_verbatim_refuted :
  exists f out l, fix_file RF90 f = Some out /\ In (false, [l]) (file_groups f) /\ In l (orig f) /\ ~ In l out.
Proof. exact fix_other_nodes_verbatim_refuted. Qed.
Print Assumptions C43_fix_other_nodes_verbatim_refuted.

(** a reported statement inside an unreported block inside a reported block that the look-up finds is not fixed (F-C43-10) *)
Theorem C43_fix_clears_rule_refuted :
  exists f out, file_forall only_self f = true /\ file_forall (toks_ok false) f = true
                /\ file_forall (reports_complete false) f = true /\ file_frame_clean f = true
                /\ fix_file RF90 f = Some out /\ f77_free out = false.
Proof. exact fix_clears_rule_refuted. Qed.
Print Assumptions C43_fix_clears_rule_refuted.

(** a reported block IF inside an unreported ELSE IF branch is printed as ELSE IF (F-C43-11) *)
Theorem C43_elseif_leak :
  exists f out, fix_file RF90 f = Some out /\ In "    ELSE IF (m > 2) THEN" out /\ ~ In "    IF (m > 2) THEN" out.
Proof. exact elseif_leak. Qed.
Print Assumptions C43_elseif_leak.

(** the conservative printer raises on an unreported IF / ELSE IF / ELSE IF chain: nothing is fixed (F-C43-12) *)
Theorem C43_writer_raises : exists f, file_act f = true /\ fix_file RF90 f = None.
Proof. exact writer_raises. Qed.
Print Assumptions C43_writer_raises.

(** the shipped Fortran90OperatorsRule.fix_subroutine raises for every file with a report (F-C43-1) *)
Theorem C43_shipped_f90_fix_never_fixes : forall f, file_act f = true -> fix_file_shipped_f90 f = None.
Proof. exact shipped_f90_fix_never_fixes. Qed.
Print Assumptions C43_shipped_f90_fix_never_fixes.

(** * DynamicUboundCheckRule: removing the run-time checks preserves every run in which they do not fire *)
Theorem C43_uboundfix_preserves : forall ps p s s',
  quiet (runs1 ps) p s ->
  (runs ps (ub_prog p) s s' <-> runs ps (ub_prog (ub_fix p)) s s').
Proof. exact uboundfix_preserves. Qed.
Print Assumptions C43_uboundfix_preserves.

(** the extent written into the declaration of dummy [a], dimension [d], is the bound of a comparison that
    tests [ubound(a, d)] - whatever else is combined in the same conditional, in whatever order *)
Theorem C43_ubound_extent_of_own_check : forall conds a d b,
  ub_pick conds a d = Some b ->
  exists cs c, In cs conds /\ In c cs /\ lower (uc_arr c) = lower a /\ uc_dim c = d /\ uc_bound c = b.
Proof. exact ub_pick_sound. Qed.
Print Assumptions C43_ubound_extent_of_own_check.

Theorem C43_uboundfix_needs_quiet :
  run_k ub_ex (st_of 2 3) = Some 100%Z /\ run_k (ub_fix ub_ex) (st_of 2 3) = Some 2%Z.
Proof. exact ub_firing_check_changes_result. Qed.
Print Assumptions C43_uboundfix_needs_quiet.
