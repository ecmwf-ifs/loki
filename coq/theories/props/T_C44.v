(** C44 — property theorems only.
    Vocabulary (models/M_C44.v): [run_of p stale n order s] = [s] is reachable by some interleaving of the main
    thread (walking [order]) and [n] pool workers, for project [p]; [stale] = objects still carrying a finished
    future from an earlier build ([] in a fresh process); [order_ok] = the decidable reverse-topological
    predicate checked on the order of every real run; [precedes a b l] = every [b] in the log has an [a] before it;
    [conv_ok] = every module is defined in the file named after it; [true_dep p o g] = [o] USEs a module that the
    file of [g] provides. *)
From Coq Require Import List String Permutation.
From LV Require Import models.M_C44 proofs.P_C44 proofs.P_C44_proj.
Import ListNotations.
Open Scope list_scope.

(** no compile starts before every compiled dependency has finished (any n, any project size, any interleaving) *)
Theorem C44_deps_done_before_start : forall p roots n order s o d,
  order_ok p roots order = true -> run_of p [] n order s ->
  In d (p_deps p o) -> p_src p d = true ->
  precedes (EFinish d) (EStart o) (log s).
Proof. intros. eapply deps_done_before_start_p; eauto. Qed.
Print Assumptions C44_deps_done_before_start.

(** the wait protocol proper: the main thread does not even submit before the dependencies have finished *)
Theorem C44_deps_done_before_submit : forall p roots n order s o d,
  order_ok p roots order = true -> run_of p [] n order s ->
  In d (p_deps p o) -> p_src p d = true ->
  precedes (EFinish d) (ESubmit o) (log s).
Proof. intros. eapply deps_done_before_submit_p; eauto. Qed.
Print Assumptions C44_deps_done_before_submit.

(** the property's wording ("objects providing the modules it uses") on the class module name = file stem *)
Theorem C44_provider_first_on_class : forall p roots n order s o g,
  conv_ok p = true -> order_ok p roots order = true -> run_of p [] n order s ->
  true_dep p o g -> precedes (EFinish g) (EStart o) (log s).
Proof. exact provider_first_on_class. Qed.
Print Assumptions C44_provider_first_on_class.

(** F16: outside the class the provider is neither ordered first nor waited for *)
Theorem C44_provider_first_refuted :
  exists p roots n order s o g,
    order_ok p roots order = true /\ run_of p [] n order s /\ true_dep p o g /\
    In (EStart o) (log s) /\ ~ In (EFinish g) (log s).
Proof. exact provider_first_refuted. Qed.
Print Assumptions C44_provider_first_refuted.

Theorem C44_built_once : forall p stale roots n order s o,
  order_ok p roots order = true -> run_of p stale n order s -> count_ev (EStart o) (log s) <= 1.
Proof. intros p stale roots n order s o Hok. exact (built_once _ _ _ _ _ _ _ (order_ok_topo _ _ _ Hok)). Qed.
Print Assumptions C44_built_once.

Theorem C44_pool_bound : forall p stale roots n order s,
  order_ok p roots order = true -> run_of p stale n order s -> List.length (running s) <= n.
Proof. intros p stale roots n order s Hok. exact (pool_bound _ _ _ _ _ _ (order_ok_topo _ _ _ Hok)). Qed.
Print Assumptions C44_pool_bound.

(** progress: with at least one worker every non-final state (reachable or not) has a successor *)
Theorem C44_no_stuck : forall p stale n s,
  1 <= n -> is_final s = false -> exists s', step (p_src p) (p_deps p) stale n s s'.
Proof. intros p stale n. apply no_stuck. Qed.
Print Assumptions C44_no_stuck.

(** every run is finite: at most 3 * |order| transitions; together with [C44_no_stuck] every maximal run ends final *)
Theorem C44_terminates : forall p stale n order k s,
  steps (p_src p) (p_deps p) stale n k (init order) s ->
  k <= 3 * List.length order /\ run_of p stale n order s.
Proof. exact terminates_run. Qed.
Print Assumptions C44_terminates.

(** in a fresh process a finished parallel build has compiled exactly what the serial loop compiles,
    in particular every root object that has a source *)
Theorem C44_same_object_set_as_serial : forall p roots n order s,
  order_ok p roots order = true -> run_of p [] n order s -> is_final s = true ->
  Permutation (done s) (serial_build (p_src p) order)
  /\ (forall r, In r roots -> p_src p r = true -> In r (done s)).
Proof. exact same_object_set_as_serial. Qed.
Print Assumptions C44_same_object_set_as_serial.

(** F16b: a second build through the same Obj instances never recompiles the objects that kept their future ... *)
Theorem C44_rebuild_skips_stale : forall p stale roots n order s o,
  order_ok p roots order = true -> run_of p stale n order s -> In o stale -> ~ In (EStart o) (log s).
Proof. intros p stale roots n order s o Hok. exact (stale_never_started _ _ _ _ _ _ _ (order_ok_topo _ _ _ Hok)). Qed.
Print Assumptions C44_rebuild_skips_stale.

(** ... so it does not produce what a serial build produces, even on the class *)
Theorem C44_rebuild_refuted :
  exists p roots n order s o,
    conv_ok p = true /\ order_ok p roots order = true /\
    run_of p (stale_after p roots) n order s /\ is_final s = true /\
    In o (serial_build (p_src p) order) /\ ~ In o (done s).
Proof. exact rebuild_refuted. Qed.
Print Assumptions C44_rebuild_refuted.

(** the boolean used for trace validation accepts only complete runs of the transition system *)
Theorem C44_chk_trace_sound : forall p stale roots order n tr compiled,
  chk_trace p stale roots order n tr compiled = true ->
  order_ok p roots order = true /\
  exists s, run_of p stale n order s /\ is_final s = true /\ log s = tr
            /\ (forall o, In o (done s) <-> In o compiled).
Proof. exact chk_trace_sound. Qed.
Print Assumptions C44_chk_trace_sound.

(** the hypotheses are satisfiable by a non-trivial instance (5 files, a header, mixed case, 2 workers, an
    interleaved log is accepted; a log that submits out of order, or 2 concurrent compiles with 1 worker, is not) *)
Theorem C44_example_nontrivial :
  conv_ok ex_proj = true /\
  chk_trace ex_proj [] ex_roots ex_order 2 ex_trace_ok ["m_1"; "m_2"; "m_3"; "m_4"; "s_5"]%string = true /\
  chk_trace ex_proj [] ex_roots ex_order 2 ex_trace ["m_1"; "m_2"; "m_3"; "m_4"; "s_5"]%string = false /\
  chk_trace ex_proj [] ex_roots ex_order 1 ex_trace_ok ["m_1"; "m_2"; "m_3"; "m_4"; "s_5"]%string = false /\
  true_dep ex_proj "s_5"%string "m_3"%string.
Proof. exact example_nontrivial. Qed.
Print Assumptions C44_example_nontrivial.
